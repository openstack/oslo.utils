(* Base/C06_WrapShape.v — the "shape" of InspectWrapper._process_chunk as read off
   the source text by tools/gen/gen_C06.py.  The generic wrapper model
   (Model/Wrap.v) is parametrised by a [pc_shape]; Gen/C06_Wrapper.v defines
   [gen_shape] from the AST of /repo on every run.  The proofs need
   [shape_okb gen_shape = true]; dropping the errored filter, the [.add], the
   re-raise test or one conjunct of the early-abort condition in the source
   changes [gen_shape] and that equation no longer holds. *)
Require Import OV.Base.Bytes.

(* the test guarding the bare [raise] in the except handler *)
Inductive reraise_test :=
| RrNameEq      (* if inspector.NAME == self._expected_format: raise *)
| RrNameNe      (* if inspector.NAME != self._expected_format: raise *)
| RrAlways      (* raise (unguarded) *)
| RrNever.      (* no raise in the handler *)

(* one conjunct of the else-branch (early abort) condition *)
Inductive conjunct :=
| CjNameEq | CjNameNe          (* inspector.NAME ==/!= self._expected_format *)
| CjComplete | CjNotComplete   (* [not] inspector.complete *)
| CjMatch | CjNotMatch.        (* [not] inspector.format_match *)

Record pc_shape := {
  sh_skip_errored : bool;            (* the comprehension has [if i not in self._errored_inspectors] *)
  sh_reraise : reraise_test;
  sh_add_errored : bool;             (* the handler ends with self._errored_inspectors.add(inspector) *)
  sh_else : list conjunct            (* conjuncts of the else-branch condition, in source order *)
}.

Definition eval_conjunct (name_eq complete fmatch : bool) (c : conjunct) : bool :=
  match c with
  | CjNameEq => name_eq | CjNameNe => negb name_eq
  | CjComplete => complete | CjNotComplete => negb complete
  | CjMatch => fmatch | CjNotMatch => negb fmatch
  end.

Definition eval_else (cs : list conjunct) (name_eq complete fmatch : bool) : bool :=
  forallb (eval_conjunct name_eq complete fmatch) cs.

Definition eval_reraise (r : reraise_test) (name_eq : bool) : bool :=
  match r with RrNameEq => name_eq | RrNameNe => negb name_eq | RrAlways => true | RrNever => false end.

Definition all_bools : list bool := [true; false].

(* the else condition has the truth table of
   NAME == expected and complete and not format_match (conjunct order is free) *)
Definition else_okb (cs : list conjunct) : bool :=
  forallb (fun a => forallb (fun b => forallb (fun c =>
    Bool.eqb (eval_else cs a b c) (a && b && negb c)) all_bools) all_bools) all_bools.

Definition shape_okb (sh : pc_shape) : bool :=
  sh_skip_errored sh && sh_add_errored sh
  && match sh_reraise sh with RrNameEq => true | _ => false end
  && else_okb (sh_else sh).

(* the shape of the code as it stands in the source (used for examples only;
   the property theorems use the regenerated [gen_shape]) *)
Definition std_shape : pc_shape :=
  {| sh_skip_errored := true; sh_reraise := RrNameEq; sh_add_errored := true;
     sh_else := [CjNameEq; CjComplete; CjNotMatch] |}.

Lemma else_okb_spec cs : else_okb cs = true ->
  forall a b c, eval_else cs a b c = a && b && negb c.
Proof.
  intros H a b c. unfold else_okb in H.
  assert (Hin : forall x : bool, In x all_bools) by (intros []; cbn; auto).
  rewrite forallb_forall in H. specialize (H a (Hin a)).
  rewrite forallb_forall in H. specialize (H b (Hin b)).
  rewrite forallb_forall in H. specialize (H c (Hin c)).
  apply Bool.eqb_prop in H. exact H.
Qed.

Lemma shape_okb_spec sh : shape_okb sh = true ->
  sh_skip_errored sh = true /\ sh_add_errored sh = true /\ sh_reraise sh = RrNameEq /\
  (forall a b c, eval_else (sh_else sh) a b c = a && b && negb c).
Proof.
  unfold shape_okb. intros H.
  apply andb_prop in H. destruct H as [H H4].
  apply andb_prop in H. destruct H as [H H3].
  apply andb_prop in H. destruct H as [H1 H2].
  repeat split; try assumption.
  - destruct (sh_reraise sh); try discriminate; reflexivity.
  - apply else_okb_spec; assumption.
Qed.
