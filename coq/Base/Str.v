(* Base/Str.v — the str / bytes methods the modelled code uses. *)
Require Import OV.Base.Bytes OV.Base.PyInt OV.Gen.Unicode.
Open Scope N_scope.

(* sep.join(items) *)
Fixpoint join (sep : str) (items : list str) : str :=
  match items with
  | [] => []
  | [x] => x
  | x :: t => x ++ sep ++ join sep t
  end.

(* s.split(c) for a one-character separator: always at least one field *)
Fixpoint split_char_aux (c : N) (s : str) (cur : str) : list str :=
  match s with
  | [] => [rev cur]
  | x :: t => if x =? c then rev cur :: split_char_aux c t [] else split_char_aux c t (x :: cur)
  end.
Definition split_char (c : N) (s : str) : list str := split_char_aux c s [].

(* s.split(c, maxsplit) *)
Fixpoint split_char_max_aux (c : N) (s : str) (cur : str) (k : nat) : list str :=
  match s with
  | [] => [rev cur]
  | x :: t => match k with
              | O => [rev cur ++ s]
              | S k' => if x =? c then rev cur :: split_char_max_aux c t [] k'
                        else split_char_max_aux c t (x :: cur) k
              end
  end.
Definition split_char_max (c : N) (s : str) (k : nat) : list str := split_char_max_aux c s [] k.

(* s.find(sub, start) -> index or None ; s.index raises ValueError on None *)
Fixpoint find_from (sub s : str) (i : N) : option N :=
  if prefixb sub s then Some i
  else match s with [] => None | _ :: t => find_from sub t (i + 1) end.
Definition find (sub s : str) : option N := find_from sub s 0.
Definition find_at (sub s : str) (start : N) : option N := find_from sub (bskip start s) start.

(* s.replace(old, new) for non-empty old *)
Fixpoint replace_go (old new s : str) (skip : nat) : str :=
  match s with
  | [] => []
  | c :: t => match skip with
              | S k => replace_go old new t k
              | O => if prefixb old s then new ++ replace_go old new t (length old - 1)
                     else c :: replace_go old new t 0
              end
  end.
Definition replace (old new s : str) : str := replace_go old new s 0.

(* ASCII lower / upper, and the full str.lower() from the generated table
   (context-free part: the final-sigma rule is not modelled) *)
Definition lower_ascii1 (c : N) : N := if (65 <=? c) && (c <=? 90) then c + 32 else c.
Definition lower_ascii (s : str) : str := map lower_ascii1 s.
Definition upper_ascii1 (c : N) : N := if (97 <=? c) && (c <=? 122) then c - 32 else c.

Fixpoint lower_run (c : N) (runs : list (N * N * N)) : option N :=
  match runs with
  | [] => None
  | (lo, hi, tgt) :: t => if (lo <=? c) && (c <=? hi) then Some (c - lo + tgt) else lower_run c t
  end.
Fixpoint lower_multi_find (c : N) (l : list (N * list N)) : option (list N) :=
  match l with [] => None | (k, v) :: t => if k =? c then Some v else lower_multi_find c t end.
Definition py_lower1 (c : N) : list N :=
  match lower_run c lower_runs with
  | Some l => [l]
  | None => match lower_multi_find c lower_multi with Some v => v | None => [c] end
  end.
Definition py_lower (s : str) : str := flat_map py_lower1 s.

(* s.strip(chars) *)
Fixpoint memN (c : N) (l : list N) : bool :=
  match l with [] => false | x :: t => (x =? c) || memN c t end.
Fixpoint lstrip_chars (chars s : str) : str :=
  match s with c :: t => if memN c chars then lstrip_chars chars t else s | [] => [] end.
Definition strip_chars (chars s : str) : str := rev (lstrip_chars chars (rev (lstrip_chars chars s))).

Definition startswith (p s : str) : bool := prefixb p s.
Definition endswith (p s : str) : bool := prefixb (rev p) (rev s).

Lemma join_cons sep x y t : join sep (x :: y :: t) = x ++ sep ++ join sep (y :: t).
Proof. reflexivity. Qed.

Lemma memN_In c l : memN c l = true <-> In c l.
Proof.
  induction l as [|x t IH]; cbn [memN In]; [split; [discriminate|tauto]|].
  rewrite orb_true_iff, IH, N.eqb_eq. tauto.
Qed.

Lemma lstrip_chars_is_by chars s : lstrip_chars chars s = lstrip_by (fun c => memN c chars) s.
Proof. induction s as [|c t IH]; [reflexivity|]. cbn [lstrip_chars lstrip_by]. rewrite IH. reflexivity. Qed.
Lemma strip_chars_is_by chars s : strip_chars chars s = strip_by (fun c => memN c chars) s.
Proof. unfold strip_chars, strip_by. rewrite !lstrip_chars_is_by. reflexivity. Qed.

(* on ASCII, str.lower() is the ASCII rule: in the generated tables the capitals come first and
   every other entry starts at or above 128, so one pass over the tables settles all of ASCII *)
Lemma lower_run_ge b c runs : c < b -> forallb (fun r => b <=? fst (fst r)) runs = true -> lower_run c runs = None.
Proof.
  intros Hc. induction runs as [|[[lo hi] tgt] t IH]; [reflexivity|]. cbn [forallb fst lower_run]. intros H.
  apply andb_true_iff in H. destruct H as [Hlo Ht]. apply N.leb_le in Hlo.
  rewrite (proj2 (N.leb_gt lo c) (N.lt_le_trans _ _ _ Hc Hlo)). exact (IH Ht).
Qed.

Lemma lower_multi_ge b c l : c < b -> forallb (fun kv => b <=? fst kv) l = true -> lower_multi_find c l = None.
Proof.
  intros Hc. induction l as [|[k v] t IH]; [reflexivity|]. cbn [forallb fst lower_multi_find]. intros H.
  apply andb_true_iff in H. destruct H as [Hk Ht]. apply N.leb_le in Hk.
  rewrite (proj2 (N.eqb_neq k c)) by (intros ->; exact (N.lt_irrefl _ (N.lt_le_trans _ _ _ Hc Hk))). exact (IH Ht).
Qed.

Lemma lower_tables_ascii :
  lower_runs = (65, 90, 97) :: tl lower_runs /\
  forallb (fun r => 128 <=? fst (fst r)) (tl lower_runs) = true /\ forallb (fun kv => 128 <=? fst kv) lower_multi = true.
Proof. split; [reflexivity|split; vm_compute; reflexivity]. Qed.

Lemma py_lower1_ascii c : c < 128 -> py_lower1 c = [lower_ascii1 c].
Proof.
  intros H. destruct lower_tables_ascii as (E & R & M). unfold py_lower1, lower_ascii1. rewrite E. cbn [lower_run].
  destruct ((65 <=? c) && (c <=? 90)) eqn:Ec; [f_equal; lia|].
  rewrite (lower_run_ge 128 c _ H R), (lower_multi_ge 128 c _ H M). reflexivity.
Qed.

Lemma lower_run_some c runs l : lower_run c runs = Some l ->
  exists lo hi tgt, In (lo, hi, tgt) runs /\ lo <= c <= hi /\ l = c - lo + tgt.
Proof.
  induction runs as [|[[lo hi] tgt] t IH]; intros H; [discriminate|].
  cbn [lower_run] in H. destruct ((lo <=? c) && (c <=? hi)) eqn:E.
  - injection H as <-. exists lo, hi, tgt. split; [left; reflexivity|]. split; [lia|reflexivity].
  - destruct (IH H) as (lo' & hi' & tgt' & Hin & Hr & Hl).
    exists lo', hi', tgt'. split; [right; exact Hin|]. split; assumption.
Qed.

Lemma lower_multi_some c l v : lower_multi_find c l = Some v -> In (c, v) l.
Proof.
  induction l as [|[k w] t IH]; intros H; [discriminate|].
  cbn [lower_multi_find] in H. destruct (k =? c) eqn:E.
  - injection H as <-. apply N.eqb_eq in E. subst. left. reflexivity.
  - right. apply IH. exact H.
Qed.

Definition lower_nonempty : bool :=
  forallb (fun kv : N * list N => match snd kv with [] => false | _ => true end) lower_multi.

Lemma lower_nonempty_ok : lower_nonempty = true.
Proof. vm_compute. reflexivity. Qed.

Lemma py_lower1_nonempty c : py_lower1 c <> [].
Proof.
  unfold py_lower1. destruct (lower_run c lower_runs); [discriminate|].
  destruct (lower_multi_find c lower_multi) as [v|] eqn:Em; [|discriminate].
  apply lower_multi_some in Em. pose proof lower_nonempty_ok as H. unfold lower_nonempty in H.
  rewrite forallb_forall in H. specialize (H _ Em). cbn [snd] in H. destruct v; [discriminate|discriminate].
Qed.

(* str.lower() never yields the empty string from a non-empty one *)
Lemma py_lower_nonempty s : s <> [] -> py_lower s <> [].
Proof.
  destruct s as [|c t]; [intros H; exfalso; apply H; reflexivity|]. intros _.
  unfold py_lower. cbn [flat_map]. pose proof (py_lower1_nonempty c) as H.
  destruct (py_lower1 c); [exfalso; apply H; reflexivity|discriminate].
Qed.

Lemma lower_ascii1_ascii c : c < 128 -> lower_ascii1 c < 128.
Proof. intros H. unfold lower_ascii1. destruct ((65 <=? c) && (c <=? 90)) eqn:E; lia. Qed.

Lemma py_lower_ascii s : forallb (fun c => c <? 128) s = true -> py_lower s = lower_ascii s.
Proof.
  induction s as [|c t IH]; [reflexivity|]. cbn [forallb]. intros H. apply andb_true_iff in H. destruct H as [Hc Ht].
  unfold py_lower, lower_ascii in *. cbn [flat_map map]. rewrite (py_lower1_ascii c) by (apply N.ltb_lt, Hc).
  rewrite (IH Ht). reflexivity.
Qed.

(* ASCII as a list, for facts checked on every ASCII character by evaluation *)
Definition ascii_range : list N := map N.of_nat (seq 0 128).
Lemma in_ascii_range c : c < 128 -> In c ascii_range.
Proof. intros H. unfold ascii_range. rewrite <- (N2Nat.id c). apply in_map. apply in_seq. lia. Qed.
