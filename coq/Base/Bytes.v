(* Base/Bytes.v — byte strings and str as [list N]; slicing; integer decoders.
   Python [bytes] and [str] values are both modelled as lists of code units
   (0..255 for bytes, code points for str). Offsets and lengths are [N]. *)
(* NOTE: files that want string literals must import Coq's String BEFORE this
   file (so that [length], [++] keep their list meaning) and write
   [lit "abc"%string]. *)
From Coq Require Import String Ascii.
From Coq Require Export List NArith ZArith Bool Lia ZifyBool ZifyNat ZifyN.
Export ListNotations.
Open Scope N_scope.

Definition bytes := list N.
Definition str := list N.

(* string literals: [lit "abc"] = [97;98;99] *)
Definition lit (s : string) : str := List.map N_of_ascii (list_ascii_of_string s).

Definition blen (b : bytes) : N := N.of_nat (length b).
Definition bskip (n : N) (b : bytes) : bytes := skipn (N.to_nat n) b.
Definition btake (n : N) (b : bytes) : bytes := firstn (N.to_nat n) b.
(* Python b[lo:hi] for 0 <= lo, 0 <= hi (clamped like Python does) *)
Definition bsub (lo hi : N) (b : bytes) : bytes := btake (hi - lo) (bskip lo b).
(* stream[off : off+len] *)
Definition bslice (off len : N) (b : bytes) : bytes := btake len (bskip off b).
(* Python b[-n:] for n > 0 ; b[-0:] = b[0:] = b *)
Definition blast (n : N) (b : bytes) : bytes := bskip (blen b - n) b.
Definition bnth (i : N) (b : bytes) : N := nth (N.to_nat i) b 0.

Fixpoint beq (a b : bytes) : bool :=
  match a, b with
  | [], [] => true
  | x :: a', y :: b' => (x =? y) && beq a' b'
  | _, _ => false
  end.

Fixpoint prefixb (p s : bytes) : bool :=
  match p, s with
  | [], _ => true
  | x :: p', y :: s' => (x =? y) && prefixb p' s'
  | _ :: _, [] => false
  end.

Fixpoint occursb (a s : bytes) : bool :=
  prefixb a s || match s with [] => false | _ :: t => occursb a t end.

Fixpoint repeatN (x : N) (n : nat) : bytes :=
  match n with O => [] | S k => x :: repeatN x k end.

(* little / big endian unsigned decoders over a byte list (total: the value of
   whatever bytes are given; callers check lengths where struct.unpack would) *)
Fixpoint le_val (b : bytes) : N :=
  match b with [] => 0 | x :: t => x + 256 * le_val t end.
Definition be_val (b : bytes) : N := le_val (rev b).

Fixpoint le_enc (k : nat) (v : N) : bytes :=
  match k with O => [] | S k' => (v mod 256) :: le_enc k' (v / 256) end.
Definition be_enc (k : nat) (v : N) : bytes := rev (le_enc k v).

Definition is_byte (x : N) : bool := x <? 256.
Definition all_bytes (b : bytes) : bool := forallb is_byte b.

Lemma blen_nil : blen [] = 0. Proof. reflexivity. Qed.
Lemma blen_cons x b : blen (x :: b) = 1 + blen b.
Proof. unfold blen. cbn [length]. lia. Qed.
Lemma blen_app a b : blen (a ++ b) = blen a + blen b.
Proof. unfold blen. rewrite app_length. lia. Qed.

Lemma bskip_0 b : bskip 0 b = b. Proof. reflexivity. Qed.
Lemma btake_0 b : btake 0 b = []. Proof. reflexivity. Qed.
Lemma bskip_nil n : bskip n [] = []. Proof. unfold bskip. apply skipn_nil. Qed.
Lemma btake_nil n : btake n [] = []. Proof. unfold btake. apply firstn_nil. Qed.

Lemma bskip_app_le n a b : n <= blen a -> bskip n (a ++ b) = bskip n a ++ b.
Proof. unfold bskip, blen. intros H. rewrite skipn_app.
  replace (N.to_nat n - length a)%nat with 0%nat by lia. reflexivity. Qed.

Lemma bskip_app_ge n a b : blen a <= n -> bskip n (a ++ b) = bskip (n - blen a) b.
Proof. unfold bskip, blen. intros H. rewrite skipn_app.
  rewrite skipn_all2 by lia. simpl. f_equal. lia. Qed.

Lemma bskip_all n a : blen a <= n -> bskip n a = [].
Proof. unfold bskip, blen. intros. apply skipn_all2. lia. Qed.

Lemma blen_bskip n a : blen (bskip n a) = blen a - n.
Proof. unfold blen, bskip. rewrite skipn_length. lia. Qed.

Lemma btake_all n a : blen a <= n -> btake n a = a.
Proof. unfold btake, blen. intros. apply firstn_all2. lia. Qed.

Lemma btake_app_le n a b : n <= blen a -> btake n (a ++ b) = btake n a.
Proof. unfold btake, blen. intros. rewrite firstn_app.
  replace (N.to_nat n - length a)%nat with 0%nat by lia. simpl. apply app_nil_r. Qed.

Lemma btake_app_ge n a b : blen a <= n -> btake n (a ++ b) = a ++ btake (n - blen a) b.
Proof. unfold btake, blen. intros. rewrite firstn_app.
  rewrite firstn_all2 by lia. f_equal. f_equal. lia. Qed.

Lemma blen_btake n a : blen (btake n a) = N.min n (blen a).
Proof. unfold blen, btake. rewrite firstn_length. lia. Qed.

Lemma btake_btake n m a : btake n (btake m a) = btake (N.min n m) a.
Proof. unfold btake. rewrite firstn_firstn. f_equal. lia. Qed.

Lemma btake_min n a : btake n a = btake (N.min n (blen a)) a.
Proof.
  destruct (N.le_gt_cases n (blen a)) as [H|H].
  - replace (N.min n (blen a)) with n by lia. reflexivity.
  - replace (N.min n (blen a)) with (blen a) by lia. rewrite !btake_all by lia. reflexivity.
Qed.

Lemma skipn_skipn' {A} (n m : nat) (l : list A) : skipn n (skipn m l) = skipn (m + n) l.
Proof. revert l. induction m as [|m IH]; intros l; [reflexivity|].
  destruct l as [|x l]; cbn [skipn plus]; [apply skipn_nil|apply IH]. Qed.

Lemma bskip_bskip n m a : bskip n (bskip m a) = bskip (m + n) a.
Proof. unfold bskip. rewrite skipn_skipn'. f_equal. lia. Qed.

Lemma btake_bskip_app n a : btake n a ++ bskip n a = a.
Proof. unfold btake, bskip. apply firstn_skipn. Qed.

Lemma bskip_btake n m a : bskip n (btake m a) = btake (m - n) (bskip n a).
Proof. unfold bskip, btake. rewrite skipn_firstn_comm. f_equal. lia. Qed.

Lemma blen_bslice off len a : blen (bslice off len a) = N.min len (blen a - off).
Proof. unfold bslice. rewrite blen_btake, blen_bskip. reflexivity. Qed.

Lemma blen_0_nil a : blen a = 0 -> a = [].
Proof. destruct a; [reflexivity|]. rewrite blen_cons. lia. Qed.

Lemma length_repeatN x n : length (repeatN x n) = n.
Proof. induction n; cbn [repeatN length]; congruence. Qed.
Lemma blen_repeatN x n : blen (repeatN x n) = N.of_nat n.
Proof. unfold blen. rewrite length_repeatN. reflexivity. Qed.

Lemma bslice_nil off b : bslice off 0 b = [].
Proof. apply btake_0. Qed.
Lemma bslice_of_nil off len : bslice off len [] = [].
Proof. unfold bslice. rewrite bskip_nil. apply btake_nil. Qed.
Lemma bslice_0_all n b : blen b <= n -> bslice 0 n b = b.
Proof. apply btake_all. Qed.

(* a window that lies inside [a] does not see what is appended to [a] *)
Lemma bslice_app_le off len a x : off + len <= blen a -> bslice off len (a ++ x) = bslice off len a.
Proof.
  intros H. unfold bslice. rewrite bskip_app_le by lia. apply btake_app_le. rewrite blen_bskip. lia.
Qed.

(* in particular a full window *)
Lemma bslice_full_ext off len a x : blen (bslice off len a) = len -> bslice off len (a ++ x) = bslice off len a.
Proof.
  rewrite blen_bslice. intros H. destruct (N.eq_dec len 0) as [->|Hl]; [rewrite !bslice_nil; reflexivity|].
  apply bslice_app_le. lia.
Qed.

Lemma bslice_bslice o l o' l' b : o' + l' <= l -> bslice o' l' (bslice o l b) = bslice (o + o') l' b.
Proof. intros H. unfold bslice. rewrite bskip_btake, btake_btake, bskip_bskip. f_equal. lia. Qed.

Lemma bslice_btake_in o l n a : o + l <= n -> bslice o l (btake n a) = bslice o l a.
Proof. intros H. unfold bslice. rewrite bskip_btake, btake_btake. f_equal. lia. Qed.

Lemma blen_bslice_full o l b : o + l <= blen b -> blen (bslice o l b) = l.
Proof. intros H. rewrite blen_bslice. lia. Qed.

Lemma nth_firstn_lt {A} (i n : nat) (l : list A) d : (i < n)%nat -> nth i (firstn n l) d = nth i l d.
Proof.
  revert i l. induction n as [|n IH]; intros i l H; [lia|].
  destruct l as [|x l]; [destruct i; reflexivity|]. destruct i as [|i]; [reflexivity|].
  cbn [firstn nth]. apply IH. lia.
Qed.
Lemma nth_skipn_add {A} (i o : nat) (l : list A) d : nth i (skipn o l) d = nth (o + i) l d.
Proof.
  revert l. induction o as [|o IH]; intros l; [reflexivity|].
  destruct l as [|x l]; [destruct i; reflexivity|]. apply IH.
Qed.
Lemma bnth_bslice o l i b : i < l -> bnth i (bslice o l b) = bnth (o + i) b.
Proof.
  intros H. unfold bnth, bslice, btake, bskip. rewrite nth_firstn_lt by lia. rewrite nth_skipn_add.
  f_equal. lia.
Qed.

Lemma NoDup_snoc {A} (l : list A) x : NoDup l -> ~ In x l -> NoDup (l ++ [x]).
Proof.
  intros Hl Hx. apply NoDup_rev in Hl. rewrite <- (rev_involutive (l ++ [x])), rev_unit.
  apply NoDup_rev. constructor; [rewrite <- in_rev; exact Hx | exact Hl].
Qed.

Lemma strong_list_ind {A} (P : list A -> Prop) :
  (forall l, (forall l', (length l' < length l)%nat -> P l') -> P l) -> forall l, P l.
Proof. exact (well_founded_induction (Wf_nat.well_founded_ltof _ (@length A)) P). Qed.

Lemma filter_all {A} (p : A -> bool) l : forallb p l = true -> filter p l = l.
Proof.
  induction l as [|x l IH]; intros H; [reflexivity|]. cbn [forallb] in H. apply andb_true_iff in H.
  destruct H as [Hx Hl]. cbn [filter]. rewrite Hx, (IH Hl). reflexivity.
Qed.

Lemma in_skipn {A} (x : A) j l : In x (skipn j l) -> In x l.
Proof. intros H. rewrite <- (firstn_skipn j l). apply in_or_app. right. exact H. Qed.

Lemma NoDup_map_inj {A B} (f : A -> B) l a b : NoDup (map f l) -> In a l -> In b l -> f a = f b -> a = b.
Proof.
  induction l as [|x t IH]; cbn [map In]; intros Hn Ha Hb Hf; [contradiction|].
  inversion Hn as [|? ? Hx Ht]; subst.
  destruct Ha as [->|Ha], Hb as [->|Hb]; auto.
  - exfalso. apply Hx. rewrite Hf. apply in_map. exact Hb.
  - exfalso. apply Hx. rewrite <- Hf. apply in_map. exact Ha.
Qed.

Lemma beq_refl a : beq a a = true.
Proof. induction a as [|x a IH]; cbn; [reflexivity|]. rewrite N.eqb_refl. exact IH. Qed.

Lemma beq_eq a b : beq a b = true <-> a = b.
Proof.
  split.
  - revert b. induction a as [|x a IH]; intros [|y b] H; cbn in H; try discriminate; [reflexivity|].
    apply andb_true_iff in H. destruct H as [H1 H2]. apply N.eqb_eq in H1. subst. f_equal. auto.
  - intros ->. apply beq_refl.
Qed.

Lemma prefixb_app p s : prefixb p (p ++ s) = true.
Proof. induction p as [|x p IH]; cbn; [reflexivity|]. rewrite N.eqb_refl. exact IH. Qed.

Lemma prefixb_spec p s : prefixb p s = true <-> exists t, s = p ++ t.
Proof.
  split.
  - revert s. induction p as [|x p IH]; intros s H.
    + exists s. reflexivity.
    + destruct s as [|y s]; cbn in H; [discriminate|].
      apply andb_true_iff in H. destruct H as [H1 H2]. apply N.eqb_eq in H1. subst.
      destruct (IH _ H2) as [t ->]. exists t. reflexivity.
  - intros [t ->]. apply prefixb_app.
Qed.

Lemma prefixb_app_l p s t : prefixb p s = true -> prefixb p (s ++ t) = true.
Proof. intros H. apply prefixb_spec in H. destruct H as [u ->]. rewrite <- app_assoc. apply prefixb_app. Qed.

Lemma occursb_spec a s : occursb a s = true <-> exists p q, s = p ++ a ++ q.
Proof.
  split.
  - induction s as [|c t IH]; cbn [occursb]; intros H; apply orb_true_iff in H; destruct H as [H|H].
    + apply prefixb_spec in H. destruct H as [q Hq]. exists [], q. exact Hq.
    + discriminate.
    + apply prefixb_spec in H. destruct H as [q Hq]. exists [], q. exact Hq.
    + destruct (IH H) as [p [q Hq]]. exists (c :: p), q. rewrite Hq. reflexivity.
  - intros [p [q Hs]]. subst. induction p as [|c p IH].
    + cbn [app]. destruct (a ++ q) eqn:E; cbn [occursb]; rewrite <- E, prefixb_app; reflexivity.
    + cbn [app occursb]. rewrite IH. apply orb_true_r.
Qed.

Lemma prefixb_btake p s : prefixb p s = beq (btake (blen p) s) p.
Proof.
  revert s. induction p as [|x p IH]; intros s.
  - cbn. reflexivity.
  - destruct s as [|y s].
    + rewrite btake_nil. reflexivity.
    + rewrite blen_cons. unfold btake. replace (N.to_nat (1 + blen p)) with (S (N.to_nat (blen p))) by lia.
      cbn [firstn prefixb beq]. rewrite IH. unfold btake. rewrite N.eqb_sym. reflexivity.
Qed.

(* a prefix test on the first [n] bytes is a prefix test on the whole when the pattern fits *)
Lemma prefixb_btake_le p n b : blen p <= n -> prefixb p (btake n b) = prefixb p b.
Proof. intros H. rewrite !prefixb_btake, btake_btake. f_equal. f_equal. lia. Qed.

(* integer encode/decode round trip *)
Lemma le_val_enc k v : v < 256 ^ N.of_nat k -> le_val (le_enc k v) = v.
Proof.
  revert v. induction k as [|k IH]; intros v H.
  - cbn in *. lia.
  - cbn [le_enc le_val].
    assert (H256 : 256 ^ N.of_nat (S k) = 256 * 256 ^ N.of_nat k).
    { replace (N.of_nat (S k)) with (N.succ (N.of_nat k)) by lia. apply N.pow_succ_r'. }
    rewrite IH.
    + pose proof (N.div_mod v 256). lia.
    + apply N.div_lt_upper_bound; lia.
Qed.

Lemma be_val_enc k v : v < 256 ^ N.of_nat k -> be_val (be_enc k v) = v.
Proof. intros. unfold be_val, be_enc. rewrite rev_involutive. apply le_val_enc. assumption. Qed.

Lemma length_le_enc k v : length (le_enc k v) = k.
Proof. revert v. induction k; intros; cbn; auto. Qed.
Lemma blen_le_enc k v : blen (le_enc k v) = N.of_nat k.
Proof. unfold blen. rewrite length_le_enc. reflexivity. Qed.
Lemma blen_be_enc k v : blen (be_enc k v) = N.of_nat k.
Proof. unfold be_enc, blen. rewrite rev_length, length_le_enc. reflexivity. Qed.

Lemma le_val_bound b : all_bytes b = true -> le_val b < 256 ^ blen b.
Proof.
  induction b as [|x b IH]; intros H.
  - cbn. lia.
  - cbn in H. apply andb_true_iff in H. destruct H as [Hx Hb]. unfold is_byte in Hx.
    rewrite blen_cons. cbn [le_val]. specialize (IH Hb).
    replace (1 + blen b) with (N.succ (blen b)) by lia. rewrite N.pow_succ_r'. lia.
Qed.

(* ---------- Python slicing / indexing with arbitrary integer bounds ---------- *)
Definition norm_idx (n i : Z) : Z :=
  let i' := if (i <? 0)%Z then (i + n)%Z else i in Z.max 0 (Z.min n i').
Definition zslice (lo hi : option Z) (b : bytes) : bytes :=
  let n := Z.of_N (blen b) in
  let l := match lo with Some i => norm_idx n i | None => 0%Z end in
  let h := match hi with Some i => norm_idx n i | None => n end in
  bsub (Z.to_N l) (Z.to_N h) b.
Definition zlen (b : bytes) : Z := Z.of_N (blen b).

Lemma zslice_from (i : Z) b : (0 <= i)%Z -> zslice (Some i) None b = bskip (Z.to_N i) b.
Proof.
  intros H. unfold zslice, norm_idx, bsub.
  replace (i <? 0)%Z with false by lia.
  destruct (Z_le_gt_dec i (Z.of_N (blen b))).
  - replace (Z.max 0 (Z.min (Z.of_N (blen b)) i)) with i by lia.
    apply btake_all. rewrite blen_bskip. lia.
  - replace (Z.max 0 (Z.min (Z.of_N (blen b)) i)) with (Z.of_N (blen b)) by lia.
    rewrite !bskip_all by lia. rewrite btake_nil. reflexivity.
Qed.

Lemma zslice_to (i : Z) b : (0 <= i)%Z -> zslice None (Some i) b = btake (Z.to_N i) b.
Proof.
  intros H. unfold zslice, norm_idx, bsub.
  replace (i <? 0)%Z with false by lia.
  rewrite bskip_0. change (Z.to_N 0) with 0. rewrite N.sub_0_r.
  destruct (Z_le_gt_dec i (Z.of_N (blen b))).
  - replace (Z.max 0 (Z.min (Z.of_N (blen b)) i)) with i by lia. reflexivity.
  - replace (Z.max 0 (Z.min (Z.of_N (blen b)) i)) with (Z.of_N (blen b)) by lia.
    rewrite !btake_all by lia. reflexivity.
Qed.

Lemma zslice_range (lo hi : Z) b : (0 <= lo)%Z -> (0 <= hi)%Z ->
  zslice (Some lo) (Some hi) b = bsub (Z.to_N lo) (Z.to_N hi) b.
Proof.
  intros H1 H2. unfold zslice, norm_idx, bsub.
  replace (lo <? 0)%Z with false by lia. replace (hi <? 0)%Z with false by lia.
  set (n := Z.of_N (blen b)).
  destruct (Z_le_gt_dec lo n) as [Hl|Hl].
  - replace (Z.max 0 (Z.min n lo)) with lo by lia.
    destruct (Z_le_gt_dec hi n) as [Hh|Hh].
    + replace (Z.max 0 (Z.min n hi)) with hi by lia. reflexivity.
    + replace (Z.max 0 (Z.min n hi)) with n by lia.
      rewrite !btake_all; [reflexivity| |]; rewrite blen_bskip; subst n; lia.
  - replace (Z.max 0 (Z.min n lo)) with n by lia.
    rewrite !bskip_all by (subst n; lia). rewrite !btake_nil. reflexivity.
Qed.
