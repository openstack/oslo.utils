(* Base/Insp_Struct.v — struct.unpack layouts, region specs and safe slicing helpers
   shared by Gen/Insp_Consts.v (generated) and the inspector model (Model/Insp_*.v). *)
Require Import OV.Base.Bytes OV.Base.Py.
Open Scope N_scope.

(* A struct format with standard sizes ('<' / '>'): total size and (offset, length) of
   every field in order ('3B' is three fields, '4s' one). *)
Record sfmt := mkSfmt { sf_big : bool; sf_size : N; sf_fields : list (N * N) }.

(* len(b) with an N accumulator: the extracted [blen] (unary length, then N.of_nat) is ~6x slower and
   the engine asks for lengths of 64 KiB .. 1 MiB buffers several times per chunk.  [flen_blen] below. *)
Fixpoint flen_acc (b : bytes) (acc : N) : N :=
  match b with [] => acc | _ :: t => flen_acc t (N.succ acc) end.
Definition flen (b : bytes) : N := flen_acc b 0.

Lemma flen_acc_blen b acc : flen_acc b acc = acc + blen b.
Proof.
  revert acc. induction b as [|x b IH]; intros acc; cbn [flen_acc].
  - rewrite blen_nil. lia.
  - rewrite IH, blen_cons. lia.
Qed.
Lemma flen_blen b : flen b = blen b.
Proof. unfold flen. rewrite flen_acc_blen. lia. Qed.

(* struct.unpack(fmt, b) raises struct.error iff len(b) != calcsize(fmt) *)
Definition unpack (f : sfmt) (b : bytes) : res bytes :=
  if flen b =? sf_size f then Ok b else Exn StructError.

(* field i as raw bytes ('s' fields) / as an unsigned integer *)
Definition sraw (f : sfmt) (i : nat) (b : bytes) : bytes :=
  let '(o, l) := nth i (sf_fields f) (0, 0) in bslice o l b.
Definition sint (f : sfmt) (i : nat) (b : bytes) : N :=
  if sf_big f then be_val (sraw f i b) else le_val (sraw f i b).

(* CaptureRegion(offset, length, min_length) / EndCaptureRegion(n) as created by the source *)
Record rspec := mkRspec { rs_end : bool; rs_off : N; rs_len : N; rs_min : option N }.

(* slicing that never converts a number larger than the list to nat (offsets reach 2^73) *)
Definition ntake (n : N) (b : bytes) : bytes := if flen b <=? n then b else btake n b.
Definition nskip (n : N) (b : bytes) : bytes := if flen b <=? n then [] else bskip n b.
(* Python b[lo:hi] for 0 <= lo, 0 <= hi *)
Definition nsub (lo hi : N) (b : bytes) : bytes := ntake (hi - lo) (nskip lo b).
(* Python b[-n:] for n >= 0 (b[-0:] is b[0:], the whole string) *)
Definition nlast (n : N) (b : bytes) : bytes :=
  if n =? 0 then b else nskip (flen b - n) b.

Lemma ntake_btake n b : ntake n b = btake n b.
Proof. unfold ntake. rewrite flen_blen. destruct (blen b <=? n) eqn:H; [|reflexivity]. symmetry. apply btake_all. lia. Qed.
Lemma nskip_bskip n b : nskip n b = bskip n b.
Proof. unfold nskip. rewrite flen_blen. destruct (blen b <=? n) eqn:H; [|reflexivity]. symmetry. apply bskip_all. lia. Qed.
Lemma nsub_bsub lo hi b : nsub lo hi b = bsub lo hi b.
Proof. unfold nsub, bsub. rewrite ntake_btake, nskip_bskip. reflexivity. Qed.
Lemma ntake_bslice n b : ntake n b = bslice 0 n b.
Proof. apply ntake_btake. Qed.
Lemma nsub_bslice lo hi b : nsub lo hi b = bslice lo (hi - lo) b.
Proof. apply nsub_bsub. Qed.

(* Python slices with non-negative int bounds are the N-level slices *)
Lemma zslice_nsub lo hi b : zslice (Some (Z.of_N lo)) (Some (Z.of_N hi)) b = nsub lo hi b.
Proof. rewrite zslice_range by lia. rewrite !N2Z.id. symmetry. apply nsub_bsub. Qed.
Lemma zslice_ntake n b : zslice None (Some (Z.of_N n)) b = ntake n b.
Proof. rewrite zslice_to by lia. rewrite N2Z.id. symmetry. apply ntake_btake. Qed.

Lemma unpack_ok f b : blen b = sf_size f -> unpack f b = Ok b.
Proof. intros H. unfold unpack. rewrite flen_blen, H, N.eqb_refl. reflexivity. Qed.
Lemma unpack_bad f b : blen b <> sf_size f -> unpack f b = Exn StructError.
Proof. intros H. unfold unpack. rewrite flen_blen. apply N.eqb_neq in H. rewrite H. reflexivity. Qed.

(* b[i] raising IndexError *)
Definition bidx (b : bytes) (i : N) : res N :=
  if i <? flen b then Ok (bnth i b) else Exn IndexError.

Fixpoint mem_str (x : bytes) (l : list bytes) : bool :=
  match l with [] => false | y :: t => beq x y || mem_str x t end.
Lemma mem_str_In x l : mem_str x l = true <-> In x l.
Proof.
  induction l as [|y l IH]; cbn [mem_str In]; [split; [discriminate|intros []]|].
  rewrite orb_true_iff, IH, beq_eq. split; intros [H|H]; auto.
Qed.
