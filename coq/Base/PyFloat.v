(* Base/PyFloat.v — CPython binary64 floats as an executable, axiom-free model.

   Values are the standard library's proof-free [SpecFloat.spec_float] (no
   Flocq, no PrimFloat, no reals), precision 53, emax 1024, round to nearest
   even.  Everything here is a definition (plus a few computed examples):

     py_float_of_str   float(str): correctly rounded decimal -> binary64 for the
                       grammar CPython accepts (Unicode digits and spaces,
                       sign, digits with optional '.', exponent, underscores
                       between digits, inf / infinity / nan, any case)
     float_of_Z        float(int)  (None = OverflowError)
     f_mul f_div f_add f_sub f_neg f_abs     (f_div: None = ZeroDivisionError)
     f_eqb f_ltb f_leb f_gtb f_geb f_neb     Python comparisons (NaN unordered)
     ceil_to_Z floor_to_Z trunc_to_Z         math.ceil / math.floor / int()
     f_is_integer      float.is_integer()
     float_hex         float.hex()
     float_fmt_f0      format(x, '.0f')
     f_of_ratio        correctly rounded quotient of two positive integers

   Validated bit-exactly against CPython 3.12 (tools/props/C10.py, op 'pf_*'). *)
From Coq Require Import String.
From Coq Require Import ZArith SpecFloat.
Require Import OV.Base.Bytes OV.Base.Py OV.Base.PyInt.
Open Scope Z_scope.

Definition float64 := spec_float.
Definition fprec : Z := 53.
Definition femax : Z := 1024.

Definition f_valid (x : float64) : bool := valid_binary fprec femax x.

Definition f_zero : float64 := S754_zero false.
Definition f_nan : float64 := S754_nan.
Definition f_inf (neg : bool) : float64 := S754_infinity neg.

(* correctly rounded (-1)^s * m * 2^e *)
Definition f_round (s : bool) (m : positive) (e : Z) : float64 := binary_round fprec femax s m e.
(* correctly rounded z * 2^e *)
Definition f_normalize (z e : Z) : float64 := binary_normalize fprec femax z e false.

(* correctly rounded n / d for positive integers of any size *)
Definition f_of_ratio (s : bool) (n d : positive) : float64 :=
  let '(q, e, l) := SFdiv_core_binary fprec femax (Zpos n) 0 (Zpos d) 0 in
  binary_round_aux fprec femax s q e l.

(* float(int): correctly rounded; OverflowError (None) when the rounded value is not finite *)
Definition float_of_Z (z : Z) : option float64 :=
  match f_normalize z 0 with
  | S754_infinity _ => None
  | x => Some x
  end.

Definition f_is_zero (x : float64) : bool := match x with S754_zero _ => true | _ => false end.
Definition f_is_nan (x : float64) : bool := match x with S754_nan => true | _ => false end.
Definition f_is_inf (x : float64) : bool := match x with S754_infinity _ => true | _ => false end.
Definition f_is_finite (x : float64) : bool :=
  match x with S754_zero _ | S754_finite _ _ _ => true | _ => false end.

Definition f_mul : float64 -> float64 -> float64 := SFmul fprec femax.
Definition f_add : float64 -> float64 -> float64 := SFadd fprec femax.
Definition f_sub : float64 -> float64 -> float64 := SFsub fprec femax.
Definition f_neg : float64 -> float64 := SFopp.
Definition f_abs : float64 -> float64 := SFabs.
(* x / y: ZeroDivisionError (None) whenever y is a zero *)
Definition f_div (x y : float64) : option float64 :=
  if f_is_zero y then None else Some (SFdiv fprec femax x y).

Definition f_eqb : float64 -> float64 -> bool := SFeqb.
Definition f_ltb : float64 -> float64 -> bool := SFltb.
Definition f_leb : float64 -> float64 -> bool := SFleb.
Definition f_gtb (x y : float64) : bool := SFltb y x.
Definition f_geb (x y : float64) : bool := SFleb y x.
Definition f_neb (x y : float64) : bool := negb (SFeqb x y).

(* the exact value of a finite float as a fraction num / 2^den_log2 *)
Definition f_pow2 (e : Z) : Z := Z.pow 2 e.

(* math.floor / math.ceil / int(): OverflowError for infinities, ValueError for NaN *)
Definition floor_to_Z (x : float64) : res Z :=
  match x with
  | S754_nan => Exn ValueError
  | S754_infinity _ => Exn OverflowError
  | S754_zero _ => Ok 0
  | S754_finite s m e =>
      let z := if s then Zneg m else Zpos m in
      Ok (if 0 <=? e then z * f_pow2 e else z / f_pow2 (- e))
  end.
Definition ceil_to_Z (x : float64) : res Z :=
  match x with
  | S754_nan => Exn ValueError
  | S754_infinity _ => Exn OverflowError
  | S754_zero _ => Ok 0
  | S754_finite s m e =>
      let z := if s then Zneg m else Zpos m in
      Ok (if 0 <=? e then z * f_pow2 e else - ((- z) / f_pow2 (- e)))
  end.
Definition trunc_to_Z (x : float64) : res Z :=
  match x with
  | S754_finite true _ _ => ceil_to_Z x
  | _ => floor_to_Z x
  end.

Definition f_is_integer (x : float64) : bool :=
  match x with
  | S754_zero _ => true
  | S754_finite _ m e => if 0 <=? e then true else (Zpos m) mod f_pow2 (- e) =? 0
  | _ => false
  end.

(* ---------- float(str) ---------- *)

Definition c_space (c : N) : bool := (((9 <=? c) && (c <=? 13)) || (c =? 32))%N.
Definition c_digit (c : N) : bool := ((48 <=? c) && (c <=? 57))%N.
Definition c_lower (c : N) : N := (if (65 <=? c) && (c <=? 90) then c + 32 else c)%N.

(* _PyUnicode_TransformDecimalAndSpaceToASCII: ASCII (< 127) is kept, other
   whitespace becomes ' ', other decimal digits become '0'..'9', anything else
   makes the text unparsable *)
Definition to_ascii1 (c : N) : option N :=
  if (c <? 127)%N then Some c
  else if is_space c then Some 32%N
  else match digit_val c with Some d => Some (48 + d)%N | None => None end.
Fixpoint to_ascii (s : str) : option str :=
  match s with
  | [] => Some []
  | c :: t => match to_ascii1 c with
              | None => None
              | Some a => option_map (cons a) (to_ascii t)
              end
  end.

(* _Py_string_to_number_with_underscores: an underscore must stand between two digits *)
Fixpoint strip_us (s : str) (prev : N) : option str :=
  match s with
  | [] => if (prev =? 95)%N then None else Some []
  | c :: t =>
      if (c =? 95)%N then (if c_digit prev then strip_us t c else None)
      else if (prev =? 95)%N && negb (c_digit c) then None
      else option_map (cons c) (strip_us t c)
  end.

Fixpoint c_lstrip (s : str) : str :=
  match s with c :: t => if c_space c then c_lstrip t else s | [] => [] end.
Definition c_strip (s : str) : str := rev (c_lstrip (rev (c_lstrip s))).

(* a run of ASCII digits: accumulated value, number of digits read, rest *)
Fixpoint digits_run (s : str) (acc : N) (cnt : Z) : N * Z * str :=
  match s with
  | c :: t => if c_digit c then digits_run t (acc * 10 + (c - 48))%N (cnt + 1) else (acc, cnt, s)
  | [] => (acc, cnt, [])
  end.

Definition is_nil {A} (l : list A) : bool := match l with [] => true | _ => false end.

(* optional exponent part; the whole rest must be consumed *)
Definition parse_exp (s : str) : option Z :=
  match s with
  | [] => Some 0
  | c :: t =>
      if ((c =? 101) || (c =? 69))%N then
        let '(neg, t') := match t with
                          | c2 :: r => if (c2 =? 43)%N then (false, r)
                                       else if (c2 =? 45)%N then (true, r) else (false, t)
                          | [] => (false, t)
                          end in
        let '(v, cnt, rest) := digits_run t' 0%N 0 in
        if (0 <? cnt) && is_nil rest then Some (if neg then - Z.of_N v else Z.of_N v) else None
      else None
  end.

(* (-1)^s * n * 10^E, correctly rounded; [cnt] is an upper bound on the number of
   decimal digits of n (n < 10^cnt).  The two cut-offs are far outside the
   binary64 range (max < 1.8e308, half the least subnormal > 2.4e-324). *)
Definition f_of_decimal (s : bool) (n : N) (cnt E : Z) : float64 :=
  match n with
  | N0 => S754_zero s
  | Npos p =>
      if 400 <=? E then S754_infinity s
      else if cnt + E <=? -400 then S754_zero s
      else if 0 <=? E then f_round s (p * Z.to_pos (10 ^ E)) 0
      else f_of_ratio s p (Z.to_pos (10 ^ (- E)))
  end.

Definition parse_unsigned (s : str) (neg : bool) : option float64 :=
  let l := map c_lower s in
  if beq l (lit "inf") || beq l (lit "infinity") then Some (S754_infinity neg)
  else if beq l (lit "nan") then Some S754_nan
  else
    let '(n1, c1, r1) := digits_run s 0%N 0 in
    let '(n2, c2, r2) := match r1 with
                         | c :: r => if (c =? 46)%N then digits_run r n1 0 else (n1, 0, r1)
                         | [] => (n1, 0, r1)
                         end in
    if c1 + c2 =? 0 then None
    else match parse_exp r2 with
         | None => None
         | Some ex => Some (f_of_decimal neg n2 (c1 + c2) (ex - c2))
         end.

(* float(s) for a str s; None = ValueError *)
Definition py_float_of_str (s : str) : option float64 :=
  match to_ascii s with
  | None => None
  | Some a =>
      match strip_us a 0%N with
      | None => None
      | Some b =>
          match c_strip b with
          | [] => None
          | c :: t => if (c =? 43)%N then parse_unsigned t false
                      else if (c =? 45)%N then parse_unsigned t true
                      else parse_unsigned (c :: t) false
          end
      end
  end.

Definition hex_digit (d : N) : N := (if d <? 10 then 48 + d else 87 + d)%N.
Fixpoint hex_fixed (k : nat) (v : N) (acc : str) : str :=
  match k with
  | O => acc
  | S k' => hex_fixed k' (v / 16)%N (hex_digit (v mod 16)%N :: acc)
  end.
Definition hex13 (v : Z) : str := hex_fixed 13 (Z.to_N v) [].

Definition sign_str (s : bool) : str := if s then [45%N] else [].
Definition exp_str (e : Z) : str := (if e <? 0 then 45%N else 43%N) :: dec_of_Z (Z.abs e).

(* float.hex() *)
Definition float_hex (x : float64) : str :=
  match x with
  | S754_nan => lit "nan"
  | S754_infinity s => sign_str s ++ lit "inf"
  | S754_zero s => sign_str s ++ lit "0x0.0p+0"
  | S754_finite s m e =>
      let d := Zpos (digits2_pos m) in
      if d + e <=? -1022
      then sign_str s ++ lit "0x0." ++ hex13 (Zpos m * f_pow2 (e + 1074)) ++ lit "p-1022"
      else sign_str s ++ lit "0x1." ++ hex13 (Zpos m * f_pow2 (53 - d) - f_pow2 52)
                      ++ [112%N] ++ exp_str (d + e - 1)
  end.

(* nearest integer, ties to even, of m * 2^e (m >= 0) *)
Definition round_half_even (m e : Z) : Z :=
  if 0 <=? e then m * f_pow2 e
  else let d := f_pow2 (- e) in
       let q := m / d in
       let r := m mod d in
       match 2 * r ?= d with
       | Lt => q
       | Gt => q + 1
       | Eq => if Z.even q then q else q + 1
       end.

(* format(x, '.0f') *)
Definition float_fmt_f0 (x : float64) : str :=
  match x with
  | S754_nan => lit "nan"
  | S754_infinity s => sign_str s ++ lit "inf"
  | S754_zero s => sign_str s ++ [48%N]
  | S754_finite s m e => sign_str s ++ dec_of_Z (round_half_even (Zpos m) e)
  end.

Example ex_float_1_1 : option_map float_hex (py_float_of_str (lit "1.1")) = Some (lit "0x1.199999999999ap+0").
Proof. vm_compute. reflexivity. Qed.
Example ex_float_min_sub : option_map float_hex (py_float_of_str (lit "5e-324")) = Some (lit "0x0.0000000000001p-1022").
Proof. vm_compute. reflexivity. Qed.
Example ex_float_us : option_map float_hex (py_float_of_str (lit " -1_0.5e0 ")) = Some (lit "-0x1.5000000000000p+3").
Proof. vm_compute. reflexivity. Qed.
Example ex_float_bad : py_float_of_str (lit "1__0") = None.
Proof. vm_compute. reflexivity. Qed.
Example ex_ceil : option_map ceil_to_Z (py_float_of_str (lit "-2.5")) = Some (Ok (-2)).
Proof. vm_compute. reflexivity. Qed.
