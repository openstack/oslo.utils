(* Base/PyInt.v — str(int) and int(str) for base 10, as CPython defines them:
   int(str) strips whitespace (str.isspace characters EXCEPT U+001C..U+001F, which CPython's
   int() does not skip: characters < 127 are only skipped when C isspace() holds), accepts one
   optional sign, Unicode decimal digits, and single underscores between digits.
   Not modelled: the 4300-digit limit of CPython >= 3.11 (inputs are kept below). *)
Require Import OV.Base.Bytes OV.Gen.Unicode.
Open Scope N_scope.

Definition cset := list (N * N).
Fixpoint cmem (c : N) (cs : cset) : bool :=
  match cs with [] => false | (lo, hi) :: t => ((lo <=? c) && (c <=? hi)) || cmem c t end.

Definition is_space (c : N) : bool := cmem c py_space.

Fixpoint digit_in (c : N) (starts : list N) : option N :=
  match starts with
  | [] => None
  | s :: t => if (s <=? c) && (c <? s + 10) then Some (c - s) else digit_in c t
  end.
Definition digit_val (c : N) : option N := digit_in c nd_starts.
Definition is_digit (c : N) : bool := match digit_val c with Some _ => true | None => false end.

Fixpoint lstrip (s : str) : str :=
  match s with c :: t => if is_space c then lstrip t else s | [] => [] end.
Definition rstrip (s : str) : str := rev (lstrip (rev s)).
Definition strip (s : str) : str := rstrip (lstrip s).

(* the whitespace int() skips: str.isspace minus the four ASCII separators FS, GS, RS, US *)
Definition int_space (c : N) : bool := is_space c && negb ((28 <=? c) && (c <=? 31)).
Fixpoint ilstrip (s : str) : str :=
  match s with c :: t => if int_space c then ilstrip t else s | [] => [] end.
Definition irstrip (s : str) : str := rev (ilstrip (rev s)).
Definition istrip (s : str) : str := irstrip (ilstrip s).

(* digits with single underscores between digits *)
Fixpoint digits_us (s : str) (acc : N) (prev_digit : bool) : option N :=
  match s with
  | [] => if prev_digit then Some acc else None
  | c :: t =>
      if c =? 95 then (if prev_digit then digits_us t acc false else None)
      else match digit_val c with
           | Some d => digits_us t (acc * 10 + d) true
           | None => None
           end
  end.

Definition py_int (s : str) : option Z :=
  match istrip s with
  | [] => None
  | c :: t =>
      if c =? 43 then option_map Z.of_N (digits_us t 0 false)
      else if c =? 45 then option_map (fun n => (- Z.of_N n)%Z) (digits_us t 0 false)
      else option_map Z.of_N (digits_us (c :: t) 0 false)
  end.

(* str(int) *)
Fixpoint dec_fuel (fuel : nat) (n : N) (acc : str) : str :=
  match fuel with
  | O => acc
  | S f => let acc' := (48 + n mod 10) :: acc in
           if n / 10 =? 0 then acc' else dec_fuel f (n / 10) acc'
  end.
Definition dec_of_N (n : N) : str := dec_fuel (S (N.to_nat (N.log2 n))) n [].
Definition dec_of_Z (z : Z) : str :=
  match z with
  | Z0 => [48]
  | Zpos p => dec_of_N (Npos p)
  | Zneg p => 45 :: dec_of_N (Npos p)
  end.

Lemma forallb_In {A} (f : A -> bool) l x : forallb f l = true -> In x l -> f x = true.
Proof. intros H. apply forallb_forall, H. Qed.

Lemma forallb_impl {A} (f g : A -> bool) l : (forall x, f x = true -> g x = true) -> forallb f l = true -> forallb g l = true.
Proof. intros I H. rewrite forallb_forall in *. auto. Qed.

Lemma forallb_rev {A} (f : A -> bool) l : forallb f (rev l) = forallb f l.
Proof.
  induction l as [|x l IH]; [reflexivity|]. cbn [rev forallb]. rewrite forallb_app, IH. cbn [forallb].
  rewrite andb_true_r. apply andb_comm.
Qed.

Lemma hd_rev_last {A} (x : list A) d : x <> [] -> hd d (rev x) = last x d.
Proof.
  intros H. destruct x as [|c t] using rev_ind; [congruence|].
  rewrite rev_app_distr, last_last. reflexivity.
Qed.

Lemma cmem_single c x : cmem c [(x, x)] = (c =? x).
Proof. cbn [cmem]. lia. Qed.

Lemma N2Z_inj_land a b : Z.of_N (N.land a b) = Z.land (Z.of_N a) (Z.of_N b).
Proof. destruct a, b; reflexivity. Qed.

Definition ascii_digit (c : N) : bool := (48 <=? c) && (c <=? 57).
Definition all_ascii_digits (s : str) : bool := forallb ascii_digit s.

Lemma digit_val_ascii c : ascii_digit c = true -> digit_val c = Some (c - 48).
Proof.
  unfold ascii_digit, digit_val. intros H.
  unfold nd_starts. cbn [digit_in].
  replace ((48 <=? c) && (c <? 48 + 10)) with true by lia. reflexivity.
Qed.

(* a digit is none of '+', '-', '_' *)
Lemma ascii_digit_not_sign c : ascii_digit c = true -> (c =? 43) = false /\ (c =? 45) = false /\ (c =? 95) = false.
Proof. unfold ascii_digit. lia. Qed.

Lemma is_space_ascii_digit c : ascii_digit c = true -> is_space c = false.
Proof.
  unfold ascii_digit, is_space, py_space. intros H. cbn [cmem].
  repeat match goal with |- context [(?a <=? c) && (c <=? ?b)] =>
    replace ((a <=? c) && (c <=? b)) with false by lia end.
  reflexivity.
Qed.

Fixpoint dval (s : str) (acc : N) : N :=
  match s with [] => acc | c :: t => dval t (acc * 10 + (c - 48)) end.

Lemma digits_us_ascii s acc b :
  all_ascii_digits s = true -> s <> [] \/ b = true ->
  digits_us s acc b = Some (dval s acc).
Proof.
  revert acc b. induction s as [|c t IH]; intros acc b Hd Hne.
  - cbn. destruct Hne as [Hne|Hb]; [congruence|rewrite Hb; reflexivity].
  - cbn in Hd. apply andb_true_iff in Hd. destruct Hd as [Hc Ht].
    cbn [digits_us dval].
    destruct (ascii_digit_not_sign c Hc) as (_ & _ & ->).
    rewrite (digit_val_ascii _ Hc). apply IH; auto.
Qed.

Lemma dval_app a b acc : dval (a ++ b) acc = dval b (dval a acc).
Proof. revert acc. induction a as [|c a IH]; intros acc; cbn; auto. Qed.

Lemma all_ascii_digits_dec_fuel f n acc :
  all_ascii_digits acc = true -> all_ascii_digits (dec_fuel f n acc) = true.
Proof.
  revert n acc. induction f as [|f IH]; intros n acc H; cbn [dec_fuel]; [exact H|].
  assert (Hd : all_ascii_digits ((48 + n mod 10) :: acc) = true).
  { unfold all_ascii_digits in *. cbn [forallb]. rewrite H. unfold ascii_digit.
    pose proof (N.mod_upper_bound n 10). lia. }
  destruct (n / 10 =? 0); [exact Hd|]. apply IH. exact Hd.
Qed.

Lemma dec_fuel_app f n acc : dec_fuel f n acc = dec_fuel f n [] ++ acc.
Proof.
  revert n acc. induction f as [|f IH]; intros n acc; cbn [dec_fuel]; [reflexivity|].
  destruct (n / 10 =? 0).
  - reflexivity.
  - rewrite (IH (n / 10) ((48 + n mod 10) :: acc)), (IH (n / 10) [48 + n mod 10]).
    rewrite <- app_assoc. reflexivity.
Qed.

Lemma dval_dec_fuel f n : n < 2 ^ N.of_nat f -> dval (dec_fuel f n []) 0 = n.
Proof.
  revert n. induction f as [|f IH]; intros n H.
  - cbn in H. cbn. lia.
  - cbn [dec_fuel]. destruct (n / 10 =? 0) eqn:E.
    + cbn [dval]. pose proof (N.div_mod n 10). lia.
    + rewrite dec_fuel_app, dval_app, IH.
      * cbn [dval]. pose proof (N.div_mod n 10). lia.
      * replace (N.of_nat (S f)) with (N.succ (N.of_nat f)) in H by lia.
        rewrite N.pow_succ_r' in H. apply N.div_lt_upper_bound; lia.
Qed.

Lemma dec_fuel_nonnil f n acc : acc <> [] \/ f <> O -> dec_fuel f n acc <> [].
Proof.
  revert n acc. induction f as [|f IH]; intros n acc H; cbn [dec_fuel].
  - destruct H; congruence.
  - destruct (n / 10 =? 0); [discriminate|]. apply IH. left. discriminate.
Qed.

Lemma log2_fuel n : n < 2 ^ N.of_nat (S (N.to_nat (N.log2 n))).
Proof.
  destruct n as [|p]; [cbn; lia|].
  replace (N.of_nat (S (N.to_nat (N.log2 (N.pos p))))) with (N.succ (N.log2 (N.pos p))) by lia.
  apply N.log2_spec. lia.
Qed.

Lemma dval_dec_of_N n : dval (dec_of_N n) 0 = n.
Proof. unfold dec_of_N. apply dval_dec_fuel, log2_fuel. Qed.

Lemma dec_of_N_digits n : all_ascii_digits (dec_of_N n) = true.
Proof. unfold dec_of_N. apply all_ascii_digits_dec_fuel. reflexivity. Qed.

Lemma dec_of_N_nonnil n : dec_of_N n <> [].
Proof. unfold dec_of_N. apply dec_fuel_nonnil. right. discriminate. Qed.

(* lstrip / strip (is_space) and ilstrip / istrip (int_space) above, Model/C14_Py.lstrip_c (c_isspace) and
   Base/Str.strip_chars (membership in chars) are one function of the predicate that says what is stripped;
   each has its bridging lemma ([lstrip_is_by] ... here, [strip_chars_is_by], [lstrip_c_is_by] beside the definition's users). *)
Fixpoint lstrip_by (p : N -> bool) (s : str) : str :=
  match s with c :: t => if p c then lstrip_by p t else s | [] => [] end.
Definition strip_by (p : N -> bool) (s : str) : str := rev (lstrip_by p (rev (lstrip_by p s))).

Lemma lstrip_is_by s : lstrip s = lstrip_by is_space s.
Proof. induction s as [|c t IH]; [reflexivity|]. cbn [lstrip lstrip_by]. rewrite IH. reflexivity. Qed.
Lemma ilstrip_is_by s : ilstrip s = lstrip_by int_space s.
Proof. induction s as [|c t IH]; [reflexivity|]. cbn [ilstrip lstrip_by]. rewrite IH. reflexivity. Qed.
Lemma strip_is_by s : strip s = strip_by is_space s.
Proof. unfold strip, rstrip, strip_by. rewrite !lstrip_is_by. reflexivity. Qed.
Lemma istrip_is_by s : istrip s = strip_by int_space s.
Proof. unfold istrip, irstrip, strip_by. rewrite !ilstrip_is_by. reflexivity. Qed.

Section StripBy.
Variable p : N -> bool.

Lemma lstrip_by_app pre x : forallb p pre = true -> lstrip_by p (pre ++ x) = lstrip_by p x.
Proof.
  induction pre as [|c pre IH]; intros H; [reflexivity|].
  cbn [forallb] in H. apply andb_true_iff in H. destruct H as [Hc Hp].
  cbn [app lstrip_by]. rewrite Hc. exact (IH Hp).
Qed.

Lemma lstrip_by_stop s d : p (hd d s) = false -> s <> [] -> lstrip_by p s = s.
Proof. destruct s as [|c t]; [congruence|]. cbn [hd lstrip_by]. intros -> _. reflexivity. Qed.

(* what is taken off is a run of stripped characters, and what is left does not start with one *)
Lemma lstrip_by_split s : exists pre, s = pre ++ lstrip_by p s /\ forallb p pre = true /\
  match lstrip_by p s with [] => True | c :: _ => p c = false end.
Proof.
  induction s as [|c t IH]; [exists []; repeat split|].
  cbn [lstrip_by]. destruct (p c) eqn:Hc.
  - destruct IH as (pre & H1 & H2 & H3). exists (c :: pre). cbn [app forallb]. rewrite Hc, H2.
    repeat split; [f_equal; exact H1|exact H3].
  - exists []. repeat split. exact Hc.
Qed.

Lemma strip_by_split s : exists pre post, s = pre ++ strip_by p s ++ post /\ forallb p pre = true /\ forallb p post = true.
Proof.
  unfold strip_by. destruct (lstrip_by_split s) as (pre & H1 & H2 & _).
  destruct (lstrip_by_split (rev (lstrip_by p s))) as (post & H3 & H4 & _).
  exists pre, (rev post). split; [|split; [exact H2|rewrite forallb_rev; exact H4]].
  rewrite <- rev_app_distr, <- H3, rev_involutive. exact H1.
Qed.

(* a core that neither starts nor ends with a stripped character, padded with stripped characters, is found again *)
Lemma strip_by_unique pre x post d : forallb p pre = true -> forallb p post = true ->
  x <> [] -> p (hd d x) = false -> p (last x d) = false -> strip_by p (pre ++ x ++ post) = x.
Proof.
  intros Hpre Hpost Hne Hh Hl. unfold strip_by. rewrite lstrip_by_app by exact Hpre.
  rewrite (lstrip_by_stop (x ++ post) d); [|destruct x; [congruence|exact Hh]|destruct x; [congruence|discriminate]].
  rewrite rev_app_distr, lstrip_by_app by (rewrite forallb_rev; exact Hpost).
  rewrite (lstrip_by_stop (rev x) d).
  - apply rev_involutive.
  - rewrite hd_rev_last by exact Hne. exact Hl.
  - intros E. apply (f_equal (@length N)) in E. rewrite rev_length in E. destruct x; [congruence|discriminate].
Qed.

Lemma strip_by_ends x d : x <> [] -> p (hd d x) = false -> p (last x d) = false -> strip_by p x = x.
Proof.
  intros Hne Hh Hl. pose proof (strip_by_unique [] x [] d eq_refl eq_refl Hne Hh Hl) as E.
  cbn [app] in E. rewrite app_nil_r in E. exact E.
Qed.
End StripBy.

Lemma lstrip_nospace c t : is_space c = false -> lstrip (c :: t) = c :: t.
Proof. intros H. cbn [lstrip]. rewrite H. reflexivity. Qed.

Lemma int_space_is_space c : is_space c = false -> int_space c = false.
Proof. intros H. unfold int_space. rewrite H. reflexivity. Qed.
Lemma ilstrip_nospace c t : int_space c = false -> ilstrip (c :: t) = c :: t.
Proof. intros H. cbn [ilstrip]. rewrite H. reflexivity. Qed.

Lemma lstrip_digits s : all_ascii_digits s = true -> lstrip s = s.
Proof.
  destruct s as [|c t]; [reflexivity|]. cbn [all_ascii_digits forallb]. intros H.
  apply andb_true_iff in H. destruct H as [Hc _].
  apply lstrip_nospace, is_space_ascii_digit, Hc.
Qed.

Lemma ilstrip_digits s : all_ascii_digits s = true -> ilstrip s = s.
Proof.
  destruct s as [|c t]; [reflexivity|]. cbn [all_ascii_digits forallb]. intros H.
  apply andb_true_iff in H. destruct H as [Hc _].
  apply ilstrip_nospace, int_space_is_space, is_space_ascii_digit, Hc.
Qed.

Lemma digits_ends s d : all_ascii_digits s = true -> s <> [] ->
  ascii_digit (hd d s) = true /\ ascii_digit (last s d) = true.
Proof.
  unfold all_ascii_digits. rewrite forallb_forall. intros H Hne. split; apply H.
  - destruct s; [congruence|left; reflexivity].
  - destruct (exists_last Hne) as (s' & a & ->). rewrite last_last. apply in_or_app. right. left. reflexivity.
Qed.

(* digits, and '-' digits, are left alone by any strip that strips neither a digit nor '-' *)
Lemma strip_by_digits p s : (forall c, ascii_digit c = true -> p c = false) -> all_ascii_digits s = true -> strip_by p s = s.
Proof.
  intros Hp Hd. destruct s as [|c t]; [reflexivity|]. destruct (digits_ends (c :: t) 0 Hd) as [Hh Hl]; [discriminate|].
  apply (strip_by_ends p _ 0); [discriminate|apply Hp, Hh|apply Hp, Hl].
Qed.

Lemma strip_by_minus_digits p s : p 45 = false -> (forall c, ascii_digit c = true -> p c = false) ->
  all_ascii_digits s = true -> strip_by p (45 :: s) = 45 :: s.
Proof.
  intros H45 Hp Hd. apply (strip_by_ends p _ 0); [discriminate|exact H45|].
  destruct s as [|c t]; [exact H45|]. change (last (45 :: c :: t) 0) with (last (c :: t) 0).
  apply Hp, (digits_ends (c :: t) 0 Hd). discriminate.
Qed.

Lemma int_space_ascii_digit c : ascii_digit c = true -> int_space c = false.
Proof. intros H. apply int_space_is_space, is_space_ascii_digit, H. Qed.

Lemma strip_digits s : all_ascii_digits s = true -> strip s = s.
Proof. rewrite strip_is_by. apply strip_by_digits, is_space_ascii_digit. Qed.

Lemma istrip_digits s : all_ascii_digits s = true -> istrip s = s.
Proof. rewrite istrip_is_by. apply strip_by_digits, int_space_ascii_digit. Qed.

Lemma istrip_minus_digits s : all_ascii_digits s = true -> istrip (45 :: s) = 45 :: s.
Proof. rewrite istrip_is_by. apply strip_by_minus_digits; [reflexivity|exact int_space_ascii_digit]. Qed.

Lemma strip_minus_digits s : all_ascii_digits s = true -> strip (45 :: s) = 45 :: s.
Proof. rewrite strip_is_by. apply strip_by_minus_digits; [reflexivity|exact is_space_ascii_digit]. Qed.

(* tables: every decimal-digit block starts at 48 or above 126, and none meets a whitespace range *)
Definition nd_table_ok : bool :=
  forallb (fun s => (s =? 48) || (127 <=? s)) nd_starts &&
  forallb (fun s => forallb (fun r => (s + 9 <? fst r) || (snd r <? s)) py_space) nd_starts.
Lemma nd_table_ok_true : nd_table_ok = true.
Proof. vm_compute. reflexivity. Qed.

Lemma digit_in_props c : forall starts d,
  forallb (fun s => (s =? 48) || (127 <=? s)) starts = true ->
  forallb (fun s => forallb (fun r => (s + 9 <? fst r) || (snd r <? s)) py_space) starts = true ->
  digit_in c starts = Some d ->
  d < 10 /\ (c < 127 -> c = 48 + d) /\ (127 <= c -> is_space c = false).
Proof.
  induction starts as [|s t IH]; intros d H1 H2 H; cbn [digit_in] in H; [discriminate|].
  cbn [forallb] in H1, H2. apply andb_true_iff in H1. destruct H1 as [H1 H1'].
  apply andb_true_iff in H2. destruct H2 as [H2 H2'].
  destruct ((s <=? c) && (c <? s + 10)) eqn:E; [|apply (IH d H1' H2' H)].
  injection H as <-. split; [lia|]. split; [lia|].
  intros _. unfold is_space. clear IH H1 H1' H2'.
  induction py_space as [|[lo hi] r IHr]; [reflexivity|].
  cbn [forallb fst snd] in H2. apply andb_true_iff in H2. destruct H2 as [Ha Hb].
  cbn [cmem]. rewrite (IHr Hb). replace ((lo <=? c) && (c <=? hi)) with false by lia. reflexivity.
Qed.

Lemma digit_val_props c d : digit_val c = Some d ->
  d < 10 /\ (c < 127 -> c = 48 + d) /\ (127 <= c -> is_space c = false).
Proof.
  pose proof nd_table_ok_true as T. unfold nd_table_ok in T. apply andb_true_iff in T. destruct T as [T1 T2].
  exact (digit_in_props c _ d T1 T2).
Qed.

(* a decimal digit is not one of the blanks int() skips *)
Lemma digit_not_space c : is_digit c = true -> int_space c = false.
Proof.
  unfold is_digit. destruct (digit_val c) as [d|] eqn:E; [|discriminate]. intros _.
  destruct (digit_val_props c d E) as (Hd & Hlo & Hhi). apply int_space_is_space.
  destruct (N.lt_ge_cases c 127) as [L|G]; [|exact (Hhi G)].
  apply is_space_ascii_digit. unfold ascii_digit. rewrite (Hlo L). lia.
Qed.

(* int() of a plain ASCII digit string is its decimal value *)
Lemma py_int_digits s : all_ascii_digits s = true -> s <> [] ->
  py_int s = Some (Z.of_N (dval s 0)).
Proof.
  intros Hd Hne. unfold py_int. rewrite (istrip_digits s Hd).
  destruct s as [|c t]; [congruence|].
  assert (Hc : ascii_digit c = true) by (cbn in Hd; apply andb_true_iff in Hd; tauto).
  destruct (ascii_digit_not_sign c Hc) as (-> & -> & _).
  rewrite digits_us_ascii; [reflexivity|exact Hd|left; discriminate].
Qed.

Theorem py_int_dec_of_Z z : py_int (dec_of_Z z) = Some z.
Proof.
  destruct z as [|p|p]; unfold dec_of_Z.
  - reflexivity.
  - rewrite py_int_digits by (apply dec_of_N_digits || apply dec_of_N_nonnil).
    rewrite dval_dec_of_N. reflexivity.
  - unfold py_int. rewrite istrip_minus_digits by apply dec_of_N_digits.
    cbn [N.eqb Pos.eqb].
    rewrite digits_us_ascii; [|apply dec_of_N_digits|left; apply dec_of_N_nonnil].
    rewrite dval_dec_of_N. reflexivity.
Qed.
