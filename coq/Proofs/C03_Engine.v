(* Proofs/C03_Engine.v — further lemmas about the capture engine (Model/Insp_Engine.v) needed by C03:
   regions that keep their place, fresh region identities, the "quiescent" step (a complete inspector
   whose post_process has settled is not changed by further chunks), and what the last post_process
   call of a successful eat_chunk saw. *)
Require Import OV.Base.Bytes OV.Base.Py OV.Base.Insp_Struct OV.Gen.Insp_Consts OV.Model.Insp_Engine.
Require Import OV.Proofs.Insp_Engine OV.Proofs.Insp_EngineEquiv.
Open Scope N_scope.

(* ------------------------------------------------------------------ the last post_process of a successful eat_chunk *)
Section LastPost.
Context {X : Type}.
Variable F : fmt X.
Variable c : bytes.
(* as in Insp_Engine.pres_eat_chunk: P0 before the call, P from the first capture on *)
Variables P0 P : ist X -> Prop.
Hypothesis Pfirst : forall s, P0 s -> i_fin s = false ->
  P (set_regs (set_pos s (i_pos s + flen c)) (capture_regs [] c (i_pos s + flen c) (i_regs s))).
Hypothesis Pcap : forall s only, P s -> i_fin s = false -> P (set_regs s (capture_regs only c (i_pos s) (i_regs s))).
Hypothesis Ppost : forall s s' e, P s -> f_post F s = (s', e) -> P s'.

(* the state the last post_process call of a successful eat_chunk was made on satisfies P *)
Lemma settle_last_P : forall fuel known (s s' : ist X),
  P s -> settle fuel F c known s = (s', None) ->
  (s' = s /\ new_names known (i_regs s) = []) \/
  (exists sa, P sa /\ f_post F sa = (s', None) /\ new_names (ids (i_regs sa)) (i_regs s') = []).
Proof.
  induction fuel as [|fuel IH]; intros known s s' HP H; cbn [settle] in H.
  - destruct (new_names known (i_regs s)) eqn:Hn; inversion H; subst. left. auto.
  - destruct (new_names known (i_regs s)) as [|n0 new] eqn:Hn; [inversion H; subst; left; auto|].
    destruct (do_capture (n0 :: new) c s) as [s1 [e1|]] eqn:Hc; [discriminate|].
    pose proof (pres_do_capture c P Pcap _ _ _ _ HP Hc) as HP1.
    destruct (f_post F s1) as [s2 [e2|]] eqn:Hp; [discriminate|].
    pose proof (Ppost _ _ _ HP1 Hp) as HP2.
    destruct (IH _ _ _ HP2 H) as [[-> Hnn]|Hr].
    + right. exists s1. auto.
    + right. exact Hr.
Qed.

Theorem eat_last_post_P s s' :
  P0 s -> eat_chunk F s c = (s', None) ->
  exists sa s3 names, P sa /\ f_post F sa = (s3, None) /\ new_names (ids (i_regs sa)) (i_regs s3) = [] /\
                      run_callbacks F names s3 = (s', None) /\ i_fin s = false.
Proof.
  intros H0 He. unfold eat_chunk, do_capture in He. cbn [set_pos i_fin i_regs i_pos] in He.
  destruct (i_fin s) eqn:Hfin; [discriminate|].
  pose proof (Pfirst s H0 Hfin) as H1.
  set (s1 := set_regs (set_pos s (i_pos s + flen c)) (capture_regs [] c (i_pos s + flen c) (i_regs s))) in *.
  destruct (f_post F s1) as [s2 [e2|]] eqn:Hp; [discriminate|].
  pose proof (Ppost _ _ _ H1 Hp) as H2.
  destruct (settle eat_fuel F c (ids (i_regs s)) s2) as [s3 [e3|]] eqn:Hs; [discriminate|].
  destruct (settle_last_P _ _ _ _ H2 Hs) as [[-> Hnn]|(sa & HPa & Hpa & Hna)].
  - exists s1, s2, (newly_complete (complete_ids (i_regs s)) (i_regs s2)). repeat split; auto.
    subst s1. cbn [set_regs i_regs]. rewrite capture_regs_ids. exact Hnn.
  - exists sa, s3, (newly_complete (complete_ids (i_regs s)) (i_regs s3)). repeat split; auto.
Qed.
End LastPost.

(* eat_chunk returned normally: the state before the region_complete callbacks is the result of a
   post_process call that created no region *)
Theorem eat_last_post {X} (F : fmt X) (s s' : ist X) c :
  eat_chunk F s c = (s', None) ->
  exists sa s3 names, f_post F sa = (s3, None) /\ new_names (ids (i_regs sa)) (i_regs s3) = [] /\
                      run_callbacks F names s3 = (s', None) /\ i_fin s = false.
Proof.
  intros He. destruct (eat_last_post_P F c (fun _ => True) (fun _ => True)) with (s := s) (s' := s')
    as (sa & s3 & names & _ & H); auto. eauto.
Qed.

Lemma rget_rset_same n r' l r : rget n l = Some r -> rget n (rset n r' l) = Some r'.
Proof. exact (OV.Proofs.Insp_Engine.rget_rset_same n r' l r). Qed.

(* a fixed region keeps everything but its data under capture *)
Lemma cap1_fixed only c pos n r : r_end r = false ->
  let r' := snd (cap1 only c pos (n, r)) in
  r_end r' = false /\ r_off r' = r_off r /\ r_len r' = r_len r /\ r_min r' = r_min r /\ r_fin r' = r_fin r /\ r_id r' = r_id r.
Proof.
  intros He. cbv zeta. unfold cap1.
  destruct (match only with [] => false | _ :: _ => negb (mem_rname n only) end); [cbn [snd]; repeat split; auto|].
  destruct (r_end r || negb (rcomplete r)); cbn [snd]; [|repeat split; auto].
  unfold rcapture. rewrite He. unfold cap_fixed. cbv zeta.
  match goal with |- context [if ?b then _ else _] => destruct b end;
    cbn [set_data r_end r_off r_len r_min r_fin r_id]; repeat split; auto.
Qed.

(* a complete fixed region is not touched by capture *)
Lemma cap1_complete only c pos n r : r_end r = false -> rcomplete r = true -> cap1 only c pos (n, r) = (n, r).
Proof.
  intros He Hc. unfold cap1. destruct (match only with [] => false | _ :: _ => negb (mem_rname n only) end); [reflexivity|].
  rewrite He, Hc. reflexivity.
Qed.

(* region [n] exists, is a plain CaptureRegion at [off] with length [len] and min_length [mn] *)
Definition has_fixed (n : rname) (off len : N) (mn : option N) (l : regions) : Prop :=
  exists r, rget n l = Some r /\ r_end r = false /\ r_off r = off /\ r_len r = len /\ r_min r = mn.

Lemma has_fixed_capture n off len mn only c pos l :
  has_fixed n off len mn l -> has_fixed n off len mn (capture_regs only c pos l).
Proof.
  intros (r & Hg & He & Ho & Hl & Hm). unfold has_fixed. rewrite rget_capture, Hg. cbn [option_map].
  destruct (cap1_fixed only c pos n r He) as (H1 & H2 & H3 & H4 & _).
  eexists. split; [reflexivity|]. repeat split; congruence.
Qed.

Lemma has_fixed_new_region {X} n off len mn m sp (s s' : ist X) e :
  has_fixed n off len mn (i_regs s) -> new_region m sp s = (s', e) -> has_fixed n off len mn (i_regs s').
Proof.
  intros H Hn. unfold new_region in Hn. destruct (has_region m s); inversion Hn; subst; [exact H|].
  cbn [i_regs]. destruct H as (r & Hg & Hr). exists r. split; [apply rget_app_some; exact Hg | exact Hr].
Qed.

Lemma has_fixed_finish {X} n off len mn (s : ist X) :
  has_fixed n off len mn (i_regs s) -> has_fixed n off len mn (i_regs (finish s)).
Proof.
  intros (r & Hg & He & Hr). unfold has_fixed, finish. cbn [i_regs]. rewrite rget_finish, Hg. cbn [option_map]. rewrite He.
  exists r. auto.
Qed.

Definition ids_lt {X} (s : ist X) : Prop := forall id, In id (ids (i_regs s)) -> (id < i_next s)%nat.

Lemma ids_lt_add_check {X} k (s s' : ist X) e : ids_lt s -> add_check k s = (s', e) -> ids_lt s'.
Proof. intros H Ha. unfold add_check in Ha. destruct (mem_cname k (i_checks s)); inversion Ha; subst; exact H. Qed.
Lemma ids_lt_rset {X} (s : ist X) n m m' :
  ids_lt s -> rget n (i_regs s) = Some m -> r_id m' = r_id m -> ids_lt (set_regs s (rset n m' (i_regs s))).
Proof. unfold ids_lt. cbn [set_regs i_regs i_next]. intros H Hg Hi. rewrite (rset_ids _ _ _ _ Hg Hi). exact H. Qed.
Lemma ids_lt_finish {X} (s : ist X) : ids_lt s -> ids_lt (finish s).
Proof.
  unfold ids_lt, finish, ids. cbn [i_regs i_next]. intros H id Hin. apply H. rewrite map_map in Hin.
  apply in_map_iff in Hin. destruct Hin as (p & <- & Hp). apply in_map_iff. exists p. split; [|exact Hp].
  cbn [snd]. destruct (r_end (snd p)); reflexivity.
Qed.

(* ------------------------------------------------------------------ well-formed dictionaries: fresh identities, unique names *)
Definition wf {X} (s : ist X) : Prop := ids_lt s /\ NoDup (map fst (i_regs s)).

(* it is what Insp_EngineEquiv.Wf says without the uniqueness of the identities; the lemmas about Wf serve *)
Lemma wf_of_Wf {X} (s : ist X) : Wf s -> wf s.
Proof. intros (Hn & _ & Hl). split; [|exact Hn]. intros id Hin. rewrite Forall_forall in Hl. exact (Hl id Hin). Qed.

Lemma wf_finish {X} (s : ist X) : wf s -> wf (finish s).
Proof. intros [H1 H2]. split; [apply ids_lt_finish; exact H1 | unfold finish; cbn [i_regs]; rewrite map_map; exact H2]. Qed.


(* a region whose identity is not below [k] is new with respect to identities below [k] *)
Definition fresh_in (k : nat) (l : regions) : Prop := exists p, In p l /\ (k <= r_id (snd p))%nat.
Lemma fresh_new_names known k l : (forall id, In id known -> (id < k)%nat) -> fresh_in k l -> new_names known l <> [].
Proof.
  intros Hk ([n r] & Hin & Hid) Hnil. cbn [snd] in Hid.
  assert (H : In n (new_names known l)).
  { apply new_names_In. exists r. split; [exact Hin|]. intros Hi. specialize (Hk _ Hi). lia. }
  rewrite Hnil in H. exact H.
Qed.

Lemma new_region_none {X} n sp (s s' : ist X) : new_region n sp s = (s', None) ->
  i_regs s' = i_regs s ++ [(n, region_of_spec (i_next s) sp)] /\ i_next s' = S (i_next s).
Proof. unfold new_region. destruct (has_region n s); intros H; inversion H; subst. split; reflexivity. Qed.
(* a region created now is new with respect to the identities that existed *)
Lemma new_region_is_new {X} n sp (s s' : ist X) :
  ids_lt s -> new_region n sp s = (s', None) -> new_names (ids (i_regs s)) (i_regs s') <> [].
Proof.
  intros Hlt Hn. destruct (new_region_none _ _ _ _ Hn) as [Hr _]. apply (fresh_new_names _ (i_next s)); [exact Hlt|].
  exists (n, region_of_spec (i_next s) sp). rewrite Hr. split; [apply in_elt | apply le_n].
Qed.
Lemma add_check_none {X} k (s s' : ist X) : add_check k s = (s', None) -> i_regs s' = i_regs s /\ i_next s' = i_next s.
Proof. unfold add_check. destruct (mem_cname k (i_checks s)); intros H; inversion H; subst. split; reflexivity. Qed.
Lemma delete_region_none {X} n (s s' : ist X) : delete_region n s = (s', None) ->
  i_regs s' = rdel n (i_regs s) /\ i_next s' = i_next s.
Proof. unfold delete_region. destruct (has_region n s); intros H; inversion H; subst. split; reflexivity. Qed.

Lemma capture_noop only c pos l :
  (forall p, In p l -> r_end (snd p) = false /\ rcomplete (snd p) = true) -> capture_regs only c pos l = l.
Proof.
  intros H. rewrite capture_regs_map. induction l as [|[n r] t IH]; [reflexivity|]. cbn [map].
  destruct (H (n, r) (or_introl eq_refl)) as [He Hc]. cbn [snd] in *.
  rewrite (cap1_complete only c pos n r He Hc). f_equal. apply IH. intros p Hp. apply H. right. exact Hp.
Qed.

Lemma newly_complete_nil l : newly_complete (complete_ids l) l = [].
Proof.
  unfold newly_complete, complete_ids.
  set (known := ids (filter (fun p : rname * region => rcomplete (snd p)) l)).
  assert (G : forall l0 : regions,
              (forall p, In p l0 -> rcomplete (snd p) = true -> In (r_id (snd p)) known) ->
              filter (fun p : rname * region => rcomplete (snd p) && negb (mem_nat (r_id (snd p)) known)) l0 = []).
  { induction l0 as [|p t IH]; intros H; [reflexivity|]. cbn [filter].
    destruct (rcomplete (snd p)) eqn:Hc; cbn [andb].
    - assert (Hm : mem_nat (r_id (snd p)) known = true).
      { apply mem_nat_In. apply H; [left; reflexivity | exact Hc]. }
      rewrite Hm. cbn [negb]. apply IH. intros q Hq. apply H. right. exact Hq.
    - apply IH. intros q Hq. apply H. right. exact Hq. }
  rewrite G; [reflexivity|]. intros p Hp Hc. subst known. unfold ids. apply in_map_iff. exists p. split; [reflexivity|].
  apply filter_In. auto.
Qed.

Lemma set_regs_same {X} (s : ist X) : set_regs s (i_regs s) = s.
Proof. destruct s; reflexivity. Qed.

(* an inspector that is complete, has no EndCaptureRegion, is not finished and whose post_process
   changes nothing, is left as it is by any chunk (only the position advances), without exception *)
Theorem eat_quiescent {X} (F : fmt X) (s : ist X) c :
  i_fin s = false -> complete s = true -> (forall p, In p (i_regs s) -> r_end (snd p) = false) ->
  f_post F (set_pos s (i_pos s + flen c)) = (set_pos s (i_pos s + flen c), None) ->
  eat_chunk F s c = (set_pos s (i_pos s + flen c), None).
Proof.
  intros Hfin Hc Hend Hpost. unfold eat_chunk, do_capture. cbn [set_pos i_fin i_regs i_pos]. rewrite Hfin.
  assert (Hall : forall p, In p (i_regs s) -> r_end (snd p) = false /\ rcomplete (snd p) = true).
  { intros p Hp. split; [apply Hend; exact Hp|]. unfold complete in Hc. rewrite forallb_forall in Hc. apply Hc. exact Hp. }
  rewrite (capture_noop [] c _ _ Hall).
  replace (set_regs (set_pos s (i_pos s + flen c)) (i_regs s))
    with (set_pos s (i_pos s + flen c)) by (destruct s; reflexivity).
  rewrite Hpost. unfold eat_fuel. cbn [settle set_pos i_regs].
  rewrite new_names_nil; [|intros p Hp; unfold ids; apply in_map_iff; exists p; auto].
  rewrite newly_complete_nil. reflexivity.
Qed.

(* finish never un-completes an inspector *)
Lemma rcomplete_set_fin r : rcomplete r = true -> rcomplete (if r_end r then set_fin r true else r) = true.
Proof.
  unfold rcomplete, base_complete. destruct (r_end r) eqn:He; cbn [set_fin r_end r_min r_len r_data r_fin]; [|rewrite He; auto].
  rewrite He. intros H. apply andb_true_iff in H. destruct H as [H _]. rewrite H. reflexivity.
Qed.
Lemma complete_finish {X} (s : ist X) : complete s = true -> complete (finish s) = true.
Proof.
  unfold complete, finish. cbn [i_regs]. rewrite !forallb_forall. intros H p Hp.
  apply in_map_iff in Hp. destruct Hp as (q & <- & Hq). cbn [snd]. apply rcomplete_set_fin. apply H. exact Hq.
Qed.
