(* Proofs/C03_Stable.v — decision_stable: once an inspector is complete at a chunk boundary (a state
   left by an eat_chunk that returned normally, or the fresh state), every further chunk leaves its
   regions and private attributes untouched (only the position moves), so complete and format_match
   keep their values for EVERY continuation; finish keeps them too.  Lifted through the wrapper: a
   non-None format reported after some read is not revised by further reads nor by close(). *)
Require Import OV.Base.Bytes OV.Base.Py OV.Base.C06_WrapShape OV.Base.Insp_Struct.
Require Import OV.Gen.Insp_Consts OV.Gen.C06_Wrapper OV.Model.Insp_Engine.
Require Import OV.Model.Insp_Raw OV.Model.Insp_Qcow2 OV.Model.Insp_Qed OV.Model.Insp_Vhd OV.Model.Insp_Vdi
               OV.Model.Insp_Iso OV.Model.Insp_Gpt OV.Model.Insp_Luks OV.Model.Insp_Vhdx OV.Model.Insp_Vmdk OV.Model.Insp_All.
Require Import OV.Model.Wrap OV.Model.C03.
Require Import OV.Proofs.Insp_Engine OV.Proofs.Insp_FmtOk OV.Proofs.Insp_StaticQcow OV.Proofs.Insp_All.
Require Import OV.Proofs.Insp_EngineEquiv OV.Proofs.Insp_FormatEquiv.
Require Import OV.Proofs.C03_Engine OV.Proofs.C03_Total OV.Proofs.C03_Sig OV.Proofs.Wrap OV.Proofs.C06 OV.Proofs.C03_Wrap.
Open Scope N_scope.

(* ------------------------------------------------------------------ quiet states (engine level) *)
Section Quiet.
Context {X : Type}.
Variable F : fmt X.

(* post_process does nothing on this state, whatever the position and the private attributes *)
Definition quiet (s : ist X) : Prop :=
  forall p x, f_post F (set_pos (set_ext s x) p) = (set_pos (set_ext s x) p, None).

Lemma quiet_ext s x : quiet s -> quiet (set_ext s x).
Proof. intros H p x'. replace (set_ext (set_ext s x) x') with (set_ext s x') by (destruct s; reflexivity). apply H. Qed.
Lemma quiet_pos s p : quiet s -> quiet (set_pos s p).
Proof.
  intros H p' x. replace (set_pos (set_ext (set_pos s p) x) p') with (set_pos (set_ext s x) p') by (destruct s; reflexivity). apply H.
Qed.
Lemma quiet_post s p : quiet s -> f_post F (set_pos s p) = (set_pos s p, None).
Proof. intros H. specialize (H p (i_ext s)). replace (set_ext s (i_ext s)) with s in H by (destruct s; reflexivity). exact H. Qed.

(* what a format has to provide (besides keeping the dictionary well formed, Insp_EngineEquiv.hooks_wf) *)
Definition settles : Prop :=
  forall sa sb, Wf sa -> f_post F sa = (sb, None) -> new_names (ids (i_regs sa)) (i_regs sb) = [] -> quiet sb.

(* the boundary invariant: a well-formed dictionary and a settled post_process *)
Definition good (s : ist X) : Prop := wf s /\ quiet s.

Theorem good_eat s c s' : settles -> ext_only F -> hooks_wf F -> Wf s -> eat_chunk F s c = (s', None) -> good s'.
Proof.
  intros Hset Hext [Hp Hc] HW He.
  assert (Hrc : forall n s0 s1 e, Wf s0 -> f_rcomplete F n s0 = (s1, e) -> Wf s1) by (intros n s0 s1 e H0 H; apply (Hc n s0 s1 e H0 H)).
  split; [apply wf_of_Wf; exact (pres_eat_chunk_simple F Wf Wf_set_pos Wf_capture Hp Hrc _ _ _ _ HW He)|].
  assert (A1 : forall s0 : ist X, Wf s0 -> i_fin s0 = false ->
                Wf (set_regs (set_pos s0 (i_pos s0 + flen c)) (capture_regs [] c (i_pos s0 + flen c) (i_regs s0)))).
  { intros s0 H _. apply (Wf_capture (set_pos s0 (i_pos s0 + flen c))), Wf_set_pos. exact H. }
  assert (A3 : forall (s0 : ist X) only, Wf s0 -> i_fin s0 = false -> Wf (set_regs s0 (capture_regs only c (i_pos s0) (i_regs s0)))).
  { intros s0 only H _. apply Wf_capture. exact H. }
  destruct (eat_last_post_P F c Wf Wf A1 A3 Hp s s' HW He) as (sa & s3 & names & Ha & Hpa & Hn & Hcb & _).
  destruct (callbacks_ext_only F Hext _ _ _ _ Hcb) as (x & ->). apply quiet_ext. eapply Hset; eauto.
Qed.

Lemma good_pos s p : good s -> good (set_pos s p).
Proof. intros [H1 H2]. split; [exact H1 | apply quiet_pos; exact H2]. Qed.

(* THE STEP: a quiet, complete state without EndCaptureRegion is left as it is by any chunk *)
Theorem quiet_step s c :
  quiet s -> Insp_Engine.complete s = true -> (forall p, In p (i_regs s) -> r_end (snd p) = false) ->
  eat_chunk F s c = (set_pos s (i_pos s + flen c), if i_fin s then Some RuntimeError else None).
Proof.
  intros Hq Hc Hend. destruct (i_fin s) eqn:Hfin.
  - apply eat_finished. exact Hfin.
  - apply eat_quiescent; auto. apply quiet_post. exact Hq.
Qed.
End Quiet.

Lemma settles_no_post {X} (F : fmt X) : f_post F = no_post -> settles F.
Proof. intros H sa sb _ _ _ p x. rewrite H. reflexivity. Qed.
Lemma quiet_no_post {X} (F : fmt X) s : f_post F = no_post -> quiet F s.
Proof. intros H p x. rewrite H. reflexivity. Qed.

(* ------------------------------------------------------------------ VHDX *)
(* post_process reads and writes the region dictionary only *)
Lemma vhdx_find_meta_entry_frame g (s : ist unit) p :
  vhdx_find_meta_entry g (set_pos s p) = (set_pos (fst (vhdx_find_meta_entry g s)) p, snd (vhdx_find_meta_entry g s)).
Proof.
  unfold vhdx_find_meta_entry, get_region. cbn [set_pos i_regs].
  destruct (rget R_metadata (i_regs s)) as [m|]; [|reflexivity].
  destruct (flen (r_data m) <? VHDX_MT_MIN); [reflexivity|].
  destruct (unpack sf_vhdx_mt_hdr _); [|reflexivity].
  destruct (negb (beq _ _)); [reflexivity|].
  destruct (flen (r_data m) <? _); [reflexivity|].
  destruct (VHDX_MT_LIMIT <=? _); [reflexivity|].
  destruct (vhdx_mt_loop _ _ _) as [[[io il]|]|]; reflexivity.
Qed.

Lemma new_region_frame {X} n sp (s : ist X) p x :
  new_region n sp (set_pos (set_ext s x) p) = (set_pos (set_ext (fst (new_region n sp s)) x) p, snd (new_region n sp s)).
Proof. unfold new_region, has_region. cbn [set_pos set_ext i_regs]. destruct (rhas n (i_regs s)); reflexivity. Qed.
Lemma delete_region_frame {X} n (s : ist X) p x :
  delete_region n (set_pos (set_ext s x) p) = (set_pos (set_ext (fst (delete_region n s)) x) p, snd (delete_region n s)).
Proof. unfold delete_region, has_region. cbn [set_pos set_ext i_regs]. destruct (rhas n (i_regs s)); reflexivity. Qed.
Lemma add_check_frame {X} k (s : ist X) p x :
  add_check k (set_pos (set_ext s x) p) = (set_pos (set_ext (fst (add_check k s)) x) p, snd (add_check k s)).
Proof. unfold add_check. cbn [set_pos set_ext i_checks]. destruct (mem_cname k (i_checks s)); reflexivity. Qed.

Lemma unit_ext (s : ist unit) x : set_ext s x = s.
Proof. destruct s as [a b c d e []]. destruct x. reflexivity. Qed.

Lemma vhdx_post_frame (s : ist unit) p :
  vhdx_post (set_pos s p) = (set_pos (fst (vhdx_post s)) p, snd (vhdx_post s)).
Proof.
  unfold vhdx_post.
  change (get_region R_header (set_pos s p)) with (get_region R_header s).
  change (has_region R_metadata (set_pos s p)) with (has_region R_metadata s).
  change (has_region R_vds (set_pos s p)) with (has_region R_vds s).
  change (vhdx_find_meta_region (set_pos s p)) with (vhdx_find_meta_region s).
  destruct (get_region R_header s) as [h|]; [|reflexivity].
  destruct (rcomplete h && negb (has_region R_metadata s)).
  - destruct (vhdx_find_meta_region s) as [[sp|]|]; try reflexivity.
    pose proof (new_region_frame R_metadata sp s p tt) as Hn. rewrite !unit_ext in Hn.
    rewrite Hn. destruct (new_region R_metadata sp s); reflexivity.
  - destruct (has_region R_metadata s && negb (has_region R_vds s)); [|reflexivity].
    rewrite vhdx_find_meta_entry_frame.
    destruct (vhdx_find_meta_entry VHDX_GUID_VIRTUAL_DISK_SIZE s) as [s1 r]. cbn [fst snd].
    destruct r as [[sp|]|]; try reflexivity.
    pose proof (new_region_frame R_vds sp s1 p tt) as Hn. rewrite !unit_ext in Hn.
    rewrite Hn. destruct (new_region R_vds sp s1); reflexivity.
Qed.

Lemma vhdx_quiet_of_id (s : ist unit) : vhdx_post s = (s, None) -> quiet vhdx_fmt s.
Proof.
  intros H p x. cbn [f_post vhdx_fmt]. rewrite unit_ext, vhdx_post_frame, H. reflexivity.
Qed.

Lemma vhdx_find_meta_entry_none g (s s' : ist unit) r :
  vhdx_find_meta_entry g s = (s', r) -> (forall sp, r <> Ok (Some sp)) -> s' = s.
Proof.
  unfold vhdx_find_meta_entry, get_region. intros H Hr.
  destruct (rget R_metadata (i_regs s)) as [m|]; [|inversion H; reflexivity].
  destruct (flen (r_data m) <? VHDX_MT_MIN); [inversion H; reflexivity|].
  destruct (unpack sf_vhdx_mt_hdr _); [|inversion H; reflexivity].
  destruct (negb (beq _ _)); [inversion H; reflexivity|].
  destruct (flen (r_data m) <? _); [inversion H; reflexivity|].
  destruct (VHDX_MT_LIMIT <=? _); [inversion H; reflexivity|].
  destruct (vhdx_mt_loop _ _ _) as [[[io il]|]|]; inversion H; subst; try reflexivity.
  exfalso. eapply Hr. reflexivity.
Qed.

Lemma vhdx_settles : settles vhdx_fmt.
Proof.
  intros sa sb HW Hp Hn. destruct (wf_of_Wf _ HW) as [Hlt _]. apply vhdx_quiet_of_id. cbn [f_post vhdx_fmt] in Hp.
  assert (Hsame : sb = sa); [|rewrite Hsame in *; exact Hp].
  unfold vhdx_post in Hp.
  destruct (get_region R_header sa) as [h|]; [|discriminate].
  destruct (rcomplete h && negb (has_region R_metadata sa)).
  - destruct (vhdx_find_meta_region sa) as [[sp|]|]; [|inversion Hp; reflexivity|discriminate].
    exfalso. exact (new_region_is_new _ _ _ _ Hlt Hp Hn).
  - destruct (has_region R_metadata sa && negb (has_region R_vds sa)); [|inversion Hp; reflexivity].
    destruct (vhdx_find_meta_entry VHDX_GUID_VIRTUAL_DISK_SIZE sa) as [s1 r] eqn:Hf.
    destruct r as [[sp|]|]; [| |discriminate].
    + exfalso. destruct (vhdx_find_meta_entry_spec _ _ _ _ Hf) as [[->|(m & Hg & ->)] _].
      * exact (new_region_is_new _ _ _ _ Hlt Hp Hn).
      * (* the metadata region was cut to what it holds: same identities *)
        apply (new_region_is_new _ _ _ _ (ids_lt_rset sa R_metadata m (set_len m (flen (r_data m))) Hlt Hg eq_refl) Hp).
        cbn [set_regs i_regs]. rewrite (rset_ids R_metadata (set_len m (flen (r_data m))) (i_regs sa) m Hg eq_refl). exact Hn.
    + inversion Hp; subst. eapply vhdx_find_meta_entry_none; [exact Hf|]. intros sp. discriminate.
Qed.


(* no region is marked finished before finish() *)
Definition unfin {X} (s : ist X) : Prop := i_fin s = false -> forall p, In p (i_regs s) -> r_fin (snd p) = false.

Lemma cap1_fin only c pos p : r_fin (snd (cap1 only c pos p)) = r_fin (snd p).
Proof.
  destruct p as [n r]. unfold cap1. destruct (match only with [] => false | _ :: _ => negb (mem_rname n only) end); [reflexivity|].
  destruct (r_end r || negb (rcomplete r)); [|reflexivity]. cbn [snd]. unfold rcapture, cap_end, cap_fixed.
  destruct (r_end r); [reflexivity|]. cbv zeta. match goal with |- context [if ?b then _ else _] => destruct b end; reflexivity.
Qed.

Lemma unfin_regs {X} (s s' : ist X) :
  unfin s -> i_fin s' = i_fin s -> (forall p, In p (i_regs s') -> In p (i_regs s) \/ r_fin (snd p) = false) -> unfin s'.
Proof. intros H Hf Hr Hfin p Hp. rewrite Hf in Hfin. destruct (Hr p Hp) as [Hin|Hz]; [apply (H Hfin p Hin) | exact Hz]. Qed.

Lemma unfin_new_region {X} n sp (s s' : ist X) e : unfin s -> new_region n sp s = (s', e) -> unfin s'.
Proof.
  intros H Hn. unfold new_region in Hn. destruct (has_region n s); inversion Hn; subst; [exact H|].
  eapply unfin_regs; [exact H|reflexivity|]. cbn [i_regs]. intros p Hp. apply in_app_or in Hp.
  destruct Hp as [Hp|[<-|[]]]; [left; exact Hp | right; reflexivity].
Qed.
Lemma unfin_delete_region {X} n (s s' : ist X) e : unfin s -> delete_region n s = (s', e) -> unfin s'.
Proof.
  intros H Hd. unfold delete_region in Hd. destruct (has_region n s); inversion Hd; subst; [|exact H].
  eapply unfin_regs; [exact H|reflexivity|]. cbn [set_regs i_regs]. intros p Hp. left. eapply rdel_In; eauto.
Qed.
Lemma unfin_add_check {X} k (s s' : ist X) e : unfin s -> add_check k s = (s', e) -> unfin s'.
Proof. intros H Ha. unfold add_check in Ha. destruct (mem_cname k (i_checks s)); inversion Ha; subst; exact H. Qed.

Lemma vmdk_unfin st s : reach vmdk_fmt st s -> unfin s.
Proof.
  intros Hr. refine (reach_pres vmdk_fmt unfin _ _ _ _ _ st s _ Hr).
  - intros s0 p H. exact H.
  - intros s0 only c pos H Hfin p Hp. cbn [set_regs i_regs i_fin] in *. rewrite capture_regs_map in Hp.
    apply in_map_iff in Hp. destruct Hp as (q & <- & Hq). rewrite cap1_fin. apply (H Hfin q Hq).
  - intros s0 s1 e H Hp. apply (acts_pres vmdk_creates vmdk_deletes (fun _ => False) unfin) with (s := s0); [| | | |exact (vmdk_post_acts _ _ _ Hp)|exact H].
    + intros n sp s2 s3 e0 _ H0 Hn. eapply unfin_new_region; eauto.
    + intros n s2 s3 e0 _ H0 Hd. eapply unfin_delete_region; eauto.
    + intros k s2 s3 e0 H0 Ha. eapply unfin_add_check; eauto.
    + intros n m s2 [].
  - intros n s0 s1 e H Hc. destruct (vmdk_rc_ext _ _ _ _ Hc) as (x & ->). exact H.
  - intros s0 _ Hfin. discriminate Hfin.
  - intros _ p Hp. cbn in Hp. destruct Hp as [<-|[<-|[]]]; reflexivity.
Qed.

(* a complete VMDK inspector that is not finished has no EndCaptureRegion *)
Lemma vmdk_complete_no_end st s :
  reach vmdk_fmt st s -> i_fin s = false -> Insp_Engine.complete s = true -> forall p, In p (i_regs s) -> r_end (snd p) = false.
Proof.
  intros Hr Hfin Hc p Hp. pose proof (vmdk_unfin st s Hr Hfin p Hp) as Hf.
  unfold Insp_Engine.complete in Hc. rewrite forallb_forall in Hc. specialize (Hc p Hp). unfold rcomplete in Hc.
  destruct (r_end (snd p)); [|reflexivity]. rewrite Hf, andb_false_r in Hc. discriminate.
Qed.

(* post_process reads and writes regions, checks and the id counter only *)
Lemma vmdk_post_frame (s : ist vx) p x :
  vmdk_post (set_pos (set_ext s x) p) = (set_pos (set_ext (fst (vmdk_post s)) x) p, snd (vmdk_post s)).
Proof.
  set (T := fun s0 : ist vx => set_pos (set_ext s0 x) p).
  change (vmdk_post (T s) = (T (fst (vmdk_post s)), snd (vmdk_post s))).
  assert (Tnew : forall n sp s0, new_region n sp (T s0) = (T (fst (new_region n sp s0)), snd (new_region n sp s0))).
  { intros. apply new_region_frame. }
  assert (Tdel : forall n s0, delete_region n (T s0) = (T (fst (delete_region n s0)), snd (delete_region n s0))).
  { intros. apply delete_region_frame. }
  assert (Tchk : forall k s0, add_check k (T s0) = (T (fst (add_check k s0)), snd (add_check k s0))).
  { intros. apply add_check_frame. }
  unfold vmdk_post.
  change (i_regs (T s)) with (i_regs s).
  change (vmdk_parse_sparse (T s) R_header 0) with (vmdk_parse_sparse s R_header 0).
  change (has_region R_footer (T s)) with (has_region R_footer s).
  destruct (rget R_header (i_regs s)) as [h|]; [|reflexivity].
  destruct (negb (rcomplete h)); [reflexivity|].
  destruct (vmdk_parse_sparse s R_header 0) as [[[[[sig ver] dsec] dnum] gd]|ex]; [|reflexivity].
  destruct (negb (beq sig VMDK_MAGIC_PP)).
  { destruct (forallb ascii_text (r_data h)); [|reflexivity].
    rewrite Tdel. destruct (delete_region R_header s); reflexivity. }
  destruct (negb _); [reflexivity|].
  destruct ((gd =? VMDK_GD_AT_END) && negb (has_region R_footer s)).
  - rewrite Tnew. destruct (new_region R_footer _ s) as [sa [ea|]]; cbn [fst snd]; [reflexivity|].
    rewrite Tchk. destruct (add_check K_footer sa) as [s1 [e1|]]; cbn [fst snd]; [reflexivity|].
    destruct (negb (_ =? VMDK_DESC_OFFSET)); [reflexivity|].
    change (get_region R_descriptor (T s1)) with (get_region R_descriptor s1).
    destruct (get_region R_descriptor s1) as [d|]; [|reflexivity].
    destruct (r_off d =? 0); [|reflexivity].
    rewrite Tdel. destruct (delete_region R_descriptor s1) as [s2 [e2|]]; cbn [fst snd]; [reflexivity|].
    rewrite Tnew. destruct (new_region R_descriptor _ s2); reflexivity.
  - destruct (negb (_ =? VMDK_DESC_OFFSET)); [reflexivity|].
    change (get_region R_descriptor (T s)) with (get_region R_descriptor s).
    destruct (get_region R_descriptor s) as [d|]; [|reflexivity].
    destruct (r_off d =? 0); [|reflexivity].
    rewrite Tdel. destruct (delete_region R_descriptor s) as [s2 [e2|]]; cbn [fst snd]; [reflexivity|].
    rewrite Tnew. destruct (new_region R_descriptor _ s2); reflexivity.
Qed.

Lemma vmdk_quiet_of_id (s : ist vx) : vmdk_post s = (s, None) -> quiet vmdk_fmt s.
Proof. intros H p x. cbn [f_post vmdk_fmt]. rewrite vmdk_post_frame, H. reflexivity. Qed.

Lemma vmdk_quiet_no_header (s : ist vx) : rget R_header (i_regs s) = None -> quiet vmdk_fmt s.
Proof. intros H. apply vmdk_quiet_of_id. unfold vmdk_post. rewrite H. reflexivity. Qed.

(* what a post_process call that returned normally did: nothing, or it deleted the header, or it
   created a region (whose identity is not below the counter before the call) *)
Lemma vmdk_post_shape (sa sb : ist vx) :
  NoDup (map fst (i_regs sa)) -> vmdk_post sa = (sb, None) ->
  sb = sa \/ rget R_header (i_regs sb) = None \/ fresh_in (Insp_Engine.i_next sa) (i_regs sb).
Proof.
  intros Hnd Hp. unfold vmdk_post in Hp.
  destruct (rget R_header (i_regs sa)) as [h|] eqn:Hh; [|inversion Hp; auto].
  destruct (negb (rcomplete h)); [inversion Hp; auto|].
  destruct (vmdk_parse_sparse sa R_header 0) as [[[[[sig ver] dsec] dnum] gd]|ex]; [|discriminate].
  destruct (negb (beq sig VMDK_MAGIC_PP)).
  { destruct (forallb ascii_text (r_data h)); [|discriminate].
    apply delete_region_none in Hp. destruct Hp as [Hr _]. right. left. rewrite Hr. apply rget_rdel_same. exact Hnd. }
  destruct (negb _); [discriminate|].
  match type of Hp with (match ?m with _ => _ end) = _ => destruct m as [s1 e1] eqn:Hm end.
  destruct e1; [discriminate|].
  assert (H1 : (s1 = sa \/ fresh_in (Insp_Engine.i_next sa) (i_regs s1)) /\ (Insp_Engine.i_next sa <= Insp_Engine.i_next s1)%nat).
  { destruct ((gd =? VMDK_GD_AT_END) && negb (has_region R_footer sa)); [|inversion Hm; subst; split; [left; reflexivity | lia]].
    destruct (new_region R_footer _ sa) as [sx [ex|]] eqn:Hn; [discriminate|].
    apply new_region_none in Hn. destruct Hn as [Hr Hx]. apply add_check_none in Hm. destruct Hm as [Hr1 Hx1].
    split; [|lia]. right. eexists. split; [rewrite Hr1, Hr; apply in_or_app; right; left; reflexivity|]. cbn. lia. }
  destruct H1 as [H1 Hle].
  destruct (negb (_ =? VMDK_DESC_OFFSET)); [discriminate|].
  destruct (get_region R_descriptor s1) as [d|]; [|discriminate].
  destruct (r_off d =? 0).
  - destruct (delete_region R_descriptor s1) as [s2 [e2|]] eqn:Hd; [discriminate|].
    apply delete_region_none in Hd. destruct Hd as [_ Hx2]. apply new_region_none in Hp. destruct Hp as [Hr Hx].
    right. right. eexists. split; [rewrite Hr; apply in_or_app; right; left; reflexivity|]. cbn. lia.
  - inversion Hp; subst. destruct H1 as [->|H1]; auto.
Qed.

Lemma vmdk_settles : settles vmdk_fmt.
Proof.
  intros sa sb HW Hp Hn. destruct (wf_of_Wf _ HW) as [Hlt Hnd]. cbn [f_post vmdk_fmt] in Hp.
  destruct (vmdk_post_shape sa sb Hnd Hp) as [->|[Hh|Hf]].
  - apply vmdk_quiet_of_id. exact Hp.
  - apply vmdk_quiet_no_header. exact Hh.
  - exfalso. exact (fresh_new_names _ _ _ Hlt Hf Hn).
Qed.

Definition ipos (i : istate) (p : N) : istate :=
  match i with
  | I_unit f s => I_unit f (set_pos s p)
  | I_qcow s => I_qcow (set_pos s p)
  | I_vmdk s => I_vmdk (set_pos s p)
  end.

Lemma complete_ipos i p : complete (ipos i p) = complete i.
Proof. destruct i; reflexivity. Qed.
Lemma format_match_ipos i p : format_match (ipos i p) = format_match i.
Proof. destruct i as [f s|s|s]; [destruct f|..]; reflexivity. Qed.
Lemma cmatch_ipos i p : cmatch (ipos i p) = cmatch i.
Proof. unfold cmatch. rewrite format_match_ipos. reflexivity. Qed.
Lemma ipos_ipos i p q : ipos (ipos i p) q = ipos i q.
Proof. destruct i as [f s|s|s]; destruct s; reflexivity. Qed.
Lemma ipos_same i : ipos i (position i) = i.
Proof. destruct i as [f s|s|s]; destruct s; reflexivity. Qed.
Lemma finish_ipos i p : finish (ipos i p) = ipos (finish i) p.
Proof. destruct i as [f s|s|s]; reflexivity. Qed.

(* the boundary invariant of an inspector object *)
Definition igood (i : istate) : Prop :=
  reachable i /\
  match i with
  | I_unit f s => good (ufmt f) s
  | I_qcow s => good qcow_fmt s
  | I_vmdk s => good vmdk_fmt s
  end.

Lemma nodup_init f : NoDup (map fst (init_regions f)).
Proof. destruct f; cbn; repeat constructor; cbn; intuition discriminate. Qed.

Lemma wf_init {X} (F : fmt X) : wf (init_ist F).
Proof. apply wf_of_Wf, Wf_init. destruct F as [f ? ? ? ? ? ?]. apply nodup_init. Qed.

Lemma ufmt_facts f : f <> F_qcow2 -> f <> F_vmdk ->
  settles (ufmt f) /\ ext_only (ufmt f) /\ hooks_wf (ufmt f) /\ quiet (ufmt f) (init_ist (ufmt f)).
Proof.
  intros H1 H2. destruct (is_static_unit f) eqn:Hs.
  - destruct (static_unit_facts f Hs) as (Hp & Hc & _).
    split; [apply settles_no_post; exact Hp|]. split; [apply no_rcomplete_ext; exact Hc|].
    split; [apply ufmt_static_hooks; exact Hs | apply quiet_no_post; exact Hp].
  - destruct f; try discriminate Hs; try contradiction.
    split; [exact vhdx_settles|]. split; [apply no_rcomplete_ext; reflexivity|].
    split; [exact vhdx_hooks | apply vhdx_quiet_of_id; reflexivity].
Qed.

Lemma igood_init f : igood (init f).
Proof.
  split; [apply reachable_init|]. destruct f; cbn [init]; (split; [apply wf_init|]);
    try (apply ufmt_facts; discriminate).
  - apply quiet_no_post; reflexivity.
  - apply vmdk_quiet_of_id; reflexivity.
Qed.

Lemma igood_eat i c i' : igood i -> eat i c = (i', None) -> igood i'.
Proof.
  intros [Hr Hg] He. split; [eapply reachable_eat; eauto|].
  destruct Hr as (st & Hr). apply ireach_reach in Hr.
  destruct i as [f s|s|s]; cbn [eat ireach_spec] in *.
  - destruct (eat_chunk (ufmt f) s c) as [s' e'] eqn:Hc. inversion He; subst.
    destruct Hr as (H1 & H2 & Hr). destruct (ufmt_facts f H1 H2) as (A & B & C & _).
    exact (good_eat _ _ _ _ A B C (reach_Wf _ C _ _ (nodup_init _) Hr) Hc).
  - destruct (eat_chunk qcow_fmt s c) as [s' e'] eqn:Hc. inversion He; subst.
    exact (good_eat _ _ _ _ (settles_no_post qcow_fmt eq_refl) qcow_rc_ext qcow_hooks (reach_Wf _ qcow_hooks _ _ (nodup_init _) Hr) Hc).
  - destruct (eat_chunk vmdk_fmt s c) as [s' e'] eqn:Hc. inversion He; subst.
    exact (good_eat _ _ _ _ vmdk_settles vmdk_rc_ext vmdk_hooks (reach_Wf _ vmdk_hooks _ _ (nodup_init _) Hr) Hc).
Qed.

Lemma kinds_no_end {X} st (s : ist X) : Inv K_fixed st s -> forall p, In p (i_regs s) -> r_end (snd p) = false.
Proof. intros (_ & _ & _ & HK) p Hp. unfold kinds_ok in HK. rewrite Forall_forall in HK. apply (HK p Hp). Qed.

(* THE STEP at the interface: a complete inspector at a boundary is left as it is by any chunk *)
Theorem istable_eat i c : igood i -> complete i = true -> exists e, eat i c = (ipos i (position i + flen c), e).
Proof.
  intros [Hr Hg] Hc. destruct Hr as (st & Hr). apply ireach_reach in Hr.
  destruct i as [f s|s|s]; cbn [eat ireach_spec complete ipos position] in *.
  - destruct Hr as (H1 & H2 & Hr). pose proof (reach_Inv K_fixed _ _ _ (ufmt_ok f H1 H2) Hr) as HI.
    rewrite (quiet_step (ufmt f) s c (proj2 Hg) Hc (kinds_no_end _ _ HI)). eauto.
  - pose proof (reach_Inv K_fixed _ _ _ qcow_fmt_ok Hr) as HI.
    rewrite (quiet_step qcow_fmt s c (proj2 Hg) Hc (kinds_no_end _ _ HI)). eauto.
  - destruct (i_fin s) eqn:Hfin.
    + rewrite (eat_finished vmdk_fmt s c Hfin). eauto.
    + rewrite (quiet_step vmdk_fmt s c (proj2 Hg) Hc (vmdk_complete_no_end st s Hr Hfin Hc)). eauto.
Qed.

Lemma eat_list_app : forall cs1 cs2 i,
  eat_list i (cs1 ++ cs2) = match eat_list i cs1 with (i1, Some e) => (i1, Some e) | (i1, None) => eat_list i1 cs2 end.
Proof.
  induction cs1 as [|c t IH]; intros cs2 i; cbn [eat_list app]; [reflexivity|].
  destruct (eat i c) as [i' [e|]]; [reflexivity | apply IH].
Qed.

Lemma eat_list_good : forall cs i i', igood i -> eat_list i cs = (i', None) -> igood i'.
Proof.
  induction cs as [|c t IH]; intros i i' Hg He; cbn [eat_list] in He.
  - inversion He; subst. exact Hg.
  - destruct (eat i c) as [i1 [e|]] eqn:Hc; [discriminate|]. eapply IH; [|exact He]. eapply igood_eat; eauto.
Qed.

Lemma eat_list_reachable : forall cs i, reachable i -> reachable (fst (eat_list i cs)).
Proof.
  induction cs as [|c t IH]; intros i Hr; cbn [eat_list]; [exact Hr|].
  destruct (eat i c) as [i1 [e|]] eqn:Hc; [cbn; eapply reachable_eat; eauto | apply IH; eapply reachable_eat; eauto].
Qed.

Theorem eat_list_stable : forall cs i, igood i -> complete i = true -> exists p, fst (eat_list i cs) = ipos i p.
Proof.
  induction cs as [|c t IH]; intros i Hg Hc; cbn [eat_list].
  - exists (position i). cbn [fst]. symmetry. apply ipos_same.
  - destruct (istable_eat i c Hg Hc) as (e & He). rewrite He. destruct e as [e|]; [cbn [fst]; eauto|].
    assert (Hg1 : igood (ipos i (position i + flen c))) by (eapply igood_eat; eauto).
    assert (Hc1 : complete (ipos i (position i + flen c)) = true) by (rewrite complete_ipos; exact Hc).
    destruct (IH _ Hg1 Hc1) as (p & Hp). rewrite Hp, ipos_ipos. eauto.
Qed.

(* once inspector f is complete after the chunks cs1, every continuation cs2 leaves it as it is *)
Theorem after_more f cs1 cs2 :
  complete (fst (eat_list (init f) cs1)) = true ->
  exists p, fst (eat_list (init f) (cs1 ++ cs2)) = ipos (fst (eat_list (init f) cs1)) p.
Proof.
  intros Hc. rewrite eat_list_app. destruct (eat_list (init f) cs1) as [i1 [e|]] eqn:H1; cbn [fst] in *.
  - exists (position i1). symmetry. apply ipos_same.
  - apply eat_list_stable; [|exact Hc]. eapply eat_list_good; [apply igood_init | exact H1].
Qed.

(* finish keeps complete and format_match of a reachable inspector *)
Lemma finish_no_end {X} (s : ist X) : (forall p, In p (i_regs s) -> r_end (snd p) = false) ->
  Insp_Engine.finish s = mkIst (i_pos s) (i_regs s) (Insp_Engine.i_next s) true (i_checks s) (i_ext s).
Proof.
  intros H. unfold Insp_Engine.finish. f_equal. rewrite <- (map_id (i_regs s)) at 2. apply map_ext_in.
  intros [n r] Hp. pose proof (H _ Hp) as He. cbn [fst snd] in *. rewrite He. reflexivity.
Qed.

Lemma format_match_finish i : reachable i -> format_match (finish i) = format_match i.
Proof.
  intros (st & Hr). apply ireach_reach in Hr. destruct i as [f s|s|s]; cbn [ireach_spec finish format_match] in *.
  - destruct Hr as (H1 & H2 & Hr). pose proof (reach_Inv K_fixed _ _ _ (ufmt_ok f H1 H2) Hr) as HI.
    rewrite (finish_no_end s (kinds_no_end _ _ HI)). destruct f; reflexivity.
  - pose proof (reach_Inv K_fixed _ _ _ qcow_fmt_ok Hr) as HI.
    rewrite (finish_no_end s (kinds_no_end _ _ HI)). reflexivity.
  - cbn [f_match vmdk_fmt]. unfold vmdk_match, Insp_Engine.finish. cbn [i_regs i_ext]. rewrite rget_finish.
    destruct (rget R_header (i_regs s)) as [h|]; cbn [option_map]; [|reflexivity].
    destruct (r_end h); reflexivity.
Qed.

Lemma complete_finish_i i : complete i = true -> complete (finish i) = true.
Proof. destruct i as [f s|s|s]; cbn [complete finish]; apply complete_finish. Qed.

Definition is_rawf (f : fmt_id) : bool := beq (fmt_name f) raw_lit_raw.

Definition name_format (cpl mt : fmt_id -> bool) (fin : bool) (fs : list fmt_id) : res (option fmt_id) :=
  let nr := filter (fun f => negb (is_rawf f)) fs in
  if negb (forallb cpl nr) && negb fin then Ok None else
  match filter mt nr with
  | [f] => Ok (Some f)
  | _ :: _ :: _ => Exn ImageFormatError
  | [] => match filter is_rawf fs with [f] => Ok (Some f) | _ => Exn ImageFormatError end
  end.

Definition show_name (r : res (option fmt_id)) : res (option str) :=
  match r with Ok (Some f) => Ok (Some (fmt_name f)) | Ok None => Ok None | Exn e => Exn e end.

Lemma filter_map_comm {A B} (p : B -> bool) (g : A -> B) l : filter p (map g l) = map g (filter (fun x => p (g x)) l).
Proof. induction l as [|x t IH]; [reflexivity|]. cbn [map filter]. destruct (p (g x)); cbn [map]; rewrite IH; reflexivity. Qed.
Lemma forallb_map_comm {A B} (p : B -> bool) (g : A -> B) l : forallb p (map g l) = forallb (fun x => p (g x)) l.
Proof. induction l as [|x t IH]; [reflexivity|]. cbn [map forallb]. rewrite IH. reflexivity. Qed.

Theorem format_by_names (g : fmt_id -> cslot) fs ex fin : (forall f, s_name (g f) = fmt_name f) ->
  cw_format_name {| w_slots := map g fs; w_expected := ex; w_finished := fin |} =
  show_name (name_format (fun f => complete (s_insp (g f))) (fun f => cmatch (s_insp (g f))) fin fs).
Proof.
  intros Hn. unfold cw_format_name, format_name. rewrite format_spec.
  unfold decided, all_complete, matches, non_raw. cbn [w_slots w_finished].
  assert (Hr1 : forall f, is_raw_nr istate raw_lit_nonraw (g f) = is_rawf f).
  { intros f. unfold is_raw_nr, is_rawf. rewrite Hn, raw_lits_agree. reflexivity. }
  assert (Hr2 : forall f, is_raw istate raw_lit_raw (g f) = is_rawf f).
  { intros f. unfold is_raw, is_rawf. rewrite Hn. reflexivity. }
  rewrite !filter_map_comm, forallb_map_comm.
  rewrite (filter_ext (fun x => negb (is_raw_nr istate raw_lit_nonraw (g x))) (fun f => negb (is_rawf f))) by (intros f; rewrite Hr1; reflexivity).
  rewrite (filter_ext (fun x => is_raw istate raw_lit_raw (g x)) is_rawf) by exact Hr2.
  unfold name_format. cbv zeta.
  set (nr := filter (fun f => negb (is_rawf f)) fs).
  destruct (forallb (fun x => complete (s_insp (g x))) nr); destruct fin; cbn [orb negb andb]; try reflexivity;
    (destruct (filter (fun x => cmatch (s_insp (g x))) nr) as [|f1 [|f2 t]]; cbn [map show_name]; rewrite ?Hn; try reflexivity;
     destruct (filter is_rawf fs) as [|r1 [|r2 t]]; cbn [map]; rewrite ?Hn; reflexivity).
Qed.

Lemma format_of_name (w : cwrapper) nm : cw_format_name w = Ok (Some nm) -> exists m, cw_format w = Ok (Some m) /\ s_name m = nm.
Proof.
  unfold cw_format_name, format_name, cw_format. destruct (format _ _ _ _ _ w) as [[m|]|e]; intros H; inversion H; eauto.
Qed.
Lemma name_of_format (w : cwrapper) m : cw_format w = Ok (Some m) -> cw_format_name w = Ok (Some (s_name m)).
Proof. unfold cw_format_name, format_name, cw_format. intros ->. reflexivity. Qed.

Lemma name_format_stable cpl1 mt1 cpl2 mt2 fs f fin2 :
  name_format cpl1 mt1 false fs = Ok (Some f) ->
  (forall g, In g fs -> is_rawf g = false -> cpl1 g = true -> cpl2 g = true /\ mt2 g = mt1 g) ->
  name_format cpl2 mt2 fin2 fs = Ok (Some f).
Proof.
  unfold name_format. cbv zeta. set (nr := filter (fun f => negb (is_rawf f)) fs). intros H Hp.
  destruct (forallb cpl1 nr) eqn:Hc1; cbn [negb andb] in H; [|discriminate].
  assert (Hin : forall g, In g nr -> cpl2 g = true /\ mt2 g = mt1 g).
  { intros g Hg. subst nr. apply filter_In in Hg. destruct Hg as [Hg Hr]. apply negb_true_iff in Hr.
    apply Hp; auto. rewrite forallb_forall in Hc1. apply Hc1. apply filter_In. split; [exact Hg | rewrite Hr; reflexivity]. }
  assert (Hc2 : forallb cpl2 nr = true) by (apply forallb_forall; intros g Hg; apply (Hin g Hg)).
  rewrite Hc2. cbn [negb andb].
  rewrite (filter_ext_in mt2 mt1 nr) by (intros g Hg; apply (Hin g Hg)). exact H.
Qed.

(* ------------------------------------------------------------------ C03_decision_stable *)
Lemma slot_after_name cs f : s_name (slot_after cs f) = fmt_name f.
Proof. reflexivity. Qed.
Lemma slot_closed_name cs f : s_name (slot_closed cs f) = fmt_name f.
Proof. reflexivity. Qed.

Lemma wrapper_eta (w : cwrapper) ss ex fi : w_slots w = ss -> w_finished w = fi -> w_expected w = ex ->
  w = {| w_slots := ss; w_expected := ex; w_finished := fi |}.
Proof. destruct w; cbn; intros; subst; reflexivity. Qed.

Theorem decision_stable expected allowed cs1 w1 m1 :
  read_so_far expected allowed cs1 w1 -> cw_format w1 = Ok (Some m1) ->
  (forall cs2 w2, read_so_far expected allowed (cs1 ++ cs2) w2 ->
     exists m2, cw_format w2 = Ok (Some m2) /\ s_name m2 = s_name m1) /\
  (forall cs2 w3, read_and_closed expected allowed (cs1 ++ cs2) w3 ->
     exists m3, cw_format w3 = Ok (Some m3) /\ s_name m3 = s_name m1).
Proof.
  intros H1 Hf.
  destruct (read_so_far_slots _ _ _ _ H1) as (S1 & F1 & E1).
  rewrite (wrapper_eta w1 _ _ _ S1 F1 E1) in Hf. apply name_of_format in Hf.
  rewrite (format_by_names (slot_after cs1) _ _ _ (slot_after_name cs1)) in Hf.
  destruct (name_format _ _ false (allowed_fmts allowed)) as [[f1|]|e] eqn:Hnf; cbn [show_name] in Hf; try discriminate.
  assert (Hname : fmt_name f1 = s_name m1) by congruence.
  split.
  - intros cs2 w2 H2. destruct (read_so_far_slots _ _ _ _ H2) as (S2 & F2 & E2).
    apply format_of_name. rewrite (wrapper_eta w2 _ _ _ S2 F2 E2).
    rewrite (format_by_names (slot_after (cs1 ++ cs2)) _ _ _ (slot_after_name _)).
    rewrite (name_format_stable _ _ _ _ _ _ false Hnf); [cbn [show_name]; rewrite Hname; reflexivity|].
    intros g _ _ Hc. cbn [slot_after s_insp] in *.
    destruct (after_more g cs1 cs2 Hc) as (p & Hp). rewrite Hp, complete_ipos, cmatch_ipos. auto.
  - intros cs2 w3 H3. destruct (read_and_closed_slots _ _ _ _ H3) as (S3 & F3 & E3).
    apply format_of_name. rewrite (wrapper_eta w3 _ _ _ S3 F3 E3).
    rewrite (format_by_names (slot_closed (cs1 ++ cs2)) _ _ _ (slot_closed_name _)).
    rewrite (name_format_stable _ _ _ _ _ _ true Hnf); [cbn [show_name]; rewrite Hname; reflexivity|].
    intros g _ _ Hc. cbn [slot_after slot_closed s_insp] in *.
    destruct (run_fst_snd g (cs1 ++ cs2)) as [Hrun _]. rewrite Hrun.
    destruct (after_more g cs1 cs2 Hc) as (p & Hp).
    assert (Hreach : reachable (fst (eat_list (init g) (cs1 ++ cs2)))) by (apply eat_list_reachable, reachable_init).
    split.
    + apply complete_finish_i. rewrite Hp, complete_ipos. exact Hc.
    + unfold cmatch. rewrite (format_match_finish _ Hreach), Hp, format_match_ipos. reflexivity.
Qed.
