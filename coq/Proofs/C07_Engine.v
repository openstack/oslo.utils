(* Proofs/C07_Engine.v — what the C07 proofs of all formats share: prefixes of an image ([Model.C07.is_prefix],
   the boolean one), and a region that [holds] its slice of the consumed bytes ([holds b r] is [Insp_Engine.on_track b r]
   under the name the C07 files use; [fill1 b] puts the slice of [b] into a region). *)
Require Import OV.Proofs.Insp_Engine.
Require Import OV.Base.Bytes OV.Base.Py OV.Base.Insp_Struct OV.Gen.Insp_Consts OV.Model.Insp_Engine OV.Model.Insp_All OV.Model.C07.
Open Scope N_scope.

Lemma blen_concat_app (b c : bytes) : blen (b ++ c) = blen b + blen c.
Proof. apply blen_app. Qed.

Lemma blen_be_enc k v : blen (be_enc k v) = N.of_nat k.
Proof. apply OV.Base.Bytes.blen_be_enc. Qed.

Lemma is_prefix_refl b : is_prefix b b = true.
Proof. unfold is_prefix. rewrite <- (app_nil_r b) at 2. apply prefixb_app. Qed.

Lemma is_prefix_trans a b c : is_prefix a b = true -> is_prefix b c = true -> is_prefix a c = true.
Proof.
  unfold is_prefix. intros H1 H2. apply prefixb_spec in H1. destruct H1 as [t ->].
  apply prefixb_spec in H2. destruct H2 as [u ->]. rewrite <- app_assoc. apply prefixb_app.
Qed.

Lemma is_prefix_blen a b : is_prefix a b = true -> blen a <= blen b.
Proof. unfold is_prefix. intros H. apply prefixb_spec in H. destruct H as [t ->]. rewrite blen_app. lia. Qed.

Lemma is_prefix_btake n b : is_prefix (btake n b) b = true.
Proof. unfold is_prefix. rewrite <- (btake_bskip_app n b) at 2. apply prefixb_app. Qed.

(* the region holds exactly the part of the consumed bytes [b] that lies in [offset, offset+length) *)
Definition holds (b : bytes) (r : region) : Prop := r_data r = bslice (r_off r) (r_len r) b.
Definition fill1 (b : bytes) (r : region) : region := set_data r (bslice (r_off r) (r_len r) b).

Lemma fill1_holds b r : holds b r -> fill1 b r = r.
Proof. intros H. unfold fill1. rewrite <- H. apply set_data_same. Qed.

(* finish() does not touch plain regions' data *)
Lemma rget_finish_regs n l :
  rget n (map (fun p : rname * region => (fst p, if r_end (snd p) then set_fin (snd p) true else snd p)) l)
  = option_map (fun r => if r_end r then set_fin r true else r) (rget n l).
Proof. apply rget_finish. Qed.
