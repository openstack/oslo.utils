(* Proofs/C03_Examples.v — concrete runs and witnesses showing that the hypotheses of the C03 theorems
   can be met (non-vacuity). *)
Require Import OV.Base.Bytes OV.Base.Py OV.Base.Str OV.Base.C06_WrapShape OV.Base.Insp_Struct.
Require Import OV.Gen.Insp_Consts OV.Gen.C06_Wrapper OV.Model.Insp_Engine OV.Model.Insp_All OV.Model.Insp_Vmdk.
Require Import OV.Model.Wrap OV.Model.C03.
Require Import OV.Proofs.Insp_All OV.Proofs.C03_Wrap OV.Proofs.C03_Stable OV.Proofs.C03_Props.
Open Scope N_scope.

Definition zeros (n : nat) : bytes := repeatN 0 n.
(* a 600-byte stream starting with 'conectix', read as 100 + 500 bytes *)
Definition ex_vhd : list bytes := [VHD_MAGIC ++ zeros 92; zeros 500].
(* 'QFI\xfb' + 508 zero bytes: the qcow2 magic with a complete header, and an MBR signature at 510: two formats *)
Definition ex_two : list bytes := [QCOW_MAGIC ++ zeros 506 ++ [85; 170]; zeros 88].
Definition names (l : list str) := l.

Example ex_vhd_detected :
  exists w, read_and_closed None [] ex_vhd w /\ cw_format_name w = Ok (Some (fmt_name F_vhd)).
Proof.
  destruct (no_expectation_reads_through [] ex_vhd) as (w1 & H1).
  exists (cw_close w1). split; [destruct H1 as (tr & un & H1); exists w1, tr, un; auto|].
  assert (Hrc : read_and_closed None [] ex_vhd (cw_close w1)) by (destruct H1 as (tr & un & H1); exists w1, tr, un; auto).
  rewrite (read_and_closed_is _ _ _ _ Hrc). vm_compute. reflexivity.
Qed.

Example ex_two_formats_raise :
  exists w, read_and_closed None [] ex_two w /\ cw_format w = Exn ImageFormatError.
Proof.
  destruct (no_expectation_reads_through [] ex_two) as (w1 & H1).
  assert (Hrc : read_and_closed None [] ex_two (cw_close w1)) by (destruct H1 as (tr & un & H1); exists w1, tr, un; auto).
  exists (cw_close w1). split; [exact Hrc|].
  rewrite (read_and_closed_is _ _ _ _ Hrc). vm_compute. reflexivity.
Qed.

(* with allowed_formats = ['vhd', 'raw'] the decision is reported after the first 512 bytes already *)
Definition ex_allowed : list str := [fmt_name F_vhd; fmt_name F_raw].
Definition ex_vhd512 : list bytes := [VHD_MAGIC ++ zeros 504].
Example ex_early_decision :
  exists w m, read_so_far None ex_allowed ex_vhd512 w /\ cw_format w = Ok (Some m) /\ s_name m = fmt_name F_vhd.
Proof.
  destruct (no_expectation_reads_through ex_allowed ex_vhd512) as (w1 & H1).
  destruct (read_so_far_slots _ _ _ _ H1) as (S1 & F1 & E1).
  assert (Hn : cw_format_name w1 = Ok (Some (fmt_name F_vhd))).
  { rewrite (wrapper_eta w1 _ _ _ S1 F1 E1). vm_compute. reflexivity. }
  destruct (format_of_name w1 _ Hn) as (m & Hm & Hnm). exists w1, m. auto.
Qed.

Example ex_static_allowed : forallb is_static (allowed_fmts [fmt_name F_qcow2; fmt_name F_vhd; fmt_name F_iso; fmt_name F_raw]) = true.
Proof. reflexivity. Qed.

(* ---- the zone hypotheses and the abort hypothesis can be met *)
Require Import OV.Model.C01_Vhdx OV.Proofs.C01_Vhdx_Witness OV.Proofs.C01_Vmdk_Witness OV.Proofs.C03_All.

Example ex_vhdx_outside : in_zone F_vhdx wf_image = false.
Proof. destruct wf_image_outside as [H1 H2]. cbn [in_zone]. rewrite H1, H2. reflexivity. Qed.
Example ex_vmdk_outside : in_zone F_vmdk w_sparse = false.
Proof. destruct w_sparse_outside as [H1 H2]. cbn [in_zone]. rewrite H1, H2. reflexivity. Qed.

Example ex_outside_zones : outside_zones [fmt_name F_vhdx; fmt_name F_qcow2; fmt_name F_raw] wf_image.
Proof.
  (* of the three formats only vhdx has zones; its two zone predicates on wf_image are not evaluated again *)
  intros f Hf. change (In f [F_raw; F_qcow2; F_vhdx]) in Hf.
  destruct Hf as [<-|[<-|[<-|[]]]]; [reflexivity | reflexivity | exact ex_vhdx_outside].
Qed.

(* expected_format = qcow2 on 512 zero bytes: the qcow2 inspector is complete without matching after the first chunk *)
Example ex_abort : first_abort istate eat complete cmatch (init F_qcow2) [zeros 512; zeros 10] = Some (0%nat, AbMismatch).
Proof. vm_compute. reflexivity. Qed.

(* a run in which an inspector RAISES and is frozen by the wrapper: KDMV with version 9 ("Unsupported format
   version": ImageFormatError from VMDKInspector.post_process); the read goes through (no expected format), the vmdk
   slot is in the errored set, and format after close is still vmdk (formats does not drop errored inspectors) *)
Definition ex_frozen : list bytes := [VMDK_MAGIC ++ [9; 0; 0; 0] ++ zeros 504; zeros 100].
Example ex_frozen_run :
  exists w, read_and_closed None [] ex_frozen w /\ cw_format_name w = Ok (Some (fmt_name F_vmdk)) /\
            s_err (slot_closed ex_frozen F_vmdk) = true /\ In (slot_closed ex_frozen F_vmdk) (w_slots w).
Proof.
  destruct (no_expectation_reads_through [] ex_frozen) as (w1 & H1).
  assert (Hrc : read_and_closed None [] ex_frozen (cw_close w1)) by (destruct H1 as (tr & un & H1); exists w1, tr, un; auto).
  exists (cw_close w1). split; [exact Hrc|]. rewrite (read_and_closed_is _ _ _ _ Hrc).
  split; [vm_compute; reflexivity|]. split; [vm_compute; reflexivity|]. apply closed_slot_in. reflexivity.
Qed.
