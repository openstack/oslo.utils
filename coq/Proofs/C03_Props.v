(* Proofs/C03_Props.v — what the remaining C03 clauses (exclusive, multiple => error, raw rules,
   allowed_formats, totality incl. detect_file_format) and the C01 wrapper verdict rest on. *)
Require Import OV.Base.Bytes OV.Base.Py OV.Base.C06_WrapShape OV.Base.Insp_Struct.
Require Import OV.Gen.Insp_Consts OV.Gen.C06_Wrapper OV.Model.Insp_Engine OV.Model.Insp_All.
Require Import OV.Model.Wrap OV.Model.C03.
Require Import OV.Proofs.Insp_All.
Require Import OV.Proofs.C03_Total OV.Proofs.C03_Sig OV.Proofs.Wrap OV.Proofs.C06 OV.Proofs.C03_Wrap.
Open Scope N_scope.

Lemma closed_slot_in expected allowed cs f :
  allowed_key allowed (fmt_name f) = true -> In (slot_closed cs f) (w_slots (closed_wrapper expected allowed cs)).
Proof.
  intros Ha. cbn [closed_wrapper w_slots]. apply in_map. apply filter_In. split; [apply all_formats_complete | exact Ha].
Qed.

Lemma closed_nonraw_match_in expected allowed cs f :
  allowed_key allowed (fmt_name f) = true -> f <> F_raw -> cmatch (fst (run f cs)) = true ->
  In (slot_closed cs f) (cw_matches (closed_wrapper expected allowed cs)).
Proof.
  intros Ha Hr Hm. unfold cw_matches, matches, non_raw. apply filter_In. split; [|exact Hm].
  apply filter_In. split; [apply closed_slot_in; exact Ha|].
  unfold is_raw_nr. cbn [slot_closed s_name]. destruct (beq (fmt_name f) raw_lit_nonraw) eqn:Hb; [|reflexivity].
  exfalso. apply Hr. apply beq_eq in Hb. apply fmt_name_inj. rewrite Hb. reflexivity.
Qed.

Lemma slot_closed_inj cs f g : slot_closed cs f = slot_closed cs g -> f = g.
Proof. intros H. apply (f_equal (@s_name istate)) in H. cbn in H. apply fmt_name_inj. exact H. Qed.

(* for a static format, matching after close IS having the signature *)
Lemma closed_static_match f cs : is_static f = true -> cmatch (fst (run f cs)) = sigb f (concat cs).
Proof. intros Hs. rewrite (static_inspector_refines_spec_state f cs Hs). cbn [fst]. apply static_match_is_signature. exact Hs. Qed.

(* ------------------------------------------------------------------ C03_unique *)
(* format names m: no other non-raw inspector of the wrapper matches (any wrapper) *)
Theorem unique_match (w : cwrapper) m m' :
  cw_format w = Ok (Some m) -> cw_is_raw m = false ->
  In m' (w_slots w) -> cw_is_raw m' = false -> cmatch (s_insp m') = true -> m' = m.
Proof.
  intros Hf Hr Hin Hr' Hm'.
  destruct (format_some_implies_unique_match istate complete cmatch raw_lit_nonraw raw_lit_raw _ _ Hf) as (_ & [Hm|(_ & Hraw)]).
  - assert (Hi : In m' (matches istate cmatch raw_lit_nonraw w)).
    { unfold matches, non_raw. apply filter_In. split; [|exact Hm']. apply filter_In. split; [exact Hin|].
      unfold cw_is_raw, is_raw in Hr'. unfold is_raw_nr. rewrite raw_lits_agree, Hr'. reflexivity. }
    rewrite Hm in Hi. destruct Hi as [<-|[]]. reflexivity.
  - exfalso. assert (Hi : In m (filter (is_raw istate raw_lit_raw) (w_slots w))) by (rewrite Hraw; left; reflexivity).
    apply filter_In in Hi. unfold cw_is_raw in Hr. destruct Hi as [_ Hi]. congruence.
Qed.

(* ------------------------------------------------------------------ C03_multiple_raise *)
Theorem multiple_raise expected allowed cs w g1 g2 :
  read_and_closed expected allowed cs w -> g1 <> g2 -> g1 <> F_raw -> g2 <> F_raw ->
  allowed_key allowed (fmt_name g1) = true -> allowed_key allowed (fmt_name g2) = true ->
  cmatch (fst (run g1 cs)) = true -> cmatch (fst (run g2 cs)) = true ->
  cw_format w = Exn ImageFormatError.
Proof.
  intros Hrc Hne H1 H2 A1 A2 M1 M2. rewrite (read_and_closed_is _ _ _ _ Hrc).
  apply two_matches_raise; [unfold decided; cbn [closed_wrapper w_finished]; apply orb_true_r|].
  assert (Hnr : forall g, allowed_key allowed (fmt_name g) = true -> g <> F_raw -> cmatch (fst (run g cs)) = true ->
            In (slot_closed cs g) (non_raw istate raw_lit_nonraw (closed_wrapper expected allowed cs))).
  { intros g A H M. pose proof (closed_nonraw_match_in expected allowed cs g A H M) as Hi.
    unfold cw_matches, matches in Hi. apply filter_In in Hi. apply Hi. }
  unfold matches. apply (filter_two _ _ (slot_closed cs g1) (slot_closed cs g2)); auto.
  intros He. apply Hne. eapply slot_closed_inj; eauto.
Qed.

(* ------------------------------------------------------------------ C03_allowed *)
Lemma w_run_names : forall inps (w w' : cwrapper) recs,
  cw_run w inps = (w', recs) -> map (@s_name istate) (w_slots w') = map (@s_name istate) (w_slots w).
Proof.
  intros inps w w' recs H. revert w inps w' recs H. unfold cw_run. apply w_run_session_ind; [reflexivity|].
  intros w inp rest w1 tr1 o w2 recs Hs _ ->.
  exact (w_step_names istate eat finish complete cmatch gen_shape gen_shape_ok _ _ _ _ _ Hs).
Qed.

(* ------------------------------------------------------------------ C03_detection_total *)
Theorem format_total_r expected allowed w :
  wreach expected allowed w ->
  format_r w = cw_format w /\ formats_r w = Ok (cw_formats w) /\
  ((exists r, format_r w = Ok r) \/ format_r w = Exn ImageFormatError).
Proof.
  intros H. pose proof (wreach_reachable _ _ _ H) as Hs.
  split; [apply format_r_spec; exact Hs|]. split; [apply formats_r_spec; exact Hs|].
  rewrite (format_r_spec w Hs). apply format_total.
Qed.

Lemma format_name_r_spec w : slots_ok reachable (w_slots w) -> format_name_r w = cw_format_name w.
Proof. intros H. unfold format_name_r, cw_format_name, format_name. rewrite (format_r_spec w H). reflexivity. Qed.

Lemma detect_loop_r_spec : forall fuel cs w s, slots_ok reachable (w_slots w) ->
  detect_loop_r fuel cs w s = detect_loop istate eat finish complete cmatch gen_shape raw_lit_nonraw raw_lit_raw fuel cs w s /\
  slots_ok reachable (w_slots (fst (fst (fst (detect_loop_r fuel cs w s))))).
Proof.
  induction fuel as [|k IH]; intros cs w s Hs; cbn [detect_loop_r detect_loop]; [split; [reflexivity | exact Hs]|].
  unfold cw_read. destruct (w_read istate eat finish complete cmatch gen_shape w s cs) as [[[[w1 s1] tr1] inp] o] eqn:Hr.
  assert (Hs1 : slots_ok reachable (w_slots w1)).
  { unfold w_read in Hr. destruct (f_read s cs) as [s' r].
    destruct (w_step istate eat finish complete cmatch gen_shape w (src_input r)) as [[w' tr] o'] eqn:Hst.
    inversion Hr; subst. eapply (w_step_slots reachable reachable_eat reachable_finish); eauto. }
  destruct o as [c|e|]; [|split; [reflexivity | exact Hs1]|split; [reflexivity | exact Hs1]].
  destruct c as [|x t]; [split; [reflexivity | exact Hs1]|].
  rewrite (format_name_r_spec w1 Hs1). fold (cw_format_name w1).
  destruct (cw_format_name w1) as [[nm|]|e]; try (split; [reflexivity | exact Hs1]).
  destruct (IH cs w1 s1 Hs1) as [He Hs2]. rewrite He.
  destruct (detect_loop istate eat finish complete cmatch gen_shape raw_lit_nonraw raw_lit_raw k cs w1 s1) as [[[w2 s2] tr2] r2] eqn:Hd.
  split; [reflexivity|]. rewrite He in Hs2. exact Hs2.
Qed.

Theorem detect_r_spec data : detect_r data = cw_detect data.
Proof.
  unfold detect_r, cw_detect, detect_file_format. fold (cw_new None []).
  assert (Hs : slots_ok reachable (w_slots (cw_new None []))) by (apply new_slots_ok; exact reachable_init).
  destruct (detect_loop_r_spec (S (length data)) detect_chunk_size (cw_new None []) {| f_data := data; f_pos := 0; f_closed := false |} Hs) as [He Hs1].
  rewrite He in *.
  destruct (detect_loop istate eat finish complete cmatch gen_shape raw_lit_nonraw raw_lit_raw (S (length data)) detect_chunk_size
              (cw_new None []) {| f_data := data; f_pos := 0; f_closed := false |}) as [[[w1 s1] tr] r].
  cbn [fst] in Hs1. cbn [w_close_f]. destruct r as [r'|]; [reflexivity|].
  rewrite format_name_r_spec; [reflexivity|]. cbn [finish_all w_slots]. unfold slots_ok in *. rewrite Forall_map.
  eapply Forall_impl; [|exact Hs1]. intros s0 H0. cbn [finish_slot s_insp]. apply reachable_finish. exact H0.
Qed.

(* ------------------------------------------------------------------ C01: the wrapper verdict is a function of the content *)
(* the slot of a static inspector after read-through and close: built from the content alone *)
Definition spec_slot (b : bytes) (f : fmt_id) : cslot := {| s_name := fmt_name f; s_insp := spec_state f b; s_err := false |}.
Definition spec_wrapper (expected : option str) (allowed : list str) (b : bytes) : cwrapper :=
  {| w_slots := map (spec_slot b) (allowed_fmts allowed); w_expected := expected; w_finished := true |}.

Lemma slot_closed_static cs f : is_static f = true -> slot_closed cs f = spec_slot (concat cs) f.
Proof. intros Hs. unfold slot_closed, spec_slot. rewrite (static_inspector_refines_spec_state f cs Hs). reflexivity. Qed.

Theorem wrapper_verdict expected allowed cs w :
  read_and_closed expected allowed cs w -> forallb is_static (allowed_fmts allowed) = true ->
  w = spec_wrapper expected allowed (concat cs).
Proof.
  intros Hrc Hall. rewrite (read_and_closed_is _ _ _ _ Hrc). unfold closed_wrapper, spec_wrapper. f_equal.
  apply map_ext_in. intros f Hf. apply slot_closed_static. rewrite forallb_forall in Hall. apply Hall. exact Hf.
Qed.

(* ------------------------------------------------------------------ file-like sources: contents x read sizes *)
Lemma w_run_stop_all : forall l (w w' : cwrapper) tr cs unused,
  cw_run_stop w (map InChunk l) = (w', tr, cs, None, unused) -> cs = l.
Proof.
  unfold cw_run_stop. induction l as [|a l IH]; intros w w' tr cs unused H; cbn [map] in H.
  - cbn in H. inversion H. reflexivity.
  - rewrite w_run_stop_cons in H.
    destruct (w_step istate eat finish complete cmatch gen_shape w (InChunk a)) as [[w1 tr1] o] eqn:Hs.
    pose proof (w_step_identity istate eat finish complete cmatch gen_shape _ _ _ _ _ Hs) as Hid.
    destruct o as [c|e|]; [|discriminate|discriminate].
    inversion Hid; subst c.
    destruct (w_run_stop istate eat finish complete cmatch gen_shape w1 (map InChunk l)) as [[[[w2 tr2] cs2] stop2] un2] eqn:Hr.
    inversion H; subst. f_equal. eapply IH. exact Hr.
Qed.
