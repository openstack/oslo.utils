(* Proofs/C02_Qcow.v — QcowInspector: the run for every chunk list, and the three checks on the bytes *)
Require Import OV.Base.Bytes OV.Base.Py OV.Base.Insp_Struct OV.Gen.Insp_Consts OV.Model.Insp_Engine.
Require Import OV.Model.Insp_Qcow2 OV.Model.Insp_All.
Require Import OV.Proofs.Insp_Static OV.Proofs.Insp_StaticQcow OV.Proofs.Insp_All.
Require Import OV.Model.C02 OV.Proofs.C02_Engine OV.Proofs.C02_Bytes OV.Proofs.C02_Static.
Open Scope N_scope.

(* what region_complete computes from the first 32 bytes once 512 bytes have arrived *)
Definition qhdr_of (b : bytes) : qhdr :=
  let d := bslice 0 32 b in
  mkQhdr (sraw sf_qcow_hdr 0 d) (sint sf_qcow_hdr 1 d) (sint sf_qcow_hdr 2 d)
         (sint sf_qcow_hdr 3 d) (sint sf_qcow_hdr 4 d) (sint sf_qcow_hdr 5 d).
Definition qinfo (b : bytes) : qx :=
  if 512 <=? blen b then (if beq (q_magic (qhdr_of b)) QCOW_MAGIC then Some (qhdr_of b) else None) else None.

Definition qst (b : bytes) (fin : bool) (x : qx) : ist qx :=
  mkIst (blen b) [(R_header, mkRegion 0 false 0 512 None (bslice 0 512 b) false)] 1 fin
        [K_backing_file; K_data_file; K_unknown_features] x.

Lemma qcow_state b fin x : ideal qcow_fmt b fin x = qst b fin x.
Proof. reflexivity. Qed.
Lemma complete_qst b fin x : Insp_Engine.complete (qst b fin x) = (512 <=? blen b).
Proof. apply complete_header. Qed.

Lemma qcow_rcomplete_state b x n : 512 <= blen b ->
  qcow_rcomplete n (qst b false x) = (qst b false (qinfo b), None).
Proof.
  intros Hl. unfold qcow_rcomplete, qst. cbn [get_region i_regs rget rname_beq r_data].
  unfold QCOW_HDR_SLICE. slices. change (0 + 0) with 0.
  rewrite unpack_slice by (try reflexivity; lia).
  unfold qcow_match. cbn [set_ext get_region i_regs rget rname_beq bind i_pos i_next i_fin i_checks i_ext].
  rewrite rcomplete_slice. replace (512 <=? blen b - 0) with true by lia. cbn [negb q_magic].
  unfold qinfo. replace (512 <=? blen b) with true by lia. unfold qhdr_of. cbn [q_magic].
  destruct (beq (sraw sf_qcow_hdr 0 (bslice 0 32 b)) QCOW_MAGIC); reflexivity.
Qed.

(* qemu_header_info as Insp_StaticQcow defines it (through region_complete), written out *)
Lemma qext_qinfo b : qext b = qinfo b.
Proof.
  unfold qext. cbv zeta. rewrite qcow_state, complete_qst. destruct (512 <=? blen b) eqn:Hl.
  - rewrite qcow_rcomplete_state by lia. reflexivity.
  - unfold qinfo. rewrite Hl. reflexivity.
Qed.

Theorem run_qcow_static cs :
  Insp_All.run F_qcow2 cs = (I_qcow (qst (concat cs) true (qinfo (concat cs))), None).
Proof. rewrite run_qcow, qext_qinfo, qcow_state. reflexivity. Qed.

Lemma q_magic_of b : q_magic (qhdr_of b) = bslice 0 4 b.
Proof.
  unfold qhdr_of. cbn [q_magic]. change (sraw sf_qcow_hdr 0 (bslice 0 32 b)) with (bslice 0 4 (bslice 0 32 b)).
  slices. reflexivity.
Qed.
Lemma q_version_of b : q_version (qhdr_of b) = qcow2_version b.
Proof.
  unfold qhdr_of. cbn [q_version]. change (sint sf_qcow_hdr 1 (bslice 0 32 b)) with (be_val (bslice 4 4 (bslice 0 32 b))).
  slices. reflexivity.
Qed.

Lemma qcow_match_state b fin : 512 <= blen b ->
  qcow_match (qst b fin (qinfo b)) = Ok (beq (bslice 0 4 b) qcow2_magic).
Proof.
  intros Hl. unfold qcow_match, qst. cbn [get_region i_regs rget rname_beq bind i_ext].
  rewrite rcomplete_slice. replace (512 <=? blen b - 0) with true by lia. cbn [negb].
  unfold qinfo. replace (512 <=? blen b) with true by lia. rewrite q_magic_of.
  change QCOW_MAGIC with qcow2_magic.
  destruct (beq (bslice 0 4 b) qcow2_magic) eqn:E; [|reflexivity].
  rewrite q_magic_of. change QCOW_MAGIC with qcow2_magic. rewrite E. reflexivity.
Qed.

Lemma qcow_backing_state b fin x : 512 <= blen b ->
  qcow_check_backing_file (qst b fin x) = if qcow2_backing_offset b =? 0 then Ok tt else violation.
Proof.
  intros Hl. unfold qcow_check_backing_file, qst. cbn [get_region i_regs rget rname_beq bind r_data].
  unfold QCOW_BF_OFFSET, QCOW_BF_OFFSET_LEN. slices. change (8 + 8 - 8) with 8. change (0 + 8) with 8.
  rewrite unpack_slice by (try reflexivity; lia). cbn [bind].
  change (sint sf_qcow_bf 0 (bslice 8 8 b)) with (be_val (bslice 0 8 (bslice 8 8 b))). slices. reflexivity.
Qed.

Definition feats (b : bytes) : bytes := bslice 72 8 b.

Lemma qcow_features_state b :
  qcow_features (mkRegion 0 false 0 512 None (bslice 0 512 b) false) = feats b.
Proof.
  unfold qcow_features, feats. cbn [r_data]. unfold QCOW_I_FEATURES, QCOW_I_FEATURES_LEN. slices. reflexivity.
Qed.

Lemma list8 (l : bytes) : blen l = 8 -> exists a0 a1 a2 a3 a4 a5 a6 a7, l = [a0; a1; a2; a3; a4; a5; a6; a7].
Proof.
  unfold blen. intros H.
  do 8 (destruct l as [|? l]; [cbn in H; lia|]). destruct l; [|cbn in H; lia].
  repeat eexists.
Qed.

Lemma qcow_datafile_state b fin x : 512 <= blen b -> all_bytes b = true ->
  qcow_check_data_file (qst b fin x) = if negb (N.testbit (qcow2_incompat b) qcow2_datafile_bit) then Ok tt else violation.
Proof.
  intros Hl Hb. unfold qcow_check_data_file, qst. cbn [get_region i_regs rget rname_beq bind].
  rewrite (qcow_features_state b).
  change (QCOW_I_FEATURES_LEN - 1 - QCOW_I_FEATURES_DATAFILE_BIT / 8) with 7.
  change (N.shiftl 1 (QCOW_I_FEATURES_DATAFILE_BIT - 1 mod 8)) with (2 ^ 2).
  assert (Hlen : blen (feats b) = 8) by (unfold feats; rewrite blen_bslice; lia).
  rewrite bidx_ok by lia. cbn [bind].
  assert (Hbit : N.testbit (qcow2_incompat b) qcow2_datafile_bit = N.testbit (bnth 7 (feats b)) 2).
  { unfold qcow2_incompat, be_at. fold (feats b).
    assert (Hfb : all_bytes (feats b) = true) by (apply all_bytes_bslice; exact Hb).
    destruct (list8 _ Hlen) as [a0 [a1 [a2 [a3 [a4 [a5 [a6 [a7 E]]]]]]]]. rewrite E in *.
    change (be_val [a0; a1; a2; a3; a4; a5; a6; a7])
      with (a7 + 2 ^ 8 * le_val [a6; a5; a4; a3; a2; a1; a0]).
    change (bnth 7 [a0; a1; a2; a3; a4; a5; a6; a7]) with a7.
    assert (H7 : a7 < 2 ^ 8).
    { change (2 ^ 8) with 256. pose proof (all_bytes_bnth 7 _ Hfb) as H. exact H. }
    apply testbit_low_add; [exact H7|reflexivity]. }
  rewrite Hbit.
  destruct (N.testbit (bnth 7 (feats b)) 2) eqn:E.
  - destruct (N.land (bnth 7 (feats b)) (2 ^ 2) =? 0) eqn:E2; [|reflexivity].
    apply N.eqb_eq, land_pow2_zero_iff in E2. congruence.
  - apply land_pow2_zero_iff in E. rewrite E. reflexivity.
Qed.

Lemma feature_loop_spec fs : blen fs = 8 -> forall k i, i + N.of_nat k = 8 ->
  (qcow_feature_loop k i fs = Ok tt <->
   forall j, i <= j < 8 -> N.ldiff (bnth j fs) (qcow_allow_mask (7 - j)) = 0).
Proof.
  intros Hlen. induction k as [|k IH]; intros i Hk; cbn [qcow_feature_loop].
  - split; [intros _ j Hj; lia|reflexivity].
  - assert (Hi : i < 8) by lia.
    rewrite bidx_ok by lia. cbn [bind]. change (QCOW_I_FEATURES_LEN - 1 - i) with (8 - 1 - i).
    replace (8 - 1 - i) with (7 - i) by lia.
    destruct (N.ldiff (bnth i fs) (qcow_allow_mask (7 - i)) =? 0) eqn:E.
    + rewrite IH by lia. apply N.eqb_eq in E. split.
      * intros H j Hj. destruct (N.eq_dec j i) as [->|Hne]; [exact E|apply H; lia].
      * intros H j Hj. apply H. lia.
    + split.
      * intros H. destruct (bidx fs (7 - i)); discriminate H.
      * intros H. apply N.eqb_neq in E. exfalso. apply E, H. lia.
Qed.

(* the masks: the code allows the bits below I_FEATURES_MAX_BIT in the last byte and nothing elsewhere *)
Lemma max_bit_small : QCOW_I_FEATURES_MAX_BIT < 8.
Proof. reflexivity. Qed.
Lemma mask_last : qcow_allow_mask 0 = N.shiftl 1 QCOW_I_FEATURES_MAX_BIT - 1.
Proof. reflexivity. Qed.
Lemma mask_other n : 0 < n -> qcow_allow_mask n = 0.
Proof.
  intros H. unfold qcow_allow_mask. change (QCOW_I_FEATURES_MAX_BIT / 8) with 0.
  replace (n =? 0) with false by lia. replace (0 <? n) with true by lia. reflexivity.
Qed.

(* what the mask of byte number n (0 = least significant) lets through *)
Lemma byte_allowed_iff x n :
  N.ldiff x (qcow_allow_mask n) = 0 <-> if n =? 0 then x < 2 ^ QCOW_I_FEATURES_MAX_BIT else x = 0.
Proof.
  destruct (n =? 0) eqn:E.
  - apply N.eqb_eq in E. subst n. rewrite mask_last. apply ldiff_ones_zero_iff.
  - rewrite mask_other by lia. rewrite N.ldiff_0_r. reflexivity.
Qed.

Lemma le_val_cons_zero x t : le_val (x :: t) = 0 <-> x = 0 /\ le_val t = 0.
Proof. cbn [le_val]. lia. Qed.
Lemma le_val_cons_small x t P : x < 256 -> P <= 256 -> (le_val (x :: t) < P <-> x < P /\ le_val t = 0).
Proof. cbn [le_val]. lia. Qed.

(* the eight bytes pass the masks exactly when the big-endian word is below 2^MAX_BIT: the last byte is
   below it and the seven before are zero *)
Lemma feature_bytes_ok_iff fs : blen fs = 8 -> all_bytes fs = true ->
  ((forall j, 0 <= j < 8 -> N.ldiff (bnth j fs) (qcow_allow_mask (7 - j)) = 0)
   <-> be_val fs < 2 ^ QCOW_I_FEATURES_MAX_BIT).
Proof.
  intros Hlen Hb.
  destruct (list8 _ Hlen) as [a0 [a1 [a2 [a3 [a4 [a5 [a6 [a7 E]]]]]]]]. subst fs.
  change (be_val [a0; a1; a2; a3; a4; a5; a6; a7]) with (le_val [a7; a6; a5; a4; a3; a2; a1; a0]).
  rewrite le_val_cons_small, !le_val_cons_zero.
  2:{ exact (all_bytes_bnth 7 _ Hb). }
  2:{ change 256 with (2 ^ 8). apply N.pow_le_mono_r; [lia|]. pose proof max_bit_small. lia. }
  split.
  - intros H.
    pose proof (proj1 (byte_allowed_iff _ _) (H 7 ltac:(lia))) as H7. pose proof (proj1 (byte_allowed_iff _ _) (H 6 ltac:(lia))) as H6.
    pose proof (proj1 (byte_allowed_iff _ _) (H 5 ltac:(lia))) as H5. pose proof (proj1 (byte_allowed_iff _ _) (H 4 ltac:(lia))) as H4.
    pose proof (proj1 (byte_allowed_iff _ _) (H 3 ltac:(lia))) as H3. pose proof (proj1 (byte_allowed_iff _ _) (H 2 ltac:(lia))) as H2.
    pose proof (proj1 (byte_allowed_iff _ _) (H 1 ltac:(lia))) as H1. pose proof (proj1 (byte_allowed_iff _ _) (H 0 ltac:(lia))) as H0.
    repeat split; assumption.
  - intros (H7 & H6 & H5 & H4 & H3 & H2 & H1 & H0 & _) j Hj. apply byte_allowed_iff.
    assert (Hc : j = 0 \/ j = 1 \/ j = 2 \/ j = 3 \/ j = 4 \/ j = 5 \/ j = 6 \/ j = 7) by lia.
    destruct Hc as [->|[->|[->|[->|[->|[->|[->| ->]]]]]]]; assumption.
Qed.

Lemma qcow_unknown_state b fin : 512 <= blen b -> all_bytes b = true ->
  beq (bslice 0 4 b) qcow2_magic = true ->
  (qcow_check_unknown_features (qst b fin (qinfo b)) = Ok tt <->
   ((qcow2_version b =? 2) || (qcow2_version b =? 3))
   && (negb (qcow2_version b =? 3) || (qcow2_incompat b <? 2 ^ QCOW_I_FEATURES_MAX_BIT)) = true).
Proof.
  intros Hl Hb Hm. unfold qcow_check_unknown_features, qst. cbn [i_ext].
  unfold qinfo. replace (512 <=? blen b) with true by lia. rewrite q_magic_of.
  change QCOW_MAGIC with qcow2_magic. rewrite Hm. rewrite q_version_of.
  unfold QCOW_VER_A, QCOW_VER_B.
  destruct (qcow2_version b =? 2) eqn:E2.
  - apply N.eqb_eq in E2. rewrite E2. split; reflexivity.
  - destruct (qcow2_version b =? 3); cbn [negb orb andb]; [|split; discriminate].
    cbn [get_region i_regs rget rname_beq bind]. rewrite (qcow_features_state b).
    assert (Hlen : blen (feats b) = 8) by (unfold feats; rewrite blen_bslice; lia).
    assert (Hfb : all_bytes (feats b) = true) by (apply all_bytes_bslice; exact Hb).
    change (N.to_nat QCOW_I_FEATURES_LEN) with 8%nat.
    rewrite (feature_loop_spec _ Hlen 8 0) by reflexivity.
    rewrite (feature_bytes_ok_iff _ Hlen Hfb), N.ltb_lt. reflexivity.
Qed.

Theorem qcow2_pass_okb cs : all_bytes (concat cs) = true ->
  (safety (fst (Insp_All.run F_qcow2 cs)) = Pass <-> qcow2_safeb (concat cs) = true).
Proof.
  intros Hb. rewrite run_qcow_static. cbn [fst safety]. set (b := concat cs) in *.
  rewrite (safety_pass_staged qcow_fmt _ (beq (bslice 0 4 b) qcow2_magic)
             ((qcow2_backing_offset b =? 0) && ((qcow2_version b =? 2) || (qcow2_version b =? 3))
              && negb (N.testbit (qcow2_incompat b) qcow2_datafile_bit)
              && (negb (qcow2_version b =? 3) || (qcow2_incompat b <? 2 ^ QCOW_I_FEATURES_MAX_BIT))));
    rewrite complete_qst.
  - rewrite !andb_assoc. reflexivity.
  - intros Hl. apply qcow_match_state. lia.
  - intros Hl Hm. apply N.leb_le in Hl.
    rewrite <- Forall_forall. cbn [qst i_checks]. rewrite !Forall_cons_iff, Forall_nil_iff. cbn [f_check qcow_fmt qcow_check].
    rewrite (qcow_backing_state b true _ Hl), (qcow_datafile_state b true _ Hl Hb), (qcow_unknown_state b true Hl Hb Hm).
    rewrite !if_ok_iff, !andb_true_iff. tauto.
Qed.

Lemma qcow2_safeb_iff b : qcow2_safeb b = true <-> qcow2_safe b.
Proof.
  unfold qcow2_safeb, qcow2_safe. rewrite !andb_true_iff, orb_true_iff, negb_true_iff.
  unfold no_unknown_bits. rewrite high_bits_clear_iff. rewrite beq_eq.
  split.
  - intros [[[[[H1 H2] H3] H4] H5] H6].
    split; [lia|]. split; [exact H2|]. split; [lia|]. split; [lia|]. split; [exact H5|].
    intros Hv. lia.
  - intros [H1 [H2 [H3 [H4 [H5 H6]]]]].
    split; [split; [split; [split; [split|]|]|]|]; try assumption; try lia.
Qed.

Theorem qcow2_pass_iff cs : all_bytes (concat cs) = true ->
  (safety (fst (Insp_All.run F_qcow2 cs)) = Pass <-> qcow2_safe (concat cs)).
Proof. intros Hb. rewrite (qcow2_pass_okb cs Hb). apply qcow2_safeb_iff. Qed.
