(* Proofs/C02_Cli.v — the exit status of the translated cli.main *)
Require Import OV.Base.Bytes OV.Base.Py OV.Model.Insp_Engine OV.Model.C02_Cli OV.Gen.C02_Cli.
Open Scope Z_scope.

(* main() as a function of how the library calls end; -v changes nothing.  One symbolic run of the
   translated program per way the calls can end (a Crash is told apart by its class, as the except clause does) *)
Lemma cli_main_status env :
  cli_exec cli_main env =
  match e_path_ok env, e_detect env, e_safety env, e_vsize_ok env with
  | true, Ok _, Pass, true => 0
  | _, _, _, _ => 1
  end.
Proof.
  destruct env as [p d s v vb]. cbn [e_path_ok e_detect e_safety e_vsize_ok].
  destruct p; [|reflexivity]. destruct d as [[]|ed]; [|reflexivity].
  destruct s as [|names| |ec]; [| |reflexivity|destruct ec]; destruct v; try reflexivity; destruct vb; reflexivity.
Qed.

(* exit status 0 <-> the path is a file, detection returned an inspector, safety_check() returned normally
   and reading virtual_size did not raise — whatever -v says *)
Lemma cli_exit0_iff_main env :
  cli_exec cli_main env = 0 <->
  e_path_ok env = true /\ e_detect env = Ok tt /\ e_safety env = Pass /\ e_vsize_ok env = true.
Proof.
  rewrite cli_main_status.
  destruct (e_path_ok env), (e_detect env) as [[]|ed], (e_safety env), (e_vsize_ok env);
    (split; [intros H; try discriminate H; repeat split|intros [H1 [H2 [H3 H4]]]; try discriminate; reflexivity]).
Qed.

(* the status is 0 or 1, nothing else *)
Lemma cli_exit_01 env : cli_exec cli_main env = 0 \/ cli_exec cli_main env = 1.
Proof.
  rewrite cli_main_status.
  destruct (e_path_ok env), (e_detect env) as [[]|ed], (e_safety env), (e_vsize_ok env); auto.
Qed.

(* every way safety_check() can fail to return gives status 1 *)
Lemma cli_safety_failure_exit1 env : e_safety env <> Pass -> cli_exec cli_main env = 1.
Proof.
  intros H. destruct (cli_exit_01 env) as [H0|H1]; [|exact H1].
  apply cli_exit0_iff_main in H0. destruct H0 as [_ [_ [Hs _]]]. contradiction.
Qed.

(* main() performs detection and the safety check (once each, detection first) *)
Lemma cli_calls : map (fun s => (is_detect s, is_safety s)) (filter (fun s => is_detect s || is_safety s) cli_main) = [(true, false); (false, true)].
Proof. vm_compute. reflexivity. Qed.

(* non-vacuity: an environment with status 0 and one with status 1 *)
Example cli_ok_example : cli_exec cli_main (mkCenv true (Ok tt) Pass true false) = 0.
Proof. vm_compute. reflexivity. Qed.
Example cli_refused_example : cli_exec cli_main (mkCenv true (Ok tt) Refused true true) = 1.
Proof. vm_compute. reflexivity. Qed.
