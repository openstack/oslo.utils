(* Proofs/C17.v — the version helpers on tuples: radix round trip and order preservation; the readings of
   is_compatible / satisfied_by over the version contract; at the end the translator tie of
   convert_version_to_str (the other ties are in C17_Equiv.v). *)
Require Import OV.Base.Bytes OV.Base.Py OV.Base.PyInt OV.Base.Str OV.Base.Regex.
Require Import OV.Gen.Versionutils OV.Model.C17.
Open Scope Z_scope.

(* The two radices come from the source; everything below needs them equal and
   >= 2.  The component bound of the theorems is [radix - 1] (999 in the source as it stands),
   not a literal. *)
Lemma radix_agree : radix_to_int = radix_to_str.
Proof. reflexivity. Qed.
Lemma radix_ge2 : 2 <= radix_to_str.
Proof. unfold radix_to_str. lia. Qed.

Definition R := radix_to_str.
Definition comp_ok (c : Z) : Prop := 0 <= c < R.

(* value of a component list given least-significant first *)
Fixpoint val_lsf (l : list Z) : Z :=
  match l with [] => 0 | c :: t => c + R * val_lsf t end.

Lemma val_app a b : val_lsf (a ++ b) = val_lsf a + R ^ Z.of_nat (length a) * val_lsf b.
Proof.
  induction a as [|c a IH]; cbn [val_lsf app length].
  - change (Z.of_nat 0) with 0. rewrite Z.pow_0_r. lia.
  - rewrite IH, Nat2Z.inj_succ, Z.pow_succ_r by lia. lia.
Qed.

Lemma fold_val t x : fold_left (fun a y => a * radix_to_int + y) t x
                     = val_lsf (rev t) + x * R ^ Z.of_nat (length t).
Proof.
  revert x. induction t as [|y t IH]; intros x.
  - cbn. lia.
  - cbn [fold_left rev length]. rewrite IH, val_app, rev_length. cbn [val_lsf].
    rewrite Nat2Z.inj_succ, Z.pow_succ_r by lia. rewrite radix_agree. fold R. lia.
Qed.

Lemma tuple_to_int_val v : v <> [] -> tuple_to_int v = Ok (val_lsf (rev v)).
Proof.
  destruct v as [|x t]; [congruence|]. intros _. cbn [tuple_to_int rev]. f_equal.
  rewrite fold_val, val_app, rev_length. cbn [val_lsf]. lia.
Qed.

Lemma val_lsf_nonneg l : Forall comp_ok l -> 0 <= val_lsf l.
Proof.
  induction 1 as [|c t Hc _ IH]; cbn [val_lsf]; [lia|].
  unfold comp_ok in Hc. pose proof radix_ge2. fold R in H. nia.
Qed.

Lemma val_lsf_pos l : Forall comp_ok l -> l <> [] -> last l 1 <> 0 -> 0 < val_lsf l.
Proof.
  pose proof radix_ge2 as HR. fold R in HR.
  induction 1 as [|c t Hc Ht IH]; intros Hne Hlast; [congruence|].
  pose proof (val_lsf_nonneg t Ht) as Hnn. unfold comp_ok in Hc.
  destruct t as [|d t'].
  - cbn in Hlast. cbn [val_lsf]. lia.
  - assert (0 < val_lsf (d :: t')) by (apply IH; [discriminate|exact Hlast]).
    change (val_lsf (c :: d :: t')) with (c + R * val_lsf (d :: t')). nia.
Qed.

(* the loop peels components off, least significant first *)
Lemma ver_loop_val l : forall f acc,
  Forall comp_ok l -> last l 1 <> 0 -> val_lsf l < 2 ^ Z.of_nat f ->
  ver_loop (S f) (val_lsf l) acc = Some (map dec_of_Z (rev l) ++ acc).
Proof.
  pose proof radix_ge2 as HR. fold R in HR.
  induction l as [|c t IH]; intros f acc Hok Hlast Hlt.
  - reflexivity.
  - inversion Hok as [|c' t' Hc Ht]; subst.
    pose proof (val_lsf_nonneg t Ht) as Hnn.
    assert (Hnz : val_lsf (c :: t) <> 0).
    { pose proof (val_lsf_pos (c :: t) Hok). assert (c :: t <> []) by discriminate. intuition lia. }
    cbn [ver_loop]. destruct (val_lsf (c :: t) =? 0) eqn:E; [lia|]. clear E.
    fold R.
    assert (Hdiv : val_lsf (c :: t) / R = val_lsf t).
    { cbn [val_lsf]. unfold comp_ok in Hc. rewrite Z.mul_comm, Z.div_add by lia.
      rewrite Z.div_small by lia. lia. }
    rewrite Hdiv.
    replace (val_lsf (c :: t) - val_lsf t * R) with c by (cbn [val_lsf]; lia).
    destruct f as [|f].
    { change (2 ^ Z.of_nat 0) with 1 in Hlt.
      pose proof (val_lsf_nonneg (c :: t) Hok). lia. }
    rewrite IH.
    + cbn [rev map]. rewrite map_app, <- app_assoc. reflexivity.
    + exact Ht.
    + destruct t as [|d t']; [cbn; lia|exact Hlast].
    + cbn [val_lsf] in Hlt. unfold comp_ok in Hc.
      replace (Z.of_nat (S f)) with (Z.succ (Z.of_nat f)) in Hlt by lia.
      rewrite Z.pow_succ_r in Hlt by lia. nia.
Qed.

Lemma ver_fuel_enough v : 0 <= v -> v < 2 ^ Z.of_nat (S (Z.to_nat (Z.log2 (Z.abs v)))).
Proof.
  intros Hv. rewrite Z.abs_eq by lia.
  destruct (Z.eq_dec v 0) as [->|Hnz]; [cbn; lia|].
  replace (Z.of_nat (S (Z.to_nat (Z.log2 v)))) with (Z.succ (Z.log2 v))
    by (pose proof (Z.log2_nonneg v); lia).
  apply Z.log2_spec. lia.
Qed.

Lemma last_rev_hd (v : list Z) d : last (rev v) d = hd d v.
Proof.
  destruct v as [|x t]; [reflexivity|]. cbn [rev hd].
  rewrite last_last. reflexivity.
Qed.

Theorem version_roundtrip_tuple (v : list Z) :
  v <> [] -> Forall comp_ok v -> hd 1 v <> 0 ->
  exists n, tuple_to_int v = Ok n /\
            convert_version_to_str n = Some (join [version_sep] (map dec_of_Z v)).
Proof.
  intros Hne Hok Hhd. exists (val_lsf (rev v)). split; [apply tuple_to_int_val; exact Hne|].
  unfold convert_version_to_str, ver_fuel.
  rewrite ver_loop_val.
  - rewrite rev_involutive, app_nil_r. reflexivity.
  - apply Forall_rev. exact Hok.
  - rewrite last_rev_hd. exact Hhd.
  - apply ver_fuel_enough. apply val_lsf_nonneg, Forall_rev, Hok.
Qed.

(* order: for equal lengths, comparing integers = comparing tuples lexicographically *)
Fixpoint lex_cmp (a b : list Z) : comparison :=
  match a, b with
  | [], [] => Eq
  | [], _ => Lt
  | _, [] => Gt
  | x :: a', y :: b' => match x ?= y with Eq => lex_cmp a' b' | c => c end
  end.

Lemma val_lsf_bound l : Forall comp_ok l -> val_lsf l < R ^ Z.of_nat (length l).
Proof.
  pose proof radix_ge2 as HR. fold R in HR.
  induction 1 as [|c t Hc Ht IH]; cbn [val_lsf length].
  - cbn. lia.
  - replace (Z.of_nat (S (length t))) with (Z.succ (Z.of_nat (length t))) by lia.
    rewrite Z.pow_succ_r by lia. unfold comp_ok in Hc. nia.
Qed.

Theorem int_order_is_lex_order (a b : list Z) :
  length a = length b -> Forall comp_ok a -> Forall comp_ok b ->
  (val_lsf (rev a) ?= val_lsf (rev b)) = lex_cmp a b.
Proof.
  pose proof radix_ge2 as HR. fold R in HR.
  revert b. induction a as [|x a IH]; intros [|y b] Hlen Ha Hb; try discriminate.
  - reflexivity.
  - inversion Ha as [|x' a' Hx Ha']; inversion Hb as [|y' b' Hy Hb']; subst.
    cbn [rev lex_cmp]. rewrite !val_app. cbn [val_lsf]. rewrite !rev_length.
    injection Hlen as Hlen. rewrite <- Hlen.
    pose proof (val_lsf_bound (rev a) (Forall_rev Ha')) as Ba.
    pose proof (val_lsf_bound (rev b) (Forall_rev Hb')) as Bb.
    pose proof (val_lsf_nonneg (rev a) (Forall_rev Ha')) as Na.
    pose proof (val_lsf_nonneg (rev b) (Forall_rev Hb')) as Nb.
    rewrite rev_length in Ba, Bb. rewrite <- Hlen in Bb.
    set (P := R ^ Z.of_nat (length a)) in *.
    assert (HP : 0 < P) by (apply Z.pow_pos_nonneg; lia).
    destruct (x ?= y) eqn:E.
    + apply Z.compare_eq in E. subst y. rewrite <- (IH b Hlen Ha' Hb').
      destruct (val_lsf (rev a) ?= val_lsf (rev b)) eqn:E2.
      * apply Z.compare_eq in E2. rewrite E2. apply Z.compare_refl.
      * rewrite Z.compare_lt_iff in *. lia.
      * rewrite Z.compare_gt_iff in *. lia.
    + rewrite Z.compare_lt_iff in *. nia.
    + rewrite Z.compare_gt_iff in *. nia.
Qed.

Lemma R_gt_999 : 999 < R.
Proof. unfold R, radix_to_str. lia. Qed.

Lemma comp_999 l : Forall (fun c => 0 <= c <= 999) l -> Forall comp_ok l.
Proof. apply Forall_impl. intros c Hc. unfold comp_ok. pose proof R_gt_999. lia. Qed.

Theorem version_roundtrip_999 (v : list Z) :
  v <> [] -> Forall (fun c => 0 <= c <= 999) v -> hd 1 v <> 0 ->
  exists n, tuple_to_int v = Ok n /\
            convert_version_to_str n = Some (join [version_sep] (map dec_of_Z v)).
Proof. intros H1 H2 H3. apply version_roundtrip_tuple; auto using comp_999. Qed.

Theorem int_order_999 (a b : list Z) :
  length a = length b ->
  Forall (fun c => 0 <= c <= 999) a -> Forall (fun c => 0 <= c <= 999) b ->
  exists na nb, tuple_to_int a = Ok na /\ tuple_to_int b = Ok nb /\ (na ?= nb) = lex_cmp a b
  \/ (a = [] /\ b = []).
Proof.
  intros Hl Ha Hb. exists (val_lsf (rev a)), (val_lsf (rev b)).
  destruct a as [|x a]; destruct b as [|y b]; try discriminate.
  - right. split; reflexivity.
  - left. rewrite !tuple_to_int_val by discriminate. repeat split.
    apply int_order_is_lex_order; auto using comp_999.
Qed.

Lemma empty_tuple_TypeError : tuple_to_int [] = Exn TypeError.
Proof. reflexivity. Qed.

(* non-vacuity *)
Example roundtrip_example :
  tuple_to_int [1; 0; 999; 23] = Ok 1000999023 /\
  convert_version_to_str 1000999023 = Some (join [version_sep] (map dec_of_Z [1; 0; 999; 23])).
Proof. vm_compute. split; reflexivity. Qed.

(* negative control: a component equal to the radix breaks the round trip *)
Example roundtrip_fails_at_radix :
  exists n, tuple_to_int [1; R] = Ok n /\
            convert_version_to_str n <> Some (join [version_sep] (map dec_of_Z [1; R])).
Proof. eexists. split; [reflexivity|]. vm_compute. discriminate. Qed.

(* is_compatible / satisfied_by against their reading, for ANY vle / veq (the contract: what
   packaging's <= and == return) *)
Section Compat1.
  Variable V : Type.
  Variable vle : V -> V -> bool.
  Variable major : V -> Z.
  Lemma is_compatible_spec req cur sm :
    is_compatible V vle major req cur sm = true <->
    (vle req cur = true /\ (sm = true -> major req = major cur)).
  Proof.
    unfold is_compatible. destruct sm; cbn [andb].
    - destruct (major req =? major cur) eqn:E; cbn [negb].
      + apply Z.eqb_eq in E. tauto.
      + apply Z.eqb_neq in E. split; [discriminate|]. intros [_ H]. specialize (H eq_refl). contradiction.
    - split; [intros H; split; [exact H|discriminate]|tauto].
  Qed.
End Compat1.
Section Compat.
  Variable V : Type.
  Variable vle veq : V -> V -> bool.
  Lemma satisfied_by_spec preds v :
    satisfied_by V vle veq preds v = true <->
    (forall p, In p preds -> cmp_holds V vle veq (fst p) v (snd p) = true).
  Proof. unfold satisfied_by. apply forallb_forall. Qed.
End Compat.

(* translator tie: convert_version_to_str regenerated statement by statement from the source equals
   the hand-written model *)
Require Import OV.Gen.VersionutilsCode.

Lemma gen_loop_equiv fuel v acc :
  gen_convert_version_to_str_loop1 fuel radix_to_str acc v =
  option_map (fun l => (l, 0)) (ver_loop fuel v acc).
Proof.
  revert v acc. induction fuel as [|f IH]; intros v acc; [reflexivity|].
  cbn [gen_convert_version_to_str_loop1 ver_loop].
  destruct (v =? 0) eqn:E; cbn [negb].
  - apply Z.eqb_eq in E. subst. reflexivity.
  - apply IH.
Qed.

Theorem gen_convert_version_to_str_equiv fuel v :
  gen_convert_version_to_str fuel v =
  match ver_loop fuel v [] with
  | Some l => Ok (join [version_sep] l)
  | None => Exn OtherError
  end.
Proof.
  unfold gen_convert_version_to_str.
  pose proof (gen_loop_equiv fuel v []) as E. unfold radix_to_str in E. rewrite E.
  unfold str, bytes in *.
  match goal with |- context [ver_loop ?a ?b ?c] => destruct (ver_loop a b c) end; reflexivity.
Qed.
