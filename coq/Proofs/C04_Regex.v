(* Proofs/C04_Regex.v — the shared library of facts about the backtracking matcher of
   Base/Regex.v (named after the property that needed it first; C10, C11, C17 and C18 build on it),
   for arbitrary regexes, character sets and subjects:
     run_len and try_counts (what a repeat can take), the `$` test;
     the continuation invariant m_inv (a successful match consumes a prefix and records
     well-placed groups) — the tool when only positions and group spans matter;
     re_sub: copying where nothing matches, replacing at a match, the frame lemma;
     greedy repeats (m_rep_max, m_rep_exact, match_at_rep), slices, disjoint and covering character sets.
   A declarative reading of a whole regex is in C10_Regex.v ([mt], with groups) and C11_Regex.v
   (the same without groups).  The last part of this file (from casing_ok on: key templates of
   Base/C04_Tmpl.v, the relation gm and its tactics) serves C04 only. *)
Require Import OV.Base.Bytes OV.Base.PyInt OV.Base.Regex.
Open Scope N_scope.

Fixpoint gids (r : re) : list nat :=
  match r with
  | Seq a b | Alt a b => gids a ++ gids b
  | Opt a => gids a
  | Group i a => i :: gids a
  | _ => []
  end.

Definition span_ok (ids : list nat) (lo hi : N) (e : nat * (N * N)) : Prop :=
  In (fst e) ids /\ lo <= fst (snd e) /\ fst (snd e) <= snd (snd e) /\ snd (snd e) <= hi.

Lemma span_ok_weaken ids ids' lo lo' hi hi' e :
  span_ok ids lo hi e -> incl ids ids' -> lo' <= lo -> hi <= hi' -> span_ok ids' lo' hi' e.
Proof. unfold span_ok. intros (H1 & H2 & H3 & H4) Hi Hl Hh. repeat split; auto; lia. Qed.

Definition hd_notin (cs : cset) (s : str) : bool :=
  match s with [] => true | c :: _ => negb (cmem c cs) end.
Definition all_in (cs : cset) (v : str) : bool := forallb (fun c => cmem c cs) v.
Definition within (n : nat) (mx : option nat) : bool :=
  match mx with None => true | Some j => Nat.leb n j end.

Lemma run_len_le cs s mx : (run_len cs s mx <= length s)%nat.
Proof.
  revert mx. induction s as [|c t IH]; intros mx; cbn [run_len length]; [lia|].
  destruct mx as [[|j]|]; try lia; destruct (cmem c cs); try lia;
    match goal with |- (S (run_len _ _ ?m) <= _)%nat => specialize (IH m); lia end.
Qed.

(* any count up to run_len is a word of the class, within the bound ... *)
Lemma run_len_split cs : forall s mx n, (n <= run_len cs s mx)%nat ->
  exists w, s = w ++ skipn n s /\ length w = n /\ all_in cs w = true /\ within n mx = true.
Proof.
  induction s as [|c t IH]; intros mx [|n] H; try (exists []; repeat split; destruct mx; reflexivity).
  - cbn in H. lia.
  - cbn [run_len] in H.
    assert (Hc : cmem c cs = true /\ (n <= run_len cs t (option_map pred mx))%nat /\ mx <> Some 0%nat)
      by (destruct mx as [[|k]|]; try lia; destruct (cmem c cs); try lia; repeat split; try lia; discriminate).
    destruct Hc as [Hc [Hn Hm]]. destruct (IH _ _ Hn) as [w [Hs [Hl [Ha Hw]]]].
    exists (c :: w). cbn [skipn app length all_in forallb]. rewrite Hc.
    repeat split; [f_equal; exact Hs|lia|exact Ha|].
    destruct mx as [[|k]|]; [congruence|exact Hw|reflexivity].
Qed.

(* ... and every such word at the head of the subject is counted *)
Lemma run_len_ge cs : forall w s' mx,
  all_in cs w = true -> within (length w) mx = true -> (length w <= run_len cs (w ++ s') mx)%nat.
Proof.
  induction w as [|c w IH]; intros s' mx Ha Hm; [cbn; lia|].
  cbn [all_in forallb] in Ha. apply andb_true_iff in Ha. destruct Ha as [Hc Hw].
  cbn [app run_len length]. destruct mx as [[|k]|]; [discriminate Hm| |]; rewrite Hc; cbn [option_map pred].
  - specialize (IH s' (Some k) Hw Hm). lia.
  - specialize (IH s' None Hw eq_refl). lia.
Qed.

(* a maximal run (the next character is outside the set, or the bound is reached) is counted exactly *)
Lemma run_len_exact cs v rest mx :
  all_in cs v = true -> within (length v) mx = true ->
  (hd_notin cs rest = true \/ mx = Some (length v)) ->
  run_len cs (v ++ rest) mx = length v.
Proof.
  revert mx. induction v as [|c t IH]; intros mx Hv Hw Hr.
  - cbn [app length]. destruct rest as [|c r]; [reflexivity|]. cbn [run_len].
    destruct Hr as [Hr| ->]; [|reflexivity].
    cbn in Hr. apply negb_true_iff in Hr. rewrite Hr. destruct mx as [[|j]|]; reflexivity.
  - cbn [all_in forallb] in Hv. apply andb_true_iff in Hv. destruct Hv as [Hc Ht].
    cbn [app run_len length]. rewrite Hc.
    destruct mx as [[|j]|].
    + cbn in Hw. discriminate.
    + f_equal. apply IH; auto. cbn [option_map pred]. destruct Hr as [Hr|Hr]; [left; exact Hr|right].
      inversion Hr. reflexivity.
    + f_equal. apply IH; auto. destruct Hr as [Hr|Hr]; [left; exact Hr|discriminate].
Qed.

Lemma skipn_app_exact {A} (v rest : list A) : skipn (length v) (v ++ rest) = rest.
Proof. induction v; cbn; auto. Qed.

(* try_counts answers with the continuation's answer at some count between mn and n, the largest first *)
Lemma try_counts_sound R s p g (k : cont R) mn : forall n x,
  (mn <= n)%nat -> try_counts R s p g k mn n = Some x ->
  exists j, (mn <= j <= n)%nat /\ k (skipn j s) (p + N.of_nat j) g = Some x.
Proof.
  induction n as [|n IH]; intros x Hmn H; cbn [try_counts] in H.
  - destruct (k (skipn 0 s) (p + N.of_nat 0) g) eqn:E; [|discriminate].
    exists 0%nat. split; [lia|]. congruence.
  - destruct (k (skipn (S n) s) (p + N.of_nat (S n)) g) eqn:E.
    + exists (S n). split; [lia|]. congruence.
    + destruct (Nat.ltb n mn) eqn:El; [discriminate|].
      apply Nat.ltb_ge in El.
      destruct (IH x El H) as [j [Hj Hk]]. exists j. split; [lia|exact Hk].
Qed.

Lemma try_counts_complete R s p g (k : cont R) mn j : forall n,
  (mn <= j <= n)%nat -> k (skipn j s) (p + N.of_nat j) g <> None ->
  try_counts R s p g k mn n <> None.
Proof.
  induction n as [|n IH]; intros Hj Hk; cbn [try_counts].
  - assert (j = 0%nat) by lia. subst.
    destruct (k (skipn 0 s) (p + N.of_nat 0) g); [discriminate|congruence].
  - destruct (k (skipn (S n) s) (p + N.of_nat (S n)) g) eqn:E; [discriminate|].
    destruct (Nat.eq_dec j (S n)) as [->|Hne]; [congruence|].
    destruct (Nat.ltb n mn) eqn:El.
    + apply Nat.ltb_lt in El. lia.
    + apply IH; [lia|exact Hk].
Qed.

Lemma try_counts_first R s p g (k : cont R) mn n x :
  k (skipn n s) (p + N.of_nat n) g = Some x -> try_counts R s p g k mn n = Some x.
Proof. intros H. destruct n; cbn [try_counts]; rewrite H; reflexivity. Qed.

Lemma try_counts_none R s p g (k : cont R) mn n :
  (mn <= n)%nat ->
  (forall j, (mn <= j <= n)%nat -> k (skipn j s) (p + N.of_nat j) g = None) ->
  try_counts R s p g k mn n = None.
Proof.
  induction n as [|n IH]; intros Hmn H; cbn [try_counts].
  - rewrite H by lia. reflexivity.
  - rewrite H by lia. destruct (Nat.ltb n mn) eqn:L; [reflexivity|].
    apply Nat.ltb_ge in L. apply IH; [exact L|]. intros j Hj. apply H. lia.
Qed.

Lemma try_counts_top R s p g (k : cont R) mn n :
  (mn <= n)%nat ->
  (forall j, (mn <= j < n)%nat -> k (skipn j s) (p + N.of_nat j) g = None) ->
  try_counts R s p g k mn n = k (skipn n s) (p + N.of_nat n) g.
Proof.
  intros Hmn H. destruct n as [|n]; cbn [try_counts].
  - destruct (k (skipn 0 s) (p + N.of_nat 0) g); reflexivity.
  - destruct (k (skipn (S n) s) (p + N.of_nat (S n)) g) eqn:E; [reflexivity|].
    destruct (Nat.ltb n mn) eqn:L; [reflexivity|]. apply Nat.ltb_ge in L.
    apply try_counts_none; [exact L|]. intros j Hj. apply H. lia.
Qed.

Lemma run_len_in cs s j : (j < run_len cs s None)%nat -> exists c, nth_error s j = Some c /\ cmem c cs = true.
Proof.
  revert s. induction j as [|j IH]; intros [|c t] H; cbn [run_len] in H; try lia.
  - destruct (cmem c cs) eqn:E; [|lia]. exists c. split; [reflexivity|exact E].
  - destruct (cmem c cs) eqn:E; [|lia]. cbn [option_map] in H. cbn [nth_error]. apply IH. lia.
Qed.

Lemma run_len_stop cs s : match nth_error s (run_len cs s None) with Some c => cmem c cs = false | None => True end.
Proof.
  induction s as [|c t IH]; [exact I|]. cbn [run_len]. destruct (cmem c cs) eqn:E; cbn [nth_error option_map]; [exact IH|exact E].
Qed.

(* `$`: the end, or a final newline *)
Definition eol_ok (s : str) : bool := match s with [] => true | [c] => c =? 10 | _ => false end.

Lemma eol_case {A} (s : str) (a b : A) :
  match s with [] => a | [10] => a | _ => b end = if eol_ok s then a else b.
Proof.
  destruct s as [|c [|c2 t]]; [reflexivity| |].
  - destruct c as [|q]; [reflexivity|]. do 4 (try (destruct q as [q|q|]; try reflexivity)).
  - destruct c as [|q]; [reflexivity|]. do 4 (try (destruct q as [q|q|]; try reflexivity)).
Qed.

Lemma eol_ok_iff s : eol_ok s = true <-> s = [] \/ s = [10].
Proof.
  destruct s as [|c [|c2 t]]; cbn [eol_ok].
  - split; [left; reflexivity|reflexivity].
  - rewrite N.eqb_eq. split; [intros ->; right; reflexivity|intros [H|H]; [discriminate|injection H; trivial]].
  - split; [discriminate|intros [H|H]; discriminate].
Qed.

Lemma m_inv R r : forall s p g (k : cont R) x,
  m R r s p g k = Some x ->
  exists n gs, (n <= length s)%nat /\ k (skipn n s) (p + N.of_nat n) (gs ++ g) = Some x /\
               Forall (span_ok (gids r) p (p + N.of_nat n)) gs.
Proof.
  induction r as [|cs|a IHa b IHb|a IHa b IHb|cs mn mx|a IHa|i a IHa| |]; intros s p g k x H; cbn [m] in H.
  - exists 0%nat, []. cbn. rewrite N.add_0_r. repeat split; auto; lia.
  - destruct s as [|c t]; [discriminate|]. destruct (cmem c cs); [|discriminate].
    exists 1%nat, []. cbn [skipn app length]. repeat split; auto; lia.
  - destruct (IHa _ _ _ _ _ H) as (n1 & gs1 & L1 & K1 & F1).
    destruct (IHb _ _ _ _ _ K1) as (n2 & gs2 & L2 & K2 & F2).
    rewrite skipn_length in L2.
    exists (n1 + n2)%nat, (gs2 ++ gs1). split; [lia|]. split.
    + rewrite skipn_skipn' in K2. rewrite <- app_assoc.
      replace (p + N.of_nat (n1 + n2)) with (p + N.of_nat n1 + N.of_nat n2) by lia. exact K2.
    + apply Forall_app. split; eapply Forall_impl; try eassumption; intros e He; cbn [gids].
      * eapply span_ok_weaken; [exact He|apply incl_appr, incl_refl|lia|lia].
      * eapply span_ok_weaken; [exact He|apply incl_appl, incl_refl|lia|lia].
  - destruct (m R a s p g k) eqn:E.
    + inversion H; subst. destruct (IHa _ _ _ _ _ E) as (n & gs & L & K & F).
      exists n, gs. repeat split; auto. eapply Forall_impl; [|exact F]. intros e He.
      eapply span_ok_weaken; [exact He|cbn [gids]; apply incl_appl, incl_refl|lia|lia].
    + destruct (IHb _ _ _ _ _ H) as (n & gs & L & K & F).
      exists n, gs. repeat split; auto. eapply Forall_impl; [|exact F]. intros e He.
      eapply span_ok_weaken; [exact He|cbn [gids]; apply incl_appr, incl_refl|lia|lia].
  - destruct (Nat.ltb (run_len cs s mx) mn) eqn:El; [discriminate|]. apply Nat.ltb_ge in El.
    destruct (try_counts_sound _ _ _ _ _ _ _ _ El H) as (j & Hj & K).
    pose proof (run_len_le cs s mx).
    exists j, []. repeat split; auto. lia.
  - destruct (m R a s p g k) eqn:E.
    + inversion H; subst. destruct (IHa _ _ _ _ _ E) as (n & gs & L & K & F). exists n, gs. auto.
    + exists 0%nat, []. cbn. rewrite N.add_0_r. repeat split; auto; lia.
  - destruct (IHa _ _ _ _ _ H) as (n & gs & L & K & F).
    exists n, ((i, (p, p + N.of_nat n)) :: gs). split; [exact L|]. split; [exact K|].
    constructor.
    + unfold span_ok. cbn. repeat split; auto; lia.
    + eapply Forall_impl; [|exact F]. intros e He.
      eapply span_ok_weaken; [exact He|cbn [gids]; apply incl_tl, incl_refl|lia|lia].
  - destruct (p =? 0); [|discriminate]. exists 0%nat, []. cbn. rewrite N.add_0_r. repeat split; auto; lia.
  - exists 0%nat, []. cbn. rewrite N.add_0_r. split; [lia|]. split; [|constructor].
    rewrite eol_case in H. destruct (eol_ok s); [exact H|discriminate].
Qed.

Lemma match_at_inv r s p e g :
  match_at r s p = Some (e, g) ->
  exists n, (n <= length s)%nat /\ e = p + N.of_nat n /\ Forall (span_ok (gids r) p e) g.
Proof.
  unfold match_at. intros H. destruct (m_inv _ _ _ _ _ _ _ H) as (n & gs & L & K & F).
  inversion K; subst. rewrite app_nil_r. exists n. auto.
Qed.

(* ---------- re_sub: frame ---------- *)

Lemma sub_go_skip r t whole : forall s p k,
  sub_go r t whole s p k = sub_go r t whole (skipn k s) (p + N.of_nat k) 0.
Proof.
  induction s as [|c rest IH]; intros p k.
  - rewrite skipn_nil. reflexivity.
  - destruct k as [|k].
    + cbn [skipn]. rewrite N.add_0_r. reflexivity.
    + cbn [sub_go skipn]. rewrite IH. f_equal. lia.
Qed.

(* a prefix in which no position matches is copied *)
Lemma sub_go_copy r t whole : forall pre rest p,
  (forall j, (j < length pre)%nat -> match_at r (skipn j (pre ++ rest)) (p + N.of_nat j) = None) ->
  sub_go r t whole (pre ++ rest) p 0 = pre ++ sub_go r t whole rest (p + blen pre) 0.
Proof.
  induction pre as [|c pre IH]; intros rest p H.
  - cbn [app]. rewrite blen_nil, N.add_0_r. reflexivity.
  - cbn [app sub_go]. pose proof (H 0%nat ltac:(cbn; lia)) as H0. cbn [skipn app] in H0.
    rewrite N.add_0_r in H0. rewrite H0. f_equal. rewrite IH.
    + rewrite blen_cons. f_equal. f_equal. lia.
    + intros j Hj. specialize (H (S j) ltac:(cbn; lia)). cbn [skipn app] in H.
      replace (p + 1 + N.of_nat j) with (p + N.of_nat (S j)) by lia. exact H.
Qed.

(* a non-empty match is replaced by the expanded template *)
Lemma sub_go_hit r t whole s p n g :
  (0 < n)%nat -> (n <= length s)%nat -> match_at r s p = Some (p + N.of_nat n, g) ->
  sub_go r t whole s p 0 = expand t whole g ++ sub_go r t whole (skipn n s) (p + N.of_nat n) 0.
Proof.
  intros Hn Hl H. destruct s as [|c rest]; [cbn in Hl; lia|]. cbn [sub_go]. rewrite H.
  replace (p <? p + N.of_nat n) with true by lia. f_equal.
  rewrite sub_go_skip. destruct n as [|n]; [lia|]. cbn [skipn].
  replace (N.to_nat (p + N.of_nat (S n) - p) - 1)%nat with n by lia. f_equal. lia.
Qed.

(* what re_sub computes, as a relation: p is the offset of [s] in [whole] *)
Inductive sub_rel (r : re) (t : list titem) (whole : str) : N -> str -> str -> Prop :=
| sr_nil p : sub_rel r t whole p [] []
| sr_copy p c rest out :
    (match_at r (c :: rest) p = None \/ exists g, match_at r (c :: rest) p = Some (p, g)) ->
    sub_rel r t whole (p + 1) rest out ->
    sub_rel r t whole p (c :: rest) (c :: out)
| sr_match p s n g out :
    (0 < n)%nat -> (n <= length s)%nat ->
    match_at r s p = Some (p + N.of_nat n, g) ->
    sub_rel r t whole (p + N.of_nat n) (skipn n s) out ->
    sub_rel r t whole p s (expand t whole g ++ out).

Lemma sub_go_rel r t whole : forall len s p, (length s <= len)%nat ->
  sub_rel r t whole p s (sub_go r t whole s p 0).
Proof.
  induction len as [|len IH]; intros s p L.
  - destruct s; [constructor|cbn in L; lia].
  - destruct s as [|c rest]; [constructor|]. cbn [length] in L.
    destruct (match_at r (c :: rest) p) as [[e g]|] eqn:E.
    + destruct (match_at_inv _ _ _ _ _ E) as (n & Ln & -> & _). destruct n as [|n].
      * cbn [sub_go]. rewrite E. replace (p <? p + N.of_nat 0) with false by lia.
        apply sr_copy; [right; exists g; rewrite E; f_equal; f_equal; lia|]. apply IH. lia.
      * rewrite (sub_go_hit r t whole _ p (S n) g) by (exact E || lia).
        apply sr_match with (n := S n); auto; try lia.
        apply IH. rewrite skipn_length. cbn [length] in Ln |- *. lia.
    + cbn [sub_go]. rewrite E. apply sr_copy; [left; exact E|]. apply IH. lia.
Qed.

(* re_sub only replaces matched spans: every character outside a non-empty match is copied *)
Theorem re_sub_frame r t s : sub_rel r t s 0 s (re_sub r t s).
Proof. unfold re_sub. apply sub_go_rel with (len := length s). lia. Qed.

Lemma slice_suffix pre s a b : a <= b ->
  slice (pre ++ s) (blen pre + a) (blen pre + b) = firstn (N.to_nat (b - a)) (skipn (N.to_nat a) s).
Proof.
  intros H. unfold slice, bsub, btake, bskip.
  replace (blen pre + b - (blen pre + a)) with (b - a) by lia. f_equal.
  unfold blen. rewrite skipn_app.
  replace (N.to_nat (N.of_nat (length pre) + a) - length pre)%nat with (N.to_nat a) by lia.
  rewrite skipn_all2 by lia. reflexivity.
Qed.

Lemma slice_suffix0 pre s b :
  slice (pre ++ s) (blen pre) (blen pre + b) = firstn (N.to_nat b) s.
Proof.
  pose proof (slice_suffix pre s 0 b ltac:(lia)) as H. rewrite N.add_0_r, N.sub_0_r in H. exact H.
Qed.

(* ---------- two-group patterns: (G1) X (G2) ---------- *)
Definition no_gid (i : nat) (r : re) : bool := negb (existsb (Nat.eqb i) (gids r)).

Definition two_group_shape (r : re) : bool :=
  match r with
  | Seq (Group 1%nat a) (Seq x (Group 2%nat b)) => no_gid 1 x && no_gid 1 b
  | _ => false
  end.
Definition one_group_shape (r : re) : bool :=
  match r with
  | Seq (Group 1%nat a) x => no_gid 1 x
  | _ => false
  end.

Lemma gget_skip (gs g : groups) i ids lo hi :
  Forall (span_ok ids lo hi) gs -> ~ In i ids -> gget (gs ++ g) i = gget g i.
Proof.
  induction 1 as [|[j v] gs He _ IH]; intros Hn; [reflexivity|]. cbn [app gget].
  destruct (Nat.eqb i j) eqn:E; [|auto]. apply Nat.eqb_eq in E. subst. destruct He as (Hi & _). cbn in Hi. tauto.
Qed.

Lemma no_gid_notin i r : no_gid i r = true -> ~ In i (gids r).
Proof.
  unfold no_gid. intros H Hin. apply negb_true_iff in H.
  assert (existsb (Nat.eqb i) (gids r) = true); [|congruence].
  apply existsb_exists. exists i. split; [exact Hin|apply Nat.eqb_refl].
Qed.

Lemma two_group_match r s p e g :
  two_group_shape r = true -> match_at r s p = Some (e, g) ->
  exists n1 n2 n3, (n1 + n2 + n3 <= length s)%nat /\ e = p + N.of_nat (n1 + n2 + n3) /\
    gget g 1 = Some (p, p + N.of_nat n1) /\
    gget g 2 = Some (p + N.of_nat (n1 + n2), p + N.of_nat (n1 + n2 + n3)).
Proof.
  intros Hs H. destruct r as [| |r1 r2| | | | | |]; try discriminate.
  destruct r1 as [| | | | | |i a| |]; try discriminate. destruct i as [|[|i]]; try discriminate.
  destruct r2 as [| |x r3| | | | | |]; try discriminate.
  destruct r3 as [| | | | | |j b| |]; try discriminate. destruct j as [|[|[|j]]]; try discriminate.
  cbn [two_group_shape] in Hs. apply andb_true_iff in Hs. destruct Hs as [Hx Hb].
  apply no_gid_notin in Hx. apply no_gid_notin in Hb.
  unfold match_at in H. cbn [m] in H.
  destruct (m_inv _ _ _ _ _ _ _ H) as (n1 & gs1 & L1 & K1 & F1). clear H. cbn beta in K1.
  destruct (m_inv _ _ _ _ _ _ _ K1) as (n2 & gs2 & L2 & K2 & F2). clear K1. cbn beta in K2.
  destruct (m_inv _ _ _ _ _ _ _ K2) as (n3 & gs3 & L3 & K3 & F3). clear K2. cbn beta in K3.
  inversion K3; subst; clear K3.
  rewrite !skipn_length in *.
  exists n1, n2, n3. split; [lia|]. split; [lia|]. split.
  - cbn [gget Nat.eqb].
    rewrite (gget_skip gs3 _ 1 _ _ _ F3 Hb). rewrite (gget_skip gs2 _ 1 _ _ _ F2 Hx).
    cbn [gget Nat.eqb]. reflexivity.
  - cbn [gget Nat.eqb]. f_equal. f_equal; lia.
Qed.

Lemma one_group_match r s p e g :
  one_group_shape r = true -> match_at r s p = Some (e, g) ->
  exists n1 n2, (n1 + n2 <= length s)%nat /\ e = p + N.of_nat (n1 + n2) /\
    gget g 1 = Some (p, p + N.of_nat n1).
Proof.
  intros Hs H. destruct r as [| |r1 x| | | | | |]; try discriminate.
  destruct r1 as [| | | | | |i a| |]; try discriminate. destruct i as [|[|i]]; try discriminate.
  cbn [one_group_shape] in Hs. apply no_gid_notin in Hs.
  unfold match_at in H. cbn [m] in H.
  destruct (m_inv _ _ _ _ _ _ _ H) as (n1 & gs1 & L1 & K1 & F1). clear H. cbn beta in K1.
  destruct (m_inv _ _ _ _ _ _ _ K1) as (n2 & gs2 & L2 & K2 & F2). clear K1. cbn beta in K2.
  inversion K2; subst; clear K2. rewrite !skipn_length in *.
  exists n1, n2. split; [lia|]. split; [lia|].
  rewrite (gget_skip gs2 _ 1 _ _ _ F2 Hs). cbn [gget Nat.eqb]. reflexivity.
Qed.

(* replacement templates of mask_password *)
Definition t2 (secret : str) : list titem := [TGrp 1] ++ map TLit secret ++ [TGrp 2].
Definition t1 (secret : str) : list titem := [TGrp 1] ++ map TLit secret.
Definition tw : list titem := [TGrp 1].

Lemma expand_lits secret whole g rest :
  expand (map TLit secret ++ rest) whole g = secret ++ expand rest whole g.
Proof. induction secret as [|c t IH]; cbn; [reflexivity|]. f_equal. exact IH. Qed.

(* the frame relation for a substitution with \g<1> secret \g<2>: a replaced span is
   g1 ++ v ++ g2 and becomes g1 ++ secret ++ g2 — only the text between the two groups changes *)
Inductive sub2_rel (r : re) (secret : str) : N -> str -> str -> Prop :=
| s2_nil p : sub2_rel r secret p [] []
| s2_copy p c rest out : sub2_rel r secret (p + 1) rest out -> sub2_rel r secret p (c :: rest) (c :: out)
| s2_match p g1 v g2 rest out grp :
    g1 ++ v ++ g2 <> [] ->
    match_at r (g1 ++ v ++ g2 ++ rest) p = Some (p + blen (g1 ++ v ++ g2), grp) ->
    sub2_rel r secret (p + blen (g1 ++ v ++ g2)) rest out ->
    sub2_rel r secret p (g1 ++ v ++ g2 ++ rest) (g1 ++ secret ++ g2 ++ out).

Lemma firstn_skipn_split3 {A} (s : list A) n1 n2 n3 : (n1 + n2 + n3 <= length s)%nat ->
  s = firstn n1 s ++ firstn n2 (skipn n1 s) ++ firstn n3 (skipn (n1 + n2) s) ++ skipn (n1 + n2 + n3) s.
Proof.
  intros H. rewrite <- (firstn_skipn n1 s) at 1. f_equal.
  rewrite <- (firstn_skipn n2 (skipn n1 s)) at 1. f_equal.
  rewrite skipn_skipn'. rewrite <- (firstn_skipn n3 (skipn (n1 + n2) s)) at 1. f_equal.
  rewrite skipn_skipn'. reflexivity.
Qed.

Lemma expand_t2 whole g secret a b c d :
  gget g 1 = Some (a, b) -> gget g 2 = Some (c, d) ->
  expand (t2 secret) whole g = slice whole a b ++ secret ++ slice whole c d.
Proof.
  intros H1 H2. unfold t2. cbn [app expand]. rewrite H1. f_equal.
  rewrite expand_lits. cbn [expand]. rewrite H2, app_nil_r. reflexivity.
Qed.

Lemma sub_rel_two r secret : two_group_shape r = true ->
  forall whole p s out, sub_rel r (t2 secret) whole p s out ->
  forall pre, whole = pre ++ s -> p = blen pre -> sub2_rel r secret p s out.
Proof.
  intros Hs whole p s out H.
  induction H as [p|p c rest out Hm H IH|p s n g out Hn Ln Hm H IH]; intros pre Hw Hp.
  - constructor.
  - constructor. apply (IH (pre ++ [c])); [rewrite <- app_assoc; exact Hw|rewrite blen_app, Hp; cbn; lia].
  - destruct (two_group_match _ _ _ _ _ Hs Hm) as (n1 & n2 & n3 & L & He & G1 & G2).
    assert (n = (n1 + n2 + n3)%nat) by lia. subst n.
    rewrite (expand_t2 _ _ _ _ _ _ _ G1 G2).
    subst whole. subst p.
    rewrite (slice_suffix0 pre s (N.of_nat n1)).
    rewrite (slice_suffix pre s (N.of_nat (n1 + n2)) (N.of_nat (n1 + n2 + n3))) by lia.
    replace (N.to_nat (N.of_nat n1)) with n1 by lia.
    replace (N.to_nat (N.of_nat (n1 + n2 + n3) - N.of_nat (n1 + n2))) with n3 by lia.
    replace (N.to_nat (N.of_nat (n1 + n2))) with (n1 + n2)%nat by lia.
    pose proof (firstn_skipn_split3 s n1 n2 n3 L) as Es.
    remember (firstn n1 s) as g1 eqn:E1. remember (firstn n2 (skipn n1 s)) as v eqn:E2.
    remember (firstn n3 (skipn (n1 + n2) s)) as g2 eqn:E3. remember (skipn (n1 + n2 + n3) s) as rest eqn:E4.
    assert (Lg1 : length g1 = n1) by (subst g1; rewrite firstn_length; lia).
    assert (Lv : length v = n2) by (subst v; rewrite firstn_length, skipn_length; lia).
    assert (Lg2 : length g2 = n3) by (subst g2; rewrite firstn_length, skipn_length; lia).
    assert (Lb : blen (g1 ++ v ++ g2) = N.of_nat (n1 + n2 + n3)).
    { unfold blen. rewrite !app_length. lia. }
    clear E1 E2 E3 E4. subst s.
    repeat rewrite <- app_assoc.
    apply s2_match with (grp := g).
    + intros E. apply (f_equal (@length _)) in E. rewrite !app_length in E. cbn in E. lia.
    + rewrite Lb. exact Hm.
    + rewrite Lb. apply (IH (pre ++ g1 ++ v ++ g2)).
      * rewrite <- !app_assoc. reflexivity.
      * rewrite blen_app, Lb. reflexivity.
Qed.

(* re_sub with the two-group template changes only the text between group 1 and group 2 of each match *)
Theorem re_sub_frame_two r secret s : two_group_shape r = true ->
  sub2_rel r secret 0 s (re_sub r (t2 secret) s).
Proof.
  intros Hs. apply (sub_rel_two r secret Hs s 0 s _ (re_sub_frame r (t2 secret) s) []); reflexivity.
Qed.

(* one group: a replaced span g1 ++ v becomes g1 ++ secret (template \g<1>secret) or g1 (template \g<1>) *)
Inductive sub1_rel (r : re) (ins : str) : N -> str -> str -> Prop :=
| s1_nil p : sub1_rel r ins p [] []
| s1_copy p c rest out : sub1_rel r ins (p + 1) rest out -> sub1_rel r ins p (c :: rest) (c :: out)
| s1_match p g1 v rest out grp :
    g1 ++ v <> [] ->
    match_at r (g1 ++ v ++ rest) p = Some (p + blen (g1 ++ v), grp) ->
    sub1_rel r ins (p + blen (g1 ++ v)) rest out ->
    sub1_rel r ins p (g1 ++ v ++ rest) (g1 ++ ins ++ out).

Lemma sub_rel_one r (t : list titem) ins : one_group_shape r = true ->
  (forall whole g, expand t whole g = match gget g 1 with Some (a, b) => slice whole a b | None => [] end ++ ins) ->
  forall whole p s out, sub_rel r t whole p s out ->
  forall pre, whole = pre ++ s -> p = blen pre -> sub1_rel r ins p s out.
Proof.
  intros Hs Ht whole p s out H.
  induction H as [p|p c rest out Hm H IH|p s n g out Hn Ln Hm H IH]; intros pre Hw Hp.
  - constructor.
  - constructor. apply (IH (pre ++ [c])); [rewrite <- app_assoc; exact Hw|rewrite blen_app, Hp; cbn; lia].
  - destruct (one_group_match _ _ _ _ _ Hs Hm) as (n1 & n2 & L & He & G1).
    assert (n = (n1 + n2)%nat) by lia. subst n.
    rewrite Ht, G1. subst whole. subst p.
    rewrite (slice_suffix0 pre s (N.of_nat n1)).
    replace (N.to_nat (N.of_nat n1)) with n1 by lia.
    assert (Es : s = firstn n1 s ++ firstn n2 (skipn n1 s) ++ skipn (n1 + n2) s).
    { rewrite <- (firstn_skipn n1 s) at 1. f_equal. rewrite <- (firstn_skipn n2 (skipn n1 s)) at 1. f_equal.
      apply skipn_skipn'. }
    remember (firstn n1 s) as g1 eqn:E1. remember (firstn n2 (skipn n1 s)) as v eqn:E2.
    remember (skipn (n1 + n2) s) as rest eqn:E4.
    assert (Lg1 : length g1 = n1) by (subst g1; rewrite firstn_length; lia).
    assert (Lv : length v = n2) by (subst v; rewrite firstn_length, skipn_length; lia).
    assert (Lb : blen (g1 ++ v) = N.of_nat (n1 + n2)).
    { unfold blen. rewrite !app_length. lia. }
    clear E1 E2 E4. subst s. repeat rewrite <- app_assoc.
    apply s1_match with (grp := g).
    + intros E. apply (f_equal (@length _)) in E. rewrite !app_length in E. cbn in E. lia.
    + rewrite Lb. exact Hm.
    + rewrite Lb. apply (IH (pre ++ g1 ++ v)).
      * rewrite <- !app_assoc. reflexivity.
      * rewrite blen_app, Lb. reflexivity.
Qed.

Theorem re_sub_frame_one r secret s : one_group_shape r = true ->
  sub1_rel r secret 0 s (re_sub r (t1 secret) s).
Proof.
  intros Hs. apply (sub_rel_one r (t1 secret) secret Hs) with (whole := s) (pre := []); try reflexivity.
  - intros whole g. unfold t1. cbn [app expand]. f_equal. rewrite <- (app_nil_r (map TLit secret)).
    rewrite expand_lits. cbn. apply app_nil_r.
  - apply re_sub_frame.
Qed.

(* the wildcard substitution (\g<1> alone) DELETES whatever the pattern matched after group 1 *)
Theorem re_sub_frame_wild r s : one_group_shape r = true ->
  sub1_rel r [] 0 s (re_sub r tw s).
Proof.
  intros Hs. apply (sub_rel_one r tw [] Hs) with (whole := s) (pre := []); try reflexivity.
  apply re_sub_frame.
Qed.

(* greedy-run lemma: a Rep over a run that is maximal (the next character is outside the
   set, or the bound is reached) takes the whole run on its first attempt *)
Lemma m_rep_max R cs mn mx v rest p g (k : cont R) x :
  all_in cs v = true -> (mn <= length v)%nat -> within (length v) mx = true ->
  (hd_notin cs rest = true \/ mx = Some (length v)) ->
  k rest (p + blen v) g = Some x ->
  m R (Rep cs mn mx) (v ++ rest) p g k = Some x.
Proof.
  intros Hv Hmn Hw Hr Hk. cbn [m]. rewrite (run_len_exact cs v rest mx Hv Hw Hr).
  replace (Nat.ltb (length v) mn) with false by (symmetry; apply Nat.ltb_ge; lia).
  apply try_counts_first. rewrite skipn_app_exact. exact Hk.
Qed.

(* a repeat over a maximal run [v]: if every shorter take fails, the result is the
   continuation after the whole run *)
Lemma m_rep_exact R cs mn v rest p g (k : cont R) :
  all_in cs v = true -> hd_notin cs rest = true -> (mn <= length v)%nat ->
  (forall j, (mn <= j < length v)%nat -> k (skipn j (v ++ rest)) (p + N.of_nat j) g = None) ->
  m R (Rep cs mn None) (v ++ rest) p g k = k rest (p + blen v) g.
Proof.
  intros Hv Hr Hmn Hk. cbn [m].
  rewrite (run_len_exact cs v rest None Hv eq_refl (or_introl Hr)).
  rewrite (proj2 (Nat.ltb_ge _ _) Hmn).
  rewrite try_counts_top by assumption. rewrite skipn_app_exact. reflexivity.
Qed.

Lemma m_rep_short R cs mn v rest p g (k : cont R) :
  all_in cs v = true -> hd_notin cs rest = true -> (length v < mn)%nat ->
  m R (Rep cs mn None) (v ++ rest) p g k = None.
Proof.
  intros Hv Hr Hmn. cbn [m].
  rewrite (run_len_exact cs v rest None Hv eq_refl (or_introl Hr)).
  rewrite (proj2 (Nat.ltb_lt _ _) Hmn). reflexivity.
Qed.

(* a repeat alone: the longest run that reaches the minimum, or nothing *)
Lemma match_at_rep cs mn mx s p :
  match_at (Rep cs mn mx) s p =
  if Nat.ltb (run_len cs s mx) mn then None else Some (p + N.of_nat (run_len cs s mx), []).
Proof.
  unfold match_at. cbn [m]. destruct (Nat.ltb _ mn); [reflexivity|]. apply try_counts_first. reflexivity.
Qed.

(* evaluating a key-template pattern on a string built the way the pattern reads it *)
Require Import OV.Base.C04_Tmpl.

(* literal-prefix lemma: the key, in any accepted casing, is consumed character by character *)
Definition casing_ok (tbl : list (N * cset)) (k K : str) : Prop :=
  Forall2 (fun c C => cmem C (ci_lookup tbl c) = true) k K.

Lemma m_keyseq R tbl k K : casing_ok tbl k K -> forall rest s p g (kont : cont R),
  m R (keyseq tbl k rest) (K ++ s) p g kont = m R rest s (p + blen K) g kont.
Proof.
  induction 1 as [|c C k K Hc _ IH]; intros rest s p g kont.
  - cbn. rewrite N.add_0_r. reflexivity.
  - cbn [keyseq app m]. rewrite Hc. rewrite IH. f_equal. rewrite blen_cons. lia.
Qed.

(* the "reads as" relation: gm r pre s pre' s' G — starting after the prefix [pre] of the
   subject, r consumes [s] down to [s'] (the consumed text is appended to pre giving pre'),
   every Rep taking a maximal run, recording the groups G *)
Inductive gm (tbl : list (N * cset)) : re -> str -> str -> str -> str -> groups -> Prop :=
| gm_eps pre s : gm tbl Eps pre s pre s []
| gm_chr cs c pre rest : cmem c cs = true -> gm tbl (Chr cs) pre (c :: rest) (pre ++ [c]) rest []
| gm_seq a b pre s pre1 s1 pre2 s2 G1 G2 :
    gm tbl a pre s pre1 s1 G1 -> gm tbl b pre1 s1 pre2 s2 G2 -> gm tbl (Seq a b) pre s pre2 s2 (G2 ++ G1)
| gm_rep cs mn mx v pre rest :
    all_in cs v = true -> (mn <= length v)%nat -> within (length v) mx = true ->
    (hd_notin cs rest = true \/ mx = Some (length v)) ->
    gm tbl (Rep cs mn mx) pre (v ++ rest) (pre ++ v) rest []
| gm_group i a pre s pre' s' G :
    gm tbl a pre s pre' s' G -> gm tbl (Group i a) pre s pre' s' ((i, (blen pre, blen pre')) :: G)
| gm_key k K r' pre s pre' s' G :
    casing_ok tbl k K -> gm tbl r' (pre ++ K) s pre' s' G -> gm tbl (keyseq tbl k r') pre (K ++ s) pre' s' G.

Lemma gm_sound R tbl r pre s pre' s' G : gm tbl r pre s pre' s' G ->
  forall g (k : cont R) x, k s' (blen pre') (G ++ g) = Some x -> m R r s (blen pre) g k = Some x.
Proof.
  induction 1 as [pre s|cs c pre rest Hc|a b pre s pre1 s1 pre2 s2 G1 G2 Ha IHa Hb IHb
                  |cs mn mx v pre rest Hv Hmn Hw Hr|i a pre s pre' s' G Ha IHa|k K r' pre s pre' s' G Hk Hr IH];
    intros g kont x Hx.
  - exact Hx.
  - cbn [m]. rewrite Hc. rewrite blen_app in Hx. exact Hx.
  - cbn [m]. apply IHa. apply IHb. rewrite <- app_assoc in Hx. exact Hx.
  - apply m_rep_max; auto. rewrite blen_app in Hx. exact Hx.
  - cbn [m]. apply IHa. exact Hx.
  - rewrite (m_keyseq R tbl k K Hk). rewrite <- blen_app. apply IH. exact Hx.
Qed.

Lemma gm_match_at tbl r s pre' G : gm tbl r [] s pre' [] G -> match_at r s 0 = Some (blen pre', G).
Proof.
  intros H. unfold match_at. apply (gm_sound _ tbl r [] s pre' [] G H [] _ _). rewrite app_nil_r. reflexivity.
Qed.

(* a match of the whole (non-empty) subject: re_sub returns the expanded template *)
Lemma re_sub_whole r t s g : s <> [] -> match_at r s 0 = Some (blen s, g) -> re_sub r t s = expand t s g.
Proof.
  intros Hs H. unfold re_sub. destruct s as [|c rest]; [congruence|]. cbn [sub_go]. rewrite H.
  rewrite blen_cons. replace (0 <? 1 + blen rest) with true by lia.
  rewrite sub_go_skip. replace (N.to_nat (1 + blen rest - 0) - 1)%nat with (length rest) by (unfold blen; lia).
  rewrite skipn_all. cbn [sub_go]. apply app_nil_r.
Qed.

Lemma slice_mid a b c : slice (a ++ b ++ c) (blen a) (blen (a ++ b)) = b.
Proof.
  rewrite blen_app. rewrite slice_suffix0. replace (N.to_nat (blen b)) with (length b) by (unfold blen; lia).
  rewrite firstn_app, firstn_all, Nat.sub_diag. cbn. apply app_nil_r.
Qed.
Lemma slice_head a c : slice (a ++ c) 0 (blen a) = a.
Proof. apply (slice_mid [] a c). Qed.
Lemma slice_tail a c : slice (a ++ c) (blen a) (blen (a ++ c)) = c.
Proof. pose proof (slice_mid a c []) as H. rewrite app_nil_r in H. exact H. Qed.

(* the two ways the rendering theorems conclude *)
Lemma gm_sub_two tbl r h v t mask G :
  gm tbl r [] (h ++ v ++ t) (h ++ v ++ t) [] G -> h ++ v ++ t <> [] ->
  gget G 1 = Some (0, blen h) -> gget G 2 = Some (blen (h ++ v), blen (h ++ v ++ t)) ->
  re_sub r (t2 mask) (h ++ v ++ t) = h ++ mask ++ t.
Proof.
  intros H Hne G1 G2. rewrite (re_sub_whole r _ _ G Hne (gm_match_at _ _ _ _ _ H)).
  rewrite (expand_t2 _ _ _ _ _ _ _ G1 G2). rewrite slice_head. f_equal. f_equal.
  rewrite (app_assoc h v t). apply slice_tail.
Qed.

Lemma gm_sub_one tbl r h v mask G :
  gm tbl r [] (h ++ v) (h ++ v) [] G -> h ++ v <> [] ->
  gget G 1 = Some (0, blen h) ->
  re_sub r (t1 mask) (h ++ v) = h ++ mask.
Proof.
  intros H Hne G1. rewrite (re_sub_whole r _ _ G Hne (gm_match_at _ _ _ _ _ H)).
  unfold t1. cbn [app expand]. rewrite G1, slice_head. f_equal.
  rewrite <- (app_nil_r (map TLit mask)). rewrite expand_lits. cbn. apply app_nil_r.
Qed.

Definition range_disj (a b : N * N) : bool := (snd a <? fst b) || (snd b <? fst a).
Definition cset_disj (a b : cset) : bool := forallb (fun x => forallb (range_disj x) b) a.

Lemma cset_disj_sound a b c : cset_disj a b = true -> cmem c a = true -> cmem c b = false.
Proof.
  unfold cset_disj. intros H Ha. induction a as [|[lo hi] a IH]; [discriminate|].
  cbn [forallb] in H. apply andb_true_iff in H. destruct H as [H1 H2].
  cbn [cmem] in Ha. apply orb_true_iff in Ha. destruct Ha as [Ha|Ha]; [|auto].
  clear IH H2. induction b as [|[lo' hi'] b IH]; [reflexivity|].
  cbn [forallb] in H1. apply andb_true_iff in H1. destruct H1 as [H1 H3].
  cbn [cmem]. rewrite (IH H3), orb_false_r. unfold range_disj in H1. cbn [fst snd] in H1. lia.
Qed.

Lemma hd_notin_run cs cs' w rest :
  all_in cs' w = true -> cset_disj cs' cs = true -> hd_notin cs rest = true -> hd_notin cs (w ++ rest) = true.
Proof.
  intros Hw Hd Hr. destruct w as [|c w]; [exact Hr|]. cbn [app hd_notin].
  cbn [all_in forallb] in Hw. apply andb_true_iff in Hw. destruct Hw as [Hc _].
  rewrite (cset_disj_sound _ _ _ Hd Hc). reflexivity.
Qed.

(* cover check: every code point of [lo, lo + fuel) up to hi lies in the set *)
Fixpoint find_hi (c : N) (l : cset) : option N :=
  match l with
  | [] => None
  | (lo, hi) :: t => if (lo <=? c) && (c <=? hi) then Some hi else find_hi c t
  end.
Fixpoint covers (fuel : nat) (l : cset) (x hi : N) : bool :=
  if hi <? x then true else
  match fuel with
  | O => false
  | S f => match find_hi x l with Some h => covers f l (h + 1) hi | None => false end
  end.

Lemma find_hi_sound c l h : find_hi c l = Some h -> c <= h /\ forall d, c <= d <= h -> cmem d l = true.
Proof.
  induction l as [|[lo hi] t IH]; [discriminate|]. cbn [find_hi cmem].
  destruct ((lo <=? c) && (c <=? hi)) eqn:E.
  - intros H. inversion H; subst. split; [lia|]. intros d Hd. replace ((lo <=? d) && (d <=? h)) with true by lia. reflexivity.
  - intros H. destruct (IH H) as [H1 H2]. split; [exact H1|]. intros d Hd. rewrite (H2 d Hd). apply orb_true_r.
Qed.

Lemma covers_sound fuel l : forall x hi, covers fuel l x hi = true -> forall d, x <= d <= hi -> cmem d l = true.
Proof.
  induction fuel as [|f IH]; intros x hi H d Hd; cbn [covers] in H.
  - destruct (hi <? x) eqn:E; [lia|discriminate].
  - destruct (hi <? x) eqn:E; [lia|]. destruct (find_hi x l) as [h|] eqn:F; [|discriminate].
    destruct (find_hi_sound _ _ _ F) as [H1 H2].
    destruct (N.le_gt_cases d h); [apply H2; lia|]. apply (IH _ _ H). lia.
Qed.

Lemma cmem_app c a b : cmem c (a ++ b) = cmem c a || cmem c b.
Proof. induction a as [|[lo hi] a IH]; [reflexivity|]. cbn [app cmem]. rewrite IH. apply orb_assoc. Qed.

Lemma all_in_impl (P : N -> bool) cs v :
  (forall c, P c = true -> cmem c cs = true) -> forallb P v = true -> all_in cs v = true.
Proof.
  intros H. unfold all_in. induction v as [|c v IH]; [reflexivity|]. cbn [forallb]. intros Hv.
  apply andb_true_iff in Hv. destruct Hv as [H1 H2]. rewrite (H _ H1), (IH H2). reflexivity.
Qed.

Lemma hd_notin_run1 cs cs' w rest :
  all_in cs' w = true -> (1 <= length w)%nat -> cset_disj cs' cs = true -> hd_notin cs (w ++ rest) = true.
Proof.
  intros Hw Hl Hd. destruct w as [|c w]; [cbn in Hl; lia|]. cbn [app hd_notin].
  cbn [all_in forallb] in Hw. apply andb_true_iff in Hw. destruct Hw as [Hc _].
  rewrite (cset_disj_sound _ _ _ Hd Hc). reflexivity.
Qed.

Lemma hd_notin_sym cs cs' c rest : cmem c cs' = true -> cset_disj cs' cs = true -> hd_notin cs (c :: rest) = true.
Proof. intros Hc Hd. cbn [hd_notin]. rewrite (cset_disj_sound _ _ _ Hd Hc). reflexivity. Qed.

(* concluding lemmas in the form the derivation tactic produces (left-nested prefixes) *)
Lemma gm_sub_two' tbl r s out pre' h h1 v hv t pre'' mask G :
  gm tbl r [] s pre' [] G -> pre' = s -> s = h ++ v ++ t -> out = h ++ mask ++ t -> s <> [] ->
  gget G 1 = Some (blen (@nil N), blen h1) -> h1 = h ->
  gget G 2 = Some (blen hv, blen pre'') -> hv = h ++ v -> pre'' = s ->
  re_sub r (t2 mask) s = out.
Proof.
  intros H -> -> -> Hne G1 -> G2 -> ->. apply (gm_sub_two tbl r h v t mask G); auto.
Qed.

Lemma gm_sub_one' tbl r s out pre' h h1 v mask G :
  gm tbl r [] s pre' [] G -> pre' = s -> s = h ++ v -> out = h ++ mask -> s <> [] ->
  gget G 1 = Some (blen (@nil N), blen h1) -> h1 = h ->
  re_sub r (t1 mask) s = out.
Proof.
  intros H -> -> -> Hne G1 ->. apply (gm_sub_one tbl r h v mask G); auto.
Qed.

Ltac vmr := vm_compute; reflexivity.
Ltac solve_allin :=
  lazymatch goal with
  | |- all_in _ ?v = true =>
      first [ match goal with H : all_in _ v = true |- _ => exact H end | vmr ]
  end.
Ltac solve_len :=
  first [ apply Nat.le_0_l | assumption | solve [cbn [length]; repeat constructor] ].
(* a symbolic character is never normalised by vm_compute (huge stuck terms): look its class up instead; a
   derivation that ends in an arbitrary text takes what is known of its first character from a hypothesis *)
Ltac solve_hd :=
  lazymatch goal with
  | |- hd_notin _ [] = true => reflexivity
  | |- hd_notin _ (_ ++ _) = true =>
      first [ match goal with H : hd_notin _ _ = true |- _ => exact H end
            | eapply hd_notin_run1; [solve_allin | solve_len | vmr]
            | eapply hd_notin_run; [solve_allin | vmr | solve_hd] ]
  | |- hd_notin _ (?c :: _) = true =>
      tryif is_var c
      then (match goal with H : cmem c _ = true |- _ => eapply hd_notin_sym; [exact H | vmr] end)
      else (cbn [hd_notin]; vmr)
  | |- hd_notin _ ?x = true => match goal with H : hd_notin _ x = true |- _ => exact H end
  end.
Ltac solve_within :=
  first [ reflexivity | apply Nat.leb_le; solve_len ].
Ltac gm_go :=
  lazymatch goal with
  | |- gm _ (Seq _ _) _ _ _ _ _ => eapply gm_seq; [gm_go | gm_go]
  | |- gm _ (Group _ _) _ _ _ _ _ => eapply gm_group; gm_go
  | |- gm _ (keyseq _ _ _) _ _ _ _ _ => eapply gm_key; [eassumption | gm_go]
  | |- gm _ (Chr _) _ _ _ _ _ =>
      eapply gm_chr; first [ vmr | eassumption ]
  | |- gm _ (Rep _ _ _) _ _ _ _ _ =>
      eapply gm_rep; [ solve_allin | solve_len | solve_within | first [ left; solve_hd | right; reflexivity ] ]
  end.
Ltac norm_app := repeat rewrite <- app_assoc; cbn [app]; rewrite ?app_nil_r; reflexivity.
