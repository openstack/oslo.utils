(* Proofs/C13.v — StopWatch, for EVERY number type T and operations N : num T (no hypothesis on N):
   (A) the statement-level translation of the source (Gen/C13_StopWatch.v) equals the hand model
       (Model/C13.v) method by method;
   (B) invariants of all reachable configurations and every clause of the property that does not
       depend on the order/arithmetic of T: the state machine, legality, frames, the shape of every
       returned number.  Order-dependent clauses: Proofs/C13_Order.v; instances: C13_Z.v, C13_Float.v. *)
From Coq Require Import List Bool Lia Sorting.Sorted PeanoNat.
Require Import OV.Base.Bytes OV.Base.Py OV.Base.C13_Types OV.Gen.C13_StopWatch OV.Model.C13.
Import ListNotations.

(* A. translation = model *)

(* the three values the model's state stands for: None and the two class constants *)
Definition enc_state (s : wstate) : ostate :=
  match s with SNone => None | SStarted => Some C13_STARTED | SStopped => Some C13_STOPPED end.

Definition enc {T} (c : cfg T) : gst T :=
  (enc_state (w_state (fst c)), w_started (fst c), w_stopped (fst c), w_splits (fst c), w_duration (fst c), snd c).

Definition enc_out {T A} (o : out T A) : gst T * res A := (enc (fst o), snd o).

(* the state tags are distinct strings (otherwise the three states would collapse) *)
Lemma state_tags_distinct : C13_STARTED <> C13_STOPPED.
Proof. discriminate. Qed.

Lemma enc_state_inj s1 s2 : enc_state s1 = enc_state s2 -> s1 = s2.
Proof.
  destruct s1, s2; cbn; intro H; try reflexivity; try discriminate H;
    injection H as H; exfalso; apply state_tags_distinct; congruence.
Qed.

Lemma last_opt_some {A} (y : A) r : exists z, last_opt (y :: r) = Some z.
Proof.
  revert y. induction r as [|a r IH]; intro y; [exists y; reflexivity|].
  destruct (IH a) as [z Hz]. exists z. exact Hz.
Qed.

Lemma last_opt_cons {A} (x : A) l :
  last_opt (x :: l) = match last_opt l with Some y => Some y | None => Some x end.
Proof.
  destruct l as [|y r]; [reflexivity|].
  destruct (last_opt_some y r) as [z Hz]. rewrite Hz. exact Hz.
Qed.

Lemma last_opt_app {A} (l : list A) x : last_opt (l ++ [x]) = Some x.
Proof.
  induction l as [|y r IH]; [reflexivity|].
  change ((y :: r) ++ [x]) with (y :: (r ++ [x])). rewrite last_opt_cons, IH. reflexivity.
Qed.

Lemma nonempty_last {A} (l : list A) :
  match last_opt l with Some _ => nonempty l = true | None => l = [] end.
Proof.
  induction l as [|y r IH]; [reflexivity|]. rewrite last_opt_cons.
  destruct (last_opt r); reflexivity.
Qed.

Section Equiv.
Variable T : Type.
Variable N : num T.
Variable clk : nat -> T.

(* the methods that look at the state only *)
Ltac by_state w := destruct w as [[| |] ?sa ?so ?l ?d]; reflexivity.

(* evaluate the state tests of a translated method on an encoded state *)
Ltac norm :=
  cbn [enc_state w_state w_started w_stopped w_splits w_duration ostate_eqb fst snd];
  change (beq C13_STARTED C13_STARTED) with true; change (beq C13_STARTED C13_STOPPED) with false;
  change (beq C13_STOPPED C13_STOPPED) with true; change (beq C13_STOPPED C13_STARTED) with false;
  cbn [negb orb andb]; cbv iota.

(* The proofs are by evaluation on each of the three states, for an arbitrary number type: the translated
   text must use the same comparisons, subtractions and max() as the model — under float semantics
   max(0.0, x) and max(x, 0.0), or > and >=, are different functions. *)
Lemma gen_delta_seconds_equiv earlier later : gen_delta_seconds T N earlier later = delta N earlier later.
Proof. reflexivity. Qed.

Lemma gen_Split_equiv (e l : T) :
  gen_Split T e l = mkSplit e l /\ gen_Split_elapsed T (mkSplit e l) = e /\ gen_Split_length T (mkSplit e l) = l.
Proof. repeat split. Qed.

Lemma gen_init_equiv g1 g2 g3 g4 g5 t duration :
  gen_init T N clk g1 g2 g3 g4 g5 t duration =
  match init N duration with
  | Ok w => (enc (w, t), Ok tt)
  | Exn e => ((g1, g2, g3, g4, g5, t), Exn e)
  end.
Proof.
  unfold gen_init, init. destruct duration as [d|]; [|reflexivity].
  destruct (n_gtb N (n_zero N) d); reflexivity.
Qed.

Lemma gen_start_equiv w t :
  gen_start T N clk (enc_state (w_state w)) (w_started w) (w_stopped w) (w_splits w) (w_duration w) t = enc_out (start N clk w t).
Proof. by_state w. Qed.

Lemma gen_stop_equiv w t :
  gen_stop T N clk (enc_state (w_state w)) (w_started w) (w_stopped w) (w_splits w) (w_duration w) t = enc_out (stop N clk w t).
Proof. by_state w. Qed.

Lemma gen_resume_equiv w t :
  gen_resume T N clk (enc_state (w_state w)) (w_started w) (w_stopped w) (w_splits w) (w_duration w) t = enc_out (resume N clk w t).
Proof. by_state w. Qed.

Lemma gen_restart_equiv w t :
  gen_restart T N clk (enc_state (w_state w)) (w_started w) (w_stopped w) (w_splits w) (w_duration w) t = enc_out (restart N clk w t).
Proof. by_state w. Qed.

Lemma gen_elapsed_equiv w t maximum :
  gen_elapsed T N clk (enc_state (w_state w)) (w_started w) (w_stopped w) (w_splits w) (w_duration w) t maximum
  = enc_out (elapsed N clk w t maximum).
Proof.
  destruct w as [[| |] [s|] [p|] l d]; destruct maximum as [m|]; try reflexivity;
    unfold gen_elapsed, elapsed, enc_out, enc, clamp_max; norm;
    change (gen_delta_seconds T N ?a ?b) with (delta N a b);
    match goal with |- context [if n_gtb N ?a ?b then _ else _] => destruct (n_gtb N a b) end; reflexivity.
Qed.

(* from here on the translated elapsed() is used through its equivalence only *)
Ltac use_elapsed st sa so sl sd t m :=
  let HE := fresh "HE" in
  pose proof (gen_elapsed_equiv (mkWatch st sa so sl sd) t m) as HE;
  cbn [enc_state w_state w_started w_stopped w_splits w_duration] in HE; rewrite HE; clear HE.

Lemma gen_split_equiv w t :
  gen_split T N clk (enc_state (w_state w)) (w_started w) (w_stopped w) (w_splits w) (w_duration w) t = enc_out (split_ N clk w t).
Proof.
  destruct w as [[| |] [s|] p l d]; try reflexivity; unfold gen_split, split_, enc_out, enc; norm.
  use_elapsed SStarted (Some s) p l d t (@None T). unfold elapsed, enc_out, enc, clamp_max, set_splits. norm.
  pose proof (nonempty_last l) as HL.
  destruct (last_opt l) as [x|] eqn:EL.
  - rewrite HL. rewrite !last_opt_app. reflexivity.
  - subst l. cbn [nonempty app]. reflexivity.
Qed.

(* leftover and expired hand on whatever elapsed() returns *)
Lemma gen_leftover_equiv w t return_none :
  gen_leftover T N clk (enc_state (w_state w)) (w_started w) (w_stopped w) (w_splits w) (w_duration w) t return_none
  = enc_out (leftover N clk w t return_none).
Proof.
  destruct w as [[| |] sa p l [d|]]; try (destruct return_none; reflexivity).
  unfold gen_leftover, leftover; norm. use_elapsed SStarted sa p l (Some d) t (@None T).
  destruct (elapsed N clk _ t None) as [[w' t'] [e|x]]; reflexivity.
Qed.

Lemma gen_expired_equiv w t :
  gen_expired T N clk (enc_state (w_state w)) (w_started w) (w_stopped w) (w_splits w) (w_duration w) t = enc_out (expired N clk w t).
Proof.
  destruct w as [[| |] sa so l [d|]]; try reflexivity; unfold gen_expired, expired; norm.
  - use_elapsed SStarted sa so l (Some d) t (@None T). destruct (elapsed N clk _ t None) as [[w' t'] [e|x]]; reflexivity.
  - use_elapsed SStopped sa so l (Some d) t (@None T). destruct (elapsed N clk _ t None) as [[w' t'] [e|x]]; reflexivity.
Qed.

Lemma gen_has_started_equiv w t :
  gen_has_started T N clk (enc_state (w_state w)) (w_started w) (w_stopped w) (w_splits w) (w_duration w) t = enc_out (has_started w t).
Proof. by_state w. Qed.

Lemma gen_has_stopped_equiv w t :
  gen_has_stopped T N clk (enc_state (w_state w)) (w_started w) (w_stopped w) (w_splits w) (w_duration w) t = enc_out (has_stopped w t).
Proof. by_state w. Qed.

Lemma gen_splits_equiv w t :
  gen_splits T N clk (enc_state (w_state w)) (w_started w) (w_stopped w) (w_splits w) (w_duration w) t = enc_out (splits w t).
Proof. by_state w. Qed.

Lemma gen_enter_equiv w t :
  gen_enter T N clk (enc_state (w_state w)) (w_started w) (w_stopped w) (w_splits w) (w_duration w) t = enc_out (enter N clk w t).
Proof. by_state w. Qed.

(* whatever the exception triple is: the arguments are ignored, the return value is None (never True: the
   exception of the with-body is not suppressed) *)
Lemma gen_exit_equiv w t type value traceback :
  gen_exit T N clk (enc_state (w_state w)) (w_started w) (w_stopped w) (w_splits w) (w_duration w) t type value traceback
  = (enc (fst (exit_ N clk w t)), match snd (exit_ N clk w t) with Ok _ => Ok None | Exn e => Exn e end).
Proof. by_state w. Qed.

(* the default arguments of the source are the ones the property's calls use *)
Lemma gen_defaults_equiv :
  gen_elapsed_default_maximum T = None /\ gen_leftover_default_return_none T = false /\ gen_init_default_duration T = None.
Proof. repeat split. Qed.

End Equiv.

(* B. the state machine, for every number type *)

Arguments delta : simpl never.
Arguments clamp_max : simpl never.
Arguments max0 : simpl never.

Section Machine.
Variable T : Type.
Variable N : num T.
Variable clk : nat -> T.

(* ---- the shape of max(0.0, x): 0.0, or x itself when x > 0.0 ---- *)

(* "zero or positive": the only values max(0.0, .) returns *)
Definition pos0 (v : T) : Prop := v = n_zero N \/ n_gtb N v (n_zero N) = true.

Lemma max0_cases x :
  (n_gtb N x (n_zero N) = true /\ max0 N x = x) \/ (n_gtb N x (n_zero N) = false /\ max0 N x = n_zero N).
Proof. unfold max0, n_max. destruct (n_gtb N x (n_zero N)); auto. Qed.

Lemma max0_pos0 x : pos0 (max0 N x).
Proof. destruct (max0_cases x) as [[H ->]|[H ->]]; [right; exact H|left; reflexivity]. Qed.

Lemma delta_pos0 a b : pos0 (delta N a b).
Proof. apply max0_pos0. Qed.

Lemma clamp_max_pos0 m e : pos0 e -> pos0 (clamp_max N m e).
Proof.
  intro H. unfold clamp_max. destruct m as [m|]; [|exact H].
  destruct (n_gtb N e m); [apply max0_pos0|exact H].
Qed.

Lemma clamp_max_cases m e :
  (n_gtb N e m = false /\ clamp_max N (Some m) e = e) \/
  (n_gtb N e m = true /\ clamp_max N (Some m) e = max0 N m).
Proof. unfold clamp_max. destruct (n_gtb N e m); auto. Qed.

(* the elapsed value the next split call measures its length from *)
Definition lastE (prev : option T) (l : list (split T)) : option T :=
  match last_opt l with Some x => Some (sp_elapsed x) | None => prev end.

Lemma build_snoc s prev ks k :
  build N clk s prev (ks ++ [k]) =
  build N clk s prev ks ++ [mkSplit (delta N s (clk k))
                        (match lastE prev (build N clk s prev ks) with
                         | Some p => delta N p (delta N s (clk k)) | None => delta N s (clk k) end)].
Proof.
  revert prev. induction ks as [|a r IH]; intro prev; [reflexivity|].
  cbn [build app]. rewrite IH. do 3 f_equal.
  unfold lastE. rewrite last_opt_cons.
  destruct (last_opt (build N clk s (Some (delta N s (clk a))) r)); reflexivity.
Qed.

Definition ticks_ok (i t : nat) (ks : list nat) : Prop :=
  StronglySorted lt ks /\ Forall (fun k => (i < k < t)%nat) ks.

Lemma ticks_ok_nil i t : ticks_ok i t [].
Proof. split; constructor. Qed.

Lemma ticks_ok_weaken i t t' ks : (t <= t')%nat -> ticks_ok i t ks -> ticks_ok i t' ks.
Proof.
  intros Ht [Hs Hf]. split; [exact Hs|].
  eapply Forall_impl; [|exact Hf]. cbn. intros; lia.
Qed.

Lemma StronglySorted_snoc (ks : list nat) t :
  StronglySorted lt ks -> Forall (fun k => (k < t)%nat) ks -> StronglySorted lt (ks ++ [t]).
Proof.
  induction 1 as [|a r Hs IH Ha]; intro Hf; cbn [app].
  - constructor; constructor.
  - inversion Hf as [|? ? Hat Hr]; subst. constructor; [apply IH; exact Hr|].
    apply Forall_app. split; [exact Ha|constructor; [exact Hat|constructor]].
Qed.

Lemma ticks_ok_snoc i t ks : (i < t)%nat -> ticks_ok i t ks -> ticks_ok i (S t) (ks ++ [t]).
Proof.
  intros Hi [Hs Hf]. split.
  - apply StronglySorted_snoc; [exact Hs|]. eapply Forall_impl; [|exact Hf]. cbn. intros; lia.
  - apply Forall_app. split; [eapply Forall_impl; [|exact Hf]; cbn; intros; lia|].
    constructor; [lia|constructor].
Qed.

(* the invariant of every reachable configuration: the timestamps are clock readings taken in this order,
   the splits are the ones [build] computes from the readings taken by the split calls *)
Definition wf (c : cfg T) : Prop :=
  let w := fst c in
  let t := snd c in
  match w_state w with
  | SNone => w_started w = None /\ w_stopped w = None /\ w_splits w = []
  | SStarted =>
      exists i ks, (i < t)%nat /\ w_started w = Some (clk i) /\ ticks_ok i t ks /\
                   w_splits w = build N clk (clk i) None ks
  | SStopped =>
      exists i j ks, (i < j < t)%nat /\ w_started w = Some (clk i) /\ w_stopped w = Some (clk j) /\
                     ticks_ok i t ks /\ w_splits w = build N clk (clk i) None ks
  end.

Ltac wcases w :=
  destruct w as [st sa so sl sd]; destruct st;
  cbn [fst snd w_state w_started w_stopped w_splits w_duration set_state set_splits] in *.

Lemma init_wf duration w0 : init N duration = Ok w0 -> wf (w0, 0%nat).
Proof.
  unfold init. destruct duration as [d|]; [destruct (n_gtb N (n_zero N) d)|]; intro H; inversion H; subst;
    cbn; repeat split.
Qed.

(* the invariant only bounds the readings from above *)
Lemma wf_later w t t' : wf (w, t) -> (t <= t')%nat -> wf (w, t').
Proof.
  unfold wf. cbn [fst snd]. intros H Ht. destruct (w_state w); [exact H| |].
  - destruct H as (i & ks & Hi & Hs & Hk & Hb). exists i, ks.
    split; [lia|]. split; [exact Hs|]. split; [eapply ticks_ok_weaken; eassumption|exact Hb].
  - destruct H as (i & j & ks & Hi & Hs & Hp & Hk & Hb). exists i, j, ks.
    split; [lia|]. split; [exact Hs|]. split; [exact Hp|]. split; [eapply ticks_ok_weaken; eassumption|exact Hb].
Qed.

Lemma wf_started i t d : (i < t)%nat -> wf (mkWatch SStarted (Some (clk i)) None [] d, t).
Proof. intro H. exists i, []. split; [exact H|]. split; [reflexivity|]. split; [apply ticks_ok_nil|reflexivity]. Qed.

Lemma wf_stopped w t :
  wf (w, t) -> w_state w = SStarted ->
  wf (mkWatch SStopped (w_started w) (Some (clk t)) (w_splits w) (w_duration w), S t).
Proof.
  unfold wf. cbn [fst snd w_state w_started w_stopped w_splits]. intros H E. rewrite E in H.
  destruct H as (i & ks & Hi & Hs & Hk & Hb). exists i, t, ks.
  split; [lia|]. split; [exact Hs|]. split; [reflexivity|]. split; [|exact Hb].
  eapply ticks_ok_weaken; [|exact Hk]. lia.
Qed.

Lemma wf_resumed w t : wf (w, t) -> w_state w = SStopped -> wf (set_state w SStarted, t).
Proof.
  unfold wf. cbn [fst snd set_state w_state w_started w_splits]. intros H E. rewrite E in H.
  destruct H as (i & j & ks & Hi & Hs & Hp & Hk & Hb). exists i, ks.
  split; [lia|]. split; [exact Hs|]. split; [exact Hk|exact Hb].
Qed.

Lemma split_wf w t : wf (w, t) -> wf (fst (split_ N clk w t)).
Proof.
  unfold wf, split_. wcases w; intro H; try exact H.
  destruct H as (i & ks & Hi & Hs & Hk & Hb). subst sa.
  cbn [fst snd w_state w_started w_stopped w_splits w_duration set_splits].
  exists i, (ks ++ [t]). split; [lia|]. split; [reflexivity|]. split.
  - apply ticks_ok_snoc; assumption.
  - rewrite build_snoc, <- Hb. unfold lastE. destruct (last_opt sl); reflexivity.
Qed.

Lemma fst_wrap {A} (f : A -> value T) (o : out T A) : fst (wrap f o) = fst o.
Proof. destruct o as [c [a|e]]; reflexivity. Qed.

(* elapsed, leftover and expired leave the watch alone *)
Lemma elapsed_cfg w t m : fst (elapsed N clk w t m) = (w, (cost (OElapsed m) w + t)%nat).
Proof. destruct w as [[| |] [s|] [p|] l d]; reflexivity. Qed.

Lemma leftover_cfg w t rn : fst (leftover N clk w t rn) = (w, (cost (OLeftover rn) w + t)%nat).
Proof.
  destruct w as [[| |] sa so l [d|]]; try (destruct rn; reflexivity).
  unfold leftover; cbn [w_state w_duration]. pose proof (elapsed_cfg (mkWatch SStarted sa so l (Some d)) t None) as HE.
  destruct (elapsed N clk _ t None) as [c [e|x]]; exact HE.
Qed.

Lemma expired_cfg w t : fst (expired N clk w t) = (w, (cost OExpired w + t)%nat).
Proof.
  destruct w as [st sa so l [d|]]; [|destruct st; reflexivity].
  pose proof (elapsed_cfg (mkWatch st sa so l (Some d)) t None) as HE.
  destruct st; try reflexivity; unfold expired; cbn [w_state w_duration];
    destruct (elapsed N clk _ t None) as [c [e|x]]; exact HE.
Qed.

(* every call: a (re)start leaves a running watch without splits whose _started_at is the last reading the call
   took, a stop records the reading it takes, resume changes the state, split appends what it returns, and no
   other call changes the watch; the call takes [cost] readings *)
Lemma step_cfg o w t :
  fst (step N clk o w t) =
  (if effective_restart o w then mkWatch SStarted (Some (clk (Nat.pred (cost o w + t)%nat))) None [] (w_duration w)
   else if effective_stop o w then mkWatch SStopped (w_started w) (Some (clk t)) (w_splits w) (w_duration w)
   else match o, w_state w, snd (step N clk o w t) with
        | OResume, SStopped, _ => set_state w SStarted
        | OSplit, _, Ok (VSplit sp) => set_splits w (w_splits w ++ [sp])
        | _, _, _ => w
        end,
   (cost o w + t)%nat).
Proof.
  destruct o; unfold step at 1; rewrite fst_wrap;
    [ | | | | | apply elapsed_cfg | apply leftover_cfg | apply expired_cfg | | | | | ];
    wcases w; try destruct sa; reflexivity.
Qed.

(* a (re)start reads the clock; a stop is a call on a running watch that reads it once *)
Lemma restart_reads o (w : watch T) : effective_restart o w = true -> (0 < cost o w)%nat.
Proof. destruct o, w as [[| |] sa so l d]; try discriminate; intros _; apply Nat.lt_0_succ. Qed.

Lemma stop_reads o (w : watch T) :
  effective_stop o w = true -> effective_restart o w = false /\ w_state w = SStarted /\ cost o w = 1%nat.
Proof. destruct o, w as [[| |] sa so l d]; try discriminate; intros _; repeat split. Qed.

(* the invariant is kept because [step_cfg] says what a call changes *)
Lemma step_wf o w t : wf (w, t) -> wf (fst (step N clk o w t)).
Proof.
  intro H. destruct (effective_restart o w) eqn:ER; [|destruct (effective_stop o w) eqn:ES].
  - rewrite step_cfg, ER. apply wf_started. pose proof (restart_reads o w ER). lia.
  - destruct (stop_reads o w ES) as (_ & HS & Hc). rewrite step_cfg, ER, ES, Hc. exact (wf_stopped w t H HS).
  - destruct o; try (rewrite step_cfg, ER, ES; apply (wf_later w t _ H), Nat.le_add_l);
      unfold step; rewrite fst_wrap.
    + unfold resume. destruct (w_state w) eqn:E; try exact H. exact (wf_resumed w t H E).
    + apply split_wf, H.
Qed.

Lemma final_wf ops : forall w t, wf (w, t) -> wf (final N clk ops w t).
Proof.
  induction ops as [|o r IH]; intros w t H; [exact H|].
  cbn [final]. pose proof (step_wf o w t H) as HS.
  destruct (step N clk o w t) as [[w' t'] res]. apply IH, HS.
Qed.

Lemma reachable_wf c : reachable N clk c -> wf c.
Proof.
  intros (d & w0 & ops & Hi & Hf). subst c. apply final_wf. eapply init_wf, Hi.
Qed.

Lemma final_app ops1 ops2 w t :
  final N clk (ops1 ++ ops2) w t = final N clk ops2 (fst (final N clk ops1 w t)) (snd (final N clk ops1 w t)).
Proof.
  revert w t. induction ops1 as [|o r IH]; intros w t; [reflexivity|].
  cbn [app final]. destruct (step N clk o w t) as [[w' t'] res]. apply IH.
Qed.

Lemma reachable_step o w t : reachable N clk (w, t) -> reachable N clk (fst (step N clk o w t)).
Proof.
  intros (d & w0 & ops & Hi & Hf). exists d, w0, (ops ++ [o]). split; [exact Hi|].
  rewrite final_app, Hf. cbn [fst snd final]. destruct (step N clk o w t) as [[w' t'] res]. reflexivity.
Qed.

Lemma reachable_init duration w0 : init N duration = Ok w0 -> reachable N clk (w0, 0%nat).
Proof. intro H. exists duration, w0, []. split; [exact H|reflexivity]. Qed.

(* every configuration of a history is reachable, so a statement about all reachable
   configurations and all next calls is a statement about every call of every history *)
Lemma trace_Forall (P : cfg T * res (value T) -> Prop) :
  (forall o w t, reachable N clk (w, t) -> P (step N clk o w t)) ->
  forall ops w t, reachable N clk (w, t) -> Forall P (trace N clk ops w t).
Proof.
  intros HP ops. induction ops as [|o r IH]; intros w t HR; [constructor|].
  cbn [trace]. pose proof (reachable_step o w t HR) as HS. pose proof (HP o w t HR) as HPo.
  destruct (step N clk o w t) as [[w' t'] res] eqn:E. constructor; [exact HPo|apply IH, HS].
Qed.

(* ---- elapsed: what the code computes, and the shape of the result ---- *)

Lemma elapsed_pos0 w t m c e : elapsed N clk w t m = (c, Ok e) -> pos0 e.
Proof.
  unfold elapsed. destruct (w_state w), (w_started w), (w_stopped w); intro H; inversion H; subst;
    apply clamp_max_pos0, delta_pos0.
Qed.

(* while running: one clock reading, the watch is unchanged, the value is _delta_seconds(started_at, now)
   cut at the maximum; started_at is an earlier clock reading *)
Lemma elapsed_running w t :
  reachable N clk (w, t) -> w_state w = SStarted ->
  exists i, (i < t)%nat /\ w_started w = Some (clk i) /\
    forall m, elapsed N clk w t m = ((w, S t), Ok (clamp_max N m (delta N (clk i) (clk t)))).
Proof.
  intros HR HS. apply reachable_wf in HR. unfold wf in HR. cbn [fst snd] in HR. rewrite HS in HR.
  destruct HR as (i & ks & Hi & Hst & _ & _). exists i. split; [exact Hi|]. split; [exact Hst|].
  intro m. unfold elapsed. rewrite HS, Hst. reflexivity.
Qed.

(* while stopped: no clock reading, the value is _delta_seconds(started_at, stopped_at) *)
Lemma elapsed_stopped w t :
  reachable N clk (w, t) -> w_state w = SStopped ->
  exists i j, (i < j < t)%nat /\ w_started w = Some (clk i) /\ w_stopped w = Some (clk j) /\
    forall m, elapsed N clk w t m = ((w, t), Ok (clamp_max N m (delta N (clk i) (clk j)))).
Proof.
  intros HR HS. apply reachable_wf in HR. unfold wf in HR. cbn [fst snd] in HR. rewrite HS in HR.
  destruct HR as (i & j & ks & Hi & Hst & Hsp & _ & _). exists i, j.
  split; [exact Hi|]. split; [exact Hst|]. split; [exact Hsp|].
  intro m. unfold elapsed. rewrite HS, Hst, Hsp. reflexivity.
Qed.

(* elapsed(maximum) is elapsed() cut at the maximum, at the same clock reading *)
Lemma elapsed_max w t m c e :
  elapsed N clk w t (Some m) = (c, Ok e) ->
  exists e0, elapsed N clk w t None = (c, Ok e0) /\ e = clamp_max N (Some m) e0.
Proof.
  unfold elapsed. destruct (w_state w), (w_started w) as [s|], (w_stopped w) as [p|]; intro H; inversion H; subst;
    eexists; split; reflexivity.
Qed.

Lemma leftover_spec w t rn :
  w_state w = SStarted ->
  match w_duration w with
  | Some d => forall c e, elapsed N clk w t None = (c, Ok e) ->
                          leftover N clk w t rn = (c, Ok (Some (max0 N (n_sub N d e))))
  | None => leftover N clk w t rn = ((w, t), if rn then Ok None else Exn RuntimeError)
  end.
Proof.
  intro HS. unfold leftover. rewrite HS. destruct (w_duration w) as [d|].
  - intros c e HE. rewrite HE. reflexivity.
  - destruct rn; reflexivity.
Qed.

Lemma expired_spec w t :
  w_state w <> SNone ->
  match w_duration w with
  | Some d => forall c e, elapsed N clk w t None = (c, Ok e) -> expired N clk w t = (c, Ok (n_gtb N e d))
  | None => expired N clk w t = ((w, t), Ok false)
  end.
Proof.
  intro HS. unfold expired. destruct (w_state w); [congruence| |]; (destruct (w_duration w) as [d|]; [|reflexivity]);
    intros c e HE; rewrite HE; reflexivity.
Qed.

Lemma leftover_pos0 w t rn c z : leftover N clk w t rn = (c, Ok (Some z)) -> pos0 z.
Proof.
  unfold leftover. destruct (w_state w); try discriminate. destruct (w_duration w); [|destruct rn; discriminate].
  destruct (elapsed N clk w t None) as [c' [e'|x]]; intro H; inversion H. apply max0_pos0.
Qed.

Lemma illegal_raises o w t : legal o w = false -> step N clk o w t = ((w, t), Exn RuntimeError).
Proof.
  destruct o; try destruct return_none; wcases w; try destruct sd; cbn; intro H; try discriminate H; reflexivity.
Qed.

Lemma legal_returns o w t :
  reachable N clk (w, t) -> legal o w = true -> exists c v, step N clk o w t = (c, Ok v).
Proof.
  intros HR HL. apply reachable_wf in HR. unfold wf in HR. wcases w.
  - destruct o; try discriminate HL; eexists; eexists; reflexivity.
  - destruct HR as (i & ks & _ & -> & _ & _).
    destruct o; try destruct sd; try destruct return_none; try discriminate HL; eexists; eexists; reflexivity.
  - destruct HR as (i & j & ks & _ & -> & -> & _ & _).
    destruct o; try destruct sd; try discriminate HL; eexists; eexists; reflexivity.
Qed.

Lemma only_runtime_errors o w t c e :
  reachable N clk (w, t) -> step N clk o w t = (c, Exn e) -> e = RuntimeError /\ c = (w, t) /\ legal o w = false.
Proof.
  intros HR HS. destruct (legal o w) eqn:HL.
  - destruct (legal_returns o w t HR HL) as (c' & v & HS'). congruence.
  - rewrite (illegal_raises o w t HL) in HS. inversion HS. auto.
Qed.

(* ---- (re)starts, stops and the timestamps ---- *)

Lemma started_at_frame o w t :
  effective_restart o w = false -> w_started (fst (fst (step N clk o w t))) = w_started w.
Proof.
  intro H. rewrite step_cfg, H. cbn [fst]. destruct (effective_stop o w); [reflexivity|].
  destruct o, (w_state w); try reflexivity. all: destruct (snd (step N clk OSplit w t)) as [[]|]; reflexivity.
Qed.

Lemma stopped_at_frame o w t :
  effective_stop o w = false -> effective_restart o w = false ->
  w_stopped (fst (fst (step N clk o w t))) = w_stopped w.
Proof.
  intros H1 H2. rewrite step_cfg, H1, H2. cbn [fst].
  destruct o, (w_state w); try reflexivity. all: destruct (snd (step N clk OSplit w t)) as [[]|]; reflexivity.
Qed.

Lemma state_transitions o w t :
  w_state (fst (fst (step N clk o w t))) =
  if effective_restart o w then SStarted
  else if effective_stop o w then SStopped
  else match o, w_state w with OResume, SStopped => SStarted | _, s => s end.
Proof.
  rewrite step_cfg. cbn [fst]. destruct (effective_restart o w); [reflexivity|].
  destruct (effective_stop o w); [reflexivity|].
  destruct o; try reflexivity; destruct w as [[| |] sa so l d]; try reflexivity.
  all: destruct (snd (step N clk OSplit _ t)) as [[]|]; reflexivity.
Qed.

(* __exit__ with or without an exception triple: never raises, returns None (the exception of the body
   propagates), stops a running watch at the reading it takes and leaves any other watch as it is *)
Lemma exit_spec exc w t :
  step N clk (OExit exc) w t =
  (match w_state w with
   | SStarted => (mkWatch SStopped (w_started w) (Some (clk t)) (w_splits w) (w_duration w), S t)
   | _ => (w, t)
   end, Ok VNone).
Proof. wcases w; reflexivity. Qed.

Lemma step_not_none o w t : w_state w <> SNone -> w_state (fst (fst (step N clk o w t))) <> SNone.
Proof.
  intro H. rewrite state_transitions.
  destruct (effective_restart o w); [discriminate|]. destruct (effective_stop o w); [discriminate|].
  destruct o; try exact H; destruct (w_state w); try exact H; discriminate.
Qed.

Lemma final_not_none ops : forall w t, w_state w <> SNone -> w_state (fst (final N clk ops w t)) <> SNone.
Proof.
  induction ops as [|o r IH]; intros w t H; [exact H|].
  cbn [final]. pose proof (step_not_none o w t H) as HS.
  destruct (step N clk o w t) as [[w' t'] res]. apply IH, HS.
Qed.

(* after  with sw: body [raise X]  the watch is stopped, whatever the body did and whether or not it raised;
   if the body left it running, _stopped_at is the reading taken by __exit__ *)
Lemma with_block_stops body exc w0 t0 :
  let c1 := final N clk (OEnter :: body) w0 t0 in
  let c2 := final N clk (with_block body exc) w0 t0 in
  w_state (fst c2) = SStopped /\
  (w_state (fst c1) = SStarted -> w_stopped (fst c2) = Some (clk (snd c1)) /\ snd c2 = S (snd c1)) /\
  (w_state (fst c1) = SStopped -> c2 = c1).
Proof.
  intros c1 c2. subst c2. unfold with_block.
  change (OEnter :: body ++ [OExit exc]) with ((OEnter :: body) ++ [OExit exc]).
  rewrite final_app. fold c1. cbn [final]. rewrite exit_spec.
  assert (HN : w_state (fst c1) <> SNone).
  { subst c1. destruct w0 as [[| |] a b l d]; cbn [final step enter start wrap w_state w_duration];
      apply final_not_none; cbn [w_state]; discriminate. }
  destruct c1 as [w1 t1]. cbn [fst snd] in *.
  destruct (w_state w1) eqn:E; [congruence| |]; cbn [fst snd w_state w_stopped].
  - split; [reflexivity|]. split; [intros _; split; reflexivity|discriminate].
  - split; [exact E|]. split; [discriminate|reflexivity].
Qed.

Lemma build_elapsed s prev ks :
  map sp_elapsed (build N clk s prev ks) = map (fun k => delta N s (clk k)) ks.
Proof.
  revert prev. induction ks as [|k r IH]; intro prev; [reflexivity|].
  cbn [build map sp_elapsed]. rewrite IH. reflexivity.
Qed.

Lemma build_clamped s prev ks : clamped_diffs_from N prev (build N clk s prev ks).
Proof.
  revert prev. induction ks as [|k r IH]; intro prev; [exact I|].
  cbn [build clamped_diffs_from sp_elapsed sp_length]. split; [reflexivity|apply IH].
Qed.

Lemma build_pos0 s prev ks :
  Forall (fun x => pos0 (sp_elapsed x) /\ pos0 (sp_length x)) (build N clk s prev ks).
Proof.
  revert prev. induction ks as [|k r IH]; intro prev; [constructor|].
  cbn [build]. constructor; [|apply IH]. cbn [sp_elapsed sp_length].
  split; [apply delta_pos0|]. destruct prev; apply delta_pos0.
Qed.

(* the splits of a reachable watch are the readings taken by the split calls since the last (re)start,
   at increasing ticks after the start tick *)
Lemma splits_are_built w t :
  reachable N clk (w, t) ->
  w_splits w = [] \/
  exists i ks, (i < t)%nat /\ w_started w = Some (clk i) /\ ticks_ok i t ks /\ w_splits w = build N clk (clk i) None ks.
Proof.
  intro HR. apply reachable_wf in HR. unfold wf in HR. cbn [fst snd] in HR.
  destruct (w_state w).
  - left. tauto.
  - right. destruct HR as (i & ks & Hi & Hs & Hk & Hb). exists i, ks. auto.
  - right. destruct HR as (i & j & ks & Hi & Hs & _ & Hk & Hb). exists i, ks. split; [lia|auto].
Qed.

(* on any clock and for any number type: lengths are what _delta_seconds gives, every value is zero-or-positive *)
Lemma splits_clamped w t :
  reachable N clk (w, t) ->
  clamped_diffs_from N None (w_splits w) /\ Forall (fun x => pos0 (sp_elapsed x) /\ pos0 (sp_length x)) (w_splits w).
Proof.
  intro HR. destruct (splits_are_built w t HR) as [->|(i & ks & _ & _ & _ & ->)].
  - split; [exact I|constructor].
  - split; [apply build_clamped|apply build_pos0].
Qed.

Lemma history_numbers_pos0 duration w0 ops :
  init N duration = Ok w0 ->
  Forall (fun cr => forall z, snd cr = Ok (VNum z) -> pos0 z) (trace N clk ops w0 0%nat).
Proof.
  intro Hi. apply trace_Forall; [|eapply reachable_init, Hi].
  intros o w t _ z. destruct o; unfold step, wrap; cbn [snd].
  all: try match goal with |- context [match ?m with (_, _) => _ end] => destruct m as [c [a|e]] eqn:E end; cbn [snd]; intro H; try discriminate H.
  - inversion H; subst. eapply elapsed_pos0, E.
  - destruct a as [z'|]; inversion H; subst. eapply leftover_pos0, E.
Qed.

Lemma no_restart_keeps_started ops : forall w t,
  restarts_in N clk ops w t = false -> w_started (fst (final N clk ops w t)) = w_started w.
Proof.
  induction ops as [|o r IH]; intros w t H; [reflexivity|].
  cbn [restarts_in final] in *. apply orb_false_elim in H. destruct H as [H1 H2].
  pose proof (started_at_frame o w t H1) as HF.
  destruct (step N clk o w t) as [[w' t'] res]. cbn [fst] in HF. rewrite (IH w' t' H2). exact HF.
Qed.

Lemma no_stop_keeps_stopped ops : forall w t,
  stops_in N clk ops w t = false -> w_stopped (fst (final N clk ops w t)) = w_stopped w.
Proof.
  induction ops as [|o r IH]; intros w t H; [reflexivity|].
  cbn [stops_in final] in *. apply orb_false_elim in H. destruct H as [H1 H2].
  apply orb_false_elim in H1. destruct H1 as [H0 H1].
  pose proof (stopped_at_frame o w t H0 H1) as HF.
  destruct (step N clk o w t) as [[w' t'] res]. cbn [fst] in HF. rewrite (IH w' t' H2). exact HF.
Qed.

End Machine.
