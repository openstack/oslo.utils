(* Proofs/C04_Whole.v — towards a UNIVERSAL whole-function theorem: for a syntactically delimited class of
   messages pre ++ R(K,d,v) ++ post the whole of mask_password (all keys, all twelve substitutions in
   order) returns pre ++ R(K,d,mask) ++ post, and is idempotent on the result.
   Ingredients: the key pre-test skips every other key; the designated pattern rewrites the value
   (rendering derivation [gm], in context); every other pattern of the key cannot match anywhere in
   the message (verified abstract checker, Proofs/C04_Abs.v). *)
From Coq Require Import String.
Require Import OV.Base.Bytes OV.Base.PyInt OV.Base.Str OV.Base.Regex OV.Base.C04_Tmpl.
Require Import OV.Gen.Unicode OV.Gen.C04_Sanitize OV.Gen.C04_Concrete OV.Model.C04 OV.Model.C04_Spec.
Require Import OV.Proofs.C11_Regex OV.Proofs.C04_Regex OV.Proofs.C04 OV.Proofs.C04_Abs.
Open Scope N_scope.

Fixpoint ci_prefixb (tbl : list (N * cset)) (k s : str) : bool :=
  match k, s with
  | [], _ => true
  | c :: k', x :: s' => cmem x (ci_lookup tbl c) && ci_prefixb tbl k' s'
  | _ :: _, [] => false
  end.

Lemma ci_prefixb_iff tbl k : forall s, ci_prefixb tbl k s = true <-> ci_prefix tbl k s.
Proof.
  induction k as [|c k IH]; intros s; cbn [ci_prefixb].
  - split; [intros _; exists [], s; split; [reflexivity|constructor]|reflexivity].
  - destruct s as [|x s]; [split; [discriminate|]|].
    + intros (K & s' & E & H). inversion H; subst. discriminate.
    + rewrite andb_true_iff, IH. split.
      * intros [Hx (K & s' & -> & H)]. exists (x :: K), s'. split; [reflexivity|constructor; assumption].
      * intros (K & s' & E & H). inversion H as [|? y ? K' Hy HK']; subst. cbn [app] in E. inversion E; subst.
        split; [assumption|exists K', s'; split; [reflexivity|assumption]].
Qed.

(* the key (in the case-insensitive sense of the patterns) starts at the listed offsets of m only *)
Definition only_at (tbl : list (N * cset)) (k m : str) (des : list nat) : bool :=
  forallb (fun i => negb (ci_prefixb tbl k (skipn i m)) || existsb (Nat.eqb i) des) (seq 0 (S (length m))).

Lemma only_at_spec tbl k m des : only_at tbl k m des = true ->
  forall a b, m = a ++ b -> ci_prefix tbl k b -> In (length a) des.
Proof.
  unfold only_at. intros H a b E Hp. rewrite forallb_forall in H.
  assert (Hin : In (length a) (seq 0 (S (length m)))) by (apply in_seq; rewrite E, app_length; lia).
  specialize (H _ Hin). rewrite E, skipn_app_exact in H. apply ci_prefixb_iff in Hp. rewrite Hp in H. cbn in H.
  apply existsb_exists in H. destruct H as (i & Hi & Ei). apply Nat.eqb_eq in Ei. subst. exact Hi.
Qed.

(* no OTHER sanitize key occurs in lower(m) *)
Definition others_absent (k m : str) : bool :=
  forallb (fun k' => beq k' k || negb (occursb k' (lower m))) gen_keys.

(* ---------- building a concretisation from a segmentation of the message ---------- *)
Section Build.
Variable tbl : list (N * cset).
Variable k : str.
Hypothesis k_ne : k <> [].
Let kcs := map (ci_lookup tbl) k.

Definition seg_valid (p : aseg * str) : Prop :=
  match fst p with
  | AOne cs => exists c, snd p = [c] /\ cmem c cs = true
  | ARun cs ne => all_in cs (snd p) = true /\ (ne = true -> snd p <> [])
  | AKey l => l = kcs /\ casing_ok tbl k (snd p)
  end.
Definition is_key (s : aseg) : bool := match s with AKey _ => true | _ => false end.
Fixpoint key_offsets (off : nat) (L : list (aseg * str)) : list nat :=
  match L with
  | [] => []
  | p :: L' => (if is_key (fst p) then [off] else []) ++ key_offsets (off + length (snd p)) L'
  end.
Fixpoint flat (L : list (aseg * str)) : str :=
  match L with [] => [] | [p] => snd p | p :: L' => snd p ++ flat L' end.
Lemma flat_cons p L : flat (p :: L) = snd p ++ flat L.
Proof. destruct L; [cbn; rewrite app_nil_r; reflexivity|reflexivity]. Qed.

Lemma key_offsets_ge L : forall off i, In i (key_offsets off L) -> (off <= i)%nat.
Proof.
  induction L as [|p L IH]; intros off i H; [destruct H|]. cbn [key_offsets] in H. apply in_app_or in H. destruct H as [H|H].
  - destruct (is_key (fst p)); [destruct H as [<-|[]]; lia|destruct H].
  - specialize (IH _ _ H). lia.
Qed.

Lemma conc_build whole des :
  (forall a b, whole = a ++ b -> ci_prefix tbl k b -> In (length a) des) ->
  forall L done, whole = done ++ flat L -> Forall seg_valid L ->
  (forall i, In i des -> (length done <= i)%nat -> In i (key_offsets (length done) L)) ->
  conc tbl k (map fst L) (flat L).
Proof.
  intros G. induction L as [|[seg t] L IH]; intros done E HV Hd; [constructor|].
  rewrite flat_cons in *. cbn [fst snd map] in *. pose proof (Forall_inv HV) as Hv. pose proof (Forall_inv_tail HV) as HV'.
  assert (E' : whole = (done ++ t) ++ flat L) by (rewrite <- app_assoc; exact E).
  (* a position inside the current segment that is not a key start carries no occurrence *)
  assert (NO : forall a' b', t = a' ++ b' -> b' <> [] -> (is_key seg = true -> a' <> []) -> noocc tbl k (b' ++ flat L)).
  { intros a' b' Et Hb Hk Hp.
    assert (Hin : In (length (done ++ a')) des) by (apply (G (done ++ a') (b' ++ flat L)); [rewrite E, Et, <- !app_assoc; reflexivity|exact Hp]).
    rewrite app_length in Hin. specialize (Hd _ Hin ltac:(lia)). cbn [key_offsets fst snd] in Hd.
    apply in_app_or in Hd. destruct Hd as [Hd|Hd].
    - destruct (is_key seg); [|destruct Hd]. destruct Hd as [Hd|[]]. specialize (Hk eq_refl). destruct a'; [congruence|cbn in Hd; lia].
    - apply key_offsets_ge in Hd. rewrite Et, app_length in Hd. destruct b'; [congruence|cbn in Hd; lia]. }
  assert (IH' : conc tbl k (map fst L) (flat L)).
  { apply (IH (done ++ t) E' HV'). intros i Hi Hle. rewrite app_length in *. specialize (Hd i Hi ltac:(lia)).
    cbn [key_offsets fst snd] in Hd. apply in_app_or in Hd. destruct Hd as [Hd|Hd]; [|exact Hd].
    exfalso. destruct seg as [cs|cs ne|l]; cbn [is_key] in Hd; try (destruct Hd; fail).
    destruct Hd as [Hd|[]]. destruct Hv as [_ Hv]. cbn [snd] in Hv. inversion Hv; subst; [apply k_ne; congruence|cbn in Hle; lia]. }
  destruct seg as [cs|cs ne|l]; unfold seg_valid in Hv; cbn [fst snd] in Hv.
  - destruct Hv as (c & -> & Hc). cbn [app]. constructor; [exact Hc| |exact IH'].
    apply (NO [] [c]); [reflexivity|discriminate|discriminate].
  - destruct Hv as [Hr Hne]. constructor; [exact Hr|exact Hne| |exact IH'].
    intros a b Eab Hb. apply (NO a b Eab Hb). discriminate.
  - destruct Hv as [El HK]. apply conc_key; [exact El|exact HK| |exact IH'].
    intros a b Eab Ha Hb. apply (NO a b Eab Hb). intros _. exact Ha.
Qed.
End Build.

(* ---------- re_sub with one match in the middle ---------- *)
Lemma sub_go_pre r t whole rest : forall b a,
  (forall a' b' q, b = a' ++ b' -> b' <> [] -> match_at r (b' ++ rest) q = None) ->
  sub_go r t whole (b ++ rest) (blen a) 0 = b ++ sub_go r t whole rest (blen (a ++ b)) 0.
Proof.
  induction b as [|c b IH]; intros a H.
  - rewrite app_nil_r. reflexivity.
  - pose proof (H [] (c :: b) (blen a) eq_refl ltac:(discriminate)) as H0. cbn [app] in H0.
    cbn [app sub_go]. rewrite H0. f_equal.
    replace (blen a + 1) with (blen (a ++ [c])) by (rewrite blen_app; cbn; lia).
    rewrite IH; [rewrite <- app_assoc; reflexivity|].
    intros a' b' q E Hb. apply (H (c :: a') b' q); [rewrite E; reflexivity|exact Hb].
Qed.

Lemma sub_ctx r t pre R post g :
  (forall a' b' q, pre = a' ++ b' -> b' <> [] -> match_at r (b' ++ R ++ post) q = None) ->
  R <> [] -> match_at r (R ++ post) (blen pre) = Some (blen (pre ++ R), g) ->
  (forall a' b' q, post = a' ++ b' -> match_at r b' q = None) ->
  re_sub r t (pre ++ R ++ post) = pre ++ expand t (pre ++ R ++ post) g ++ post.
Proof.
  intros Hpre HR Hm Hpost. unfold re_sub. change 0 with (blen (@nil N)) at 1.
  rewrite (sub_go_pre r t _ (R ++ post) pre [] Hpre). cbn [app]. f_equal.
  destruct R as [|c R']; [congruence|]. cbn [app sub_go]. cbn [app] in Hm. rewrite Hm.
  rewrite blen_app, blen_cons. replace (blen pre <? blen pre + (1 + blen R')) with true by lia. f_equal.
  rewrite sub_go_skip. replace (N.to_nat (blen pre + (1 + blen R') - blen pre) - 1)%nat with (length R') by (unfold blen; lia).
  rewrite skipn_app_exact. apply sub_go_none. exact Hpost.
Qed.

Lemma gm_match_at_ctx tbl r pre s pre' s' G : gm tbl r pre s pre' s' G -> match_at r s (blen pre) = Some (blen pre', G).
Proof.
  intros H. unfold match_at. apply (gm_sound _ tbl r pre s pre' s' G H [] _ _). rewrite app_nil_r. reflexivity.
Qed.

Lemma gm_sub_two_ctx tbl r pre S h v tl post mask G pre' h1 hv pre'' :
  gm tbl r pre S pre' post G -> S = h ++ v ++ tl ++ post -> pre' = pre ++ h ++ v ++ tl -> h ++ v ++ tl <> [] ->
  gget G 1 = Some (blen pre, blen h1) -> h1 = pre ++ h ->
  gget G 2 = Some (blen hv, blen pre'') -> hv = pre ++ h ++ v -> pre'' = pre ++ h ++ v ++ tl ->
  (forall a' b' q, pre = a' ++ b' -> b' <> [] -> match_at r (b' ++ S) q = None) ->
  (forall a' b' q, post = a' ++ b' -> match_at r b' q = None) ->
  re_sub r (t2 mask) (pre ++ S) = pre ++ h ++ mask ++ tl ++ post.
Proof.
  intros Hg -> -> Hne G1 -> G2 -> -> Hpre Hpost.
  pose proof (gm_match_at_ctx _ _ _ _ _ _ _ Hg) as Hm.
  replace (pre ++ h ++ v ++ tl ++ post) with (pre ++ (h ++ v ++ tl) ++ post) by (rewrite <- !app_assoc; reflexivity).
  replace (h ++ v ++ tl ++ post) with ((h ++ v ++ tl) ++ post) in Hm, Hpre by (rewrite <- !app_assoc; reflexivity).
  rewrite (sub_ctx r (t2 mask) pre (h ++ v ++ tl) post G Hpre Hne Hm Hpost).
  rewrite (expand_t2 _ _ _ _ _ _ _ G1 G2). f_equal. rewrite <- !app_assoc.
  rewrite (slice_mid pre h (v ++ tl ++ post)). f_equal. f_equal.
  replace (pre ++ h ++ v ++ tl ++ post) with ((pre ++ h ++ v) ++ tl ++ post) by (rewrite <- !app_assoc; reflexivity).
  replace (blen (pre ++ h ++ v ++ tl)) with (blen ((pre ++ h ++ v) ++ tl)) by (rewrite <- !app_assoc; reflexivity).
  rewrite slice_mid. reflexivity.
Qed.

Lemma gm_sub_one_ctx tbl r pre S h v post mask G pre' h1 :
  gm tbl r pre S pre' post G -> S = h ++ v ++ post -> pre' = pre ++ h ++ v -> h ++ v <> [] ->
  gget G 1 = Some (blen pre, blen h1) -> h1 = pre ++ h ->
  (forall a' b' q, pre = a' ++ b' -> b' <> [] -> match_at r (b' ++ S) q = None) ->
  (forall a' b' q, post = a' ++ b' -> match_at r b' q = None) ->
  re_sub r (t1 mask) (pre ++ S) = pre ++ h ++ mask ++ post.
Proof.
  intros Hg -> -> Hne G1 -> Hpre Hpost.
  pose proof (gm_match_at_ctx _ _ _ _ _ _ _ Hg) as Hm.
  replace (pre ++ h ++ v ++ post) with (pre ++ (h ++ v) ++ post) by (rewrite <- !app_assoc; reflexivity).
  replace (h ++ v ++ post) with ((h ++ v) ++ post) in Hm, Hpre by (rewrite <- !app_assoc; reflexivity).
  rewrite (sub_ctx r (t1 mask) pre (h ++ v) post G Hpre Hne Hm Hpost).
  unfold t1. cbn [app expand]. rewrite G1. rewrite <- !app_assoc. rewrite (slice_mid pre h (v ++ post)).
  f_equal. f_equal. rewrite <- (app_nil_r (map TLit mask)) at 1. rewrite expand_lits. cbn [expand]. rewrite app_nil_r. reflexivity.
Qed.

(* ---------- the key's block of mask_password as one fold over (pattern, template) pairs ---------- *)
Definition tagged (k secret : str) : list (re * list titem) :=
  map (fun r => (r, t2 secret)) (gen_tp2 k) ++ map (fun r => (r, t1 secret)) (gen_tp1 k) ++ map (fun r => (r, tw)) (gen_tpw k).
Definition sub_all (L : list (re * list titem)) (m : str) : str := fold_left (fun m rt => re_sub (fst rt) (snd rt) m) L m.

Lemma fold_map_sub (t : list titem) l m :
  fold_left (fun m r => re_sub r t m) l m = sub_all (map (fun r => (r, t)) l) m.
Proof. unfold sub_all. revert m. induction l as [|r l IH]; intros m; [reflexivity|]. cbn [fold_left map fst snd]. apply IH. Qed.

Lemma key_block k secret m :
  fold_left (run_step secret (snd (template_entry k))) gen_steps m = sub_all (tagged k secret) m.
Proof.
  unfold tagged, sub_all. rewrite !fold_left_app. fold (sub_all (map (fun r => (r, t2 secret)) (gen_tp2 k)) m).
  cbn [gen_steps fold_left run_step template_entry snd fst pick].
  rewrite (fold_map_sub (gen_sub_0 secret)). rewrite (fold_map_sub (gen_sub_1 secret)). rewrite (fold_map_sub (gen_sub_2 secret)).
  reflexivity.
Qed.

(* every pair but the j-th leaves its input alone; the j-th maps m to m1 *)
Lemma sub_all_one L : forall j m m1 rj tj,
  nth_error L j = Some (rj, tj) -> re_sub rj tj m = m1 ->
  (forall i r t, nth_error L i = Some (r, t) -> (i < j)%nat -> re_sub r t m = m) ->
  (forall i r t, nth_error L i = Some (r, t) -> (j < i)%nat -> re_sub r t m1 = m1) ->
  sub_all L m = m1.
Proof.
  unfold sub_all. induction L as [|[r t] L IH]; intros j m m1 rj tj Hj Hs Hb Ha; [destruct j; discriminate|].
  cbn [fold_left fst snd]. destruct j as [|j].
  - cbn in Hj. inversion Hj; subst. clear IH Hb.
    assert (G : forall L' x, (forall r t, In (r, t) L' -> re_sub r t x = x) -> fold_left (fun m rt => re_sub (fst rt) (snd rt) m) L' x = x).
    { induction L' as [|[r' t'] L' IH']; intros x H; [reflexivity|]. cbn [fold_left fst snd]. rewrite (H r' t' (or_introl eq_refl)).
      apply IH'. intros; apply H; right; assumption. }
    apply G. intros r t Hin. apply In_nth_error in Hin. destruct Hin as (i & Hi). apply (Ha (S i) r t Hi). lia.
  - rewrite (Hb 0%nat r t eq_refl ltac:(lia)). apply (IH j m m1 rj tj Hj Hs).
    + intros i r' t' Hi Hlt. apply (Hb (S i) r' t' Hi). lia.
    + intros i r' t' Hi Hlt. apply (Ha (S i) r' t' Hi). lia.
Qed.

Lemma keys_nodup : NoDup gen_keys.
Proof.
  assert (H : forall l : list str, (fix nd (l : list str) : bool := match l with [] => true | x :: t => negb (existsb (beq x) t) && nd t end) l = true -> NoDup l).
  { induction l as [|x t IH]; intros H; [constructor|]. apply andb_true_iff in H. destruct H as [H1 H2]. constructor; [|auto].
    intros Hin. apply negb_true_iff in H1. assert (existsb (beq x) t = true); [|congruence].
    apply existsb_exists. exists x. split; [exact Hin|apply beq_refl]. }
  apply H. vm_compute. reflexivity.
Qed.

Lemma mask_with_absent secret (tbl : list entry) m :
  (forall e : entry, In e tbl -> occursb (fst e) (lower m) = false) -> mask_with tbl m secret = m.
Proof. intros H. unfold mask_with. apply mask_with_nokey. exact H. Qed.

Lemma mask_password_one_key k m m1 secret :
  In k gen_keys -> occursb k (lower m) = true -> others_absent k m = true -> others_absent k m1 = true ->
  sub_all (tagged k secret) m = m1 -> mask_password m secret = m1.
Proof.
  intros Hin Hocc Hm Hm1 Hs. unfold mask_password. rewrite concrete_templates_equiv. unfold template_table.
  destruct (in_split _ _ Hin) as (l1 & l2 & El). pose proof keys_nodup as ND. rewrite El in ND.
  rewrite El, map_app. cbn [map]. unfold mask_with. rewrite fold_left_app. cbn [fold_left].
  assert (Hno : forall k', In k' (l1 ++ l2) -> k' <> k).
  { intros k' Hk' ->. apply NoDup_remove_2 in ND. exact (ND Hk'). }
  assert (Habs : forall (x : str) ks, others_absent k x = true -> (forall k', In k' ks -> In k' gen_keys /\ k' <> k) ->
            fold_left (apply_key gen_steps secret) (map template_entry ks) x = x).
  { intros x ks Hx Hks. apply mask_with_nokey. intros e He. apply in_map_iff in He. destruct He as (k' & <- & Hk').
    cbn [template_entry fst]. destruct (Hks k' Hk') as [Hg Hne]. unfold others_absent in Hx. rewrite forallb_forall in Hx.
    specialize (Hx k' Hg). apply orb_true_iff in Hx. destruct Hx as [Hx|Hx]; [apply beq_eq in Hx; congruence|].
    apply negb_true_iff in Hx. exact Hx. }
  rewrite (Habs m l1 Hm).
  2:{ intros k' Hk'. split; [rewrite El; apply in_or_app; left; exact Hk'|apply Hno; apply in_or_app; left; exact Hk']. }
  unfold apply_key at 2. cbn [template_entry fst]. rewrite Hocc. fold (template_entry k). rewrite key_block, Hs.
  apply (Habs m1 l2 Hm1). intros k' Hk'. split; [rewrite El; apply in_or_app; right; right; exact Hk'|apply Hno; apply in_or_app; right; exact Hk'].
Qed.

(* ---------- the key occurs in lower(message) ---------- *)
Lemma lower_app a b : lower (a ++ b) = lower a ++ lower b.
Proof. unfold lower. apply flat_map_app. Qed.

Lemma lower_casing k K : forallb key_char k = true -> casing_of k K -> lower K = k.
Proof.
  intros Hk H. induction H as [|c C k K Hc _ IH]; [reflexivity|].
  cbn [forallb] in Hk. apply andb_true_iff in Hk. destruct Hk as [Hc1 Hk].
  change (lower (C :: K)) with (lower1 C ++ lower K). rewrite (IH Hk).
  assert (lower1 C = [c]); [|rewrite H; reflexivity].
  unfold key_char in Hc1. unfold lower1, lower_ascii1, upper_ascii1 in *.
  destruct Hc as [-> | ->].
  - replace (c <? 128) with true by lia. replace ((65 <=? c) && (c <=? 90)) with false by lia. reflexivity.
  - destruct ((97 <=? c) && (c <=? 122)) eqn:E.
    + replace (c - 32 <? 128) with true by lia. replace ((65 <=? c - 32) && (c - 32 <=? 90)) with true by lia. f_equal. lia.
    + replace (c <? 128) with true by lia. replace ((65 <=? c) && (c <=? 90)) with false by lia. reflexivity.
Qed.

Lemma occursb_app_mid k : forall a b, occursb k (a ++ k ++ b) = true.
Proof.
  induction a as [|x a IH]; intros b.
  - cbn [app]. destruct (k ++ b) eqn:E; cbn [occursb]; rewrite <- ?E, prefixb_app; reflexivity.
  - cbn [app occursb]. rewrite IH. apply orb_true_r.
Qed.

Lemma key_occurs k K a b : forallb key_char k = true -> casing_of k K -> occursb k (lower (a ++ K ++ b)) = true.
Proof. intros Hk Hc. rewrite !lower_app, (lower_casing k K Hk Hc). apply occursb_app_mid. Qed.

(* ---------- the three concretisations a rendering proof needs ---------- *)
Section Parts.
Variable tbl : list (N * cset).
Variable k : str.
Hypothesis k_ne : k <> [].

Lemma key_offsets_app L1 : forall off L2,
  key_offsets off (L1 ++ L2) = key_offsets off L1 ++ key_offsets (off + length (flat L1)) L2.
Proof.
  induction L1 as [|p L1 IH]; intros off L2.
  - cbn. rewrite Nat.add_0_r. reflexivity.
  - cbn [app key_offsets]. rewrite IH, flat_cons, app_length, <- app_assoc. do 3 f_equal. lia.
Qed.

Lemma key_offsets_lt L : Forall (seg_valid tbl k) L -> forall off i, In i (key_offsets off L) -> (i < off + length (flat L))%nat.
Proof.
  induction 1 as [|[seg t] L Hv _ IH]; intros off i H; [destruct H|].
  cbn [key_offsets fst snd] in H. rewrite flat_cons, app_length. cbn [snd]. apply in_app_or in H. destruct H as [H|H].
  - destruct seg as [cs|cs ne|l]; cbn [is_key] in H; try (destruct H; fail). destruct H as [<-|[]].
    destruct Hv as [_ Hv]. cbn [snd] in Hv. inversion Hv; subst; [exfalso; apply k_ne; congruence|cbn; lia].
  - specialize (IH _ _ H). lia.
Qed.

Lemma flat_app L1 L2 : flat (L1 ++ L2) = flat L1 ++ flat L2.
Proof. induction L1 as [|p L1 IH]; [reflexivity|]. cbn [app]. rewrite !flat_cons, IH, app_assoc. reflexivity. Qed.

Lemma conc_parts c1 n1 pre Lmid c2 n2 post whole :
  let L := (ARun c1 n1, pre) :: Lmid ++ [(ARun c2 n2, post)] in
  whole = flat L -> Forall (seg_valid tbl k) L ->
  (forall a b, whole = a ++ b -> ci_prefix tbl k b -> In (length a) (key_offsets 0 L)) ->
  conc tbl k (map fst L) whole /\
  (forall a' b', pre = a' ++ b' -> b' <> [] -> conc tbl k (ARun c1 true :: map fst (Lmid ++ [(ARun c2 n2, post)])) (b' ++ flat (Lmid ++ [(ARun c2 n2, post)]))) /\
  conc tbl k [ARun c2 n2] post.
Proof.
  intros L E HV G. split; [|split].
  - rewrite E. apply (conc_build tbl k k_ne whole _ G L []); [exact E|exact HV|]. intros i Hi _. exact Hi.
  - intros a' b' Ep Hb.
    pose proof (conc_build tbl k k_ne whole _ G ((ARun c1 true, b') :: Lmid ++ [(ARun c2 n2, post)]) a') as H.
    rewrite flat_cons in H. cbn [map fst snd] in H. apply H.
    + rewrite E. unfold L. rewrite flat_cons. cbn [snd]. rewrite Ep, <- app_assoc. reflexivity.
    + pose proof (Forall_inv HV) as Hv. pose proof (Forall_inv_tail HV) as HV'. constructor; [|exact HV'].
      destruct Hv as [Hr _]. cbn [fst snd] in *. rewrite Ep in Hr. apply all_in_app in Hr. split; [tauto|intros _; exact Hb].
    + intros i Hi _. unfold L in Hi. cbn [key_offsets fst snd is_key app] in Hi |- *.
      rewrite Ep, app_length in Hi. cbn [Nat.add] in Hi. exact Hi.
  - pose proof (conc_build tbl k k_ne whole _ G [(ARun c2 n2, post)] (flat ((ARun c1 n1, pre) :: Lmid))) as H.
    change (flat [(ARun c2 n2, post)]) with post in H. cbn [map fst] in H. apply H.
    + rewrite E. unfold L. change ((ARun c1 n1, pre) :: Lmid ++ [(ARun c2 n2, post)]) with (((ARun c1 n1, pre) :: Lmid) ++ [(ARun c2 n2, post)]).
      rewrite flat_app. reflexivity.
    + constructor; [|constructor]. apply (Forall_forall (seg_valid tbl k) L); [exact HV|]. unfold L. right. apply in_or_app. right. left. reflexivity.
    + intros i Hi Hle. exfalso. unfold L in Hi.
      change ((ARun c1 n1, pre) :: Lmid ++ [(ARun c2 n2, post)]) with (((ARun c1 n1, pre) :: Lmid) ++ [(ARun c2 n2, post)]) in Hi.
      rewrite key_offsets_app in Hi. cbn [key_offsets fst is_key app] in Hi. rewrite app_nil_r in Hi.
      assert (HV0 : Forall (seg_valid tbl k) ((ARun c1 n1, pre) :: Lmid)).
      { unfold L in HV. change ((ARun c1 n1, pre) :: Lmid ++ [(ARun c2 n2, post)]) with (((ARun c1 n1, pre) :: Lmid) ++ [(ARun c2 n2, post)]) in HV.
        apply Forall_app in HV. tauto. }
      pose proof (key_offsets_lt _ HV0 0%nat i Hi). lia.
Qed.
End Parts.

(* the checker's verdict on one abstract start *)
Lemma am_none tbl k f r A s q : k <> [] ->
  am (map (ci_lookup tbl) k) f r A (fun _ => true) = false -> conc tbl k A s -> match_at r s q = None.
Proof.
  intros Hk H HA. destruct (match_at r s q) as [[e g]|] eqn:Em; [exfalso|reflexivity].
  unfold match_at in Em. apply m_sound in Em. destruct Em as (s' & p' & g' & M & _).
  rewrite (am_sound tbl k Hk f r A s q s' p' (fun _ => true) HA M (fun _ _ => eq_refl)) in H. discriminate.
Qed.

(* a two-group match in context, from its span and group positions *)
Lemma two_group_ctx r pre h v tl post mask g :
  match_at r ((h ++ v ++ tl) ++ post) (blen pre) = Some (blen (pre ++ h ++ v ++ tl), g) -> h ++ v ++ tl <> [] ->
  gget g 1 = Some (blen pre, blen (pre ++ h)) -> gget g 2 = Some (blen (pre ++ h ++ v), blen (pre ++ h ++ v ++ tl)) ->
  (forall a' b' q, pre = a' ++ b' -> b' <> [] -> match_at r (b' ++ (h ++ v ++ tl) ++ post) q = None) ->
  (forall a' b' q, post = a' ++ b' -> match_at r b' q = None) ->
  re_sub r (t2 mask) (pre ++ (h ++ v ++ tl) ++ post) = pre ++ h ++ mask ++ tl ++ post.
Proof.
  intros Hm Hne G1 G2 Hpre Hpost.
  rewrite (sub_ctx r (t2 mask) pre (h ++ v ++ tl) post g Hpre Hne Hm Hpost).
  rewrite (expand_t2 _ _ _ _ _ _ _ G1 G2). f_equal. rewrite <- !app_assoc.
  rewrite (slice_mid pre h (v ++ tl ++ post)). f_equal. f_equal.
  replace (pre ++ h ++ v ++ tl ++ post) with ((pre ++ h ++ v) ++ tl ++ post) by (rewrite <- !app_assoc; reflexivity).
  replace (blen (pre ++ h ++ v ++ tl)) with (blen ((pre ++ h ++ v) ++ tl)) by (rewrite <- !app_assoc; reflexivity).
  rewrite slice_mid. reflexivity.
Qed.
