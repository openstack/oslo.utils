(* Proofs/C14_Words.v — the generated word tuples against the documented words; the
   final-sigma rule of str.lower() cannot matter for C14. *)
From Coq Require Import String.
Require Import OV.Base.Bytes OV.Base.Py OV.Base.PyInt OV.Base.Str.
Require Import OV.Model.C14_Py OV.Gen.C14 OV.Model.C14 OV.Proofs.C14_Bool.
Open Scope N_scope.

(* the words named by the docstring of bool_from_string / the property text *)
Definition doc_true : list str := [lit "1"; lit "t"; lit "true"; lit "on"; lit "y"; lit "yes"].
Definition doc_false : list str := [lit "0"; lit "f"; lit "false"; lit "off"; lit "n"; lit "no"].

Definition same_words (a b : list str) : bool :=
  forallb (fun w => mem_str w b) a && forallb (fun w => mem_str w a) b.

Lemma same_words_spec a b : same_words a b = true -> forall w, In w a <-> In w b.
Proof.
  unfold same_words. intros H w. apply andb_true_iff in H. destruct H as [H1 H2].
  rewrite forallb_forall in H1, H2. split; intros Hw; apply mem_str_In; auto.
Qed.

(* CPython lowers a word-final capital sigma to U+03C2 instead of U+03C3 (not modelled in
   Base/Str.py_lower).  Any string that differs from py_lower's result only by such
   substitutions is in a word list exactly when py_lower's result is. *)
Inductive sigma_variant : str -> str -> Prop :=
| sv_nil : sigma_variant [] []
| sv_same c a b : sigma_variant a b -> sigma_variant (c :: a) (c :: b)
| sv_final a b : sigma_variant a b -> sigma_variant (963 :: a) (962 :: b).

Definition no_sigma (w : str) : bool := forallb (fun c => negb (c =? 963) && negb (c =? 962)) w.

Lemma sigma_variant_word a b : sigma_variant a b -> (no_sigma a = true \/ no_sigma b = true) -> a = b.
Proof.
  induction 1 as [|c a b H IH|a b H IH]; intros Hn; [reflexivity| |].
  - f_equal. apply IH. unfold no_sigma in *. cbn [forallb] in Hn. destruct Hn as [Hn|Hn]; apply andb_true_iff in Hn; tauto.
  - exfalso. unfold no_sigma in Hn. cbn [forallb] in Hn. destruct Hn as [Hn|Hn]; discriminate.
Qed.

Lemma words_no_sigma : forallb no_sigma all_words = true.
Proof. vm_compute. reflexivity. Qed.

