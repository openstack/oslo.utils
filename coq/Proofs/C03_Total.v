(* Proofs/C03_Total.v — queries_total: in EVERY reachable state of every concrete inspector (any
   chunks, also after an exception, after finish, chunks after finish) format_match returns
   (complete is a total boolean by construction).  This is the statement finding D2 broke
   (VMDKInspector.vmdktype not initialised: AttributeError).  Then: every wrapper a reader can
   produce holds reachable inspectors only, so the properties with raising queries ([formats_r],
   [format_r], Model/C03.v) coincide with the boolean ones of Model/Wrap.v. *)
Require Import OV.Base.Bytes OV.Base.Py OV.Base.C06_WrapShape OV.Base.Insp_Struct.
Require Import OV.Gen.Insp_Consts OV.Gen.C06_Wrapper OV.Model.Insp_Engine.
Require Import OV.Model.Insp_Raw OV.Model.Insp_Qcow2 OV.Model.Insp_Qed OV.Model.Insp_Vhd OV.Model.Insp_Vdi
               OV.Model.Insp_Iso OV.Model.Insp_Gpt OV.Model.Insp_Luks OV.Model.Insp_Vhdx OV.Model.Insp_Vmdk OV.Model.Insp_All.
Require Import OV.Model.Wrap OV.Model.C03.
Require Import OV.Proofs.Insp_Engine OV.Proofs.Insp_FmtOk OV.Proofs.Insp_StaticQcow OV.Proofs.Insp_All.
Require Import OV.Proofs.C03_Engine OV.Proofs.Wrap OV.Proofs.C06.
Open Scope N_scope.

Lemma flen_nsub lo hi d : flen (nsub lo hi d) = N.min (hi - lo) (flen d - lo).
Proof. rewrite nsub_bsub, !flen_blen. unfold bsub. rewrite blen_btake, blen_bskip. reflexivity. Qed.

Lemma unpack_nsub_ok f lo hi d : sf_size f = hi - lo -> hi <= flen d -> unpack f (nsub lo hi d) = Ok (nsub lo hi d).
Proof.
  intros Hs Hh. unfold unpack. rewrite flen_nsub, Hs.
  replace (N.min (hi - lo) (flen d - lo) =? hi - lo) with true by (symmetry; apply N.eqb_eq; lia). reflexivity.
Qed.

Lemma bidx_ok d i : i < flen d -> bidx d i = Ok (bnth i d).
Proof. intros H. unfold bidx. replace (i <? flen d) with true by (symmetry; apply N.ltb_lt; exact H). reflexivity. Qed.

(* a complete plain region without min_length holds exactly [length] bytes *)
Lemma rcomplete_fixed_len r : r_end r = false -> r_min r = None -> rcomplete r = true -> flen (r_data r) = r_len r.
Proof. unfold rcomplete, base_complete. intros -> ->. intros H. apply N.eqb_eq in H. auto. Qed.

(* ------------------------------------------------------------------ regions that stay where _initialize put them *)
Definition spec_of (f : fmt_id) (n : rname) : rspec :=
  match List.find (fun p => rname_beq (fst p) n) (init_regions f) with
  | Some p => snd p
  | None => mkRspec false 0 0 None
  end.

(* region n of format F is present, with the offset / length / min_length _initialize gave it *)
Definition stays {X} (F : fmt X) (n : rname) (s : ist X) : Prop :=
  has_fixed n (rs_off (spec_of (f_id F) n)) (rs_len (spec_of (f_id F) n)) (rs_min (spec_of (f_id F) n)) (i_regs s).

Definition keeps {X} (F : fmt X) (n : rname) : Prop :=
  (forall s s' e, stays F n s -> f_post F s = (s', e) -> stays F n s') /\
  (forall m s s' e, stays F n s -> f_rcomplete F m s = (s', e) -> stays F n s').

Lemma reach_stays {X} (F : fmt X) n st s :
  keeps F n -> stays F n (init_ist F) -> reach F st s -> stays F n s.
Proof.
  intros [Hp Hc] Hi Hr.
  refine (reach_pres F (stays F n) _ _ Hp Hc _ st s Hi Hr).
  - intros s0 p H. exact H.
  - intros s0 only c pos H. unfold stays in *. cbn [set_regs i_regs]. apply has_fixed_capture. exact H.
  - intros s0 H. unfold stays in *. apply has_fixed_finish. exact H.
Qed.

Lemma keeps_static {X} (F : fmt X) n : f_post F = no_post -> f_rcomplete F = no_rcomplete -> keeps F n.
Proof.
  intros H1 H2. split.
  - intros s s' e H Hp. rewrite H1 in Hp. inversion Hp; subst. exact H.
  - intros m s s' e H Hp. rewrite H2 in Hp. inversion Hp; subst. exact H.
Qed.

Lemma keeps_qcow n : keeps qcow_fmt n.
Proof.
  split.
  - intros s s' e H Hp. inversion Hp; subst. exact H.
  - intros m s s' e H Hp. cbn [f_rcomplete qcow_fmt] in Hp. apply qrc_shape in Hp. rewrite Hp. exact H.
Qed.

Lemma keeps_vhdx n : n <> R_metadata -> keeps vhdx_fmt n.
Proof.
  intros Hn. split; [|intros m s s' e H Hp; inversion Hp; subst; exact H].
  intros s s' e H Hp. cbn [f_post vhdx_fmt] in Hp. unfold stays in *.
  apply (acts_pres vhdx_creates (fun _ _ => False) (eq R_metadata) (fun s0 => has_fixed n _ _ _ (i_regs s0))) with (s := s);
    [| | | |exact (vhdx_post_acts s s' e Hp)|exact H].
  - intros m sp s0 s1 e0 _. apply has_fixed_new_region.
  - intros m s0 s1 e0 [].
  - intros k s0 s1 e0 H0 Ha. unfold add_check in Ha. destruct (mem_cname k (i_checks s0)); inversion Ha; subst; exact H0.
  - (* only 'metadata' is trimmed *)
    intros m r s0 <- (r0 & Hg0 & Hr0) _. exists r0. split; [|exact Hr0].
    cbn [set_regs i_regs]. rewrite rget_rset_other by exact Hn. exact Hg0.
Qed.

Ltac init_stays := unfold stays, has_fixed; eexists; split; [vm_compute; reflexivity | repeat split; reflexivity].

Definition total {X} (F : fmt X) : Prop := forall st s, reach F st s -> exists b, f_match F s = Ok b.

Lemma stays_get {X} (F : fmt X) n (s : ist X) : stays F n s ->
  exists r, get_region n s = Ok r /\ rget n (i_regs s) = Some r /\ r_end r = false /\
            r_off r = rs_off (spec_of (f_id F) n) /\ r_len r = rs_len (spec_of (f_id F) n) /\ r_min r = rs_min (spec_of (f_id F) n).
Proof. intros (r & Hg & H). exists r. unfold get_region. rewrite Hg. tauto. Qed.

(* in every reachable state, a region that post_process and the callbacks leave alone can be read, with its initial geometry *)
Lemma reach_get {X} (F : fmt X) n st s : keeps F n -> stays F n (init_ist F) -> reach F st s ->
  exists r, get_region n s = Ok r /\ rget n (i_regs s) = Some r /\ r_end r = false /\
            r_off r = rs_off (spec_of (f_id F) n) /\ r_len r = rs_len (spec_of (f_id F) n) /\ r_min r = rs_min (spec_of (f_id F) n).
Proof. intros Hk Hi Hr. apply stays_get. exact (reach_stays F n st s Hk Hi Hr). Qed.

Lemma raw_total : total raw_fmt.
Proof. intros st s _. exists true. reflexivity. Qed.

Lemma qcow_total : total qcow_fmt.
Proof.
  intros st s Hr. destruct (reach_get qcow_fmt R_header st s (keeps_qcow _) ltac:(init_stays) Hr) as (r & Hg & _). cbn [f_match qcow_fmt]. unfold qcow_match. rewrite Hg. cbn [bind].
  destruct (negb (rcomplete r)); eauto.
Qed.

Lemma qed_total : total qed_fmt.
Proof.
  intros st s Hr. destruct (reach_get qed_fmt R_header st s (keeps_static qed_fmt R_header eq_refl eq_refl) ltac:(init_stays) Hr) as (r & Hg & _). cbn [f_match qed_fmt]. unfold qed_match. rewrite Hg. cbn [bind].
  destruct (negb (rcomplete r)); eauto.
Qed.

Lemma vhd_total : total vhd_fmt.
Proof.
  intros st s Hr. destruct (reach_get vhd_fmt R_header st s (keeps_static vhd_fmt R_header eq_refl eq_refl) ltac:(init_stays) Hr) as (r & Hg & _). cbn [f_match vhd_fmt]. unfold vhd_match. rewrite Hg. cbn [bind]. eauto.
Qed.

Lemma luks_total : total luks_fmt.
Proof.
  intros st s Hr. destruct (reach_get luks_fmt R_header st s (keeps_static luks_fmt R_header eq_refl eq_refl) ltac:(init_stays) Hr) as (r & Hg & _). cbn [f_match luks_fmt]. unfold luks_match. rewrite Hg. cbn [bind]. eauto.
Qed.

Lemma iso_total : total iso_fmt.
Proof.
  intros st s Hr. destruct (reach_get iso_fmt R_header st s (keeps_static iso_fmt R_header eq_refl eq_refl) ltac:(init_stays) Hr) as (r & Hg & _). cbn [f_match iso_fmt]. unfold iso_match.
  destruct (negb (Insp_Engine.complete s)); [eauto|]. rewrite Hg. cbn [bind]. eauto.
Qed.

(* the header of a VDI file is long enough for the signature field, which has the size of its struct format *)
Lemma vdi_consts : VDI_SIG_HI <= rs_len (spec_of F_vdi R_header) /\ sf_size sf_vdi_sig = VDI_SIG_HI - VDI_SIG_LO.
Proof. vm_compute. split; [discriminate | reflexivity]. Qed.

Lemma vdi_total : total vdi_fmt.
Proof.
  intros st s Hr. destruct (reach_get vdi_fmt R_header st s (keeps_static vdi_fmt R_header eq_refl eq_refl) ltac:(init_stays) Hr) as (r & Hg & _ & He & _ & Hl & Hm). cbn [f_match vdi_fmt]. unfold vdi_match. rewrite Hg. cbn [bind].
  destruct (rcomplete r) eqn:Hc; cbn [negb]; [|eauto].
  pose proof (rcomplete_fixed_len r He Hm Hc) as Hlen. destruct vdi_consts as [C1 C2]. cbn [f_id vdi_fmt] in Hl.
  rewrite unpack_nsub_ok; [cbn [bind]; eauto | exact C2 | rewrite Hlen, Hl; exact C1].
Qed.

(* the MBR region covers the two FAT bytes and the signature field *)
Lemma gpt_consts :
  GPT_FAT_NUM_IDX < rs_len (spec_of F_gpt R_mbr) /\ GPT_FAT_MEDIA_IDX < rs_len (spec_of F_gpt R_mbr) /\
  GPT_SIG_HI <= rs_len (spec_of F_gpt R_mbr) /\ sf_size sf_gpt_sig = GPT_SIG_HI - GPT_SIG_LO.
Proof. vm_compute. repeat split; try reflexivity; discriminate. Qed.

Lemma gpt_total : total gpt_fmt.
Proof.
  intros st s Hr. destruct (reach_get gpt_fmt R_mbr st s (keeps_static gpt_fmt R_mbr eq_refl eq_refl) ltac:(init_stays) Hr) as (r & Hg & _ & He & _ & Hl & Hm). cbn [f_match gpt_fmt]. unfold gpt_match, gpt_check_for_fat.
  rewrite Hg. cbn [bind].
  destruct (rcomplete r) eqn:Hc; cbn [negb]; [|eauto].
  pose proof (rcomplete_fixed_len r He Hm Hc) as Hlen. destruct gpt_consts as (C1 & C2 & C3 & C4). cbn [f_id gpt_fmt] in Hl.
  rewrite !bidx_ok by (rewrite Hlen, Hl; assumption). cbn [bind].
  rewrite unpack_nsub_ok; [cbn [bind]; eauto | exact C4 | rewrite Hlen, Hl; exact C3].
Qed.

Lemma vhdx_total : total vhdx_fmt.
Proof.
  intros st s Hr. destruct (reach_get vhdx_fmt R_ident st s (keeps_vhdx R_ident ltac:(discriminate)) ltac:(init_stays) Hr) as (r & Hg & _). cbn [f_match vhdx_fmt]. unfold vhdx_match. rewrite Hg. cbn [bind]. eauto.
Qed.

(* VMDK: format_match reads self.vmdktype when the header region is gone; _initialize sets it,
   so the attribute exists in every state: [v_vmdktype] is a total field *)
Lemma vmdk_total : total vmdk_fmt.
Proof.
  intros st s _. cbn [f_match vmdk_fmt]. unfold vmdk_match. destruct (rget R_header (i_regs s)); eauto.
Qed.

Theorem format_match_total st i : ireach st i -> exists b, format_match i = Ok b.
Proof.
  intros H. apply ireach_reach in H. destruct i as [f s|s|s]; cbn [ireach_spec format_match] in *.
  - destruct H as (H1 & H2 & H3). destruct f; try contradiction; cbn [ufmt] in *.
    + exact (raw_total _ _ H3). + exact (vhd_total _ _ H3). + exact (vhdx_total _ _ H3). + exact (vdi_total _ _ H3).
    + exact (qed_total _ _ H3). + exact (iso_total _ _ H3). + exact (gpt_total _ _ H3). + exact (luks_total _ _ H3).
  - exact (qcow_total _ _ H).
  - exact (vmdk_total _ _ H).
Qed.

Definition reachable (i : istate) : Prop := exists st, ireach st i.

Lemma reachable_init f : reachable (init f).
Proof. exists []. apply ireach_init. Qed.
Lemma reachable_eat i c i' e : reachable i -> eat i c = (i', e) -> reachable i'.
Proof. intros (st & H) He. exists (st ++ c). eapply ireach_eat; eauto. Qed.
Lemma reachable_finish i : reachable i -> reachable (finish i).
Proof. intros (st & H). exists st. apply ireach_finish. exact H. Qed.

Lemma cmatch_spec i : reachable i -> format_match i = Ok (cmatch i).
Proof. intros (st & H). destruct (format_match_total st i H) as (b & Hb). unfold cmatch. rewrite Hb. reflexivity. Qed.

Section SlotInv.
Variable P : istate -> Prop.
Hypothesis Peat : forall i c i' e, P i -> eat i c = (i', e) -> P i'.
Hypothesis Pfinish : forall i, P i -> P (finish i).

Definition slots_ok (ss : list cslot) : Prop := Forall (fun s => P (s_insp s)) ss.

Lemma pc_std_slots expected chunk idx ss ss' tr r :
  pc_std istate eat complete cmatch expected idx ss chunk = (ss', tr, r) -> slots_ok ss -> slots_ok ss'.
Proof.
  intros H Hs. refine (Forall2_Forall_l _ _ _ _ _ _ Hs (pc_std_mono istate eat complete cmatch _ _ _ _ _ _ _ H)).
  intros a b Pa [_ [->|(_ & oe & He)]]; [exact Pa | exact (Peat _ _ _ _ Pa He)].
Qed.

Lemma w_step_slots w inp w' tr o : slots_ok (w_slots w) -> cw_step w inp = (w', tr, o) -> slots_ok (w_slots w').
Proof.
  assert (Hfin : slots_ok (w_slots w) -> slots_ok (w_slots (finish_all istate finish w))).
  { intros Hs. cbn [finish_all w_slots]. unfold slots_ok in *. rewrite Forall_map.
    eapply Forall_impl; [|exact Hs]. intros s Hs0. apply Pfinish. exact Hs0. }
  intros Hs. unfold cw_step. destruct inp; cbn [w_step]; [|intros [= <- _ _]; auto..].
  rewrite (process_chunk_std _ _ _ _ _ gen_shape_ok).
  destruct (pc_std _ _ _ _ _ _ _ _) as [[ss t] r] eqn:Hp. intros [= <- _ _]. apply (pc_std_slots _ _ _ _ _ _ _ Hp Hs).
Qed.

Lemma w_run_slots : forall inps w w' recs, slots_ok (w_slots w) -> cw_run w inps = (w', recs) -> slots_ok (w_slots w').
Proof.
  intros inps w w' recs Hs H. revert w inps w' recs H Hs. unfold cw_run.
  apply (w_run_session_ind istate eat finish complete cmatch gen_shape (fun w _ w' _ => slots_ok (w_slots w) -> slots_ok (w_slots w'))); [auto|].
  intros w inp rest w1 tr1 o w2 recs Hst _ IH Hs. apply IH. apply (w_step_slots _ _ _ _ _ Hs Hst).
Qed.
End SlotInv.

Lemma new_slots_ok (P : istate -> Prop) expected allowed :
  (forall f, P (init f)) -> slots_ok P (w_slots (cw_new expected allowed)).
Proof.
  intros HP. unfold cw_new, mk_wrapper, mk_slots, slots_ok. cbn [w_slots]. rewrite Forall_map.
  apply Forall_forall. intros p Hp. apply filter_In in Hp. destruct Hp as [Hp _]. unfold factory in Hp.
  apply in_map_iff in Hp. destruct Hp as (f & <- & _). cbn [s_insp snd]. apply HP.
Qed.

(* everything a reader can make of a fresh wrapper holds reachable inspector objects only *)
Theorem wreach_reachable expected allowed w : wreach expected allowed w -> slots_ok reachable (w_slots w).
Proof.
  intros (inps & recs & H). eapply (w_run_slots reachable); [exact reachable_eat | exact reachable_finish | | exact H].
  apply new_slots_ok. exact reachable_init.
Qed.

(* ------------------------------------------------------------------ the raising properties coincide with the boolean ones *)
Lemma matches_r_ok ss : slots_ok reachable ss -> matches_r ss = Ok (filter (fun s => cmatch (s_insp s)) ss).
Proof.
  induction 1 as [|s t Hs Ht IH]; [reflexivity|]. cbn [matches_r filter].
  rewrite (cmatch_spec _ Hs). cbn [bind]. rewrite IH. cbn [bind]. reflexivity.
Qed.

Lemma slots_ok_filter P f ss : slots_ok P ss -> slots_ok P (filter f ss).
Proof. unfold slots_ok. intros H. apply Forall_forall. intros x Hx. apply filter_In in Hx. rewrite Forall_forall in H. apply H. tauto. Qed.

Theorem formats_r_spec w : slots_ok reachable (w_slots w) -> formats_r w = Ok (cw_formats w).
Proof.
  intros H. unfold formats_r, cw_formats, formats, matches, cw_non_raw, cw_is_raw.
  rewrite matches_r_ok by (apply slots_ok_filter; exact H). cbn [bind].
  destruct (negb (all_complete istate complete raw_lit_nonraw w) && negb (w_finished w)); [reflexivity|].
  destruct (filter (fun s : slot istate => cmatch (s_insp s)) (non_raw istate raw_lit_nonraw w)); reflexivity.
Qed.

Theorem format_r_spec w : slots_ok reachable (w_slots w) -> format_r w = cw_format w.
Proof.
  intros H. unfold format_r, cw_format, format. rewrite (formats_r_spec w H). cbn [bind]. fold (cw_formats w).
  destruct (cw_formats w) as [ms|]; reflexivity.
Qed.
