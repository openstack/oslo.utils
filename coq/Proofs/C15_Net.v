(* Proofs/C15_Net.v — IPNetwork(text) with value / prefix length / first: agreement with C11's
   acceptance model (hence its declarative iff), bounds, and `first` = host bits cleared. *)
Require Import OV.Base.Bytes OV.Base.Py OV.Base.PyInt OV.Base.Str OV.Base.C11_Lib.
Require Import OV.Gen.C11_Netutils OV.Model.C11 OV.Model.C11_Spec.
Require Import OV.Proofs.C11_V4 OV.Proofs.C11 OV.Proofs.C11_Net.
Require Import OV.Gen.C15_Netutils OV.Model.C15 OV.Model.C15_Text OV.Proofs.C15_Eui.
Open Scope N_scope.

(* ------------------------------------------------------------------ agreement with C11.parse_ip_network *)

Definition nres_outcome (r : nres) : ares := match r with NNet _ _ => AOk true | NRaise e => ARaise e end.
Definition netres_outcome (r : netres) : ares := match r with Net _ _ _ => AOk true | NetRaise e => ARaise e end.

Lemma mask_prefix_some v6 m :
  (exists k, mask_prefix v6 m = Some k) <-> is_netmask v6 m || is_hostmask m = true.
Proof.
  unfold mask_prefix. destruct (is_netmask v6 m); cbn [orb].
  - split; [reflexivity|eexists; reflexivity].
  - destruct (is_hostmask m); split; intros H; try reflexivity; try (eexists; reflexivity).
    + destruct H; discriminate.
    + discriminate.
Qed.

Lemma parse_v_outcome v6 s : nres_outcome (parse_ip_network_v v6 s) = parse_ip_network v6 s.
Proof.
  unfold parse_ip_network_v, parse_ip_network. destruct (split_first 47 s) as [a o].
  destruct (ipaddress_of v6 a) as [value|e]; [|reflexivity].
  destruct o as [p|]; [|reflexivity].
  destruct (py_int_str p) as [z|].
  - destruct ((0 <=? z)%Z && (z <=? Z.of_N (ip_width v6))%Z); reflexivity.
  - destruct (ipaddress_of v6 p) as [m|e]; [|reflexivity].
    unfold mask_prefix. destruct (is_netmask v6 m); [reflexivity|]. destruct (is_hostmask m); reflexivity.
Qed.

Lemma ipnetwork_v_outcome s : netres_outcome (ipnetwork_v s) = ipnetwork s.
Proof.
  unfold ipnetwork_v, ipnetwork. rewrite <- !parse_v_outcome.
  destruct (parse_ip_network_v false s) as [v k|[| | | |]]; try reflexivity.
  cbn [nres_outcome]. destruct (parse_ip_network_v true s); reflexivity.
Qed.

(* it raises AddrFormatError or ValueError, nothing else *)
Lemma ipnetwork_v_raises s e : ipnetwork_v s = NetRaise e -> e = AAddrFormatError \/ e = AValueError.
Proof.
  intros H. pose proof (ipnetwork_v_outcome s) as O. rewrite H in O. cbn [netres_outcome] in O.
  unfold ipnetwork in O.
  destruct (parse_ip_network_outcomes false s) as [E|[E|E]]; rewrite E in O.
  - discriminate.
  - destruct (parse_ip_network_outcomes true s) as [E'|[E'|E']]; rewrite E' in O; inversion O; auto.
  - inversion O; auto.
Qed.

(* ------------------------------------------------------------------ an IPv6 network text *)

Lemma v6_result_parse s value plen :
  ipnetwork_v s = Net true value plen -> parse_ip_network_v true s = NNet value plen.
Proof.
  unfold ipnetwork_v. destruct (parse_ip_network_v false s) as [v k|[| | | |]]; try discriminate.
  destruct (parse_ip_network_v true s); [intros H; inversion H; reflexivity|discriminate].
Qed.

Lemma v6_result_text s value plen : ipnetwork_v s = Net true value plen -> network_text true s.
Proof.
  intros H. apply v6_result_parse in H. apply parse_ip_network_iff. rewrite <- parse_v_outcome, H. reflexivity.
Qed.

Lemma v6_result_has_colon s value plen : ipnetwork_v s = Net true value plen -> In 58 s.
Proof.
  intros H. apply v6_result_text in H. destruct H as [a [T E]]. cbn [addr_text] in T.
  pose proof (ipv6_text_has_colon a T) as Hc.
  destruct E as [->|[p [-> _]]]; [exact Hc|]. apply in_or_app. left. exact Hc.
Qed.

Lemma parse_v_bounds v6 s value plen :
  parse_ip_network_v v6 s = NNet value plen -> value < 2 ^ ip_width v6 /\ plen <= ip_width v6.
Proof.
  unfold parse_ip_network_v. destruct (split_first 47 s) as [a o].
  destruct (ipaddress_of v6 a) as [v|e] eqn:EA; [|discriminate].
  assert (B : v < 2 ^ ip_width v6) by (apply ipaddress_of_iff in EA; eapply addr_value_bound; exact EA).
  destruct o as [p|]; [|intros H; inversion H; subst; split; [exact B|lia]].
  destruct (py_int_str p) as [z|].
  - destruct ((0 <=? z)%Z && (z <=? Z.of_N (ip_width v6))%Z) eqn:R; [|discriminate].
    intros H. inversion H; subst. split; [exact B|lia].
  - destruct (ipaddress_of v6 p) as [m|e]; [|discriminate].
    unfold mask_prefix. destruct (is_netmask v6 m); [intros H; inversion H; subst; split; [exact B|lia]|].
    destruct (is_hostmask m); [intros H; inversion H; subst; split; [exact B|lia]|discriminate].
Qed.

Lemma v6_result_bounds s value plen : ipnetwork_v s = Net true value plen -> value < 2 ^ 128 /\ plen <= 128.
Proof. intros H. apply v6_result_parse in H. exact (parse_v_bounds true s value plen H). Qed.

(* a text with a ':' is no IPv4 address for is_valid_ipv4, strictly or loosely *)
Lemma colon_not_ipv4 strict s : In 58 s -> valid_ipv4 strict s = AOk false.
Proof.
  intros H. apply existsb_eqb_In in H. unfold valid_ipv4, is_valid_ipv4.
  destruct s as [|c t]; [reflexivity|].
  unfold netaddr_valid_ipv4_pton, netaddr_valid_ipv4_aton. rewrite H.
  destruct strict; reflexivity.
Qed.

(* the forms the property's quantifier names: address, address/decimal prefix length *)
Theorem ipnetwork_v_plain a value : ipv6_value a value -> ipnetwork_v a = Net true value 128.
Proof.
  intros V. assert (T : ipv6_text a) by (apply (addr_value_text true); exists value; exact V).
  assert (P4 : parse_ip_network false a = ARaise AAddrFormatError).
  { apply parse4_on_v6. exists a. split; [exact T|left; reflexivity]. }
  unfold ipnetwork_v. rewrite <- parse_v_outcome in P4.
  destruct (parse_ip_network_v false a) as [v k|e]; [discriminate|]. cbn [nres_outcome] in P4. inversion P4; subst.
  unfold parse_ip_network_v. rewrite (split_first_none 47 a (addr_text_no_slash true a T)).
  apply (ipaddress_of_iff true) in V. rewrite V. reflexivity.
Qed.

Theorem ipnetwork_v_decimal a value n : ipv6_value a value -> n <= 128 ->
  ipnetwork_v (a ++ 47 :: dec_of_N n) = Net true value n.
Proof.
  intros V Hn. assert (T : ipv6_text a) by (apply (addr_value_text true); exists value; exact V).
  pose proof (py_int_str_dec_N n) as PI.
  assert (P4 : parse_ip_network false (a ++ 47 :: dec_of_N n) = ARaise AAddrFormatError).
  { apply parse4_on_v6. exists a. split; [exact T|right]. exists (dec_of_N n). split; [reflexivity|].
    apply prefix_text_dec. exact Hn. }
  unfold ipnetwork_v. rewrite <- parse_v_outcome in P4.
  destruct (parse_ip_network_v false (a ++ 47 :: dec_of_N n)) as [v k|e]; [discriminate|].
  cbn [nres_outcome] in P4. inversion P4; subst.
  unfold parse_ip_network_v. rewrite (split_first_some 47 a _ (addr_text_no_slash true a T)).
  apply (ipaddress_of_iff true) in V. rewrite V, PI. cbn [ip_width].
  replace ((0 <=? Z.of_N n)%Z && (Z.of_N n <=? Z.of_N 128)%Z) with true by lia.
  rewrite N2Z.id. reflexivity.
Qed.

(* ------------------------------------------------------------------ first = host bits cleared *)

Lemma lxor_masks w h : 0 < w -> h <= w -> N.lxor (2 ^ w - 1) (2 ^ h - 1) = 2 ^ w - 2 ^ h.
Proof.
  intros Hw Hh. rewrite N.lxor_comm.
  assert (P : 2 ^ h <= 2 ^ w) by (apply N.pow_le_mono_r; lia).
  assert (P0 : 0 < 2 ^ h) by (apply N.neq_0_lt_0, N.pow_nonzero; lia).
  rewrite lxor_ones by lia. lia.
Qed.

Lemma net_first_Z value plen : value < 2 ^ 128 -> plen <= 128 ->
  let h := (128 - Z.of_N plen)%Z in
  Z.of_N (net_first true value plen) = (Z.of_N value / 2 ^ h * 2 ^ h)%Z.
Proof.
  intros Hv Hp h. unfold net_first. cbn [ip_width].
  rewrite lxor_masks by lia.
  rewrite N2Z_inj_land.
  assert (Hh : (0 <= h <= 128)%Z) by (subst h; lia).
  assert (E : Z.of_N (2 ^ 128 - 2 ^ (128 - plen)) = Z.shiftl (Z.ones (128 - h)) h).
  { rewrite Z.shiftl_mul_pow2, Z.ones_equiv by lia.
    assert (P : 2 ^ (128 - plen) <= 2 ^ 128) by (apply N.pow_le_mono_r; lia).
    rewrite N2Z.inj_sub by exact P. rewrite !N2Z.inj_pow. rewrite N2Z.inj_sub by lia.
    fold h. change (Z.of_N 2) with 2%Z. change (Z.of_N 128) with 128%Z.
    rewrite Z.mul_pred_l, <- Z.pow_add_r by lia. replace (128 - h + h)%Z with 128%Z by lia. reflexivity. }
  rewrite E, land_shifted_ones by lia.
  f_equal. apply Z.mod_small. split; [apply Z.div_pos; [lia|apply Z.pow_pos_nonneg; lia]|].
  apply Z.div_lt_upper_bound; [apply Z.pow_pos_nonneg; lia|].
  rewrite <- Z.pow_add_r by lia. replace (h + (128 - h))%Z with 128%Z by lia.
  change (2 ^ 128)%Z with (Z.of_N (2 ^ 128)). lia.
Qed.

(* a prefix length of at most 64 leaves the low 64 bits of the network address clear *)
Lemma net_first_low_clear value plen : value < 2 ^ 128 -> plen <= 64 ->
  (0 <= Z.of_N (net_first true value plen) < 2 ^ 128)%Z /\ (Z.of_N (net_first true value plen) mod 2 ^ 64 = 0)%Z.
Proof.
  intros Hv Hp. split.
  - split; [lia|]. rewrite net_first_Z by lia. cbv zeta.
    set (h := (128 - Z.of_N plen)%Z). assert (Hh : (0 <= h)%Z) by (subst h; lia).
    assert (P : (0 < 2 ^ h)%Z) by (apply Z.pow_pos_nonneg; lia).
    pose proof (Z.mul_div_le (Z.of_N value) (2 ^ h) P) as L.
    change (2 ^ 128)%Z with (Z.of_N (2 ^ 128)). lia.
  - rewrite net_first_Z by lia. cbv zeta.
    set (h := (128 - Z.of_N plen)%Z). assert (Hh : (64 <= h <= 128)%Z) by (subst h; lia).
    replace (2 ^ h)%Z with (2 ^ (h - 64) * 2 ^ 64)%Z at 2
      by (rewrite <- Z.pow_add_r by lia; f_equal; lia).
    rewrite Z.mul_assoc. apply Z.mod_mul. lia.
Qed.
