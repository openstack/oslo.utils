(* Proofs/C13_Float.v — binary64 satisfies the two layers of premises of Proofs/C13_Order.v:
   [comp_facts] by case analysis on SpecFloat's comparison (no hypothesis, NaN = not comparable);
   [clock_facts] for valid finite readings whose differences do not overflow, through Flocq's
   Bminus_correct / Bleb_correct (rounding is monotone).  The second part uses the classical-reals axioms of
   the standard library that Flocq's real-number specifications rest on. *)
From Coq Require Import String.
From Coq Require Import ZArith Bool List Lia Reals Lra SpecFloat Sorting.Sorted.
From Flocq Require Import Core.Core IEEE754.BinarySingleNaN.
Require Import OV.Base.Bytes OV.Base.Py OV.Base.PyFloat OV.Base.C13_Types.
Require Import OV.Model.C13 OV.Model.C13_Order OV.Model.C13_Float.
Import ListNotations.
Open Scope Z_scope.

Lemma SFcompare_refl x : f_is_nan x = false -> SFcompare x x = Some Eq.
Proof.
  destruct x as [s|s| |s m e]; cbn; intro H; try discriminate H; try (destruct s; reflexivity).
  destruct s; rewrite Z.compare_refl, Pos.compare_cont_refl; reflexivity.
Qed.

Lemma SFcompare_antisym x y : SFcompare y x = option_map CompOpp (SFcompare x y).
Proof.
  destruct x as [sx|sx| |sx mx ex], y as [sy|sy| |sy my ey]; cbn; try reflexivity;
    try (destruct sx; reflexivity); try (destruct sy; reflexivity); try (destruct sx, sy; reflexivity).
  destruct sx, sy; cbn; try reflexivity; rewrite (Z.compare_antisym ex ey);
    destruct (ex ?= ey); cbn; try reflexivity;
    change (Pos.compare_cont Eq my mx) with (Pos.compare my mx); change (Pos.compare_cont Eq mx my) with (Pos.compare mx my);
    rewrite (Pos.compare_antisym mx my); destruct (mx ?= my)%positive; reflexivity.
Qed.

Lemma float_comp_facts : comp_facts Fnum f_leb f_ok.
Proof.
  constructor; unfold f_ok; cbn [n_zero n_gtb Fnum]; unfold f_gtb, f_leb, SFltb, SFleb.
  - reflexivity.
  - intros x y H. destruct x as [sx|sx| |sx mx ex], y as [sy|sy| |sy my ey]; cbn in *; try discriminate H; auto.
  - intros a H. rewrite (SFcompare_refl a H). reflexivity.
  - intros a b Ha Hb H. rewrite (SFcompare_antisym b a).
    destruct a as [sx|sx| |sx mx ex], b as [sy|sy| |sy my ey]; cbn in Ha, Hb; try discriminate;
      destruct (SFcompare _ _) as [[| |]|] eqn:E; cbn in *; try reflexivity; try discriminate H; try discriminate E.
  - intros a b H. rewrite (SFcompare_antisym b a). destruct (SFcompare b a) as [[| |]|]; cbn; try discriminate H; reflexivity.
  - intros a b H. destruct (SFcompare b a) as [[| |]|]; try discriminate H; reflexivity.
  - intros x y Hx Hxy.
    destruct x as [sx|sx| |sx mx ex]; cbn in Hx; try discriminate Hx; try (destruct sx; discriminate Hx);
    destruct sx; try discriminate Hx;
    destruct y as [sy|sy| |sy my ey]; cbn in Hxy |- *; try discriminate Hxy; try (destruct sy; try discriminate Hxy; reflexivity).
Qed.

(* ---------------------------------------------------------------- SpecFloat operations = Flocq's, on valid floats *)

Definition prec := 53.
Definition emax := 1024.
Lemma Hprec : Prec_gt_0 prec. Proof. reflexivity. Qed.
Lemma Hmax : Prec_lt_emax prec emax. Proof. reflexivity. Qed.
Local Existing Instance Hprec.
Local Existing Instance Hmax.
Notation bf := (binary_float prec emax).

Lemma round_nearest_even_equiv s m l :
  SpecFloat.round_nearest_even m l = choice_mode mode_NE s m l.
Proof.
case l; [reflexivity|intro c].
case c; [ | reflexivity..].
now simpl; unfold Round.cond_incr; case Z.even.
Qed.

Lemma binary_round_aux_equiv sx mx ex lx :
  SpecFloat.binary_round_aux prec emax sx mx ex lx
  = BinarySingleNaN.binary_round_aux prec emax mode_NE sx mx ex lx.
Proof.
unfold SpecFloat.binary_round_aux, binary_round_aux.
set (mrse' := shr_fexp _ _ _).
case mrse'; intros mrs' e'; simpl.
now rewrite (round_nearest_even_equiv sx).
Qed.

Lemma binary_round_equiv s m e :
  SpecFloat.binary_round prec emax s m e =
  BinarySingleNaN.binary_round prec emax mode_NE s m e.
Proof.
unfold SpecFloat.binary_round, binary_round, shl_align_fexp.
set (mez := shl_align _ _ _); case mez as [mz ez].
apply binary_round_aux_equiv.
Qed.

Lemma binary_normalize_equiv m e szero :
  SpecFloat.binary_normalize prec emax m e szero
  = B2SF (BinarySingleNaN.binary_normalize prec emax Hprec Hmax mode_NE m e szero).
Proof.
case m as [ | p | p].
- now simpl.
- simpl; rewrite B2SF_SF2B; apply binary_round_equiv.
- simpl; rewrite B2SF_SF2B; apply binary_round_equiv.
Qed.

Lemma SFsub_Bminus (x y : bf) :
  SFsub prec emax (B2SF x) (B2SF y) = B2SF (Bminus mode_NE x y).
Proof.
case x as [sx|sx| |sx mx ex Bx]; case y as [sy|sy| |sy my ey By];
  [now (trivial || simpl; case Bool.eqb).. | ].
simpl. unfold Zminus. rewrite <- cond_Zopp_negb.
apply binary_normalize_equiv.
Qed.

Lemma Bleb_le (a b : bf) : is_finite a = true -> is_finite b = true -> (Bleb a b = true <-> (B2R a <= B2R b)%R).
Proof.
  intros Fa Fb. rewrite Bleb_correct by assumption. split.
  - case Rle_bool_spec; [auto|discriminate].
  - apply Rle_bool_true.
Qed.

Lemma Bminus_finite_round (a s : bf) :
  is_finite a = true -> is_finite s = true -> is_finite (Bminus mode_NE a s) = true ->
  B2R (Bminus mode_NE a s) = round radix2 (fexp prec emax) (round_mode mode_NE) (B2R a - B2R s).
Proof.
  intros Fa Fs Fas.
  generalize (Bminus_correct prec emax Hprec Hmax mode_NE a s Fa Fs).
  case Rlt_bool_spec; intro H1; [intros [H _]; exact H|].
  intros [H _]. assert (HF : is_finite_SF (B2SF (Bminus mode_NE a s)) = true) by (rewrite is_finite_SF_B2SF; exact Fas).
  rewrite H in HF. discriminate HF.
Qed.

Lemma B_sub_mono (a b s : bf) :
  is_finite a = true -> is_finite b = true -> is_finite s = true ->
  is_finite (Bminus mode_NE a s) = true -> is_finite (Bminus mode_NE b s) = true ->
  Bleb a b = true -> Bleb (Bminus mode_NE a s) (Bminus mode_NE b s) = true.
Proof.
  intros Fa Fb Fs Fas Fbs Hab. apply Bleb_le in Hab; try assumption. apply Bleb_le; try assumption.
  rewrite !Bminus_finite_round by assumption.
  apply round_le; [apply fexp_correct; apply Hprec | apply valid_rnd_N | lra].
Qed.

Lemma B_sub_nonneg (a b : bf) :
  is_finite a = true -> is_finite b = true -> is_finite (Bminus mode_NE b a) = true ->
  Bleb a b = true -> Bleb (B754_zero false) (Bminus mode_NE b a) = true.
Proof.
  intros Fa Fb Fba Hab. apply Bleb_le in Hab; try assumption. apply Bleb_le; try assumption; [reflexivity|].
  rewrite Bminus_finite_round by assumption. cbn [B2R].
  rewrite <- (round_0 radix2 (fexp prec emax) (round_mode mode_NE)).
  apply round_le; [apply fexp_correct; apply Hprec | apply valid_rnd_N | lra].
Qed.

Lemma B_le_trans (a b c : bf) :
  is_finite a = true -> is_finite b = true -> is_finite c = true ->
  Bleb a b = true -> Bleb b c = true -> Bleb a c = true.
Proof.
  intros Fa Fb Fc H1 H2. apply Bleb_le in H1, H2; try assumption. apply Bleb_le; try assumption. lra.
Qed.

Lemma finite_SF (x : float64) : f_is_finite x = is_finite_SF x.
Proof. destruct x; reflexivity. Qed.

Definition toB (x : float64) (H : f_valid x = true) : bf := SF2B x H.

Lemma toB_B2SF x H : B2SF (toB x H) = x.
Proof. apply B2SF_SF2B. Qed.

Lemma toB_finite x H : is_finite (toB x H) = f_is_finite x.
Proof. unfold toB. rewrite is_finite_SF2B. symmetry. apply finite_SF. Qed.

Lemma f_sub_toB a s Ha Hs : f_sub a s = B2SF (Bminus mode_NE (toB a Ha) (toB s Hs)).
Proof. rewrite <- SFsub_Bminus, !toB_B2SF. reflexivity. Qed.

Lemma f_leb_toB a b Ha Hb : f_leb a b = Bleb (toB a Ha) (toB b Hb).
Proof. unfold Bleb. rewrite !toB_B2SF. reflexivity. Qed.

Lemma float_clock_facts : clock_facts Fnum f_leb f_okc f_sub_ok.
Proof.
  constructor; unfold f_okc, f_sub_ok; cbn [n_zero n_sub Fnum].
  - intros a [_ Fa]. apply (cf_le_refl _ _ _ float_comp_facts). unfold f_ok. destruct a; cbn in *; congruence.
  - intros a b c [Va Fa] [Vb Fb] [Vc Fc] H1 H2.
    rewrite (f_leb_toB a b Va Vb) in H1. rewrite (f_leb_toB b c Vb Vc) in H2. rewrite (f_leb_toB a c Va Vc).
    eapply B_le_trans; try eassumption; rewrite toB_finite; assumption.
  - intros a b s [Va Fa] [Vb Fb] [Vs Fs] Fas Fbs Hab.
    rewrite (f_sub_toB a s Va Vs) in *. rewrite (f_sub_toB b s Vb Vs) in *.
    rewrite (f_leb_toB a b Va Vb) in Hab. unfold f_leb. change (SFleb ?x ?y) with (SFleb x y).
    rewrite finite_SF, is_finite_SF_B2SF in Fas, Fbs.
    apply (B_sub_mono (toB a Va) (toB b Vb) (toB s Vs)); try assumption; rewrite toB_finite; assumption.
  - intros a b [Va Fa] [Vb Fb] Fba Hab.
    rewrite (f_sub_toB b a Vb Va) in *. rewrite (f_leb_toB a b Va Vb) in Hab.
    rewrite finite_SF, is_finite_SF_B2SF in Fba.
    change f_zero with (B2SF (B754_zero false : bf)). unfold f_leb.
    apply (B_sub_nonneg (toB a Va) (toB b Vb)); try assumption; rewrite toB_finite; assumption.
Qed.

Lemma f_clock_okb_spec clk n : f_clock_okb clk n = true -> clock_ok f_okc f_sub_ok clk n.
Proof.
  unfold f_clock_okb. rewrite andb_true_iff, !forallb_forall. intros [H1 H2]. split.
  - intros i Hi. specialize (H1 i). rewrite andb_true_iff in H1. apply H1, in_seq. lia.
  - intros i j Hij. specialize (H2 j). rewrite forallb_forall in H2. apply H2; apply in_seq; lia.
Qed.

(* the clock 0.1, 0.2, 0.30000000000000004, 0.4, ... : (n+1) * 0.1 rounded (non-dyadic readings) *)
Definition f_tenth : float64 := f_normalize 3602879701896397 (-55).
Definition exf_clk (n : nat) : float64 := f_mul (f_normalize (Z.of_nat (S n)) 0) f_tenth.
Definition exf_watch : watch float64 := mkWatch SNone None None [] (Some (f_normalize 1 (-2))).   (* duration 0.25 *)

Example exf_running :
  let c := final Fnum exf_clk [OStart; OSplit; OSplit] exf_watch 0 in
  reachable Fnum exf_clk c /\ w_state (fst c) = SStarted /\
  f_clock_okb exf_clk 5 = true /\ monotone_uptob f_leb exf_clk 5 = true /\
  map float_hex (map sp_elapsed (w_splits (fst c))) = [lit "0x1.999999999999ap-4"; lit "0x1.999999999999bp-3"] /\
  (* 0.4 - 0.1 in binary64 is 0.30000000000000004, not 0.3: "the clock distance" is the IEEE difference *)
  option_map float_hex (match snd (elapsed Fnum exf_clk (fst c) 3 None) with Ok e => Some e | _ => None end)
    = Some (lit "0x1.3333333333334p-2") /\
  snd (expired Fnum exf_clk (fst c) 3) = Ok true.
Proof.
  split; [exists (Some (f_normalize 1 (-2))), exf_watch, [OStart; OSplit; OSplit]; split; reflexivity|].
  vm_compute. repeat split.
Qed.
