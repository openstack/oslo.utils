(* Proofs/C01_Vmdk_Step.v — what one eat_chunk does to a VMDKInspector, phase by phase:
   phase 0: fewer than 64 bytes seen (header incomplete);
   the chunk that completes the header (post_process decides: ImageFormatError, or relocate the descriptor; the
   text-descriptor mode of a header that is printable and not KDMV is excluded by hypothesis);
   phase 1: valid sparse header, descriptor region at 512, optional footer region. *)
Require Import OV.Base.Bytes OV.Base.Py OV.Base.PyInt OV.Base.Str OV.Base.Insp_Struct OV.Gen.Insp_Consts.
Require Import OV.Model.Insp_Engine OV.Model.Insp_Vmdk OV.Model.Insp_All OV.Model.C01_Vmdk.
Require Import OV.Proofs.Insp_Engine OV.Proofs.Insp_Static OV.Proofs.C01_Vmdk_Base.
Open Scope N_scope.

Definition x0 : vx := mkVx None VMDK_NOTFOUND.
(* no createType has been found (yet): desc_text may or may not be set *)
Definition early (x : vx) : Prop := v_vmdktype x = VMDK_NOTFOUND.
(* _parse_descriptor on descriptor data d *)
Definition parse_ext (d : bytes) (x : vx) : vx :=
  match parse_desc d with Some (t, ty) => mkVx (Some t) ty | None => x end.

Lemma parse_descriptor_eq (s : ist vx) r :
  rget R_descriptor (i_regs s) = Some r ->
  vmdk_parse_descriptor s = (set_ext s (parse_ext (r_data r) (i_ext s)), None).
Proof.
  intros H. unfold vmdk_parse_descriptor, get_region, parse_ext, parse_desc, upto_nul. rewrite H.
  destruct (forallb is_ascii _); cbn [negb]; [reflexivity | rewrite ist_eta; reflexivity].
Qed.

Lemma parse_ext_early d x : noct d -> early x -> early (parse_ext d x).
Proof.
  intros Hn Hx. unfold parse_ext, parse_desc. destruct (forallb is_ascii (upto_nul d)); [|exact Hx].
  unfold early. cbn [v_vmdktype]. apply noct_type. exact Hn.
Qed.

(* ---------------------------------------------------------------- capture at offset 0 *)
Lemma cap_fixed_prefix id len mn st c :
  cap_fixed (mkRegion id false 0 len mn st false) c (blen st + flen c)
  = mkRegion id false 0 len mn (btake len (st ++ c)) false.
Proof.
  unfold cap_fixed. cbn [r_off r_data r_len]. rewrite !flen_blen.
  replace (blen st + blen c - blen c) with (blen st) by lia. rewrite N.add_0_l.
  replace ((blen st <=? blen st) && (blen st <=? blen st + blen c)) with true by lia.
  unfold set_data. cbn [r_id r_end r_off r_len r_min r_fin r_data].
  rewrite ntake_btake, nskip_bskip. replace (blen st - blen st) with 0 by lia. rewrite bskip_0. reflexivity.
Qed.

(* ---------------------------------------------------------------- phase 0: header incomplete *)
(* the literals are those of [init_regions F_vmdk] (tied by init_S0 below): header CaptureRegion(0, 512, min_length=64),
   64 = VMDK_MIN_SPARSE_HEADER; descriptor CaptureRegion(0, 1048575, min_length=4), 1048575 = VMDK_DESC_MAX_SIZE *)
Definition hreg (d : bytes) : region := mkRegion 0 false 0 512 (Some 64) d false.
Definition d0reg (d : bytes) : region := mkRegion 1 false 0 1048575 (Some 4) d false.
Definition S0 (st d : bytes) (x : vx) : ist vx :=
  mkIst (blen st) [(R_header, hreg st); (R_descriptor, d0reg d)] 2 false [K_descriptor] x.

Lemma init_S0 : init_ist vmdk_fmt = S0 [] [] x0.
Proof. reflexivity. Qed.

(* the offset-0 descriptor region (min_length 4) stops growing once it holds 4 bytes *)
Definition d0_next (st d c : bytes) : bytes := if 4 <=? blen d then d else btake 1048575 (st ++ c).

Lemma rcomplete_hreg d : rcomplete (hreg d) = (64 <=? blen d).
Proof. unfold rcomplete, base_complete, hreg. cbn [r_end r_min r_data]. rewrite flen_blen. reflexivity. Qed.
Lemma rcomplete_d0reg d : rcomplete (d0reg d) = (4 <=? blen d).
Proof. unfold rcomplete, base_complete, d0reg. cbn [r_end r_min r_data]. rewrite flen_blen. reflexivity. Qed.

Lemma capture0 st d c : blen st < 64 -> (blen d < 4 -> d = st) ->
  capture_regs [] c (blen st + flen c) [(R_header, hreg st); (R_descriptor, d0reg d)]
  = [(R_header, hreg (btake 512 (st ++ c))); (R_descriptor, d0reg (d0_next st d c))].
Proof.
  intros Hst Hd. unfold capture_regs. cbn [map].
  rewrite rcomplete_hreg, rcomplete_d0reg.
  replace (64 <=? blen st) with false by lia.
  change (r_end (hreg st)) with false. change (r_end (d0reg d)) with false. cbn [orb negb].
  unfold rcapture. change (r_end (hreg st)) with false. change (r_end (d0reg d)) with false. cbn iota.
  unfold hreg at 1. rewrite cap_fixed_prefix. fold (hreg (btake 512 (st ++ c))).
  unfold d0_next. destruct (4 <=? blen d) eqn:H4; cbn [negb]; [reflexivity|].
  rewrite (Hd ltac:(lia)). unfold d0reg at 1. rewrite cap_fixed_prefix. reflexivity.
Qed.

(* the callback of the offset-0 descriptor region when it becomes complete *)
Definition x_next (d d' : bytes) (x : vx) : vx :=
  if negb (4 <=? blen d) && (4 <=? blen d') then parse_ext d' x else x.

Lemma post_incomplete (s : ist vx) h :
  rget R_header (i_regs s) = Some h -> rcomplete h = false -> vmdk_post s = (s, None).
Proof. intros Hg Hc. unfold vmdk_post. rewrite Hg, Hc. reflexivity. Qed.

Lemma step0 st d x c :
  blen st < 64 -> (blen d < 4 -> d = st) -> blen st + blen c < 64 ->
  eat_chunk vmdk_fmt (S0 st d x) c = (S0 (st ++ c) (d0_next st d c) (x_next d (d0_next st d c) x), None).
Proof.
  intros Hst Hd Hc. rewrite eat_chunk_unfold by reflexivity. cbv zeta. unfold S0. cbn [i_pos i_regs i_next i_checks i_ext].
  rewrite (capture0 st d c Hst Hd), flen_blen, <- blen_app.
  replace (btake 512 (st ++ c)) with (st ++ c) by (symmetry; apply btake_all; rewrite blen_app; lia).
  cbn [f_post vmdk_fmt].
  rewrite (post_incomplete _ (hreg (st ++ c))); [|reflexivity|rewrite rcomplete_hreg, blen_app; lia].
  rewrite settle_done by reflexivity.
  unfold newly_complete, complete_ids. cbn [i_regs filter snd fst ids map].
  rewrite !rcomplete_hreg, !rcomplete_d0reg.
  replace (64 <=? blen st) with false by lia. replace (64 <=? blen (st ++ c)) with false by (rewrite blen_app; lia).
  cbn [andb]. unfold x_next.
  destruct (4 <=? blen d) eqn:H4; cbn [map ids r_id d0reg snd fst mem_nat Nat.eqb orb negb andb filter].
  - rewrite andb_false_r. reflexivity.
  - destruct (4 <=? blen (d0_next st d c)) eqn:H4'; cbn [andb map filter fst run_callbacks]; [|reflexivity].
    cbn [f_rcomplete vmdk_fmt vmdk_rcomplete]. erewrite parse_descriptor_eq by reflexivity. reflexivity.
Qed.

(* ---------------------------------------------------------------- post_process once the header region is complete *)
(* the five values _parse_sparse_header returns, from the 64 bytes u *)
Definition fields (u : bytes) : bytes * N * N * N * N :=
  (sraw sf_vmdk_sparse 0 u, sint sf_vmdk_sparse 1 u, sint sf_vmdk_sparse 5 u, sint sf_vmdk_sparse 6 u, sint sf_vmdk_sparse 9 u).

Lemma parse64_ok u : blen u = 64 -> parse64 u = Ok (fields u).
Proof. intros H. unfold parse64, unpack. rewrite flen_blen, H. reflexivity. Qed.

Lemma parse_sparse_at (s : ist vx) n r off :
  rget n (i_regs s) = Some r ->
  vmdk_parse_sparse s n off = parse64 (bslice off 64 (r_data r)).
Proof.
  intros Hg. unfold vmdk_parse_sparse, get_region, parse64. rewrite Hg. cbn [bind].
  rewrite nsub_bsub. unfold bsub, bslice. replace (off + VMDK_MIN_SPARSE_HEADER - off) with 64 by (unfold VMDK_MIN_SPARSE_HEADER; lia).
  reflexivity.
Qed.

Lemma parse_sparse_header (s : ist vx) r :
  rget R_header (i_regs s) = Some r -> 64 <= blen (r_data r) ->
  vmdk_parse_sparse s R_header 0 = Ok (fields (btake 64 (r_data r))).
Proof.
  intros Hg Hl. rewrite (parse_sparse_at s R_header r 0 Hg). unfold bslice. rewrite bskip_0.
  apply parse64_ok. rewrite blen_btake. lia.
Qed.

(* header facts, all about u = the first 64 bytes *)
Definition hdr_sig_ok (u : bytes) : bool := beq (sraw sf_vmdk_sparse 0 u) VMDK_MAGIC_PP.
Definition hdr_ver_ok (u : bytes) : bool := ver_ok (sint sf_vmdk_sparse 1 u).
Definition hdr_loc_ok (u : bytes) : bool := sint sf_vmdk_sparse 5 u * VMDK_SECTOR_A =? VMDK_DESC_OFFSET.
Definition hdr_foot (u : bytes) : bool := sint sf_vmdk_sparse 9 u =? VMDK_GD_AT_END.
Definition hdr_dsz (u : bytes) : N := N.min (sint sf_vmdk_sparse 6 u * VMDK_SECTOR_B) VMDK_DESC_MAX_SIZE.

(* ImageFormatError: signature (when the captured header is not text) or version *)
Lemma post_bad (s : ist vx) h :
  rget R_header (i_regs s) = Some h -> 64 <= blen (r_data h) -> rcomplete h = true ->
  let u := btake 64 (r_data h) in
  (hdr_sig_ok u = false /\ forallb ascii_text (r_data h) = false) \/ (hdr_sig_ok u = true /\ hdr_ver_ok u = false) ->
  vmdk_post s = (s, Some ImageFormatError).
Proof.
  intros Hg Hl Hc u Hcase. unfold vmdk_post. rewrite Hg, Hc. cbn [negb].
  rewrite (parse_sparse_header s h Hg Hl). unfold fields. fold u.
  unfold hdr_sig_ok, hdr_ver_ok, ver_ok in Hcase.
  destruct Hcase as [[H1 H2]|[H1 H2]]; rewrite H1; cbn [negb]; [rewrite H2; reflexivity|].
  rewrite H2. reflexivity.
Qed.

(* ---------------------------------------------------------------- phase 1 shapes *)
(* 1536 = VMDK_FOOTER_LEN, 512 = VMDK_DESC_OFFSET: the regions post_process creates (tied by post_T0_valid) *)
Definition freg (off : N) (fd : bytes) : region := mkRegion 2 true off 1536 None fd false.
Definition dreg (id : nat) (dsz : N) (dd : bytes) : region := mkRegion id false 512 dsz None dd false.

(* valid sparse header seen: header region frozen, descriptor region at 512, footer region iff gdOffset = GD_AT_END *)
Definition S1 (foot : option (N * bytes)) (dsz : N) (st h dd : bytes) (x : vx) : ist vx :=
  match foot with
  | Some (off, fd) =>
    mkIst (blen st) [(R_header, hreg h); (R_footer, freg off fd); (R_descriptor, dreg 3 dsz dd)] 4 false [K_descriptor; K_footer] x
  | None =>
    mkIst (blen st) [(R_header, hreg h); (R_descriptor, dreg 2 dsz dd)] 3 false [K_descriptor] x
  end.

(* the state right after the capture of the chunk that completes the header *)
Definition T0 (st h d : bytes) (x : vx) : ist vx :=
  mkIst (blen st) [(R_header, hreg h); (R_descriptor, d0reg d)] 2 false [K_descriptor] x.
(* ... and after "Wrong descriptor location" with a footer announced *)
Definition T0f (st h d : bytes) (x : vx) : ist vx :=
  mkIst (blen st) [(R_header, hreg h); (R_descriptor, d0reg d); (R_footer, freg 1536 [])] 3 false [K_descriptor; K_footer] x.

(* opens vmdk_post on a state whose header region is [hreg h] with 64 <= blen h (hypothesis Hl): the region is complete and
   _parse_sparse_header returns [fields (btake 64 h)]; what is left is the method's case analysis on those fields *)
Ltac post_start Hl :=
  unfold vmdk_post; cbn [i_regs rget rname_beq]; rewrite rcomplete_hreg;
  replace (64 <=? blen _) with true by lia; cbn [negb];
  (erewrite parse_sparse_header; [ | cbn [i_regs rget rname_beq]; reflexivity | cbn [hreg r_data]; exact Hl]);
  unfold fields; cbn [hreg r_data].

Lemma post_T0_wrongloc st h d x :
  64 <= blen h -> let u := btake 64 h in
  hdr_sig_ok u = true -> hdr_ver_ok u = true -> hdr_loc_ok u = false ->
  vmdk_post (T0 st h d x) = (if hdr_foot u then T0f st h d x else T0 st h d x, Some ImageFormatError).
Proof.
  intros Hl u Hs Hv Ho. unfold T0. post_start Hl. fold u.
  unfold hdr_sig_ok, hdr_ver_ok, ver_ok, hdr_loc_ok, hdr_foot in *. rewrite Hs, Hv, Ho. cbn [negb].
  destruct (sint sf_vmdk_sparse 9 u =? VMDK_GD_AT_END); cbn [andb]; [|reflexivity].
  unfold has_region, rhas, new_region, add_check, has_region, rhas. cbn [i_regs rget rname_beq negb i_checks mem_cname cname_beq orb i_pos i_next i_fin i_ext app].
  reflexivity.
Qed.

Lemma post_T0_valid st h d x :
  64 <= blen h -> let u := btake 64 h in
  hdr_sig_ok u = true -> hdr_ver_ok u = true -> hdr_loc_ok u = true ->
  vmdk_post (T0 st h d x) = (S1 (if hdr_foot u then Some (1536, []) else None) (hdr_dsz u) st h [] x, None).
Proof.
  intros Hl u Hs Hv Ho. unfold T0. post_start Hl. fold u.
  unfold hdr_sig_ok, hdr_ver_ok, ver_ok, hdr_loc_ok, hdr_foot, hdr_dsz in *. rewrite Hs, Hv, Ho. cbn [negb].
  apply N.eqb_eq in Ho. rewrite Ho.
  destruct (sint sf_vmdk_sparse 9 u =? VMDK_GD_AT_END); reflexivity.
Qed.

Definition has_foot (foot : option (N * bytes)) : bool := match foot with Some _ => true | None => false end.

(* post_process has nothing left to do once the descriptor region has been relocated *)
Lemma post_S1 foot dsz st h dd x :
  64 <= blen h -> let u := btake 64 h in
  hdr_sig_ok u = true -> hdr_ver_ok u = true -> hdr_loc_ok u = true -> hdr_foot u = has_foot foot ->
  vmdk_post (S1 foot dsz st h dd x) = (S1 foot dsz st h dd x, None).
Proof.
  intros Hl u Hs Hv Ho Hf. destruct foot as [[off fd]|]; unfold S1; post_start Hl; fold u;
    unfold hdr_sig_ok, hdr_ver_ok, ver_ok, hdr_loc_ok, hdr_foot, has_foot in *; rewrite Hs, Hv, Ho, Hf; cbn [negb andb];
    unfold has_region, rhas, get_region; cbn [i_regs rget rname_beq negb andb dreg r_off N.eqb]; reflexivity.
Qed.

(* ---------------------------------------------------------------- capture in phase 1 *)
Lemma cap_end_freg off fd c pos :
  cap_end (freg off fd) c pos = freg (pos - blen (btail 1536 (fd ++ c))) (btail 1536 (fd ++ c)).
Proof.
  unfold cap_end, freg, nlast. cbn [r_len r_data N.eqb]. rewrite flen_blen, nskip_bskip.
  unfold set_off, set_data. cbn [r_id r_end r_off r_len r_min r_data r_fin]. rewrite flen_blen. reflexivity.
Qed.

Lemma cap1_dreg id dsz st c :
  (if r_end (dreg id dsz (bslice 512 dsz st)) || negb (rcomplete (dreg id dsz (bslice 512 dsz st)))
   then rcapture (dreg id dsz (bslice 512 dsz st)) c (blen st + flen c) else dreg id dsz (bslice 512 dsz st))
  = dreg id dsz (bslice 512 dsz (st ++ c)).
Proof. rewrite flen_blen. apply (OV.Proofs.Insp_Static.capture_step_mk id 512 dsz st c). Qed.

Lemma rcomplete_freg off fd : rcomplete (freg off fd) = false.
Proof. unfold rcomplete, freg. cbn [r_end r_fin]. apply andb_false_r. Qed.
Lemma rcomplete_dreg id dsz dd : rcomplete (dreg id dsz dd) = (dsz =? blen dd).
Proof. unfold rcomplete, base_complete, dreg. cbn [r_end r_min r_len r_data]. rewrite flen_blen. reflexivity. Qed.

Definition foot_next (foot : option (N * bytes)) (st c : bytes) : option (N * bytes) :=
  match foot with
  | Some (off, fd) => Some (blen (st ++ c) - blen (btail 1536 (fd ++ c)), btail 1536 (fd ++ c))
  | None => None
  end.
(* the callback of the relocated descriptor region when it becomes complete *)
Definition x1_next (dsz : N) (dd dd' : bytes) (x : vx) : vx :=
  if negb (dsz =? blen dd) && (dsz =? blen dd') then parse_ext dd' x else x.

Lemma capture_S1 foot dsz st h x c : 64 <= blen h ->
  let s := S1 foot dsz st h (bslice 512 dsz st) x in
  mkIst (i_pos s + flen c) (capture_regs [] c (i_pos s + flen c) (i_regs s)) (i_next s) false (i_checks s) (i_ext s)
  = S1 (foot_next foot st c) dsz (st ++ c) h (bslice 512 dsz (st ++ c)) x.
Proof.
  intros Hl. cbv zeta. rewrite capture_regs_map.
  destruct foot as [[off fd]|]; unfold S1, foot_next; cbn [i_pos i_regs i_next i_checks i_ext map];
    rewrite !cap1_all, rcomplete_hreg; replace (64 <=? blen h) with true by lia; change (r_end (hreg h)) with false; cbn [orb negb];
    rewrite cap1_dreg, flen_blen, <- blen_app; [|reflexivity].
  change (r_end (freg off fd)) with true. cbn [orb]. unfold rcapture. change (r_end (freg off fd)) with true. cbn iota.
  rewrite cap_end_freg. reflexivity.
Qed.

(* the regions that became complete during a chunk of phase 1: the descriptor region, at most *)
Lemma newly_S1 foot foot' dsz st st' h dd dd' x x' :
  64 <= blen h -> has_foot foot' = has_foot foot ->
  newly_complete (complete_ids (i_regs (S1 foot dsz st h dd x))) (i_regs (S1 foot' dsz st' h dd' x'))
  = if negb (dsz =? blen dd) && (dsz =? blen dd') then [R_descriptor] else [].
Proof.
  intros Hl Hf. destruct foot as [[off fd]|], foot' as [[off' fd']|]; try discriminate Hf;
    unfold S1, complete_ids, newly_complete; cbn [i_regs filter map fst snd];
    rewrite ?rcomplete_hreg, ?rcomplete_freg, ?rcomplete_dreg; replace (64 <=? blen h) with true by lia; cbn [andb];
    destruct (dsz =? blen dd), (dsz =? blen dd'); reflexivity.
Qed.

(* region_complete: nothing for the header, _parse_descriptor for the descriptor *)
Lemma callbacks_S1 (hn dn : bool) foot dsz st h dd x :
  run_callbacks vmdk_fmt ((if hn then [R_header] else []) ++ (if dn then [R_descriptor] else [])) (S1 foot dsz st h dd x)
  = (S1 foot dsz st h dd (if dn then parse_ext dd x else x), None).
Proof.
  assert (Hd : vmdk_parse_descriptor (S1 foot dsz st h dd x) = (S1 foot dsz st h dd (parse_ext dd x), None)).
  { destruct foot as [[off fd]|]; (erewrite parse_descriptor_eq by reflexivity); reflexivity. }
  destruct hn, dn; cbn [app run_callbacks f_rcomplete vmdk_fmt vmdk_rcomplete]; rewrite ?Hd; reflexivity.
Qed.

Lemma step1 foot dsz st h x c :
  64 <= blen h -> let u := btake 64 h in
  hdr_sig_ok u = true -> hdr_ver_ok u = true -> hdr_loc_ok u = true -> hdr_foot u = has_foot foot ->
  eat_chunk vmdk_fmt (S1 foot dsz st h (bslice 512 dsz st) x) c
  = (S1 (foot_next foot st c) dsz (st ++ c) h (bslice 512 dsz (st ++ c))
        (x1_next dsz (bslice 512 dsz st) (bslice 512 dsz (st ++ c)) x), None).
Proof.
  intros Hl u Hs Hv Ho Hf.
  assert (Hf' : has_foot (foot_next foot st c) = has_foot foot) by (destruct foot as [[? ?]|]; reflexivity).
  rewrite eat_chunk_unfold by (destruct foot as [[? ?]|]; reflexivity). cbv zeta.
  rewrite (capture_S1 foot dsz st h x c Hl). cbn [f_post vmdk_fmt].
  rewrite (post_S1 _ dsz (st ++ c) h _ x Hl Hs Hv Ho (eq_trans Hf (eq_sym Hf'))).
  rewrite settle_done by (destruct foot as [[? ?]|]; reflexivity).
  rewrite (newly_S1 foot _ dsz st _ h _ _ x x Hl Hf').
  apply (callbacks_S1 false).
Qed.

Lemma eat_T0 st d x c :
  blen st < 64 -> (blen d < 4 -> d = st) ->
  eat_chunk vmdk_fmt (S0 st d x) c =
  let s1 := T0 (st ++ c) (btake 512 (st ++ c)) (d0_next st d c) x in
  match vmdk_post s1 with
  | (s2, Some e) => (s2, Some e)
  | (s2, None) =>
    match settle eat_fuel vmdk_fmt c [0%nat; 1%nat] s2 with
    | (s3, Some e) => (s3, Some e)
    | (s3, None) => run_callbacks vmdk_fmt (newly_complete (if 4 <=? blen d then [1%nat] else []) (i_regs s3)) s3
    end
  end.
Proof.
  intros Hst Hd. rewrite eat_chunk_unfold by reflexivity. cbv zeta. unfold S0. cbn [i_pos i_regs i_next i_checks i_ext].
  rewrite (capture0 st d c Hst Hd), flen_blen, <- blen_app.
  unfold complete_ids. cbn [filter snd fst ids map].
  rewrite rcomplete_hreg, rcomplete_d0reg. replace (64 <=? blen st) with false by lia.
  destruct (4 <=? blen d); reflexivity.
Qed.

Lemma stepT_bad st d x c u :
  blen st < 64 -> (blen d < 4 -> d = st) -> 64 <= blen st + blen c ->
  let h := btake 512 (st ++ c) in btake 64 h = u ->
  (hdr_sig_ok u = false /\ forallb ascii_text h = false) \/ (hdr_sig_ok u = true /\ hdr_ver_ok u = false) ->
  eat_chunk vmdk_fmt (S0 st d x) c = (T0 (st ++ c) h (d0_next st d c) x, Some ImageFormatError).
Proof.
  intros Hst Hd Hc h <- Hcase. rewrite (eat_T0 st d x c Hst Hd). cbv zeta. fold h.
  assert (Hl : 64 <= blen h) by (subst h; rewrite blen_btake, blen_app; lia).
  rewrite (post_bad (T0 (st ++ c) h (d0_next st d c) x) (hreg h)); [reflexivity|reflexivity|exact Hl| |exact Hcase].
  rewrite rcomplete_hreg. lia.
Qed.

Lemma stepT_wrongloc st d x c u :
  blen st < 64 -> (blen d < 4 -> d = st) -> 64 <= blen st + blen c ->
  let h := btake 512 (st ++ c) in btake 64 h = u ->
  hdr_sig_ok u = true -> hdr_ver_ok u = true -> hdr_loc_ok u = false ->
  eat_chunk vmdk_fmt (S0 st d x) c =
  (if hdr_foot u then T0f (st ++ c) h (d0_next st d c) x else T0 (st ++ c) h (d0_next st d c) x, Some ImageFormatError).
Proof.
  intros Hst Hd Hc h <- Hs Hv Ho. rewrite (eat_T0 st d x c Hst Hd). cbv zeta. fold h.
  assert (Hl : 64 <= blen h) by (subst h; rewrite blen_btake, blen_app; lia).
  rewrite (post_T0_wrongloc (st ++ c) h (d0_next st d c) x Hl Hs Hv Ho). reflexivity.
Qed.

Lemma bslice_beyond off len st : blen st <= off -> bslice off len st = [].
Proof. intros H. unfold bslice. rewrite bskip_all by exact H. apply btake_nil. Qed.

Lemma cap1_in only c pos n r :
  mem_rname n only = true -> cap1 only c pos (n, r) = (n, if r_end r || negb (rcomplete r) then rcapture r c pos else r).
Proof.
  intros H. unfold cap1. destruct only as [|k t]; [discriminate|]. rewrite H. cbn [negb].
  destruct (r_end r || negb (rcomplete r)); reflexivity.
Qed.
Lemma cap1_out only c pos n r : only <> [] -> mem_rname n only = false -> cap1 only c pos (n, r) = (n, r).
Proof. intros Hne H. unfold cap1. destruct only as [|k t]; [contradiction|]. rewrite H. reflexivity. Qed.

Lemma cap1_dreg_new only id dsz st c :
  mem_rname R_descriptor only = true -> blen st <= 512 ->
  cap1 only c (blen (st ++ c)) (R_descriptor, dreg id dsz []) = (R_descriptor, dreg id dsz (bslice 512 dsz (st ++ c))).
Proof.
  intros Hm Hst. rewrite (cap1_in _ _ _ _ _ Hm).
  replace (@nil N) with (bslice 512 dsz st) by (apply bslice_beyond; lia).
  rewrite blen_app, <- (flen_blen c), cap1_dreg. reflexivity.
Qed.
Lemma cap1_freg_new only c pos :
  mem_rname R_footer only = true ->
  cap1 only c pos (R_footer, freg 1536 []) = (R_footer, freg (pos - blen (btail 1536 c)) (btail 1536 c)).
Proof.
  intros Hm. rewrite (cap1_in _ _ _ _ _ Hm). change (r_end (freg 1536 [])) with true. cbn [orb].
  unfold rcapture. change (r_end (freg 1536 [])) with true. cbn iota. rewrite cap_end_freg. reflexivity.
Qed.

(* the chunk is presented again to the regions post_process has just created; the second round finds nothing new *)
Lemma settle_fresh (footer : bool) st c h x dsz :
  blen st <= 512 -> 64 <= blen h -> let u := btake 64 h in
  hdr_sig_ok u = true -> hdr_ver_ok u = true -> hdr_loc_ok u = true -> hdr_foot u = footer ->
  settle eat_fuel vmdk_fmt c [0%nat; 1%nat] (S1 (if footer then Some (1536, []) else None) dsz (st ++ c) h [] x) =
  (S1 (if footer then Some (blen (st ++ c) - blen (btail 1536 c), btail 1536 c) else None)
      dsz (st ++ c) h (bslice 512 dsz (st ++ c)) x, None).
Proof.
  intros Hst Hl u Hs Hv Ho Hf. unfold eat_fuel. destruct footer.
  - rewrite (settle_step vmdk_fmt _ c _ _ R_footer [R_descriptor]) by reflexivity. cbv zeta.
    unfold S1 at 1 2 3, set_regs. cbn [i_pos i_regs i_next i_fin i_checks i_ext].
    rewrite capture_regs_map. cbn [map].
    rewrite cap1_out, cap1_freg_new, cap1_dreg_new by (try discriminate; try reflexivity; exact Hst).
    change (mkIst _ _ 4 false _ x) with (S1 (Some (blen (st ++ c) - blen (btail 1536 c), btail 1536 c)) dsz (st ++ c) h (bslice 512 dsz (st ++ c)) x).
    cbn [f_post vmdk_fmt]. rewrite (post_S1 (Some (_, _)) dsz (st ++ c) h _ x Hl Hs Hv Ho Hf). apply settle_done. rewrite capture_regs_ids. reflexivity.
  - rewrite (settle_step vmdk_fmt _ c _ _ R_descriptor []) by reflexivity. cbv zeta.
    unfold S1 at 1 2 3, set_regs. cbn [i_pos i_regs i_next i_fin i_checks i_ext].
    rewrite capture_regs_map. cbn [map].
    rewrite cap1_out, cap1_dreg_new by (try discriminate; try reflexivity; exact Hst).
    change (mkIst _ _ 3 false _ x) with (S1 None dsz (st ++ c) h (bslice 512 dsz (st ++ c)) x).
    cbn [f_post vmdk_fmt]. rewrite (post_S1 None dsz (st ++ c) h _ x Hl Hs Hv Ho Hf). apply settle_done. rewrite capture_regs_ids. reflexivity.
Qed.

Lemma stepT_valid st d x c u :
  blen st < 64 -> (blen d < 4 -> d = st) -> 64 <= blen st + blen c ->
  let h := btake 512 (st ++ c) in btake 64 h = u ->
  hdr_sig_ok u = true -> hdr_ver_ok u = true -> hdr_loc_ok u = true ->
  let dsz := hdr_dsz u in let dd := bslice 512 dsz (st ++ c) in
  eat_chunk vmdk_fmt (S0 st d x) c =
  (S1 (if hdr_foot u then Some (blen (st ++ c) - blen (btail 1536 c), btail 1536 c) else None) dsz (st ++ c) h dd
      (if dsz =? blen dd then parse_ext dd x else x), None).
Proof.
  intros Hst Hd Hc h <- Hs Hv Ho dsz dd. set (u := btake 64 h) in *. rewrite (eat_T0 st d x c Hst Hd). cbv zeta. fold h.
  assert (Hl : 64 <= blen h) by (subst h; rewrite blen_btake, blen_app; lia).
  rewrite (post_T0_valid (st ++ c) h (d0_next st d c) x Hl Hs Hv Ho). fold u. fold dsz.
  rewrite (settle_fresh (hdr_foot u) st c h x dsz ltac:(lia) Hl Hs Hv Ho eq_refl). fold dd.
  (* both new regions have fresh identities: the header callback (a no-op) and, if the chunk reached it, the descriptor's *)
  match goal with |- run_callbacks _ ?names _ = _ =>
    replace names with ((if true then [R_header] else []) ++ (if dsz =? blen dd then [R_descriptor] else [])) end.
  - apply (callbacks_S1 true).
  - destruct (4 <=? blen d), (hdr_foot u); unfold S1, newly_complete; cbn [i_regs filter map fst snd];
      rewrite ?rcomplete_hreg, ?rcomplete_freg, ?rcomplete_dreg; replace (64 <=? blen h) with true by lia;
      destruct (dsz =? blen dd); reflexivity.
Qed.
