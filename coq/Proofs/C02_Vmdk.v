(* Proofs/C02_Vmdk.v — VMDKInspector.check_descriptor / check_footer characterised on the inspector state,
   and what a Pass implies in sparse mode. *)
Require Import OV.Proofs.Insp_All OV.Model.C01_Vmdk OV.Proofs.C01_Vmdk_Step OV.Proofs.C01_Vmdk_Run.
Require Import OV.Base.Bytes OV.Base.Py OV.Base.PyInt OV.Base.Str OV.Base.Insp_Struct OV.Gen.Insp_Consts OV.Model.Insp_Engine.
Require Import OV.Model.Insp_Vmdk OV.Model.Insp_All.
Require Import OV.Model.C02 OV.Proofs.C02_Engine OV.Proofs.C02_Static OV.Proofs.C02_Checks.
Open Scope N_scope.

Lemma existsb_false_iff {A} (p : A -> bool) l : existsb p l = false <-> forall x, In x l -> p x = false.
Proof.
  induction l as [|a l IH]; cbn [existsb In]; [split; [intros _ x []|reflexivity]|].
  rewrite orb_false_iff, IH. split.
  - intros [Ha Hl] x [<-|Hx]; auto.
  - intros H. split; [apply H; left; reflexivity|intros x Hx; apply H; right; exact Hx].
Qed.

Lemma is_bad_false c : is_bad c = false <-> c <> L_bad.
Proof. destruct c; cbn; split; congruence. Qed.

Theorem check_descriptor_of_iff (x : vx) :
  check_descriptor_of (v_desc_text x) (v_vmdktype x) = Ok tt <-> descriptor_ok x.
Proof.
  unfold check_descriptor_of, descriptor_ok.
  destruct (v_desc_text x) as [[|c0 text]|] eqn:Ht.
  - split; [discriminate|]. intros [t [H1 [H2 _]]]. injection H1 as <-. congruence.
  - change VMDK_CH_NL with 10. change VMDK_CH_SLASH with 47.
    fold (desc_lines (c0 :: text)).
    destruct (mem_str (v_vmdktype x) VMDK_SUBFORMATS) eqn:Hty; cbn [negb].
    2:{ split; [discriminate|]. intros [t [_ [_ [Hin _]]]]. apply mem_str_In in Hin. congruence. }
    destruct (existsb (fun l => is_bad (classify_line l)) (desc_lines (c0 :: text))) eqn:Hbad.
    { split; [discriminate|]. intros [t [H1 [_ [_ [Hl _]]]]]. injection H1 as <-.
      apply existsb_exists in Hbad. destruct Hbad as [l [Hin Hb]]. specialize (Hl l Hin).
      unfold line_ok in Hl. destruct (classify_line l); try discriminate. congruence. }
    fold (extent_lines (c0 :: text)).
    destruct (existsb (memN 47) (extent_lines (c0 :: text))) eqn:Hsl.
    { split; [discriminate|]. intros [t [H1 [_ [_ [_ [_ Hp]]]]]]. injection H1 as <-.
      apply existsb_exists in Hsl. destruct Hsl as [l [Hin Hb]]. rewrite (Hp l Hin) in Hb. discriminate. }
    destruct (extent_lines (c0 :: text)) as [|e0 el] eqn:Hex.
    { split; [discriminate|]. intros [t [H1 [_ [_ [_ [Hne _]]]]]]. injection H1 as <-. congruence. }
    split; [intros _|reflexivity].
    exists (c0 :: text). split; [reflexivity|]. split; [discriminate|]. split; [apply mem_str_In; exact Hty|].
    split; [|split].
    + intros l Hin. apply (proj1 (existsb_false_iff _ _) Hbad) in Hin. apply is_bad_false. exact Hin.
    + rewrite Hex. discriminate.
    + rewrite Hex. apply (proj1 (existsb_false_iff _ _) Hsl).
  - split; [discriminate|]. intros [t [H1 _]]. discriminate.
Qed.

Theorem check_descriptor_iff (s : ist vx) :
  vmdk_check_descriptor s = Ok tt <-> descriptor_ok (i_ext s).
Proof. exact (check_descriptor_of_iff (i_ext s)). Qed.

(* what the line classes are (the property's "every line blank/comment/ddb.../single-word key=/extent") *)
Lemma classify_line_cases l :
  match classify_line l with
  | L_skip => l = [] \/ prefixb [35] l = true                                   (* blank or comment *)
  | L_ddb => prefixb VMDK_DDB l = true
  | L_field => memN 61 l = true /\ memN 32 (line_prefix 61 l) = false           (* single word before '=' *)
  | L_extent => In (line_prefix 32 l) VMDK_EXTENT_ACCESS                        (* first word is rw / rdonly / noaccess *)
  | L_bad => True
  end.
Proof.
  unfold classify_line. change VMDK_CH_HASH with 35. change VMDK_CH_EQ with 61. change VMDK_CH_SP with 32.
  destruct (prefixb [35] l) eqn:H1; cbn [orb]; [right; reflexivity|].
  destruct l as [|c l']; [left; reflexivity|].
  destruct (prefixb VMDK_DDB (c :: l')) eqn:H2; [reflexivity|].
  destruct (memN 61 (c :: l') && negb (memN 32 (line_prefix 61 (c :: l')))) eqn:H3.
  - apply andb_true_iff in H3. destruct H3 as [Ha Hb]. apply negb_true_iff in Hb. split; assumption.
  - destruct (mem_str (line_prefix 32 (c :: l')) VMDK_EXTENT_ACCESS) eqn:H4; [apply mem_str_In; exact H4|exact I].
Qed.

Lemma parse64_fields x :
  blen x = 64 -> parse64 x = Ok (vmdk_sig x, vmdk_ver x, vmdk_desc_sec x, vmdk_desc_num x, vmdk_gd x).
Proof. intros H. rewrite (parse64_ok x H). reflexivity. Qed.

Lemma guard_ok (c : bool) (k : res unit) : (if c then violation else k) = Ok tt <-> c = false /\ k = Ok tt.
Proof. destruct c; [split; [discriminate | intros [H _]; discriminate H] | tauto]. Qed.
Lemma guard_iff (c : bool) (k : res unit) (P Q : Prop) :
  (c = false <-> P) -> (k = Ok tt <-> Q) -> ((if c then violation else k) = Ok tt <-> P /\ Q).
Proof. intros HP HQ. rewrite guard_ok, HP, HQ. reflexivity. Qed.

(* on the 64 header bytes and the 1536 footer bytes the check's cascade of `raise SafetyViolation` is footer_ok *)
Theorem check_footer_of_iff u ft :
  blen u = 64 -> blen ft = 1536 -> (check_footer_of u ft = Ok tt <-> footer_ok u ft).
Proof.
  intros Hu Hf. unfold check_footer_of, footer_ok. cbn zeta.
  rewrite (parse64_fields u Hu), nsub_bslice. change (VMDK_FT_HDR_OFF + VMDK_MIN_SPARSE_HEADER - VMDK_FT_HDR_OFF) with 64.
  change VMDK_FT_HDR_OFF with 512.
  rewrite (parse64_fields (bslice 512 64 ft)) by (rewrite blen_bslice; lia). cbn [bind].
  (* the two markers are the first and the last sector of the footer *)
  unfold VMDK_FT_FIRST, VMDK_FT_LAST. rewrite ntake_bslice.
  replace (nlast 512 ft) with (bslice 1024 512 ft).
  2:{ unfold nlast. change (512 =? 0) with false. cbv iota. rewrite nskip_bskip, flen_blen, Hf.
      unfold bslice. apply btake_all. rewrite blen_bskip. lia. }
  rewrite !unpack_slice by (try reflexivity; lia). cbn [bind].
  change (sint sf_vmdk_marker 1 (bslice 0 512 ft)) with (le_val (bslice 8 4 (bslice 0 512 ft))).
  change (sint sf_vmdk_marker 2 (bslice 0 512 ft)) with (le_val (bslice 12 4 (bslice 0 512 ft))).
  change (sraw sf_vmdk_marker 3 (bslice 0 512 ft)) with (bslice 16 496 (bslice 0 512 ft)).
  change (sint sf_vmdk_marker2 0 (bslice 1024 512 ft)) with (le_val (bslice 0 8 (bslice 1024 512 ft))).
  change (sint sf_vmdk_marker2 1 (bslice 1024 512 ft)) with (le_val (bslice 8 4 (bslice 1024 512 ft))).
  change (sint sf_vmdk_marker2 2 (bslice 1024 512 ft)) with (le_val (bslice 12 4 (bslice 1024 512 ft))).
  change (sraw sf_vmdk_marker2 3 (bslice 1024 512 ft)) with (bslice 16 496 (bslice 1024 512 ft)).
  rewrite !bslice_bslice by lia. cbn [N.add Pos.add Pos.succ Pos.add_carry].
  change (repeatN (hd 0 VMDK_PAD_BYTE) (N.to_nat VMDK_FT_PAD)) with (zeros 496).
  change VMDK_GD_AT_END with gd_at_end. change VMDK_MARKER_FOOTER with 3. change VMDK_MARKER_EOS with 0.
  (* the 496 zeros stay a variable: unification would unfold them at every rewrite *)
  unfold le_at. generalize (zeros 496). intros pad.
  (* one guard of the cascade at a time *)
  etransitivity.
  { apply guard_iff; [rewrite negb_false_iff; apply beq_eq|]. apply guard_iff; [rewrite negb_false_iff; apply N.eqb_eq|].
    apply guard_iff; [rewrite orb_false_iff, !negb_false_iff, !N.eqb_eq; reflexivity|]. apply guard_iff; [apply N.eqb_neq|].
    apply guard_iff; [rewrite !orb_false_iff, !negb_false_iff, !N.eqb_eq, beq_eq; reflexivity|].
    apply guard_iff; [rewrite !orb_false_iff, !negb_false_iff, !N.eqb_eq, beq_eq; reflexivity|]. reflexivity. }
  intuition congruence.
Qed.

(* footer_ok reads the header through its first 64 bytes only *)
Lemma footer_ok_btake hd ft : footer_ok (btake 64 hd) ft <-> footer_ok hd ft.
Proof.
  unfold footer_ok, vmdk_sig, vmdk_ver, vmdk_desc_sec, vmdk_desc_num, le_at. rewrite !bslice_btake_in by lia. reflexivity.
Qed.

Theorem check_footer_iff (s : ist vx) h f :
  rget R_header (i_regs s) = Some h -> rget R_footer (i_regs s) = Some f ->
  64 <= blen (r_data h) -> blen (r_data f) = 1536 ->
  (vmdk_check_footer s = Ok tt <-> footer_ok (r_data h) (r_data f)).
Proof.
  intros Hh Hf Hlh Hlf. rewrite (check_footer_eq s h f Hh Hf Hlh), <- footer_ok_btake.
  apply check_footer_of_iff; [rewrite blen_btake; lia | exact Hlf].
Qed.

Lemma spec_safety_violation c fm : spec_safety c fm [(K_descriptor, violation)] <> Pass.
Proof. rewrite spec_safety_pass_iff. intros (_ & _ & H). discriminate H. Qed.

(* ---------- what a Pass implies, any VMDK inspector object ---------- *)
Theorem vmdk_pass_implies_state (s : ist vx) :
  safety_check vmdk_fmt s = Pass ->
  Insp_Engine.complete s = true /\
  (In K_descriptor (i_checks s) -> descriptor_ok (i_ext s)) /\
  (forall h, rget R_header (i_regs s) = Some h ->
     prefixb VMDK_MAGIC (r_data h) = true /\
     (In K_footer (i_checks s) -> forall f, rget R_footer (i_regs s) = Some f ->
        64 <= blen (r_data h) -> blen (r_data f) = 1536 -> footer_ok (r_data h) (r_data f))).
Proof.
  intros Hp. apply safety_pass_iff in Hp. destruct Hp as [Hc [Hm Hk]].
  split; [exact Hc|]. split.
  - intros Hin. apply check_descriptor_iff. apply (Hk K_descriptor Hin).
  - intros h Hh. split.
    + cbn [f_match vmdk_fmt] in Hm. unfold vmdk_match in Hm. rewrite Hh in Hm. injection Hm as Hm. exact Hm.
    + intros Hin f Hf Hlh Hlf. apply (check_footer_iff s h f Hh Hf Hlh Hlf). apply (Hk K_footer Hin).
Qed.

(* every reachable VMDK inspector keeps the descriptor check registered, so a Pass always means the parsed
   descriptor was acceptable: type monolithicsparse/streamoptimized, every line recognised, >= 1 extent, no '/' *)
Theorem vmdk_pass_implies_descriptor cs :
  safety (fst (Insp_All.run F_vmdk cs)) = Pass -> descriptor_ok (vmdk_ext_of (fst (Insp_All.run F_vmdk cs))).
Proof.
  pose proof (checks_of_run F_vmdk cs) as Hext.
  rewrite run_vmdk_fmt in *. destruct (run_fmt vmdk_fmt cs) as [s e]. cbn [fst safety vmdk_ext_of checks_of] in *.
  intros Hp. apply vmdk_pass_implies_state in Hp. destruct Hp as [_ [Hd _]].
  apply Hd. eapply extends_In; [exact Hext|]. left. reflexivity.
Qed.

(* a descriptor that was never parsed never passes *)
Corollary vmdk_no_descriptor_never_passes (s : ist vx) :
  In K_descriptor (i_checks s) -> v_desc_text (i_ext s) = None -> safety_check vmdk_fmt s <> Pass.
Proof.
  intros Hin Hn Hp. apply vmdk_pass_implies_state in Hp. destruct Hp as [_ [Hd _]].
  destruct (Hd Hin) as [t [Ht _]]. congruence.
Qed.

(* the two accepted types, as the code spells them (lower case) *)
Lemma vmdk_subformats_spelled :
  VMDK_SUBFORMATS = [lower_ascii [109;111;110;111;108;105;116;104;105;99;83;112;97;114;115;101];
                     lower_ascii [115;116;114;101;97;109;79;112;116;105;109;105;122;101;100]].
Proof. reflexivity. Qed.
