(* Proofs/C02_Gpt.v — GPTInspector.check_mbr_partitions and format_match on the bytes *)
Require Import OV.Base.Bytes OV.Base.Py OV.Base.Insp_Struct OV.Gen.Insp_Consts OV.Model.Insp_Engine.
Require Import OV.Model.Insp_Gpt OV.Model.Insp_All.
Require Import OV.Proofs.Insp_Static OV.Proofs.Insp_All.
Require Import OV.Model.C02 OV.Proofs.C02_Engine OV.Proofs.C02_Bytes OV.Proofs.C02_Static.
Open Scope N_scope.

Definition gst (b : bytes) (fin : bool) : ist unit :=
  mkIst (blen b) [(R_mbr, mkRegion 0 false 0 512 None (bslice 0 512 b) false)] 1 fin [K_mbr] tt.

Lemma gpt_state b fin : ideal gpt_fmt b fin tt = gst b fin.
Proof. reflexivity. Qed.
Lemma complete_gst b fin : Insp_Engine.complete (gst b fin) = (512 <=? blen b).
Proof. apply complete_header. Qed.

Lemma gpt_match_state b fin : 512 <= blen b ->
  gpt_match (gst b fin) = Ok ((le_at 510 2 b =? 43605) && negb ((bnth 16 b =? 2) && (bnth 21 b =? 248))).
Proof.
  intros Hl. unfold gpt_match, gst. cbn [get_region i_regs rget rname_beq bind].
  rewrite rcomplete_slice. replace (512 <=? blen b - 0) with true by lia. cbn [negb].
  unfold gpt_check_for_fat. cbn [get_region i_regs rget rname_beq bind r_data].
  unfold GPT_FAT_NUM_IDX, GPT_FAT_MEDIA_IDX, GPT_SIG_LO, GPT_SIG_HI.
  rewrite !bidx_ok by (rewrite blen_bslice; lia). cbn [bind].
  rewrite !bnth_bslice by lia. change (0 + 16) with 16. change (0 + 21) with 21.
  slices. change (512 - 510) with 2. change (0 + 510) with 510.
  rewrite unpack_slice by (try reflexivity; lia). cbn [bind].
  change (sint sf_gpt_sig 0 (bslice 510 2 b)) with (le_val (bslice 0 2 (bslice 510 2 b))). slices.
  change (510 + 0) with 510. reflexivity.
Qed.

Lemma blen_pte b i : 512 <= blen b -> i < 4 -> blen (pte b i) = 16.
Proof. intros. unfold pte. rewrite blen_bslice. lia. Qed.

Lemma byte_field e o : o < blen e -> le_val (bslice o 1 e) = bnth o e.
Proof. intros H. rewrite bslice_one by exact H. apply le_val_one. Qed.

Fixpoint seqN (i : N) (k : nat) : list N :=
  match k with O => [] | S k' => i :: seqN (i + 1) k' end.

Lemma gpt_loop_spec b k : 512 <= blen b -> forall i valid found, i + N.of_nat k <= 4 ->
  gpt_pte_loop k i (bslice 0 512 b) valid found =
  if forallb (fun j => entry_okb (pte b j)) (seqN i k)
  then Ok (valid ++ filter (fun j => nonzero (pte b j)) (seqN i k), found || existsb (fun j => is_ee (pte b j)) (seqN i k))
  else Exn SafetyViolation.
Proof.
  intros Hl. induction k as [|k IH]; intros i valid found Hk; cbn [gpt_pte_loop seqN forallb filter existsb].
  - rewrite app_nil_r, orb_false_r. reflexivity.
  - assert (Hi : i < 4) by lia.
    unfold GPT_MBR_PTE_START, GPT_PTE_STRIDE, GPT_PTE_LEN.
    slices. replace (446 + 16 * i + 16 - (446 + 16 * i)) with 16 by lia.
    replace (0 + (446 + 16 * i)) with (446 + 16 * i) by lia.
    fold (pte b i). set (e := pte b i).
    assert (He : blen e = 16) by (apply blen_pte; assumption).
    rewrite unpack_ok by (rewrite He; reflexivity). cbn [bind].
    change (sint sf_gpt_pte 0 e) with (le_val (bslice 0 1 e)).
    change (sint sf_gpt_pte 1 e) with (le_val (bslice 1 1 e)).
    change (sint sf_gpt_pte 2 e) with (le_val (bslice 2 1 e)).
    change (sint sf_gpt_pte 3 e) with (le_val (bslice 3 1 e)).
    change (sint sf_gpt_pte 4 e) with (le_val (bslice 4 1 e)).
    change (sint sf_gpt_pte 8 e) with (le_val (bslice 8 4 e)).
    rewrite !byte_field by lia.
    unfold GPT_BOOT_A, GPT_BOOT_B, GPT_OSTYPE_GPT, GPT_CHS_H, GPT_CHS_S, GPT_CHS_T, GPT_START_LBA.
    unfold entry_okb, boot_okb, is_ee, nonzero, start_okb, pte_boot, pte_type, pte_lba, le_at.
    destruct ((bnth 0 e =? 0) || (bnth 0 e =? 128)); cbn [negb andb]; [|reflexivity].
    rewrite !IH by lia.
    destruct (bnth 4 e =? 238) eqn:Hee; cbn [negb orb].
    + assert (Hnz : (bnth 4 e =? 0) = false) by lia. rewrite Hnz. cbn [negb].
      destruct ((bnth 1 e =? 0) && (bnth 2 e =? 2) && (bnth 3 e =? 0)) eqn:Hchs; cbn [negb andb]; [|reflexivity].
      destruct (le_val (bslice 8 4 e) =? 1); cbn [negb]; [|reflexivity].
      destruct (forallb _ (seqN (i + 1) k)); [|reflexivity].
      rewrite <- app_assoc, orb_true_r. reflexivity.
    + destruct (forallb _ (seqN (i + 1) k)); [|reflexivity].
      destruct (bnth 4 e =? 0); cbn [negb]; [reflexivity|]. rewrite <- app_assoc. reflexivity.
Qed.

Lemma single_zero_filter (p : N -> bool) :
  is_single_zero (filter p idx4) = p 0 && negb (p 1) && negb (p 2) && negb (p 3).
Proof. unfold idx4. cbn [filter]. destruct (p 0), (p 1), (p 2), (p 3); reflexivity. Qed.

Lemma match_filter {A B} (p : A -> bool) l (x y : B) :
  match filter p l with [] => x | _ :: _ => y end = if existsb p l then y else x.
Proof. induction l as [|a l IH]; cbn [filter existsb]; [reflexivity|]. destruct (p a); [reflexivity|exact IH]. Qed.

Lemma gpt_check_state b fin : 512 <= blen b ->
  gpt_check_mbr_partitions (gst b fin) = if mbr_table_okb b then Ok tt else violation.
Proof.
  intros Hl. unfold gpt_check_mbr_partitions, gst. cbn [get_region i_regs rget rname_beq bind r_data].
  unfold GPT_PTE_COUNT. change (N.to_nat 4) with 4%nat.
  rewrite gpt_loop_spec by (try exact Hl; cbn; lia).
  change (seqN 0 4) with idx4. unfold mbr_table_okb.
  destruct (forallb (fun j => entry_okb (pte b j)) idx4); cbn [bind app orb andb]; [|reflexivity].
  rewrite single_zero_filter, match_filter.
  destruct (existsb (fun j => is_ee (pte b j)) idx4); cbn [negb orb andb]; [|reflexivity].
  destruct (nonzero (pte b 0) && negb (nonzero (pte b 1)) && negb (nonzero (pte b 2)) && negb (nonzero (pte b 3)));
    reflexivity.
Qed.

Lemma idx4_spec i : In i idx4 <-> i < 4.
Proof. unfold idx4. cbn [In]. lia. Qed.

Lemma entry_okb_iff e :
  entry_okb e = true <->
  (pte_boot e = 0 \/ pte_boot e = 128) /\ (pte_type e = 238 -> pte_chs e = (0, 2, 0) /\ pte_lba e = 1).
Proof.
  unfold entry_okb, boot_okb, is_ee, start_okb, pte_chs. split.
  - intros H. split; [lia|]. intros Ht. split; [|lia].
    assert (H3 : bnth 1 e = 0 /\ bnth 2 e = 2 /\ bnth 3 e = 0) by lia.
    destruct H3 as (-> & -> & ->). reflexivity.
  - intros [Hb Hs]. destruct (pte_type e =? 238) eqn:E; [|lia].
    apply N.eqb_eq in E. destruct (Hs E) as [Hc Hlba]. injection Hc as -> -> ->. rewrite Hlba. lia.
Qed.

(* a protective entry, if any, is entry 0 and the other three are empty *)
Lemma protective_alone_iff b :
  negb (existsb (fun j => is_ee (pte b j)) idx4)
  || nonzero (pte b 0) && negb (nonzero (pte b 1)) && negb (nonzero (pte b 2)) && negb (nonzero (pte b 3)) = true
  <-> forall i, i < 4 -> pte_type (pte b i) = 238 -> i = 0 /\ forall j, j < 4 -> j <> 0 -> pte_type (pte b j) = 0.
Proof.
  unfold nonzero, is_ee. rewrite orb_true_iff, !andb_true_iff, !negb_true_iff, !negb_false_iff, !N.eqb_eq, N.eqb_neq.
  rewrite <- not_true_iff_false, existsb_exists. split.
  - intros [Hno|[[[H0 H1] H2] H3]] i Hi Ht.
    + destruct Hno. exists i. split; [apply idx4_spec; exact Hi|apply N.eqb_eq; exact Ht].
    + assert (Hi4 : i = 0 \/ i = 1 \/ i = 2 \/ i = 3) by lia.
      destruct Hi4 as [->|[->|[->| ->]]]; try congruence. split; [reflexivity|]. intros j Hj Hj0.
      assert (Hj4 : j = 1 \/ j = 2 \/ j = 3) by lia. destruct Hj4 as [->|[->| ->]]; assumption.
  - intros H. destruct (N.eq_dec (pte_type (pte b 0)) 238) as [E0|E0].
    + right. destruct (H 0 ltac:(lia) E0) as [_ Hj]. rewrite E0. repeat split; try (apply Hj; lia). discriminate.
    + left. intros [x [Hx Hxe]]. apply idx4_spec in Hx. apply N.eqb_eq in Hxe.
      destruct (H x Hx Hxe) as [-> _]. contradiction.
Qed.

Lemma mbr_table_okb_iff b : mbr_table_okb b = true <-> mbr_table_ok b.
Proof.
  unfold mbr_table_okb, mbr_table_ok.
  rewrite !andb_true_iff, protective_alone_iff, forallb_forall, existsb_exists. split.
  - intros [[HA HB] [x [Hx Hn]]]. split; [|split].
    + intros i Hi. apply idx4_spec, HA, entry_okb_iff in Hi. apply Hi.
    + exists x. apply idx4_spec in Hx. split; [exact Hx|]. unfold nonzero in Hn. lia.
    + intros i Hi Ht. destruct (HB i Hi Ht) as [H0 Hj].
      pose proof (proj2 (idx4_spec i) Hi) as Hin. apply HA, entry_okb_iff in Hin.
      destruct (proj2 Hin Ht) as [Hc Hl]. repeat split; assumption.
  - intros [H1 [[x [Hx Hn]] H3]]. split; [split|].
    + intros i Hi. apply idx4_spec in Hi. apply entry_okb_iff. split; [exact (H1 i Hi)|].
      intros Ht. destruct (H3 i Hi Ht) as (_ & Hc & Hl & _). split; assumption.
    + intros i Hi Ht. destruct (H3 i Hi Ht) as (H0 & _ & _ & Hj). split; assumption.
    + exists x. split; [apply idx4_spec; exact Hx|]. unfold nonzero. lia.
Qed.

Lemma gpt_safeb_iff b : gpt_safeb b = true <-> gpt_safe b.
Proof.
  unfold gpt_safeb, gpt_safe, looks_like_fat. rewrite !andb_true_iff, negb_true_iff, mbr_table_okb_iff.
  split.
  - intros [[[H1 H2] H3] H4]. split; [lia|]. split; [lia|]. split; [|exact H4]. intros [Ha Hb]. lia.
  - intros [H1 [H2 [H3 H4]]]. split; [split; [split; [lia|lia]|]|exact H4].
    destruct (bnth 16 b =? 2) eqn:E1; destruct (bnth 21 b =? 248) eqn:E2; try reflexivity.
    exfalso. apply H3. lia.
Qed.

Theorem gpt_pass_okb cs :
  safety (fst (Insp_All.run F_gpt cs)) = Pass <-> gpt_safeb (concat cs) = true.
Proof.
  rewrite run_unit by reflexivity. cbn [fst spec_unit safety ufmt]. set (b := concat cs). rewrite gpt_state.
  rewrite (safety_pass_staged gpt_fmt _ ((le_at 510 2 b =? 43605) && negb ((bnth 16 b =? 2) && (bnth 21 b =? 248)))
             (mbr_table_okb b)); rewrite complete_gst.
  - rewrite andb_assoc. reflexivity.
  - intros Hl. apply gpt_match_state. lia.
  - intros Hl _. apply N.leb_le in Hl.
    etransitivity; [apply single_check_iff; reflexivity|]. rewrite <- if_ok_iff. cbn [f_check gpt_fmt gpt_check].
    rewrite (gpt_check_state b true Hl). reflexivity.
Qed.

Theorem gpt_pass_iff cs :
  safety (fst (Insp_All.run F_gpt cs)) = Pass <-> gpt_safe (concat cs).
Proof. rewrite gpt_pass_okb. apply gpt_safeb_iff. Qed.
