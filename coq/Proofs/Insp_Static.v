(* Proofs/Insp_Static.v — the refinement of the inspectors whose regions all come
   from _initialize (no min_length, no EndCaptureRegion): after ANY chunk list the state is the
   "ideal" state computed from the concatenated bytes alone. *)
Require Import OV.Base.Bytes OV.Base.Py OV.Base.Insp_Struct OV.Gen.Insp_Consts OV.Model.Insp_Engine.
Require Import OV.Proofs.Insp_Engine.
Open Scope N_scope.

Definition static_spec (sp : rspec) : bool :=
  negb (rs_end sp) && match rs_min sp with None => true | Some _ => false end.
Definition static_specs (l : list (rname * rspec)) : bool := forallb (fun p => static_spec (snd p)) l.

(* the region dictionary when the stream [st] has been presented: every region holds the part of
   its window [off, off+len) that exists in [st] *)
Fixpoint fill_regs (id : nat) (l : list (rname * rspec)) (st : bytes) : regions :=
  match l with
  | [] => []
  | (n, sp) :: t =>
    (n, mkRegion id false (rs_off sp) (rs_len sp) None (bslice (rs_off sp) (rs_len sp) st) false)
      :: fill_regs (S id) t st
  end.

Lemma init_regs_fill id l : static_specs l = true -> init_regs id l = fill_regs id l [].
Proof.
  revert id. induction l as [|[n sp] t IH]; intros id H; cbn [init_regs fill_regs]; [reflexivity|].
  cbn [static_specs forallb snd] in H. apply andb_true_iff in H. destruct H as [Hs Ht].
  rewrite (IH _ Ht). unfold static_spec in Hs. apply andb_true_iff in Hs. destruct Hs as [He Hm].
  unfold region_of_spec. destruct sp as [e o ln m]. cbn [rs_end rs_off rs_len rs_min] in *.
  destruct e; [discriminate|]. destruct m; [discriminate|]. rewrite bslice_of_nil. reflexivity.
Qed.

(* capture_slice, one region, one chunk (any chunk, also empty) *)
Lemma capture_step_mk id off len st c :
  let r := mkRegion id false off len None (bslice off len st) false in
  (if r_end r || negb (rcomplete r) then rcapture r c (blen st + blen c) else r)
  = mkRegion id false off len None (bslice off len (st ++ c)) false.
Proof. intros r. exact (capture_step st c r eq_refl eq_refl eq_refl). Qed.

Lemma fill_complete id off len st :
  rcomplete (mkRegion id false off len None (bslice off len st) false) = (off + len <=? blen st) || (len =? 0).
Proof. unfold rcomplete, base_complete. cbn [r_end r_min r_len r_data]. rewrite flen_blen, blen_bslice. lia. Qed.

Lemma fill_regs_complete id l st :
  forallb (fun p => rcomplete (snd p)) (fill_regs id l st)
  = forallb (fun p => (rs_off (snd p) + rs_len (snd p) <=? blen st) || (rs_len (snd p) =? 0)) l.
Proof.
  revert id. induction l as [|[n sp] t IH]; intros id; cbn [fill_regs forallb snd]; [reflexivity|].
  rewrite fill_complete, IH. reflexivity.
Qed.

Lemma capture_regs_fill id l st c :
  capture_regs [] c (blen st + blen c) (fill_regs id l st) = fill_regs id l (st ++ c).
Proof.
  revert id. induction l as [|[n sp] t IH]; intros id; cbn [fill_regs]; [reflexivity|].
  rewrite capture_regs_map. cbn [map]. rewrite <- capture_regs_map, IH. f_equal.
  unfold cap1. rewrite <- (capture_step_mk id (rs_off sp) (rs_len sp) st c). cbv zeta.
  match goal with |- (if ?b then _ else _) = _ => destruct b end; reflexivity.
Qed.

Lemma fill_regs_ids id l st st' : ids (fill_regs id l st) = ids (fill_regs id l st').
Proof. revert id. induction l as [|[n sp] t IH]; intros id; cbn [fill_regs ids map snd r_id]; [reflexivity|]. f_equal. apply IH. Qed.

Lemma finish_fill id l st :
  map (fun p => (fst p, if r_end (snd p) then set_fin (snd p) true else snd p)) (fill_regs id l st) = fill_regs id l st.
Proof. revert id. induction l as [|[n sp] t IH]; intros id; cbn [fill_regs map fst snd r_end]; [reflexivity|]. rewrite IH. reflexivity. Qed.

Section Static.
Context {X : Type}.
Variable F : fmt X.
Hypothesis Hpost : f_post F = no_post.
Hypothesis Hspecs : static_specs (init_regions (f_id F)) = true.

(* the state after the stream [st], with attributes [x] *)
Definition ideal (st : bytes) (fin : bool) (x : X) : ist X :=
  mkIst (blen st) (fill_regs 0 (init_regions (f_id F)) st) (length (init_regions (f_id F))) fin
        (init_checks (f_id F)) x.

Lemma ideal_init : init_ist F = ideal [] false (f_ext0 F).
Proof. unfold init_ist, ideal. rewrite (init_regs_fill 0 _ Hspecs). reflexivity. Qed.

(* eat_chunk on an ideal state: capture, no new regions, then the callbacks of the newly complete regions *)
Lemma ideal_eat_chunk st c x :
  eat_chunk F (ideal st false x) c =
  run_callbacks F (newly_complete (complete_ids (fill_regs 0 (init_regions (f_id F)) st))
                                  (fill_regs 0 (init_regions (f_id F)) (st ++ c)))
                (ideal (st ++ c) false x).
Proof.
  unfold eat_chunk, do_capture. cbn [ideal i_fin i_pos i_regs set_pos set_regs].
  rewrite flen_blen, capture_regs_fill. rewrite Hpost. unfold no_post.
  unfold eat_fuel. cbn [settle i_regs].
  rewrite new_names_nil.
  - unfold ideal. rewrite blen_app. reflexivity.
  - intros p Hp. rewrite (fill_regs_ids 0 _ st (st ++ c)). unfold ids. apply in_map_iff. exists p. split; [reflexivity|exact Hp].
Qed.

Lemma ideal_finish st x : finish (ideal st false x) = ideal st true x.
Proof. unfold finish, ideal. cbn [i_pos i_regs i_next i_checks i_ext]. rewrite finish_fill. reflexivity. Qed.

(* the inspector is complete when the stream has reached the end of every (non-empty) window *)
Lemma ideal_complete st fin x :
  complete (ideal st fin x)
  = forallb (fun p => (rs_off (snd p) + rs_len (snd p) <=? blen st) || (rs_len (snd p) =? 0)) (init_regions (f_id F)).
Proof. apply fill_regs_complete. Qed.

(* callbacks that only recompute the format's own attributes, as a function [ext_of] of the stream *)
Section Callbacks.
Variable ext_of : bytes -> X.
Hypothesis Hcb : forall st c,
  run_callbacks F (newly_complete (complete_ids (fill_regs 0 (init_regions (f_id F)) st))
                                  (fill_regs 0 (init_regions (f_id F)) (st ++ c)))
                (ideal (st ++ c) false (ext_of st))
  = (ideal (st ++ c) false (ext_of (st ++ c)), None).

Lemma ideal_eat_all_ext st cs :
  eat_all F (ideal st false (ext_of st)) cs = (ideal (st ++ concat cs) false (ext_of (st ++ concat cs)), None).
Proof.
  revert st. induction cs as [|c t IH]; intros st; cbn [eat_all concat].
  - rewrite app_nil_r. reflexivity.
  - rewrite ideal_eat_chunk, Hcb, IH, app_assoc. reflexivity.
Qed.

(* the whole life of the inspector ends in the ideal state of the concatenated bytes, without
   exception — for ALL byte strings and ALL chunk lists *)
Theorem static_run_ext cs :
  f_ext0 F = ext_of [] -> run_fmt F cs = (ideal (concat cs) true (ext_of (concat cs)), None).
Proof.
  intros H0. unfold run_fmt. rewrite ideal_init, H0, ideal_eat_all_ext. cbn [app]. rewrite ideal_finish. reflexivity.
Qed.
End Callbacks.

Section NoCallback.
Hypothesis Hrc : f_rcomplete F = no_rcomplete.

Lemma run_callbacks_none names (s : ist X) : run_callbacks F names s = (s, None).
Proof. apply run_callbacks_noop. intros n s0. rewrite Hrc. reflexivity. Qed.

Lemma ideal_eat_all st cs x : eat_all F (ideal st false x) cs = (ideal (st ++ concat cs) false x, None).
Proof. apply (ideal_eat_all_ext (fun _ => x)). intros st' c. apply run_callbacks_none. Qed.

(* static_inspector_refines_spec, engine form *)
Theorem static_run cs : run_fmt F cs = (ideal (concat cs) true (f_ext0 F), None).
Proof. apply (static_run_ext (fun _ => f_ext0 F)); [intros st c; apply run_callbacks_none | reflexivity]. Qed.
End NoCallback.
End Static.
