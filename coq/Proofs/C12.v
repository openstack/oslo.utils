(* Proofs/C12.v — the model of the time helpers (Model/C12.v), in this order:
   field records <-> microsecond counts ([tod_split], [tod_join], [us_of_fields_of_us]);
   normalize_time ([normalizable]: the instant is representable);
   the override slot and sequences of advances ([adv], [run_advs]; [prefixes_ok]: every amount converts and every
   intermediate instant is representable; [sum_us]: the total moved);
   the comparisons under a scalar override ([resolves w t d]: the time argument t denotes the datetime d);
   marshalling ([is_utc_name], [with_second]); delta_seconds;
   a concrete world [ex_w] and instances of every hypothesis used above. *)
From Coq Require Import String.
Require Import OV.Base.Bytes OV.Base.Py OV.Base.PyFloat.
Require Import OV.Model.C12_Calendar OV.Model.C12_Prim OV.Model.C12 OV.Proofs.C12_Calendar.
Open Scope Z_scope.

Lemma tod_split D H Mi S u :
  0 <= H <= 23 -> 0 <= Mi <= 59 -> 0 <= S <= 59 -> 0 <= u <= 999999 ->
  let x := (((D * 24 + H) * 60 + Mi) * 60 + S) * US_PER_SEC + u in
  x / US_PER_DAY = D /\
  (x mod US_PER_DAY) / US_PER_SEC / 3600 = H /\
  ((x mod US_PER_DAY) / US_PER_SEC / 60) mod 60 = Mi /\
  ((x mod US_PER_DAY) / US_PER_SEC) mod 60 = S /\
  (x mod US_PER_DAY) mod US_PER_SEC = u.
Proof.
  intros HH HM HS Hu x. unfold US_PER_DAY, US_PER_SEC in *.
  assert (E1 : x / (86400 * 1000000) = D) by (subst x; zdm; lia).
  assert (E2 : x mod (86400 * 1000000) = ((H * 60 + Mi) * 60 + S) * 1000000 + u) by (subst x; zdm; lia).
  rewrite E1, E2. clear E1 E2 x.
  assert (E3 : (((H * 60 + Mi) * 60 + S) * 1000000 + u) / 1000000 = (H * 60 + Mi) * 60 + S) by (zdm; lia).
  assert (E4 : (((H * 60 + Mi) * 60 + S) * 1000000 + u) mod 1000000 = u) by (zdm; lia).
  rewrite E3, E4.
  repeat split; zdm; lia.
Qed.

Lemma tod_join x : 0 <= x ->
  let r := x mod US_PER_DAY in
  let secs := r / US_PER_SEC in
  0 <= secs / 3600 <= 23 /\ 0 <= (secs / 60) mod 60 <= 59 /\ 0 <= secs mod 60 <= 59 /\ 0 <= r mod US_PER_SEC <= 999999 /\
  ((((x / US_PER_DAY) * 24 + secs / 3600) * 60 + (secs / 60) mod 60) * 60 + secs mod 60) * US_PER_SEC + r mod US_PER_SEC = x.
Proof.
  intros Hx r secs. subst secs r. unfold US_PER_DAY, US_PER_SEC.
  zdm. lia.
Qed.

Lemma fields_eta f : mkF (f_year f) (f_month f) (f_day f) (f_hour f) (f_minute f) (f_second f) (f_us f) = f.
Proof. destruct f; reflexivity. Qed.

Lemma valid_fields_spec f : valid_fields f = true <->
  valid_ymd (f_year f) (f_month f) (f_day f) = true /\ f_year f <= MAXYEAR /\
  0 <= f_hour f <= 23 /\ 0 <= f_minute f <= 59 /\ 0 <= f_second f <= 59 /\ 0 <= f_us f <= 999999.
Proof. unfold valid_fields. destruct (valid_ymd (f_year f) (f_month f) (f_day f)); cbn [andb]; lia. Qed.

(* the readings of day D are those from D * US_PER_DAY up to, not including, (D + 1) * US_PER_DAY *)
Lemma tod_range D H Mi S u :
  0 <= H <= 23 -> 0 <= Mi <= 59 -> 0 <= S <= 59 -> 0 <= u <= 999999 ->
  D * US_PER_DAY <= (((D * 24 + H) * 60 + Mi) * 60 + S) * US_PER_SEC + u < (D + 1) * US_PER_DAY.
Proof. unfold US_PER_DAY, US_PER_SEC. lia. Qed.

Lemma us_of_fields_in_range f : valid_fields f = true -> in_range (us_of_fields f) = true.
Proof.
  intros V. apply valid_fields_spec in V. destruct V as (Vd & Vy & VH & VM & VS & Vu).
  pose proof (tod_range (days_of_ymd (f_year f) (f_month f) (f_day f)) _ _ _ _ VH VM VS Vu) as Ht.
  pose proof (days_of_ymd_range _ _ _ Vd) as [Hlo Hhi].
  apply valid_ymd_spec in Vd. pose proof (dby_nonneg (f_year f) ltac:(tauto)) as H0.
  pose proof (dby_mono (f_year f + 1) (MAXYEAR + 1) ltac:(lia)) as Hm.
  unfold in_range, MAX_US, us_of_fields. unfold US_PER_DAY, US_PER_SEC in *. lia.
Qed.

Lemma MAX_US_value : MAX_US = 315537897599999999.
Proof. reflexivity. Qed.

(* and every in-range count is the count of its (valid) field record *)
Theorem us_of_fields_of_us u : in_range u = true ->
  valid_fields (fields_of_us u) = true /\ us_of_fields (fields_of_us u) = u.
Proof.
  intros R. unfold in_range in R. apply andb_prop in R. destruct R as [R0 R1].
  apply Z.leb_le in R0. apply Z.leb_le in R1.
  (* through the numerals: unfolding MAX_US here would leave a conversion between two closed products *)
  assert (Hd : 0 <= u / US_PER_DAY < days_before_year (MAXYEAR + 1)).
  { rewrite MAX_US_value in R1. change (days_before_year (MAXYEAR + 1)) with 3652059.
    unfold US_PER_DAY, US_PER_SEC. split; [apply Z.div_pos; lia|apply Z.div_lt_upper_bound; lia]. }
  pose proof (days_of_ymd_of_days _ (proj1 Hd)) as C.
  pose proof (ymd_of_days_year_bound _ MAXYEAR Hd) as YB.
  destruct (tod_join u R0) as (JH & JM & JS & Ju & JE).
  unfold fields_of_us. destruct (ymd_of_days (u / US_PER_DAY)) as [[y m] d]. destruct C as [Cv Ce].
  split.
  - apply valid_fields_spec. exact (conj Cv (conj YB (conj JH (conj JM (conj JS Ju))))).
  - unfold us_of_fields. cbn [f_year f_month f_day f_hour f_minute f_second f_us]. rewrite Ce. exact JE.
Qed.

Theorem normalize_naive_id d : tz d = None -> normalize_time d = Ok d.
Proof. intros H. unfold normalize_time, dt_utcoffset. rewrite H. reflexivity. Qed.

(* an aware datetime goes to the naive reading of the UTC instant it denotes; when that
   instant is outside datetime's range CPython raises OverflowError *)
Theorem normalize_preserves_instant d z : tz d = Some z ->
  normalize_time d = if in_range (instant d) then Ok (naive (instant d)) else Exn OverflowError.
Proof.
  intros H. unfold normalize_time, dt_utcoffset, instant. rewrite H.
  unfold dt_sub_td, dt_add_td, dt_replace_tz_none. cbn [wall tz].
  replace (wall d + - tz_off z) with (wall d - tz_off z) by lia. reflexivity.
Qed.

Definition normalizable (d : dt) : bool := match tz d with None => true | Some _ => in_range (instant d) end.

Lemma normalize_result d : normalizable d = true ->
  exists n, normalize_time d = Ok n /\ tz n = None /\ wall n = instant d.
Proof.
  unfold normalizable. destruct (tz d) as [z|] eqn:E; intros H.
  - exists (naive (instant d)). rewrite (normalize_preserves_instant d z E), H. auto.
  - exists d. rewrite (normalize_naive_id d E). unfold instant. rewrite E. auto.
Qed.

Theorem override_returns_instant w t b : ov w = One t -> utcnow b w = (Ok t, w).
Proof. intros H. unfold utcnow. rewrite H. reflexivity. Qed.

Theorem clear_then_real w b : utcnow b (snd (clear_time_override w)) = real_now b (snd (clear_time_override w)).
Proof. reflexivity. Qed.

(* one advance: exact, or OverflowError with the slot untouched *)
Theorem advance_one w t delta : ov w = One t ->
  advance_time_delta delta w =
    if in_range (wall t + delta) then (Ok tt, set_ov w (One (mkDt (wall t + delta) (tz t)))) else (Exn OverflowError, w).
Proof.
  intros H. unfold advance_time_delta. rewrite H. unfold dt_add_td.
  destruct (in_range (wall t + delta)); reflexivity.
Qed.

(* advance_time_seconds(x) = advance_time_delta(timedelta(0, x)); a conversion error leaves the slot alone *)
Theorem advance_seconds_is_delta x u w : td_of_days_seconds 0 x = Ok u -> advance_time_seconds x w = advance_time_delta u w.
Proof. intros H. unfold advance_time_seconds, bindM, lift. rewrite H. reflexivity. Qed.
Theorem advance_seconds_error x e w : td_of_days_seconds 0 x = Exn e -> advance_time_seconds x w = (Exn e, w).
Proof. intros H. unfold advance_time_seconds, bindM, lift. rewrite H. reflexivity. Qed.

(* any sequence of advances: by a timedelta (microseconds) or by a Python number of seconds, through the module
   functions or through the TimeFixture methods *)
Inductive adv := ByDelta (us : Z) | BySeconds (x : pynum) | FxByDelta (us : Z) | FxBySeconds (x : pynum).
Definition adv_us (a : adv) : res Z :=
  match a with ByDelta u | FxByDelta u => Ok u | BySeconds x | FxBySeconds x => td_of_days_seconds 0 x end.
Definition run_adv (a : adv) : M unit :=
  match a with
  | ByDelta u => advance_time_delta u | BySeconds x => advance_time_seconds x
  | FxByDelta u => fixture_advance_time_delta u | FxBySeconds x => fixture_advance_time_seconds x
  end.
Fixpoint run_advs (l : list adv) : M unit :=
  match l with [] => ret tt | a :: r => bindM (run_adv a) (fun _ => run_advs r) end.
Definition adv_us0 (a : adv) : Z := match adv_us a with Ok u => u | Exn _ => 0 end.
Definition sum_us (l : list adv) : Z := fold_right (fun a s => adv_us0 a + s) 0 l.
(* every amount converts and every intermediate instant is representable *)
Fixpoint prefixes_ok (t : Z) (l : list adv) : bool :=
  match l with
  | [] => true
  | a :: r => match adv_us a with
              | Ok u => in_range (t + u) && prefixes_ok (t + u) r
              | Exn _ => false
              end
  end.

Lemma run_adv_us a u w : adv_us a = Ok u -> run_adv a w = advance_time_delta u w.
Proof.
  destruct a as [d|x|d|x]; cbn [adv_us run_adv]; intros H;
    unfold fixture_advance_time_delta, fixture_advance_time_seconds;
    try (injection H as ->; reflexivity); apply advance_seconds_is_delta; exact H.
Qed.

Theorem advance_exact l : forall w t, ov w = One t -> prefixes_ok (wall t) l = true ->
  run_advs l w = (Ok tt, set_ov w (One (mkDt (wall t + sum_us l) (tz t)))).
Proof.
  induction l as [|a r IH]; intros w t Hov Hp.
  - cbn. replace (wall t + 0) with (wall t) by lia. unfold ret. f_equal.
    destruct w as [o rl p z]. cbn in *. subst. destruct t; reflexivity.
  - cbn [prefixes_ok] in Hp. destruct (adv_us a) as [u|e] eqn:Eu; [|discriminate].
    apply andb_prop in Hp. destruct Hp as [H1 H2].
    cbn [run_advs]. unfold bindM.
    rewrite (run_adv_us a u w Eu), (advance_one w t u Hov), H1.
    rewrite (IH (set_ov w (One (mkDt (wall t + u) (tz t)))) (mkDt (wall t + u) (tz t)) eq_refl H2).
    cbn [wall tz sum_us fold_right]. f_equal. unfold set_ov. cbn [ov real lib_parse lib_zone].
    f_equal. f_equal. f_equal. fold (sum_us r). unfold adv_us0. rewrite Eu. lia.
Qed.

(* and utcnow afterwards returns exactly the moved instant *)
Corollary advance_then_utcnow l w t b : ov w = One t -> prefixes_ok (wall t) l = true ->
  bindM (run_advs l) (fun _ => utcnow b) w =
    (Ok (mkDt (wall t + sum_us l) (tz t)), set_ov w (One (mkDt (wall t + sum_us l) (tz t)))).
Proof. intros H P. unfold bindM. rewrite (advance_exact l w t H P). reflexivity. Qed.

(* the first advance leaving the range raises OverflowError and nothing moves *)
Theorem advance_overflow w t delta : ov w = One t -> in_range (wall t + delta) = false ->
  advance_time_delta delta w = (Exn OverflowError, w).
Proof. intros H R. rewrite (advance_one w t delta H), R. reflexivity. Qed.

(* a list override that is exhausted (or none) falls through to the OS clock *)
Theorem utcnow_list_exhausted w b : ov w = Many [] -> utcnow b w = real_now b w.
Proof. intros H. unfold utcnow. rewrite H. reflexivity. Qed.

(* what a time argument denotes: a datetime, or the datetime the ISO parser returns *)
Definition resolves (w : world) (t : targ) (d : dt) : Prop :=
  match t with TDt d' => d' = d | TStr s => lib_parse w s = Ok d end.

Lemma targ_to_dt_resolves w t d : resolves w t d -> targ_to_dt t w = (Ok d, w).
Proof.
  destruct t as [d'|s]; cbn [resolves targ_to_dt]; intros H.
  - subst. reflexivity.
  - unfold parse_isotime. rewrite H. reflexivity.
Qed.

Section Compare.
  Variables (w : world) (now : dt) (t : targ) (d : dt) (s : pynum) (su : Z).
  Hypothesis Hov : ov w = One now.
  Hypothesis Hnaive : tz now = None.                  (* the clock is naive UTC *)
  Hypothesis Hres : resolves w t d.
  Hypothesis Hnorm : normalizable d = true.
  Hypothesis Hs : td_of_seconds s = Ok su.            (* timedelta(seconds=s) is su microseconds *)

  Theorem older_iff : exists b, is_older_than t s w = (Ok b, w) /\ (b = true <-> wall now - instant d > su).
  Proof.
    destruct (normalize_result d Hnorm) as (n & En & Tn & Wn).
    exists (wall now - instant d >? su). split; [|lia].
    unfold is_older_than, bindM. rewrite (targ_to_dt_resolves w t d Hres).
    unfold lift at 1. rewrite En. rewrite (override_returns_instant w now false Hov).
    unfold lift, dt_sub. rewrite Hnaive, Tn, Wn, Hs. reflexivity.
  Qed.

  Theorem newer_iff : exists b, is_newer_than t s w = (Ok b, w) /\ (b = true <-> instant d - wall now > su).
  Proof.
    destruct (normalize_result d Hnorm) as (n & En & Tn & Wn).
    exists (instant d - wall now >? su). split; [|lia].
    unfold is_newer_than, bindM. rewrite (targ_to_dt_resolves w t d Hres).
    unfold lift at 1. rewrite En. rewrite (override_returns_instant w now false Hov).
    unfold lift, dt_sub. rewrite Hnaive, Tn, Wn, Hs. reflexivity.
  Qed.

  (* [now + window] must be representable *)
  Theorem soon_iff : in_range (wall now + su) = true ->
    exists b, is_soon t s w = (Ok b, w) /\ (b = true <-> instant d <= wall now + su).
  Proof.
    intros Hr. destruct (normalize_result d Hnorm) as (n & En & Tn & Wn).
    exists (instant d <=? wall now + su). split; [|lia].
    unfold is_soon, bindM. rewrite (targ_to_dt_resolves w t d Hres).
    rewrite (override_returns_instant w now false Hov).
    unfold lift at 1. rewrite Hs.
    unfold lift at 1. unfold dt_add_td. rewrite Hr.
    unfold lift at 1. rewrite En.
    unfold lift, dt_le, dt_cmp. cbn [tz wall]. rewrite Hnaive, Tn, Wn. reflexivity.
  Qed.
End Compare.

Lemma dt_fields_valid d : in_range (wall d) = true ->
  valid_fields (dt_fields d) = true /\ us_of_fields (dt_fields d) = wall d.
Proof. intros R. exact (us_of_fields_of_us (wall d) R). Qed.

Lemma mk_datetime_fields d : in_range (wall d) = true ->
  mk_datetime (mkF (dt_year d) (dt_month d) (dt_day d) (dt_hour d) (dt_minute d) (dt_second d) (dt_microsecond d))
  = Ok (naive (wall d)).
Proof.
  intros R. destruct (dt_fields_valid d R) as [V E].
  unfold dt_year, dt_month, dt_day, dt_hour, dt_minute, dt_second, dt_microsecond.
  rewrite fields_eta.
  unfold mk_datetime. rewrite V, E. reflexivity.
Qed.

Lemma second_le_59 d : in_range (wall d) = true -> Z.min (dt_second d) MAX_DATETIME_SEC = dt_second d.
Proof.
  intros R. destruct (dt_fields_valid d R) as [V _]. apply valid_fields_spec in V.
  unfold dt_second, MAX_DATETIME_SEC. lia.
Qed.

Definition is_utc_name (n : str) : bool := beq n utc_name || beq n utc_long_name.

(* UTC datetimes (offset 0, tzname 'UTC' or 'UTC+00:00') come back with the same wall reading
   and the UTC zone of the zoneinfo database; the contract on the database is that its 'UTC'
   entry has offset 0 *)
Theorem unmarshall_marshall_utc w d n z :
  tz d = Some (mkTz 0 (Some n)) -> is_utc_name n = true -> in_range (wall d) = true ->
  lib_zone w utc_name = Ok z -> z_utcoffset z (wall d) = 0 ->
  exists d', bindM (marshall_now (Some d)) unmarshall_time w = (Ok d', w) /\
             wall d' = wall d /\ dt_utcoffset d' = Some 0 /\ instant d' = instant d.
Proof.
  intros Ht Hn R Hz Hz0. exists (dt_replace_zone (naive (wall d)) z). split.
  - assert (Em : marshall_now (Some d) w =
                 (Ok (mkM (dt_day d) (dt_month d) (dt_year d) (dt_hour d) (dt_minute d) (dt_second d) (dt_microsecond d)
                          (Some (Some utc_name))), w)).
    { unfold marshall_now, bindM, ret. unfold dt_has_tzinfo, dt_tzname_none. rewrite Ht. cbn [tz_name].
      unfold is_utc_name in Hn. apply orb_prop in Hn.
      destruct Hn as [Hn|Hn]; apply beq_eq in Hn; subst n; reflexivity. }
    unfold bindM. rewrite Em.
    unfold unmarshall_time, bindM. cbn [m_second m_year m_month m_day m_hour m_minute m_microsecond].
    rewrite (second_le_59 d R). unfold lift. rewrite (mk_datetime_fields d R).
    cbn [mrec_get_tzname m_tzname].
    change (optstr_truthy (Some utc_name)) with (Some utc_name).
    unfold call_zone. cbv beta.
    assert (Eb : beq utc_name utc_long_name = false) by reflexivity. rewrite Eb, Hz. reflexivity.
  - unfold dt_replace_zone, naive, dt_utcoffset, instant. cbn [wall tz tz_off]. rewrite Hz0, Ht. cbn [tz_off]. repeat split; lia.
Qed.

(* a leap second (or anything above 59) is read as second 59 *)
Definition with_second (m : mrec) (s : Z) : mrec :=
  mkM (m_day m) (m_month m) (m_year m) (m_hour m) (m_minute m) s (m_microsecond m) (m_tzname m).

Theorem delta_seconds_value a b : tz a = None -> tz b = None ->
  exists e, delta_seconds a b = Ok e /\ fval e = Some (wall b - wall a, US_PER_SEC).
Proof.
  intros Ha Hb. unfold delta_seconds, dt_sub. rewrite Ha, Hb. eexists. split; [reflexivity|].
  cbn. f_equal. f_equal. lia.
Qed.

(* non-vacuity: a concrete world.  Clock overridden to 2020-01-01T00:00:00; the parser
   oracle answers 2020-01-01T00:00:00+01:00; the zone database knows UTC *)
Definition ex_now : dt := naive 63713433600000000.
Definition ex_d : dt := mkDt 63713433600000000 (Some (mkTz 3600000000 (Some (lit "+01:00")))).
Definition ex_w : world := mkW (One ex_now) 5 (fun _ => Ok ex_d) (fun _ => Ok (mkZone (fun _ => 0) (Some utc_name))).
Definition ex_s : str := lit "2020-01-01T00:00:00+01:00".

(* ex_d is one hour before the clock: older than the float 3599.999999 s, not older than the int 3600 s *)
Definition ex_f : float64 := f_normalize 7916483717788177 (-41).          (* 3599.999999 *)
Definition ex_fneg : float64 := f_normalize (-7916483717788177) (-41).
Example td_float_ex : td_of_seconds (PFloat ex_f) = Ok 3599999999 /\ td_of_seconds (PInt 3600) = Ok 3600000000 /\
                      td_of_seconds (PFloat (f_normalize 4508103226997866 (-52))) = Ok 1001000 /\   (* 1.001: 1.001*1e6 < 1001000 in binary64 *)
                      td_of_seconds (PFloat (f_normalize 4593239274353678 (-64))) = Ok 249.          (* 0.000249 *)
Proof. repeat split; vm_compute; reflexivity. Qed.
Example older_ex : is_older_than (TStr ex_s) (PFloat ex_f) ex_w = (Ok true, ex_w) /\ is_older_than (TDt ex_d) (PInt 3600) ex_w = (Ok false, ex_w).
Proof. split; vm_compute; reflexivity. Qed.
Example newer_ex : is_newer_than (TStr ex_s) (PInt (-3601)) ex_w = (Ok true, ex_w) /\ is_newer_than (TDt ex_d) (PInt (-3600)) ex_w = (Ok false, ex_w).
Proof. split; vm_compute; reflexivity. Qed.
Example soon_ex : is_soon (TStr ex_s) (PInt (-3600)) ex_w = (Ok true, ex_w) /\ is_soon (TDt ex_d) (PFloat (f_normalize (-7916483722186223) (-41))) ex_w = (Ok false, ex_w).
Proof. split; vm_compute; reflexivity. Qed.
Example compare_hyps_ex : ov ex_w = One ex_now /\ tz ex_now = None /\ resolves ex_w (TStr ex_s) ex_d /\ resolves ex_w (TDt ex_d) ex_d /\
                          normalizable ex_d = true /\ in_range (wall ex_now + (-3600000000)) = true.
Proof. repeat split. Qed.
Example normalize_ex : normalize_time ex_d = Ok (naive 63713430000000000) /\ normalize_time ex_now = Ok ex_now.
Proof. split; reflexivity. Qed.
Example advance_ex :
  prefixes_ok (wall ex_now) [ByDelta 1; BySeconds (PInt (-2)); FxByDelta 86400000000; FxBySeconds (PFloat (f_normalize 4508103226997866 (-52)))] = true /\
  bindM (run_advs [ByDelta 1; BySeconds (PInt (-2)); FxByDelta 86400000000; FxBySeconds (PFloat (f_normalize 4508103226997866 (-52)))]) (fun _ => utcnow false) ex_w
  = (Ok (naive 63713519999001001), set_ov ex_w (One (naive 63713519999001001))).
Proof. split; vm_compute; reflexivity. Qed.
Example ts_ex : utcnow_ts false ex_w = (Ok (FInt 1577836800), ex_w) /\ in_range (wall ex_now) = true.
Proof. split; vm_compute; reflexivity. Qed.
Definition ex_utc : dt := mkDt 63713433600000001 (Some (mkTz 0 (Some utc_long_name))).
Example marshall_utc_ex :
  bindM (marshall_now (Some ex_utc)) unmarshall_time ex_w = (Ok (mkDt 63713433600000001 (Some utc_tz)), ex_w) /\
  is_utc_name utc_long_name = true /\ in_range (wall ex_utc) = true /\
  lib_zone ex_w utc_name = Ok (mkZone (fun _ => 0) (Some utc_name)).
Proof. repeat split; vm_compute; reflexivity. Qed.
Example marshall_naive_ex : bindM (marshall_now (Some ex_now)) unmarshall_time ex_w = (Ok ex_now, ex_w).
Proof. vm_compute. reflexivity. Qed.
Example leap_ex :
  unmarshall_time (mkM 30 6 2015 23 59 60 0 None) ex_w = (Ok (naive (us_of_fields (mkF 2015 6 30 23 59 59 0))), ex_w).
Proof. vm_compute. reflexivity. Qed.
Example fields_ex : valid_fields (mkF 2024 2 29 23 59 59 999999) = true /\ in_range 63844847999999999 = true /\
                    fields_of_us 63844847999999999 = mkF 2024 2 29 23 59 59 999999.
Proof. repeat split; vm_compute; reflexivity. Qed.
Example calendar_ex : valid_ymd 2024 2 29 = true /\ ymd_of_days (days_of_ymd 2024 2 29) = (2024, 2, 29) /\ valid_ymd 2023 2 29 = false.
Proof. repeat split; vm_compute; reflexivity. Qed.
Example advance_overflow_ex : in_range (wall (naive MAX_US) + 1) = false /\
  advance_time_delta 1 (mkW (One (naive MAX_US)) 0 (fun _ => Exn ValueError) (fun _ => Exn KeyError)) =
  (Exn OverflowError, mkW (One (naive MAX_US)) 0 (fun _ => Exn ValueError) (fun _ => Exn KeyError)).
Proof. split; vm_compute; reflexivity. Qed.
Example normalize_overflow_ex : normalize_time (mkDt 0 (Some (mkTz 60000000 None))) = Exn OverflowError.
Proof. reflexivity. Qed.
