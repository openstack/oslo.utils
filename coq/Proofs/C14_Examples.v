(* Proofs/C14_Examples.v — instances showing that the hypotheses of the C14 theorems are
   satisfiable (non-vacuity), and the known finding MAXDIGITS replayed on the model. *)
From Coq Require Import String.
Require Import OV.Base.Bytes OV.Base.Py OV.Base.PyInt OV.Base.Str.
Require Import OV.Model.C14_Py OV.Gen.C14 OV.Model.C14.
Require Import OV.Proofs.C14_Bool OV.Proofs.C14_Num OV.Proofs.C14_Uuid.
Open Scope Z_scope.

(* a padded, mixed-case word *)
Example norm_bool_example : norm_bool ([32; 9]%N ++ lit "YeS" ++ [133]%N) = lit "yes" /\ In (lit "yes") all_words.
Proof. split; [vm_compute; reflexivity|]. apply mem_str_In. vm_compute. reflexivity. Qed.

Example word_match_example : word_match ([32; 9]%N ++ lit "YeS" ++ [133]%N) TRUE_STRINGS.
Proof.
  exists (lit "yes"). split; [apply mem_str_In; vm_compute; reflexivity|].
  exists [32; 9]%N, (lit "YeS"), [133]%N. repeat split; vm_compute; reflexivity.
Qed.

Example bool_from_string_examples :
  bool_from_string 4300 (PStr ([32; 9]%N ++ lit "YeS" ++ [133]%N)) true PNone = Ok (PBool true) /\
  bool_from_string 4300 (PStr (lit "oFF")) true PNone = Ok (PBool false) /\
  bool_from_string 4300 (PStr (lit "maybe")) false (PStr (lit "dflt")) = Ok (PStr (lit "dflt")) /\
  bool_from_string 4300 (PStr (lit "maybe")) true PNone = Exn ValueError /\
  bool_from_string 4300 (PInt 1) true PNone = Ok (PBool true) /\
  bool_from_string 4300 PNone true PNone = Exn ValueError /\
  (* KELVIN SIGN lowers to 'k', LONG S does not lower to 's': neither makes a word *)
  bool_from_string 4300 (PStr (lit "ye" ++ [383]%N)) false PNone = Ok PNone.
Proof. repeat split; vm_compute; reflexivity. Qed.

(* hypotheses of C14_is_valid_boolstr_agrees_unpadded *)
Example agrees_unpadded_instances :
  (is_bool (PStr (lit "On")) = false /\ py_str 4300 (PStr (lit "On")) = Ok (lit "On") /\ strip (lit "On") = lit "On") /\
  (is_bool (PInt 1) = false /\ py_str 4300 (PInt 1) = Ok (lit "1") /\ strip (lit "1") = lit "1").
Proof. repeat split; vm_compute; reflexivity. Qed.

Example within_limit_instance : within_limit 4300 (-123) = true /\ within_limit 2 100 = false /\ within_limit 0 (10 ^ 50) = true.
Proof. repeat split; vm_compute; reflexivity. Qed.

Example is_int_like_examples :
  is_int_like 4300 (PStr (lit "-12")) = Ok true /\ is_int_like 4300 (PStr (lit "012")) = Ok false /\
  is_int_like 4300 (PStr (lit "-0")) = Ok false /\ is_int_like 4300 (PStr (lit " 1")) = Ok false /\
  is_int_like 4300 (PStr (lit "1_0")) = Ok false /\ is_int_like 4300 (PInt 7) = Ok true /\
  is_int_like 4300 (POther (lit "1.0") (Ok 1)) = Ok false.
Proof. repeat split; vm_compute; reflexivity. Qed.

Example validate_integer_examples :
  validate_integer 4300 (PStr (lit " +1_0 ")) (Some 10) (Some 10) = Ok 10 /\
  validate_integer 4300 (PStr (lit "11")) (Some 0) (Some 10) = Exn ValueError /\
  validate_integer 4300 (PStr (lit "-1")) (Some 0) None = Exn ValueError /\
  validate_integer 4300 (PStr ([28]%N ++ lit "1")) None None = Exn ValueError /\     (* U+001C is not whitespace for int() *)
  validate_integer 4300 (PStr ([133]%N ++ lit "1")) None None = Ok 1 /\               (* U+0085 is *)
  validate_integer 4300 (PStr [1633; 1634]%N) None None = Ok 12 /\                    (* ARABIC-INDIC digits *)
  validate_integer 4300 (POther (lit "1.0") (Ok 1)) None None = Exn ValueError.
Proof. repeat split; vm_compute; reflexivity. Qed.

Example hexdigits32_instance : hexdigits32 (lit "0123456789abcdefABCDEF0123456789") = true.
Proof. vm_compute. reflexivity. Qed.

Example is_uuid_like_examples :
  is_uuid_like 4300 (PStr (lit "{urn:uuid:0123456789abcdef-ABCDEF0123456789}")) = Ok true /\
  is_uuid_like 4300 (PStr (lit "0x23456789abcdefABCDEF0123456789")) = Ok false /\   (* uuid.UUID accepts it, the comparison does not *)
  is_uuid_like 4300 (PStr (lit "0123456789abcdefABCDEF012345678")) = Ok false /\    (* 31 digits *)
  is_uuid_like 4300 (PStr (lit "{0123456789abcdefABCDEF0123456789a}")) = Ok false /\ (* 33 digits, braced *)
  is_uuid_like 4300 (PInt 5) = Ok false /\ is_uuid_like 4300 PNone = Ok false.
Proof. rewrite !is_uuid_like_str. repeat apply conj; vm_compute; reflexivity. Qed.

(* known finding MAXDIGITS (shown with a limit of 2 digits): str(100) raises, so a non-strict
   bool_from_string raises ValueError instead of returning the default, and is_int_like(100) is False *)
Example finding_MAXDIGITS :
  bool_from_string 2 (PInt 100) false (PBool false) = Exn ValueError /\
  is_int_like 2 (PInt 100) = Ok false /\ is_int_like 2 (PStr (lit "100")) = Ok false /\
  is_int_like 0 (PStr (lit "100")) = Ok true.
Proof. repeat split; vm_compute; reflexivity. Qed.
