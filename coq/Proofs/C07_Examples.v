(* Proofs/C07_Examples.v — non-vacuity: for each theorem of Properties/C07.v an image satisfying its hypotheses
   (built from the specification constants), checked by computation, and the size the model reports on it. *)
From Coq Require Import String.
Require Import OV.Base.Bytes OV.Base.Py OV.Base.Str OV.Base.Insp_Struct OV.Gen.Insp_Consts
               OV.Model.Insp_Engine OV.Model.Insp_All OV.Model.C07.
Require Import OV.Proofs.C07_Engine OV.Proofs.C07_Vmdk OV.Proofs.C07_Vhdx.
Open Scope N_scope.

Definition zeros (n : N) : bytes := repeatN 0 (N.to_nat n).
(* [b] with the bytes [v] written at offset [off] *)
Definition patch (off : N) (v b : bytes) : bytes := btake off b ++ v ++ bskip (off + blen v) b.
(* cut [b] after [n] bytes: a two-chunk presentation *)
Definition cut2 (n : N) (b : bytes) : list bytes := [btake n b; bskip n b].

Definition ex_size : N := 18446744073709551615.      (* 2^64 - 1 *)

Definition ex_vhd : bytes := patch 40 (be_enc 8 ex_size) (patch 0 SPEC_VHD_COOKIE (zeros 512)).
Example ex_vhd_wf : wf_vhd ex_size ex_vhd = true.
Proof. vm_compute. reflexivity. Qed.
Example ex_vhd_size : vsize_end F_vhd (cut2 43 ex_vhd) = Ok (Z.of_N ex_size).
Proof. vm_compute. reflexivity. Qed.
Example ex_vhd_prefix : vsize_now F_vhd (cut2 43 (btake 511 ex_vhd)) = Ok 0%Z.
Proof. vm_compute. reflexivity. Qed.

Definition ex_qcow2 : bytes := patch 24 (be_enc 8 ex_size) (patch 0 SPEC_QCOW2_MAGIC (zeros 600)).
Example ex_qcow2_wf : wf_qcow2 ex_size ex_qcow2 = true.
Proof. vm_compute. reflexivity. Qed.
Example ex_qcow2_size : vsize_end F_qcow2 (cut2 25 ex_qcow2) = Ok (Z.of_N ex_size).
Proof. vm_compute. reflexivity. Qed.

Definition ex_vdi : bytes := patch 368 (le_enc 8 ex_size) (patch 64 (le_enc 4 SPEC_VDI_SIGNATURE) (zeros 512)).
Example ex_vdi_wf : wf_vdi ex_size ex_vdi = true.
Proof. vm_compute. reflexivity. Qed.
Example ex_vdi_size : vsize_end F_vdi (cut2 370 ex_vdi) = Ok (Z.of_N ex_size).
Proof. vm_compute. reflexivity. Qed.

Definition ex_iso : bytes :=
  patch (SPEC_ISO_PVD + 128) (le_enc 2 65535) (patch (SPEC_ISO_PVD + 80) (le_enc 4 4294967295)
    (patch SPEC_ISO_PVD (1 :: lit "CD001") (zeros 34816))).
Example ex_iso_wf : wf_iso 4294967295 65535 ex_iso = true.
Proof. vm_compute. reflexivity. Qed.
Example ex_iso_size : vsize_end F_iso (cut2 32800 ex_iso) = Ok (Z.of_N (4294967295 * 65535)).
Proof. vm_compute. reflexivity. Qed.

Definition ex_luks : bytes := patch 104 (be_enc 4 8) (patch 0 SPEC_LUKS_MAGIC (zeros 5000)).
Example ex_luks_wf : wf_luks 8 ex_luks = true.
Proof. vm_compute. reflexivity. Qed.
Example ex_luks_size : vsize_end F_luks (cut2 100 ex_luks) = Ok 904%Z.
Proof. vm_compute. reflexivity. Qed.
(* the payload offset may lie beyond the stream: the reported value is then negative *)
Definition ex_luks_neg : bytes := patch 104 (be_enc 4 4294967295) (patch 0 SPEC_LUKS_MAGIC (zeros 592)).
Example ex_luks_neg_wf : wf_luks 4294967295 ex_luks_neg = true.
Proof. vm_compute. reflexivity. Qed.
Example ex_luks_neg_size : vsize_end F_luks [ex_luks_neg] = Ok (592 - 4294967295 * 512)%Z.
Proof. vm_compute. reflexivity. Qed.

(* VMDK: streamOptimized image announcing a footer (gdOffset = 2^64-1), capacity 2^64-1 sectors, one descriptor sector *)
Definition ex_vmdk_desc : bytes := lit "# Disk DescriptorFile" ++ [10] ++ lit "CREATETYPE=""streamOptimized""" ++ [10].
Definition ex_vmdk : bytes :=
  patch 512 ex_vmdk_desc (patch 56 (le_enc 8 ex_size) (patch 36 (le_enc 8 1) (patch 28 (le_enc 8 1)
    (patch 12 (le_enc 8 ex_size) (patch 4 (le_enc 4 3) (patch 0 SPEC_VMDK_MAGIC (zeros 3000))))))).
Example ex_vmdk_wf : wf_vmdk ex_size 3 1 ex_vmdk = true.
Proof. vm_compute. reflexivity. Qed.
Example ex_vmdk_size : vsize_end F_vmdk (cut2 70 ex_vmdk) = Ok (Z.of_N (ex_size * 512)).
Proof. vm_compute. reflexivity. Qed.
Example ex_vmdk_prefix : is_prefix (btake 1023 ex_vmdk) ex_vmdk = true /\ vsize_now F_vmdk (cut2 5 (btake 1023 ex_vmdk)) = Ok 0%Z.
Proof. vm_compute. split; reflexivity. Qed.
(* outside the hypotheses (no sparse header; zone F1): a text-only descriptor naming a sparse type, first chunk of
   4..43 bytes: virtual_size raises struct.error; with 44..63 bytes it reports bytes of the text as a size *)
Definition ex_vmdk_text : bytes := lit "createType=""monolithicSparse""" ++ [10] ++ lit "RW 1 SPARSE ""a""" ++ [10] ++ zeros 40.
Example ex_vmdk_text_raises : vsize_now F_vmdk [btake 30 ex_vmdk_text] = Exn StructError.
Proof. vm_compute. reflexivity. Qed.
Example ex_vmdk_text_garbage : vsize_now F_vmdk [btake 46 ex_vmdk_text] = Ok 3853699477345195186688%Z.
Proof. vm_compute. reflexivity. Qed.

(* VHDX: two region-table entries (BAT first), metadata region right behind the header area, two metadata entries
   (file parameters first), size item 64 KiB into the region *)
Definition ex_guid_bat : bytes := [102;119;194;45;35;246;0;66;157;100;17;94;155;253;74;8].
Definition ex_guid_fp : bytes := [55;103;161;202;54;250;67;77;179;182;51;240;170;68;231;107].
Definition ex_vhdx_layout : vhdx_layout := mkVhdxLayout 2 1 262144 2 1 65536.
Definition ex_vhdx : bytes :=
  patch 327680 (le_enc 8 ex_size)
  (patch 262144 (SPEC_VHDX_META_SIG ++ [0;0] ++ le_enc 2 2 ++ zeros 20
                 ++ ex_guid_fp ++ le_enc 4 65544 ++ le_enc 4 4 ++ zeros 8
                 ++ SPEC_GUID_VDS ++ le_enc 4 65536 ++ le_enc 4 8 ++ zeros 8)
  (patch 196608 (SPEC_VHDX_REGI ++ zeros 4 ++ le_enc 4 2 ++ zeros 4
                 ++ ex_guid_bat ++ le_enc 8 3145728 ++ le_enc 4 1048576 ++ le_enc 4 1
                 ++ SPEC_GUID_METAREGION ++ le_enc 8 262144 ++ le_enc 4 1048576 ++ le_enc 4 1)
  (patch 0 SPEC_VHDX_IDENT (zeros 327700)))).
Example ex_vhdx_wf : wf_vhdx ex_size ex_vhdx_layout ex_vhdx = true.
Proof. vm_compute. reflexivity. Qed.
(* as one chunk (the D1 situation) and cut inside the region table: instances of the theorems, for which
   the bytes of the image matter only through ex_vhdx_wf *)
Example ex_vhdx_size_one_chunk : vsize_end F_vhdx [ex_vhdx] = Ok (Z.of_N ex_size).
Proof.
  generalize ex_vhdx_wf. generalize ex_vhdx. intros b W.
  apply (vsize_vhdx_wellformed_lemma ex_size ex_vhdx_layout b [b]); [reflexivity | exact W | apply app_nil_r].
Qed.
Example ex_vhdx_size_two_chunks : vsize_end F_vhdx (cut2 196700 ex_vhdx) = Ok (Z.of_N ex_size).
Proof.
  generalize ex_vhdx_wf. generalize ex_vhdx. intros b W.
  apply (vsize_vhdx_wellformed_lemma ex_size ex_vhdx_layout b (cut2 196700 b)); [reflexivity | exact W |].
  cbn [cut2 concat]. rewrite app_nil_r. apply btake_bskip_app.
Qed.
(* one byte short of the end of the size item *)
Example ex_vhdx_prefix : vsize_now F_vhdx [btake 327687 ex_vhdx] = Ok 0%Z.
Proof.
  generalize ex_vhdx_wf. generalize ex_vhdx. intros b W.
  apply (vsize_zero_while_unknown_vhdx_lemma b ex_size ex_vhdx_layout [btake 327687 b]); [reflexivity | exact W | |];
    cbn [concat]; rewrite app_nil_r.
  - apply is_prefix_btake.
  - rewrite blen_btake. change (vhdx_known_at ex_vhdx_layout) with 327688. lia.
Qed.
