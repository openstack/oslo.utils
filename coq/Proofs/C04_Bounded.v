(* Proofs/C04_Bounded.v — mask_whole_bounded (C04_mask_whole_bounded of Properties/C04.v): the WHOLE function (all keys,
   all twelve substitutions in order) on the finite family Model/C04_Sweep.family_quick.
   BOUNDED: a finite family, checked by computation. *)
Require Import OV.Base.Bytes OV.Base.PyInt OV.Base.Str OV.Base.Regex.
Require Import OV.Gen.C04_Sanitize OV.Gen.C04_Concrete OV.Model.C04 OV.Model.C04_Spec OV.Model.C04_Sweep.

(* As written, mask_password lowers the message once per key (35 times) although the message only
   changes when a substitution fires, and str.lower() of a non-ASCII character is a table search;
   in_zone (the zones of the known findings K12 and K14, Model/C04.v) does the same and also rebuilds
   the list of K14 keys for every message.  That is nearly all of the cost of checking a case.  [mask_go] carries lower(message) along and lowers again only
   after a change; [zone_fast] lowers once and takes the K14 keys as an argument. *)
Fixpoint mask_go (tbl : list entry) (m lm secret : str) : str :=
  match tbl with
  | [] => m
  | e :: t => if occursb (fst e) lm
              then let m' := fold_left (run_step secret (snd e)) gen_steps m in
                   mask_go t m' (if beq m' m then lm else lower m') secret
              else mask_go t m lm secret
  end.
Definition mask_fast (m secret : str) : str := mask_go gen_concrete m (lower m) secret.

Lemma mask_go_eq secret : forall tbl m, mask_go tbl m (lower m) secret = mask_with tbl m secret.
Proof.
  unfold mask_with. induction tbl as [|e t IH]; intros m; [reflexivity|]. cbn [mask_go fold_left].
  unfold apply_key at 2. destruct (occursb (fst e) (lower m)); [|apply IH].
  set (m' := fold_left _ gen_steps m). rewrite <- IH. f_equal.
  destruct (beq m' m) eqn:E; [|reflexivity]. apply beq_eq in E. rewrite E. reflexivity.
Qed.
Lemma mask_go_password m secret : mask_go gen_concrete m (lower m) secret = mask_password m secret.
Proof. apply mask_go_eq. Qed.
Lemma mask_fast_eq m secret : mask_fast m secret = mask_password m secret.
Proof. exact (mask_go_password m secret). Qed.

Definition zone_l (k14 : list str) (m lm : str) : bool :=
  existsb (fun e : entry => occursb (fst e) lm && existsb (fun r => matches_somewhere r m) (snd (snd (snd e)))) gen_concrete
  || existsb (fun k2 => matches_somewhere (zone_K14_re k2) m) k14.
Definition zone_fast (k14 : list str) (m : str) : bool := zone_l k14 m (lower m).
Lemma zone_l_eq m : zone_l (k14_keys gen_keys) m (lower m) = in_zone m.
Proof. cbv beta delta [zone_l in_zone zone_K12 zone_K12_at zone_K14]. reflexivity. Qed.
Lemma zone_fast_eq m : zone_fast (k14_keys gen_keys) m = in_zone m.
Proof. exact (zone_l_eq m). Qed.

(* a family checked by one of the [check_*_with] functions of the model, through the two evaluators *)
Definition all_checked {A} (chk : (str -> str -> str) -> (str -> bool) -> A -> bool) (l : list A) : bool :=
  let k14 := k14_keys gen_keys in forallb (chk mask_fast (zone_fast k14)) l.
Lemma all_checked_in {A} chk (l : list A) x :
  all_checked chk l = true -> In x l -> chk mask_fast (zone_fast (k14_keys gen_keys)) x = true.
Proof. intros H. exact (proj1 (forallb_forall _ l) H x). Qed.

Definition zone_flags {A} (msg : A -> str) (l : list A) : list bool :=
  let k14 := k14_keys gen_keys in map (fun c => zone_fast k14 (msg c)) l.
Lemma zone_flags_cons {A} (msg : A -> str) c l :
  zone_flags msg (c :: l) = zone_fast (k14_keys gen_keys) (msg c) :: zone_flags msg l.
Proof. unfold zone_flags. reflexivity. Qed.
Lemma forallb_out_of_zone {A} (msg : A -> str) l :
  forallb (fun c => negb (in_zone (msg c))) l = forallb negb (zone_flags msg l).
Proof. induction l as [|c l IH]; [reflexivity|]. rewrite zone_flags_cons. cbn [forallb]. rewrite IH, <- zone_fast_eq. reflexivity. Qed.
Lemma count_out_of_zone {A} (msg : A -> str) l :
  length (filter (fun c => negb (in_zone (msg c))) l) = length (filter negb (zone_flags msg l)).
Proof.
  induction l as [|c l IH]; [reflexivity|]. rewrite zone_flags_cons. cbn [filter]. rewrite <- zone_fast_eq.
  destruct (negb (zone_fast (k14_keys gen_keys) (msg c))); cbn [length]; rewrite IH; reflexivity.
Qed.

Lemma check_with_spec f z c : check_with f z c = true -> z (case_msg c) = false ->
  f (case_msg c) (case_mask c) = case_want c /\ f (case_want c) (case_mask c) = case_want c.
Proof.
  unfold check_with. intros H Hz. rewrite Hz in H. cbn [orb] in H. apply andb_true_iff in H.
  destruct H as [H1 H2]. apply beq_eq in H1, H2. split; assumption.
Qed.

(* The cases of a family come grouped by rendering, and the cases of a group share the expected result:
   that a second masking leaves it alone is evaluated once per group ([prev] is the last expected result
   and mask for which it was).  lower(message) serves the zone test and the first masking. *)
Fixpoint check_run (k14 : list str) (prev : option (str * str)) (l : list case) : bool :=
  match l with
  | [] => true
  | c :: t =>
      let m := case_msg c in let lm := lower m in
      if zone_l k14 m lm then check_run k14 prev t
      else let w := case_want c in let s := case_mask c in
           beq (mask_go gen_concrete m lm s) w &&
           (if match prev with Some (pw, ps) => beq w pw && beq s ps | None => false end then check_run k14 prev t
            else beq (mask_fast w s) w && check_run k14 (Some (w, s)) t)
  end.

Lemma check_run_spec k14 : (forall m, zone_l k14 m (lower m) = in_zone m) ->
  forall l prev, check_run k14 prev l = true ->
  (forall w s, prev = Some (w, s) -> mask_password w s = w) ->
  forall c, In c l -> in_zone (case_msg c) = false ->
  mask_password (case_msg c) (case_mask c) = case_want c /\ mask_password (case_want c) (case_mask c) = case_want c.
Proof.
  intros Hk14. induction l as [|c0 l IH]; intros prev H Hprev c Hin Hz; [destruct Hin|]. cbn [check_run] in H. cbv zeta in H.
  rewrite Hk14 in H.
  destruct (in_zone (case_msg c0)) eqn:Z.
  - destruct Hin as [<-|Hin]; [congruence|exact (IH prev H Hprev c Hin Hz)].
  - apply andb_true_iff in H. destruct H as [H1 H]. apply beq_eq in H1. rewrite mask_go_password in H1.
    assert (G : mask_password (case_want c0) (case_mask c0) = case_want c0 /\
                forall c, In c l -> in_zone (case_msg c) = false ->
                  mask_password (case_msg c) (case_mask c) = case_want c /\ mask_password (case_want c) (case_mask c) = case_want c).
    { destruct prev as [[pw ps]|].
      - destruct (beq (case_want c0) pw && beq (case_mask c0) ps) eqn:E.
        + apply andb_true_iff in E. destruct E as [E1 E2]. apply beq_eq in E1, E2. subst pw ps.
          split; [exact (Hprev _ _ eq_refl)|exact (IH _ H Hprev)].
        + apply andb_true_iff in H. destruct H as [H2 H]. apply beq_eq in H2. rewrite mask_fast_eq in H2.
          split; [exact H2|apply (IH _ H)]. intros w s E'. inversion E'; subst. exact H2.
      - apply andb_true_iff in H. destruct H as [H2 H]. apply beq_eq in H2. rewrite mask_fast_eq in H2.
        split; [exact H2|apply (IH _ H)]. intros w s E'. inversion E'; subst. exact H2. }
    destruct G as [G0 G]. destruct Hin as [<-|Hin]; [split; [exact H1|exact G0]|exact (G c Hin Hz)].
Qed.

Lemma family_quick_checked : check_run (k14_keys gen_keys) None family_quick = true.
Proof. vm_compute. reflexivity. Qed.

(* for every case of the family outside the known-finding zones: exactly the value is replaced by the
   mask (every other character of pre ++ head ++ value ++ tail ++ post is kept), and masking the
   result again changes nothing *)
Lemma mask_whole_bounded c : In c family_quick -> in_zone (case_msg c) = false ->
  mask_password (case_msg c) (case_mask c) = case_want c /\
  mask_password (case_want c) (case_mask c) = case_want c.
Proof.
  apply (check_run_spec _ zone_l_eq family_quick None family_quick_checked). intros w s E. discriminate E.
Qed.
