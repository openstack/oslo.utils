(* Proofs/C08.v — mask_dict_password: the generated loop body against the four
   rules, soundness/uniqueness of the relation Masked, key preservation, the
   sanitize-key test. *)
From Coq Require Import String.
Require Import OV.Base.Bytes OV.Base.Py OV.Base.Str.
Require Import OV.Gen.Unicode.
Require Import OV.Model.C08_Syntax OV.Gen.C08_Keys OV.Gen.C08_Shape OV.Model.C08.
Open Scope N_scope.

(* 1. The regenerated loop body computes the four-way decision.        *)

(* What one pass through the loop body must store, as a function of the
   isinstance facts and of the key test — in the ORDER the property gives:
   Mapping first (whatever the key), then the str-key test, then str values. *)
Definition spec_action (e : env) : res (option action) :=
  if e_val_is e CMapping then Ok (Some (ARecurse SecGiven))
  else
    let plain := Some (if e_val_is e CStr then AMask SecGiven else AKeep) in
    if e_key_is e CStr then
      match e_has e HLower with
      | Exn x => Exn x
      | Ok true => Ok (Some ASecret)
      | Ok false => Ok plain
      end
    else Ok plain.

(* translator-equivalence obligation: the term regenerated from the source's
   loop body, evaluated, IS that decision — for every combination of facts.
   A reordered test, a dropped recursion, a dropped .lower(), a default secret
   passed on ... change gen_body and this stops being provable. *)
Lemma gen_body_equiv : forall e : env, run_body gen_body e = spec_action e.
Proof.
  intros [ki vi h]. unfold run_body, spec_action, gen_body.
  cbn [exec_list exec eval_cond e_key_is e_val_is e_has st_out st_flags st_cont st0 bind flag_get N.eqb Pos.eqb negb].
  destruct (vi CMapping), (ki CStr), (h HLower) as [[|]|x], (vi CStr); reflexivity.
Qed.

(* the guard, the exception and the container of the result, as regenerated *)
Lemma gen_guard_is_mapping_test : gen_guard_cls = CMapping. Proof. reflexivity. Qed.
Lemma gen_guard_raises_TypeError : gen_guard_exn = TypeError. Proof. reflexivity. Qed.
Lemma gen_out_is_dict : gen_out_kind = dict_kind. Proof. reflexivity. Qed.

(* 2. Induction over nested values; keys; dict assignment.             *)

Section ValueInd.
  Variable P : value -> Prop.
  Hypothesis Hstr : forall s, P (VStr s).
  Hypothesis Hother : forall t, P (VOther t).
  Hypothesis Hmap : forall kd items, Forall (fun kv => P (snd kv)) items -> P (VMap kd items).
  Fixpoint value_ind' (v : value) : P v :=
    match v with
    | VStr s => Hstr s
    | VOther t => Hother t
    | VMap kd items =>
        Hmap kd items
          ((fix go (l : list (key * value)) : Forall (fun kv => P (snd kv)) l :=
              match l with
              | [] => Forall_nil _
              | kv :: t => Forall_cons kv (value_ind' (snd kv)) (go t)
              end) items)
    end.
End ValueInd.

Lemma key_eqb_eq a b : key_eqb a b = true <-> a = b.
Proof.
  destruct a as [s|s], b as [t|t]; cbn [key_eqb]; try (split; [discriminate|congruence]);
    rewrite beq_eq; split; congruence.
Qed.

Lemma key_in_In k l : existsb (key_eqb k) l = true <-> In k l.
Proof.
  rewrite existsb_exists. split.
  - intros [x [Hin Heq]]. apply key_eqb_eq in Heq. subst. exact Hin.
  - intros Hin. exists k. split; [exact Hin|]. apply key_eqb_eq. reflexivity.
Qed.

Lemma nodup_keys_NoDup l : nodup_keys l = true -> NoDup l.
Proof.
  induction l as [|k t IH]; intros H; [constructor|].
  cbn [nodup_keys] in H. apply andb_true_iff in H. destruct H as [H1 H2].
  constructor; [|auto]. intros Hin. apply key_in_In in Hin. rewrite Hin in H1. discriminate.
Qed.

Lemma NoDup_nodup_keys l : NoDup l -> nodup_keys l = true.
Proof.
  induction 1 as [|k t Hk _ IH]; [reflexivity|]. cbn [nodup_keys]. rewrite IH, andb_true_r.
  destruct (existsb (key_eqb k) t) eqn:E; [|reflexivity]. apply key_in_In in E. contradiction.
Qed.

(* storing under a key that is not there yet appends *)
Lemma dict_set_fresh k v d : ~ In k (map fst d) -> dict_set k v d = d ++ [(k, v)].
Proof.
  induction d as [|[k' v'] t IH]; intros H; [reflexivity|].
  cbn [dict_set map fst In app] in *.
  destruct (key_eqb k' k) eqn:E.
  - apply key_eqb_eq in E. subst. tauto.
  - rewrite IH by tauto. reflexivity.
Qed.

Lemma wf_VMap kd items :
  wf (VMap kd items) = true <-> NoDup (map fst items) /\ Forall (fun kv => wf (snd kv) = true) items.
Proof.
  cbn [wf]. rewrite andb_true_iff, forallb_forall, Forall_forall. split.
  - intros [H1 H2]. split; [apply nodup_keys_NoDup; exact H1|exact H2].
  - intros [H1 H2]. split; [apply NoDup_nodup_keys; exact H1|exact H2].
Qed.

(* 3. mask_dict_password, unfolded.                                    *)

Section MDP.
  Variable mp : str -> str -> str.

  (* what ends up stored under key k for the value v: the four rules, in the order the loop body tests them *)
  Definition entry_result (secret : str) (k : key) (v : value) : res value :=
    if is_mapping v then mdp mp secret v
    else Ok (if secret_key k then VStr secret
             else match v with VStr s => VStr (mp s secret) | _ => v end).

  Fixpoint go_items (secret : str) (l out : list (key * value)) : res (list (key * value)) :=
    match l with
    | [] => Ok out
    | (k, v) :: t =>
        match entry_result secret k v with
        | Exn err => Exn err
        | Ok v' => go_items secret t (dict_set k v' out)
        end
    end.

  Lemma mdp_non_mapping secret d : is_mapping d = false -> mdp mp secret d = Exn TypeError.
  Proof. destruct d; cbn; intros H; try reflexivity. discriminate. Qed.

  (* the decision for a concrete entry *)
  Lemma key_has_lower k : key_is k CStr = true -> key_has k HLower = Ok (secret_key k).
  Proof.
    destruct k as [s|t]; cbn [key_is]; [intros _|discriminate].
    unfold key_has, secret_key. destruct gen_keys; reflexivity.
  Qed.

  Lemma secret_key_str k : secret_key k = true -> key_is k CStr = true.
  Proof. destruct k; [reflexivity|discriminate]. Qed.

  Definition plain_action (v : value) : action := if val_is v CStr then AMask SecGiven else AKeep.

  Lemma entry_action k v :
    run_body gen_body (env_of k v) =
    Ok (Some (if is_mapping v then ARecurse SecGiven
              else if secret_key k then ASecret else plain_action v)).
  Proof.
    rewrite gen_body_equiv. unfold spec_action, env_of, is_mapping, plain_action.
    cbn [e_val_is e_key_is e_has].
    destruct (val_is v CMapping); [reflexivity|].
    destruct (key_is k CStr) eqn:Ek.
    - rewrite key_has_lower by exact Ek. destruct (secret_key k); reflexivity.
    - destruct (secret_key k) eqn:Es; [|reflexivity]. apply secret_key_str in Es. congruence.
  Qed.

  (* the function on a mapping, with the regenerated guard, loop body and container already decided *)
  Lemma mdp_unfold secret kd items :
    mdp mp secret (VMap kd items) =
    match go_items secret items [] with
    | Ok out => Ok (VMap dict_kind out)
    | Exn err => Exn err
    end.
  Proof.
    cbn [mdp]. rewrite gen_guard_is_mapping_test, gen_out_is_dict. cbn [val_is].
    generalize (@nil (key * value)). induction items as [|[k v] t IH]; intros out; [reflexivity|].
    cbn [go_items]. rewrite entry_action. unfold entry_result, plain_action.
    destruct (is_mapping v) eqn:Em; [cbn [pick]; destruct (mdp mp secret v); [apply IH|reflexivity]|].
    destruct (secret_key k); [apply IH|]. destruct v; try discriminate; apply IH.
  Qed.

  (* 4. Soundness and uniqueness w.r.t. the relation Masked (Model/C08). *)

  Notation Masked := (Masked mp).
  Notation MaskedItems := (MaskedItems mp).
  Notation MaskedEntry := (MaskedEntry mp).

  Definition sound_at (v : value) : Prop :=
    forall secret, wf v = true -> is_mapping v = true ->
    exists r, mdp mp secret v = Ok r /\ Masked secret v r.

  Lemma entry_result_sound secret k v :
    (is_mapping v = true -> exists r, mdp mp secret v = Ok r /\ Masked secret v r) ->
    exists v', entry_result secret k v = Ok v' /\ MaskedEntry secret k v v'.
  Proof.
    intros Hs. unfold entry_result. destruct (is_mapping v) eqn:Em.
    - destruct (Hs eq_refl) as [r [Hr HM]]. exists r. split; [exact Hr|apply ME_mapping; assumption].
    - eexists. split; [reflexivity|]. destruct (secret_key k) eqn:Esk; [apply ME_secret; assumption|].
      destruct v; [apply ME_string|discriminate|apply ME_other]; exact Esk.
  Qed.

  Lemma go_items_sound secret items :
    Forall (fun kv => sound_at (snd kv)) items ->
    Forall (fun kv => wf (snd kv) = true) items ->
    NoDup (map fst items) ->
    forall out, (forall k, In k (map fst items) -> ~ In k (map fst out)) ->
    exists items', go_items secret items out = Ok (out ++ items') /\ MaskedItems secret items items'.
  Proof.
    induction items as [|[k v] t IH]; intros Hs Hw Hnd out Hdis.
    - exists []. rewrite app_nil_r. split; [reflexivity|constructor].
    - inversion Hs as [|? ? Hs1 Hs2]; subst. inversion Hw as [|? ? Hw1 Hw2]; subst.
      cbn [map fst] in Hnd. inversion Hnd as [|? ? Hk Hnd']; subst. cbn [snd] in *.
      destruct (entry_result_sound secret k v (Hs1 secret Hw1)) as [v' [He HE]].
      cbn [go_items]. rewrite He, dict_set_fresh by (apply Hdis; left; reflexivity).
      destruct (IH Hs2 Hw2 Hnd' (out ++ [(k, v')])) as [items' [Hgo HM]].
      { intros k0 Hin. rewrite map_app, in_app_iff. cbn [map fst In].
        intros [H|[H|[]]]; [apply (Hdis k0); [right; exact Hin|exact H]|subst; contradiction]. }
      exists ((k, v') :: items'). rewrite Hgo, <- app_assoc. split; [reflexivity|]. constructor; assumption.
  Qed.

  Lemma mdp_sound_all : forall v, sound_at v.
  Proof.
    induction v as [s|t|kd items IH] using value_ind'; intros secret Hw Hm; try discriminate.
    apply wf_VMap in Hw. destruct Hw as [Hnd Hw].
    destruct (go_items_sound secret items IH Hw Hnd [] (fun _ _ H => H)) as [items' [Hgo HM]].
    exists (VMap dict_kind items'). rewrite mdp_unfold, Hgo. cbn [app]. split; [reflexivity|]. constructor. exact HM.
  Qed.

  Theorem mdp_sound secret d :
    wf d = true -> is_mapping d = true -> exists r, mdp mp secret d = Ok r /\ Masked secret d r.
  Proof. intros. apply mdp_sound_all; assumption. Qed.

  (* the relation is functional: the four rules never overlap *)
  Lemma MaskedEntry_unique secret k v :
    (forall r1 r2, Masked secret v r1 -> Masked secret v r2 -> r1 = r2) ->
    forall r1 r2, MaskedEntry secret k v r1 -> MaskedEntry secret k v r2 -> r1 = r2.
  Proof.
    intros IH r1 r2 H1 H2.
    inversion H1; subst; inversion H2; subst; try reflexivity; try congruence;
      try (cbn in *; congruence); auto.
  Qed.

  Theorem mdp_unique secret : forall d r1 r2, Masked secret d r1 -> Masked secret d r2 -> r1 = r2.
  Proof.
    induction d as [s|t|kd items IH] using value_ind'; intros r1 r2 H1 H2;
      inversion H1 as [? ? o1 M1]; subst; inversion H2 as [? ? o2 M2]; subst.
    f_equal. clear H1 H2. revert o1 o2 M1 M2.
    induction items as [|[k v] t IHt]; intros o1 o2 M1 M2.
    - inversion M1; inversion M2; reflexivity.
    - inversion IH as [|? ? IHv IHrest]; subst. cbn [snd] in IHv.
      inversion M1 as [|? ? v1 ? t1 E1 R1]; subst. inversion M2 as [|? ? v2 ? t2 E2 R2]; subst.
      f_equal.
      + f_equal. eapply MaskedEntry_unique; eassumption.
      + apply IHt; assumption.
  Qed.

  Corollary mdp_complete secret d r :
    wf d = true -> Masked secret d r -> mdp mp secret d = Ok r.
  Proof.
    intros Hw HM. assert (Hm : is_mapping d = true) by (inversion HM; reflexivity).
    destruct (mdp_sound secret d Hw Hm) as [r' [Hr HM']].
    rewrite (mdp_unique secret d r r' HM HM'). exact Hr.
  Qed.

  (* 5. Consequences: keys at every level, dict containers, recursion     *)
  (*    under a secret key.                                              *)

  Lemma Masked_skeleton secret : forall d r, Masked secret d r -> skel r = skel d /\ all_dict r = true.
  Proof.
    induction d as [s|t|kd items IH] using value_ind'; intros r H; inversion H as [? ? out M]; subst.
    cbn [skel all_dict]. rewrite N.eqb_refl. cbn [andb].
    assert (HH : map (fun kv => (fst kv, skel (snd kv))) out = map (fun kv => (fst kv, skel (snd kv))) items
                 /\ forallb (fun kv => all_dict (snd kv)) out = true).
    { clear H. revert out M. induction items as [|[k v] t IHt]; intros out M.
      - inversion M; subst. split; reflexivity.
      - inversion IH as [|? ? IHv IHrest]; subst. cbn [snd] in IHv.
        inversion M as [|? ? v' ? t' E R]; subst. destruct (IHt IHrest t' R) as [A B].
        cbn [map forallb fst snd]. rewrite A, B, andb_true_r.
        assert (Hv : skel v' = skel v /\ all_dict v' = true).
        { inversion E; subst.
          - apply IHv. assumption.
          - destruct v; try discriminate; split; reflexivity.
          - split; reflexivity.
          - split; reflexivity. }
        destruct Hv as [Hv1 Hv2]. rewrite Hv1, Hv2. split; reflexivity. }
    destruct HH as [A B]. rewrite A, B. split; reflexivity.
  Qed.

  Theorem keys_preserved_at_every_level secret d r :
    wf d = true -> mdp mp secret d = Ok r -> skel r = skel d /\ all_dict r = true.
  Proof.
    intros Hw Hr. destruct (is_mapping d) eqn:Em.
    - destruct (mdp_sound secret d Hw Em) as [r' [Hr' HM]]. rewrite Hr in Hr'. inversion Hr'; subst.
      eapply Masked_skeleton. exact HM.
    - rewrite mdp_non_mapping in Hr by exact Em. discriminate.
  Qed.

  Lemma MaskedItems_In secret items out k v :
    MaskedItems secret items out -> In (k, v) items -> exists v', In (k, v') out /\ MaskedEntry secret k v v'.
  Proof.
    induction 1 as [|k0 v0 v0' t t' E R IH]; intros Hin; [contradiction|].
    destruct Hin as [Heq|Hin].
    - inversion Heq; subst. exists v0'. split; [left; reflexivity|exact E].
    - destruct (IH Hin) as [v' [H1 H2]]. exists v'. split; [right; exact H1|exact H2].
  Qed.

  (* what the result holds under a key of the argument: related to the value by the rule for that entry *)
  Lemma mdp_entry secret kd items k v :
    wf (VMap kd items) = true -> In (k, v) items ->
    exists out v', mdp mp secret (VMap kd items) = Ok (VMap dict_kind out) /\ In (k, v') out /\
                   MaskedEntry secret k v v' /\ wf v = true.
  Proof.
    intros Hw Hin.
    destruct (mdp_sound secret (VMap kd items) Hw eq_refl) as [r [Hr HM]].
    inversion HM as [? ? out M]; subst.
    destruct (MaskedItems_In secret items out k v M Hin) as [v' [Hin' E]].
    exists out, v'. split; [exact Hr|]. split; [exact Hin'|]. split; [exact E|].
    apply wf_VMap in Hw. destruct Hw as [_ Hw]. rewrite Forall_forall in Hw. apply (Hw _ Hin).
  Qed.

  (* the Mapping test comes first: a mapping stored under a secret key is not
     replaced by the mask, it is processed recursively *)
  Theorem mapping_under_secret_key_is_recursed secret kd items k kd' sub :
    wf (VMap kd items) = true -> In (k, VMap kd' sub) items -> secret_key k = true ->
    exists out sub',
      mdp mp secret (VMap kd items) = Ok (VMap dict_kind out) /\
      mdp mp secret (VMap kd' sub) = Ok (VMap dict_kind sub') /\
      In (k, VMap dict_kind sub') out /\ Masked secret (VMap kd' sub) (VMap dict_kind sub').
  Proof.
    intros Hw Hin _.
    destruct (mdp_entry secret kd items k (VMap kd' sub) Hw Hin) as [out [v' [Hr [Hin' [E Hwv]]]]].
    inversion E as [? ? ? _ HMs| ? ? Hnm _ | |]; subst; [|discriminate].
    inversion HMs as [? ? sub' Ms]; subst.
    exists out, sub'. split; [exact Hr|]. split; [|split; [exact Hin'|exact HMs]].
    apply mdp_complete; assumption.
  Qed.

  (* a mapping argument never raises *)
  Corollary mapping_argument_ok secret d : wf d = true -> is_mapping d = true -> exists r, mdp mp secret d = Ok r.
  Proof. intros Hw Hm. destruct (mdp_sound secret d Hw Hm) as [r [Hr _]]. exists r. exact Hr. Qed.

End MDP.

(* 6. The sanitize-key test: substring of k.lower(), all 35 keys.       *)

Lemma contains_any_spec keys hay :
  contains_any keys hay = true <-> exists sk p q, In sk keys /\ hay = p ++ sk ++ q.
Proof.
  unfold contains_any. rewrite existsb_exists. split.
  - intros [sk [Hin Ho]]. apply occursb_spec in Ho. destruct Ho as [p [q Hq]]. exists sk, p, q. auto.
  - intros [sk [p [q [Hin Hq]]]]. exists sk. split; [exact Hin|]. apply occursb_spec. exists p, q. exact Hq.
Qed.

(* exactly: some sanitize key of the regenerated list is a substring of k.lower() *)
Theorem secret_key_iff_substring_of_lower s :
  secret_key (KStr s) = true <-> exists sk p q, In sk gen_keys /\ py_lower s = p ++ sk ++ q.
Proof. apply contains_any_spec. Qed.

Lemma secret_key_not_str t : secret_key (KOther t) = false.
Proof. reflexivity. Qed.

(* all 35 keys of the property reading are in the regenerated list
   (one may be added, none may be dropped) *)
Theorem uses_all_spec_keys : incl spec_keys_35 gen_keys.
Proof.
  assert (H : forallb (fun k => existsb (beq k) gen_keys) spec_keys_35 = true) by (vm_compute; reflexivity).
  intros k Hk. rewrite forallb_forall in H. apply H, existsb_exists in Hk. destruct Hk as [y [Hy E]].
  apply beq_eq in E. subst y. exact Hy.
Qed.

Definition is_ascii (s : str) : bool := forallb (fun c => c <? 128) s.

Lemma py_lower_app a b : py_lower (a ++ b) = py_lower a ++ py_lower b.
Proof. unfold py_lower. apply flat_map_app. Qed.

Lemma lower_ascii_is_ascii u : is_ascii (lower_ascii u) = true -> is_ascii u = true.
Proof.
  induction u as [|c t IH]; [reflexivity|]. unfold lower_ascii, is_ascii in *. cbn [map forallb].
  intros H. apply andb_true_iff in H. destruct H as [Hc Ht]. rewrite (IH Ht), andb_true_r.
  unfold lower_ascii1 in Hc. destruct ((65 <=? c) && (c <=? 90)) eqn:E; lia.
Qed.

Lemma spec_keys_ascii sk : In sk spec_keys_35 -> is_ascii sk = true.
Proof.
  assert (H : forallb is_ascii spec_keys_35 = true) by (vm_compute; reflexivity).
  rewrite forallb_forall in H. apply H.
Qed.

(* non-ASCII characters whose lower() contains ASCII letters take part in the
   match, as in Python: KELVIN SIGN lowers to 'k'; LATIN CAPITAL I WITH DOT
   ABOVE lowers to 'i' + COMBINING DOT ABOVE (so it breaks "adminpass" but not
   a key that ends right before the dot); LONG S is not lowered to 's' *)
Example kelvin_sign_matches : secret_key (KStr (lit "TO" ++ [8490] ++ lit "EN")) = true.
Proof. vm_compute. reflexivity. Qed.
Example dotted_I_breaks_adminpass : secret_key (KStr (lit "ADM" ++ [304] ++ lit "NPASS")) = false.
Proof. vm_compute. reflexivity. Qed.
Example long_s_is_no_s : secret_key (KStr ([383] ++ lit "ecret")) = false.
Proof. vm_compute. reflexivity. Qed.
Example near_miss_is_no_key : secret_key (KStr (lit "pass_word")) = false.
Proof. vm_compute. reflexivity. Qed.
Example embedded_mixed_case : secret_key (KStr (lit "My-AdMiN_PaSs.old")) = true.
Proof. vm_compute. reflexivity. Qed.

(* CPython's str.lower() differs from py_lower in one respect only: a capital
   sigma in word-final position becomes U+03C2 instead of U+03C3.  For a key list
   without either small sigma the test cannot tell the difference. *)
Definition sig_norm (c : N) : N := if c =? 962 then 963 else c.
Definition sigma_free (keys : list str) : bool :=
  forallb (fun sk => negb (memN 962 sk) && negb (memN 963 sk)) keys.

Lemma prefixb_sig_norm sk : negb (memN 962 sk) && negb (memN 963 sk) = true ->
  forall t, prefixb sk (map sig_norm t) = prefixb sk t.
Proof.
  induction sk as [|x sk IH]; intros H t; [reflexivity|].
  cbn [memN] in H. rewrite !negb_orb in H.
  destruct t as [|y t]; [reflexivity|]. cbn [map prefixb].
  assert (Hx : x <> 962 /\ x <> 963) by lia.
  assert (Hs : negb (memN 962 sk) && negb (memN 963 sk) = true) by lia.
  rewrite (IH Hs). f_equal. unfold sig_norm. destruct (y =? 962) eqn:E; lia.
Qed.

Lemma occursb_sig_norm sk : negb (memN 962 sk) && negb (memN 963 sk) = true ->
  forall t, occursb sk (map sig_norm t) = occursb sk t.
Proof.
  intros H. induction t as [|y t IH].
  - reflexivity.
  - cbn [map occursb]. rewrite <- IH. change (sig_norm y :: map sig_norm t) with (map sig_norm (y :: t)).
    rewrite (prefixb_sig_norm sk H). reflexivity.
Qed.

Theorem final_sigma_irrelevant keys t s :
  sigma_free keys = true -> map sig_norm t = map sig_norm s -> contains_any keys t = contains_any keys s.
Proof.
  intros Hf Heq. unfold contains_any, sigma_free in *. rewrite forallb_forall in Hf.
  induction keys as [|sk keys IH]; [reflexivity|]. cbn [existsb].
  rewrite IH by (intros x Hx; apply Hf; right; exact Hx). f_equal.
  rewrite <- (occursb_sig_norm sk (Hf sk (or_introl eq_refl)) t),
          <- (occursb_sig_norm sk (Hf sk (or_introl eq_refl)) s), Heq. reflexivity.
Qed.

Example spec_keys_sigma_free : sigma_free spec_keys_35 = true.
Proof. vm_compute. reflexivity. Qed.

(* 7. Non-vacuity: instances of the hypotheses of the theorems.         *)

(* a stand-in for mask_password, only to compute the examples *)
Definition toy_mp (s secret : str) : str := lit "<" ++ secret ++ lit ">" ++ s.

(* {'Admin_Password': 'x', 'user': 'password=abc', 5: b'..',
    'my_secret': ROMapping({'inner': OrderedDict({'TOKEN2': None, 'note': 'n'})}), 'list': [...]} *)
Definition ex_d : value :=
  VMap 0 [ (KStr (lit "Admin_Password"), VStr (lit "x"));
           (KStr (lit "user"), VStr (lit "password=abc"));
           (KOther (lit "i5"), VOther (lit "b00"));
           (KStr (lit "my_secret"),
              VMap 3 [ (KStr (lit "inner"), VMap 1 [ (KStr (lit "TOKEN2"), VOther (lit "n"));
                                                     (KStr (lit "note"), VStr (lit "n")) ]) ]);
           (KStr (lit "list"), VOther (lit "l[]")) ].

Example ex_d_wf : wf ex_d = true /\ is_mapping ex_d = true.
Proof. split; vm_compute; reflexivity. Qed.

Example ex_d_result :
  mdp toy_mp (lit "***") ex_d =
  Ok (VMap 0 [ (KStr (lit "Admin_Password"), VStr (lit "***"));
               (KStr (lit "user"), VStr (lit "<***>password=abc"));
               (KOther (lit "i5"), VOther (lit "b00"));
               (KStr (lit "my_secret"),
                  VMap 0 [ (KStr (lit "inner"), VMap 0 [ (KStr (lit "TOKEN2"), VStr (lit "***"));
                                                         (KStr (lit "note"), VStr (lit "<***>n")) ]) ]);
               (KStr (lit "list"), VOther (lit "l[]")) ]).
Proof. vm_compute. reflexivity. Qed.

Example ex_secret_key_holds_mapping :
  exists kd' sub, In (KStr (lit "my_secret"), VMap kd' sub)
                     (match ex_d with VMap _ items => items | _ => [] end)
                  /\ secret_key (KStr (lit "my_secret")) = true.
Proof. eexists. eexists. split; [right; right; right; left; reflexivity|vm_compute; reflexivity]. Qed.

Example ex_non_mapping : is_mapping (VStr (lit "password")) = false /\ is_mapping (VOther (lit "l[m0{}]")) = false.
Proof. split; reflexivity. Qed.

Example ex_case_insensitive :
  In (lit "admin_pass") spec_keys_35 /\ lower_ascii (lit "AdMiN_PaSs") = lit "admin_pass".
Proof. split; [vm_compute; tauto|vm_compute; reflexivity]. Qed.

(* duplicate keys are what wf excludes: a dict cannot hold them, and the model's
   dict assignment would merge them *)
Example ex_not_wf : wf (VMap 0 [(KStr (lit "a"), VStr []); (KStr (lit "a"), VStr [])]) = false.
Proof. reflexivity. Qed.
