(* Proofs/C17_Suffix.v — what re.sub(SUFFIX, '\1', s) computes, for every regex of the shape
        (D1+)(a1|a2|...|an)D2+$        with literal alternatives a_i
   ([suffix_shape]; the classes and the alternatives are whatever the generated regex contains,
   read off it by [suffix_parts]).  Side conditions on the parts are decidable ([parts_ok]). *)
Require Import OV.Base.Bytes OV.Base.PyInt OV.Base.Regex.
Require Import OV.Proofs.C04_Regex OV.Proofs.C17_Regex.
Open Scope N_scope.

Definition suffix_parts (r : re) : option (cset * list str * cset) :=
  match r with
  | Seq (Group 1%nat (Rep d1 1%nat None)) (Seq (Group 2%nat a) (Seq (Rep d2 1%nat None) Eol)) =>
      match alts_of a with Some l => Some (d1, l, d2) | None => None end
  | _ => None
  end.

(* the template '\1' *)
Definition repl_is_g1 (t : list titem) : bool := match t with [TGrp 1%nat] => true | _ => false end.

Definition alt_head (alts : list str) (c : N) : bool :=
  existsb (fun a => match a with x :: _ => x =? c | [] => false end) alts.

(* every alternative is non-empty and made of characters outside both digit classes;
   '\n' is in neither class *)
Definition parts_ok (d1 : cset) (alts : list str) (d2 : cset) : bool :=
  forallb (fun a => match a with [] => false | _ => forallb (fun c => negb (cmem c d1) && negb (cmem c d2)) a end) alts
  && negb (cmem 10 d1) && negb (cmem 10 d2) && negb (alt_head alts 10).

Definition suffix_shape (d1 : cset) (a : re) (d2 : cset) : re :=
  Seq (Group 1%nat (Rep d1 1%nat None)) (Seq (Group 2%nat a) (Seq (Rep d2 1%nat None) Eol)).
(* the alternation in group 2 of a regex of that shape *)
Definition suffix_alt (r : re) : re := match r with Seq _ (Seq (Group _ a) _) => a | _ => Eol end.

Section Suffix.
Variables (d1 : cset) (alt : re) (alts : list str) (d2 : cset).
Hypothesis Halt : alts_of alt = Some alts.
Hypothesis Hok : parts_ok d1 alts d2 = true.
Local Notation r := (suffix_shape d1 alt d2).

Lemma ok_parts :
  forallb (fun a => match a with [] => false | _ => forallb (fun c => negb (cmem c d1) && negb (cmem c d2)) a end) alts = true /\
  cmem 10 d1 = false /\ cmem 10 d2 = false /\ alt_head alts 10 = false.
Proof. unfold parts_ok in Hok. rewrite !andb_true_iff, !negb_true_iff in Hok. tauto. Qed.

Lemma ok_alt a : In a alts -> a <> [] /\ forall c, In c a -> cmem c d1 = false /\ cmem c d2 = false.
Proof.
  intros Hin. destruct ok_parts as [H _]. rewrite forallb_forall in H. specialize (H a Hin).
  destruct a as [|x a]; [discriminate|]. split; [discriminate|]. intros c Hc.
  rewrite forallb_forall in H. specialize (H c Hc). apply andb_true_iff in H. destruct H as [A B].
  apply negb_true_iff in A, B. auto.
Qed.
Lemma ok_nl1 : cmem 10 d1 = false. Proof. apply ok_parts. Qed.

Lemma alt_head_d1 c : cmem c d1 = true -> alt_head alts c = false.
Proof.
  intros Hc. unfold alt_head. match goal with |- ?e = false => destruct e eqn:E end; [|reflexivity]. exfalso.
  apply existsb_exists in E. destruct E as [a [Hin Ha]]. destruct a as [|x a]; [discriminate|].
  apply N.eqb_eq in Ha. subst x. destruct (ok_alt _ Hin) as [_ H]. destruct (H c (or_introl eq_refl)). congruence.
Qed.

Lemma alt_head_false_prefix c t a : alt_head alts c = false -> In a alts -> prefixb a (c :: t) = false.
Proof.
  intros Hc Hin. destruct (ok_alt _ Hin) as [Hne _]. destruct a as [|x a]; [congruence|].
  cbn [prefixb]. destruct (x =? c) eqn:E; [|reflexivity]. exfalso.
  unfold alt_head in Hc. assert (existsb (fun a => match a with x :: _ => x =? c | [] => false end) alts = true); [|congruence].
  apply existsb_exists. exists (x :: a). split; [exact Hin|exact E].
Qed.

(* ---------- no match: after the initial D1-run comes a character that starts no alternative ---------- *)
Lemma suffix_no_match s p :
  match nth_error s (run_len d1 s None) with Some c => alt_head alts c = false | None => True end ->
  match_at r s p = None.
Proof.
  intros Hstop. unfold suffix_shape, match_at. cbn [m].
  destruct (Nat.ltb (run_len d1 s None) 1) eqn:L; [reflexivity|]. apply Nat.ltb_ge in L.
  apply try_counts_none; [exact L|]. intros j Hj.
  rewrite (m_alts _ alt alts) by exact Halt. apply first_some_none. intros x Hx. unfold alt_k.
  destruct (skipn j s) as [|c t] eqn:E.
  - rewrite prefixb_nil_false by (apply (ok_alt _ Hx)). reflexivity.
  - assert (Hc : nth_error s j = Some c) by (rewrite <- hd_skipn, E; reflexivity).
    rewrite (alt_head_false_prefix c t x); [reflexivity| |exact Hx].
    destruct (Nat.eq_dec j (run_len d1 s None)) as [->|Hne].
    + rewrite Hc in Hstop. exact Hstop.
    + destruct (run_len_in d1 s j ltac:(lia)) as [c' [Hc' Hm]]. rewrite Hc in Hc'. injection Hc' as <-.
      apply alt_head_d1. exact Hm.
Qed.

Lemma suffix_no_match_nl p : match_at r [10] p = None.
Proof. unfold suffix_shape, match_at. cbn [m run_len]. rewrite ok_nl1. reflexivity. Qed.

(* ---------- the match: D1 sfx D2 followed by the end or by a final newline ---------- *)
Definition tail_ok (tail : str) : Prop := tail = [] \/ tail = [10].

Lemma suffix_match D1 sfx D2 tail p :
  all_in d1 D1 = true -> D1 <> [] -> In sfx alts -> all_in d2 D2 = true -> D2 <> [] -> tail_ok tail ->
  match_at r (D1 ++ sfx ++ D2 ++ tail) p =
    Some (p + blen D1 + blen sfx + blen D2, [(2%nat, (p + blen D1, p + blen D1 + blen sfx)); (1%nat, (p, p + blen D1))]).
Proof.
  intros H1 N1 Hin H2 N2 Ht. unfold suffix_shape, match_at. cbn [m].
  destruct (ok_alt _ Hin) as [Hne Hch].
  assert (Hhd : hd_notin d1 (sfx ++ D2 ++ tail) = true).
  { destruct sfx as [|x sfx]; [congruence|]. cbn [app hd_notin]. destruct (Hch x (or_introl eq_refl)) as [-> _]. reflexivity. }
  change (m _ (Rep d1 1 None) (D1 ++ sfx ++ D2 ++ tail) p [] ?k) with (m _ (Rep d1 1 None) (D1 ++ (sfx ++ D2 ++ tail)) p [] k).
  apply m_rep_max; [exact H1|destruct D1; [congruence|cbn; lia]|reflexivity|left; exact Hhd|].
  rewrite (m_alts _ alt alts) by exact Halt.
  assert (Htl : hd_notin d2 tail = true) by (destruct Ht as [->| ->]; [reflexivity|cbn [hd_notin]; rewrite (proj1 (proj2 (proj2 ok_parts))); reflexivity]).
  (* D2+ $ on "D2 tail": the whole run, then the end *)
  assert (Hd2 : forall q G, m (N * groups) (Rep d2 1 None) (D2 ++ tail) q G
                  (fun s' p' g' => m _ Eol s' p' g' (fun _ p'' g'' => Some (p'', g''))) = Some (q + blen D2, G)).
  { intros q G. apply m_rep_max; [exact H2|destruct D2; [congruence|cbn; lia]|reflexivity|left; exact Htl|].
    destruct Ht as [->| ->]; reflexivity. }
  apply first_some_pick with (a := sfx); [exact Hin| |].
  - unfold alt_k. rewrite prefixb_app, skipn_app_exact. exact (Hd2 _ _).
  - intros b Hb. unfold alt_k. destruct (prefixb b (sfx ++ D2 ++ tail)) eqn:Eb; [|left; reflexivity].
    destruct (ok_alt _ Hb) as [Hbne Hbch].
    destruct (prefixes_comparable b sfx (sfx ++ D2 ++ tail) Eb (prefixb_app _ _)) as [[x Hx]|[x Hx]].
    + (* b is a prefix of sfx *)
      destruct x as [|c x].
      * rewrite app_nil_r in Hx. subst b. right. rewrite skipn_app_exact. exact (Hd2 _ _).
      * left. subst sfx. rewrite <- app_assoc, skipn_app_exact. cbn [m app run_len].
        destruct (Hch c ltac:(apply in_or_app; right; left; reflexivity)) as [_ ->]. reflexivity.
    + (* sfx is a proper prefix of b: b would contain the first character of D2 *)
      destruct x as [|c x]; [rewrite app_nil_r in Hx; subst b; right|exfalso].
      * rewrite skipn_app_exact. exact (Hd2 _ _).
      * subst b.
        assert (Hp : prefixb (c :: x) (D2 ++ tail) = true).
        { clear -Eb. induction sfx as [|y sfx IH]; [exact Eb|]. cbn [app prefixb] in Eb. apply andb_true_iff in Eb. apply IH, Eb. }
        destruct D2 as [|d D2]; [congruence|]. cbn [app prefixb] in Hp. apply andb_true_iff in Hp. destruct Hp as [Hp _].
        apply N.eqb_eq in Hp. subst d. cbn [all_in forallb] in H2. apply andb_true_iff in H2. destruct H2 as [H2 _].
        destruct (Hbch c ltac:(apply in_or_app; right; left; reflexivity)). congruence.
Qed.

(* "plain" text: no character starts an alternative *)
Definition plain (s : str) : Prop := forall c, In c s -> alt_head alts c = false.

Lemma no_match_plain s p : plain s -> match_at r s p = None.
Proof.
  intros Hpl. apply suffix_no_match. pose proof (run_len_stop d1 s) as Hs.
  destruct (nth_error s (run_len d1 s None)) as [c|] eqn:E; [|exact I].
  apply Hpl. eapply nth_error_In. exact E.
Qed.

Lemma no_match_before pre' c rest j p :
  plain (pre' ++ [c]) -> cmem c d1 = false -> (j <= length pre')%nat ->
  match_at r (skipn j ((pre' ++ [c]) ++ rest)) p = None.
Proof.
  intros Hpl Hc Hj. rewrite <- app_assoc. rewrite skipn_app. replace (j - length pre')%nat with 0%nat by lia. cbn [skipn].
  destruct (span_cs_spec d1 (skipn j pre')) as (E & A & B).
  set (u := fst (span_cs d1 (skipn j pre'))) in *. set (w := snd (span_cs d1 (skipn j pre'))) in *.
  rewrite E, <- app_assoc. apply suffix_no_match.
  rewrite (C04_Regex.run_len_exact d1 u (w ++ [c] ++ rest) None A eq_refl).
  2:{ left. destruct w; cbn [app hd_notin]; [rewrite Hc; reflexivity|exact B]. }
  rewrite nth_error_app2 by lia. rewrite Nat.sub_diag.
  destruct w as [|x w]; cbn [app nth_error].
  - apply Hpl. apply in_or_app. right. left. reflexivity.
  - apply Hpl. apply in_or_app. left. apply (in_skipn x j). rewrite E. apply in_or_app. right. left. reflexivity.
Qed.

Definition ends_outside (pre : str) : Prop := pre = [] \/ exists pre' c, pre = pre' ++ [c] /\ cmem c d1 = false.

Theorem re_sub_suffix t pre D1 sfx D2 tail :
  repl_is_g1 t = true -> plain pre -> ends_outside pre ->
  all_in d1 D1 = true -> D1 <> [] -> In sfx alts -> all_in d2 D2 = true -> D2 <> [] -> tail_ok tail ->
  re_sub r t (pre ++ D1 ++ sfx ++ D2 ++ tail) = pre ++ D1 ++ tail.
Proof.
  intros Ht Hpl Hend H1 N1 Hin H2 N2 Htl.
  destruct t as [|[?|[|[|i]]] [|? ?]]; try discriminate. clear Ht.
  unfold re_sub. set (whole := pre ++ D1 ++ sfx ++ D2 ++ tail).
  unfold whole at 2. rewrite sub_go_copy.
  2:{ intros j Hj. destruct Hend as [->|[pre' [c [-> Hc]]]]; [cbn in Hj; lia|].
      apply no_match_before; [exact Hpl|exact Hc|]. rewrite app_length in Hj. cbn in Hj. lia. }
  f_equal. rewrite N.add_0_l.
  rewrite (sub_go_hit r _ whole _ (blen pre) (length (D1 ++ sfx ++ D2))
             [(2%nat, (blen pre + blen D1, blen pre + blen D1 + blen sfx)); (1%nat, (blen pre, blen pre + blen D1))]).
  - cbn [expand gget Nat.eqb]. rewrite app_nil_r. unfold whole.
    replace (blen pre + blen D1) with (blen (pre ++ D1)) by apply blen_app.
    rewrite slice_mid. f_equal.
    replace (D1 ++ sfx ++ D2 ++ tail) with ((D1 ++ sfx ++ D2) ++ tail) by (rewrite <- !app_assoc; reflexivity).
    rewrite skipn_app_exact.
    destruct Htl as [->| ->]; [reflexivity|]. cbn [sub_go]. rewrite suffix_no_match_nl. reflexivity.
  - destruct D1; [congruence|cbn; lia].
  - rewrite !app_length. lia.
  - rewrite (suffix_match D1 sfx D2 tail (blen pre)) by assumption. f_equal. f_equal.
    unfold blen. rewrite !app_length. lia.
Qed.

Theorem re_sub_plain t s : plain s -> re_sub r t s = s.
Proof.
  intros Hpl. unfold re_sub. transitivity (sub_go r t s (s ++ []) 0 0); [rewrite app_nil_r; reflexivity|]. rewrite sub_go_copy.
  - cbn [sub_go]. apply app_nil_r.
  - intros j Hj. rewrite app_nil_r. apply no_match_plain. intros c Hc. apply Hpl. eapply in_skipn. exact Hc.
Qed.

(* plain text followed by one '\n' (what `$` tolerates) is also left alone *)
Theorem re_sub_plain_nl t s : plain s -> re_sub r t (s ++ [10]) = s ++ [10].
Proof.
  intros Hpl. unfold re_sub. rewrite sub_go_copy.
  - cbn [sub_go]. rewrite suffix_no_match_nl. reflexivity.
  - (* before the newline: s with '\n' appended is still plain, and '\n' is outside D1 *)
    intros j Hj. rewrite <- (app_nil_r (s ++ [10])). apply no_match_before; [|exact ok_nl1|lia].
    intros c Hc. apply in_app_or in Hc. destruct Hc as [Hc|[<-|[]]]; [apply Hpl, Hc|apply ok_parts].
Qed.
End Suffix.
