(* Proofs/C15.v — translator equivalences, parse_host_port / escape_ipv6 round trip,
   urlsplit post-processing, params(). *)
From Coq Require Import String.
Require Import OV.Base.Bytes OV.Base.Py OV.Base.PyInt OV.Base.Str OV.Base.C15_PyVal.
Require Import OV.Gen.C15_Netutils OV.Model.C15 OV.Model.C15_Spec OV.Proofs.C15_Str.
Open Scope N_scope.

Theorem gen_eui64_combine_equiv first e : gen_eui64_combine first e = eui64_combine first e.
Proof. reflexivity. Qed.

Theorem gen_mac_of_ipv6_equiv v : gen_mac_of_ipv6 v = mac_of_ipv6 v.
Proof. reflexivity. Qed.

Theorem gen_parse_host_port_equiv a d : gen_parse_host_port a d = parse_host_port a d.
Proof.
  unfold gen_parse_host_port, parse_host_port.
  destruct a as [|c rest]; [reflexivity|].
  cbn [bempty nth_error].
  destruct (c =? 91) eqn:E.
  - rewrite zslice_from by lia. change (bskip (Z.to_N 1) (c :: rest)) with rest.
    rewrite rsplit_max1.
    destruct (rcut_at 93 rest) as [[h p]|]; [|reflexivity].
    destruct (has_char 58 p) eqn:Hp; [|reflexivity].
    destruct (split_char 58 p) as [|f0 [|q l]]; reflexivity.
  - destruct (count_char 58 (c :: rest) =? 1)%Z; [|reflexivity].
    destruct (split_char 58 (c :: rest)) as [|h [|p [|x l]]]; reflexivity.
Qed.

Theorem gen_urlsplit_post_equiv s n p q f a :
  gen_urlsplit_post s n p q f a = Ok (urlsplit_post s n p q f a).
Proof.
  unfold gen_urlsplit_post, urlsplit_post, split_char_max.
  assert (Q : forall (path qq ff : str),
    (if has_char 63 path
     then match split_char_max_aux 63 path [] 1 with
          | [f0__; f1__] => Ok (s, n, f0__, f1__, ff)
          | _ => Exn ValueError
          end
     else Ok (s, n, path, qq, ff)) =
    Ok (s, n, fst (match cut_at 63 path with Some (a, b) => (a, b) | None => (path, qq) end),
        snd (match cut_at 63 path with Some (a, b) => (a, b) | None => (path, qq) end), ff)).
  { intros path qq ff. rewrite split_max1_aux, cut_at_has.
    destruct (cut_at 63 path) as [[a1 b1]|]; reflexivity. }
  (* robust to the order of the two conjuncts of `allow_fragments and '#' in path` *)
  rewrite (cut_at_has 35 p).
  destruct a; destruct (cut_at 35 p) as [[a1 b1]|] eqn:E35; cbn [andb fst snd]; try apply Q.
  rewrite split_max1_aux, E35. cbn [rev app]. apply Q.
Qed.

Lemma opt_int_dec port : opt_int (VStr (dec_of_Z port)) = Ok (Some port).
Proof. cbn [opt_int]. rewrite py_int_dec_of_Z. reflexivity. Qed.

Lemma parse_bracket rest d :
  parse_host_port (91 :: rest) d =
  match rcut_at 93 rest with
  | Some (h, p) =>
      if has_char 58 p then
        match split_char 58 p with
        | _ :: q :: _ => do pn <- opt_int (VStr q); Ok (Some h, pn)
        | _ => Exn IndexError
        end
      else do pn <- opt_int d; Ok (Some h, pn)
  | None => Exn ValueError
  end.
Proof. reflexivity. Qed.

Lemma parse_nobracket a d : a <> [] -> prefixb [91] a = false ->
  parse_host_port a d =
  if (count_char 58 a =? 1)%Z then
    match split_char 58 a with
    | [h; p] => do pn <- opt_int (VStr p); Ok (Some h, pn)
    | _ => Exn ValueError
    end
  else do pn <- opt_int d; Ok (Some a, pn).
Proof.
  intros Hne Hp. destruct a as [|c rest]; [congruence|].
  cbn [prefixb] in Hp. rewrite andb_true_r in Hp.
  unfold parse_host_port. rewrite N.eqb_sym, Hp. reflexivity.
Qed.

Lemma bind_host_inv (X : res (option Z)) (h host : str) y :
  (do pn <- X; Ok (Some h, pn)) = Ok (Some host, y) -> h = host.
Proof. destruct X; cbn [bind]; intros H; inversion H; reflexivity. Qed.

(* the host a bracketed address yields is what precedes its last ']' *)
Lemma bracket_host_inv rest d host y :
  parse_host_port (91 :: rest) d = Ok (Some host, y) ->
  exists p, rcut_at 93 rest = Some (host, p).
Proof.
  rewrite parse_bracket. intros H.
  destruct (rcut_at 93 rest) as [[h p]|] eqn:E; [|discriminate].
  assert (h = host).
  { destruct (has_char 58 p).
    - destruct (split_char 58 p) as [|f0 [|q l]]; try discriminate. eapply bind_host_inv; exact H.
    - eapply bind_host_inv; exact H. }
  subst h. exists p. reflexivity.
Qed.

(* ... so it is strictly shorter than the text after the '[' *)
Lemma rcut_shorter c s a b : rcut_at c s = Some (a, b) -> (length a < length s)%nat.
Proof.
  intros H. destruct (rcut_at_spec _ _ _ _ H) as [-> _]. rewrite app_length. cbn [length]. lia.
Qed.

Lemma length_app_neq {A} (a b : list A) : b <> [] -> a ++ b <> a.
Proof.
  intros Hb E. apply (f_equal (@length A)) in E. rewrite app_length in E.
  destruct b; [congruence|]. cbn [length] in E. lia.
Qed.

(* parse_host_port (escape_ipv6 host ++ ":" ++ str(port)) = (host, port)
   exactly for the hosts described by rt_host; any integer port *)
Theorem host_port_roundtrip_iff valid host port :
  parse_host_port (escape_ipv6 valid host ++ [58] ++ dec_of_Z port) VNone = Ok (Some host, Some port)
  <-> rt_host valid host = true.
Proof.
  assert (D93 : has_char 93 (58 :: dec_of_Z port) = false).
  { rewrite has_char_cons. rewrite dec_of_Z_no_char by lia. reflexivity. }
  assert (D58 : has_char 58 (dec_of_Z port) = false) by (apply dec_of_Z_no_char; lia).
  unfold rt_host, escape_ipv6. destruct valid.
  - (* bracketed: every host *)
    replace (([91] ++ host ++ [93]) ++ [58] ++ dec_of_Z port)
      with (91 :: (host ++ 93 :: (58 :: dec_of_Z port)))
      by (cbn [app]; rewrite <- !app_assoc; reflexivity).
    rewrite parse_bracket, rcut_at_last by exact D93.
    rewrite has_char_cons, N.eqb_refl. cbn [orb].
    change (58 :: dec_of_Z port) with ([] ++ 58 :: dec_of_Z port).
    rewrite split_char_two by (reflexivity || assumption).
    rewrite opt_int_dec. split; reflexivity.
  - (* not bracketed *)
    cbn [app]. destruct (prefixb [91] host) eqn:Hp.
    + rewrite andb_false_r. split; [|discriminate]. intros H. exfalso.
      destruct host as [|c rest]; [discriminate|].
      cbn [prefixb] in Hp. rewrite andb_true_r in Hp. apply N.eqb_eq in Hp. subst c.
      cbn [app] in H. apply bracket_host_inv in H. destruct H as (p & Hs).
      rewrite rcut_at_app_tail in Hs by exact D93.
      destruct (rcut_at 93 rest) as [[a b]|] eqn:E; [|discriminate].
      inversion Hs; subst. apply rcut_shorter in E. cbn [length] in E. lia.
    + rewrite andb_true_r.
      assert (Hne : host ++ 58 :: dec_of_Z port <> []) by (destruct host; discriminate).
      assert (Hp' : prefixb [91] (host ++ 58 :: dec_of_Z port) = false).
      { destruct host as [|c rest]; [reflexivity|exact Hp]. }
      rewrite (parse_nobracket _ _ Hne Hp'), count_char_app.
      cbn [count_char]. rewrite N.eqb_refl.
      apply count_char_0 in D58. rewrite D58.
      destruct (has_char 58 host) eqn:H58; cbn [negb]; split; intros H; try discriminate; try reflexivity.
      * exfalso. pose proof (count_char_pos _ _ H58).
        replace (count_char 58 host + (1 + 0) =? 1)%Z with false in H by lia.
        cbn [opt_int bind] in H. discriminate.
      * pose proof (proj1 (count_char_0 _ _) H58) as C0. rewrite C0.
        cbn [Z.add Z.eqb Pos.eqb Pos.add].
        rewrite split_char_two by (assumption || apply count_char_0; assumption).
        rewrite opt_int_dec. reflexivity.
Qed.

(* a missing port yields the default — exactly for the hosts described by rt_host_default *)
Theorem host_default_roundtrip_iff valid host (d : option Z) :
  parse_host_port (escape_ipv6 valid host) (pv_of d) = Ok (Some host, d)
  <-> rt_host_default valid host = true.
Proof.
  assert (OI : opt_int (pv_of d) = Ok d) by (destruct d; reflexivity).
  unfold rt_host_default, escape_ipv6. destruct valid.
  - replace ([91] ++ host ++ [93]) with (91 :: (host ++ 93 :: [])) by reflexivity.
    rewrite parse_bracket, rcut_at_last by reflexivity.
    cbn [has_char memN]. rewrite OI. split; reflexivity.
  - destruct host as [|c rest].
    + cbn. split; discriminate.
    + cbn [bempty negb andb].
      destruct (prefixb [91] (c :: rest)) eqn:Hp; cbn [negb andb].
      * split; [|discriminate]. intros H. exfalso.
        cbn [prefixb] in Hp. rewrite andb_true_r in Hp. apply N.eqb_eq in Hp. subst c.
        apply bracket_host_inv in H. destruct H as (p & Hs).
        apply rcut_shorter in Hs. cbn [length] in Hs. lia.
      * rewrite (parse_nobracket (c :: rest) _ ltac:(discriminate) Hp).
        destruct (count_char 58 (c :: rest) =? 1)%Z eqn:C1; cbn [negb]; split; intros H; try discriminate.
        -- exfalso.
           destruct (split_char 58 (c :: rest)) as [|h [|p [|x l]]] eqn:E; try discriminate.
           apply bind_host_inv in H. subst h.
           destruct (split_char_two_inv _ _ _ _ E) as (Hs & _ & _).
           symmetry in Hs. revert Hs. apply length_app_neq. discriminate.
        -- reflexivity.
        -- rewrite OI. reflexivity.
Qed.

(* IPv6 literals with or without a scope id — everything escape_ipv6 brackets, no condition *)
Corollary host_port_roundtrip_ipv6 host port :
  parse_host_port (escape_ipv6 true host ++ [58] ++ dec_of_Z port) VNone = Ok (Some host, Some port).
Proof. apply host_port_roundtrip_iff. reflexivity. Qed.

Corollary host_default_ipv6 host d :
  parse_host_port (escape_ipv6 true host) (pv_of d) = Ok (Some host, d).
Proof. apply host_default_roundtrip_iff. reflexivity. Qed.

(* non-vacuity and the negative instances *)
Example ex_rt_name : rt_host false (lit "server01") = true /\ rt_host_default false (lit "server01") = true.
Proof. split; reflexivity. Qed.
Example ex_rt_ipv4 : rt_host false (lit "10.0.0.1") = true /\ rt_host_default false (lit "10.0.0.1") = true.
Proof. split; reflexivity. Qed.
Example ex_plain_hyps :
  has_char 58 (lit "server01") = false /\ prefixb [91] (lit "server01") = false /\ lit "server01" <> [].
Proof. repeat split; try reflexivity. discriminate. Qed.
(* a scope id containing ']' round-trips: the bracketed text is split at its last ']' (finding H1) *)
Example ex_scope_bracket_ok :
  parse_host_port (escape_ipv6 true (lit "fe80::1%a]b") ++ [58] ++ dec_of_Z 80) VNone = Ok (Some (lit "fe80::1%a]b"), Some 80%Z).
Proof. vm_compute. reflexivity. Qed.
(* one ':' and no brackets (is_valid_ipv6 says no): host and port are confused *)
Example ex_one_colon_fails :
  rt_host false (lit "a:b") = false /\
  parse_host_port (escape_ipv6 false (lit "a:b") ++ [58] ++ dec_of_Z 80) VNone = Ok (Some (lit "a:b:80"), None).
Proof. split; vm_compute; reflexivity. Qed.
Example ex_one_colon_default_fails :
  rt_host_default false (lit "a:b") = false /\
  parse_host_port (escape_ipv6 false (lit "a:b")) (pv_of (Some 7%Z)) = Exn ValueError.
Proof. split; vm_compute; reflexivity. Qed.
(* an unbracketed host with two or more colons keeps its default port but not an explicit one *)
Example ex_unescaped_ipv6 :
  rt_host_default false (lit "a:b:c") = true /\ rt_host false (lit "a:b:c") = false.
Proof. split; reflexivity. Qed.

(* under the post-condition of urllib.parse.urlsplit (no '?' in the path; no '#' when
   fragments are allowed) oslo's urlsplit returns the stdlib's five components unchanged *)
Theorem urlsplit_post_identity s n p q f a :
  has_char 63 p = false -> (a = true -> has_char 35 p = false) ->
  urlsplit_post s n p q f a = (s, n, p, q, f).
Proof.
  intros H63 H35. unfold urlsplit_post.
  assert (E : (if a then match cut_at 35 p with Some (a0, b) => (a0, b) | None => (p, f) end else (p, f)) = (p, f)).
  { destruct a; [|reflexivity]. specialize (H35 eq_refl). rewrite cut_at_has in H35.
    destruct (cut_at 35 p) as [[? ?]|]; [discriminate|reflexivity]. }
  rewrite E. cbn [fst snd]. rewrite cut_at_has in H63.
  destruct (cut_at 63 p) as [[? ?]|]; [discriminate|reflexivity].
Qed.

Theorem urlsplit_agrees s n p q f a :
  has_char 63 p = false -> (a = true -> has_char 35 p = false) ->
  gen_urlsplit_post s n p q f a = Ok (s, n, p, q, f).
Proof. intros H1 H2. rewrite gen_urlsplit_post_equiv, urlsplit_post_identity by assumption. reflexivity. Qed.

Lemma cut_prefix_clean c d s a b : cut_at c s = Some (a, b) -> has_char d s = false -> has_char d a = false.
Proof.
  intros H Hd. destruct (cut_at_spec _ _ _ _ H) as [-> _].
  rewrite has_char_app in Hd. apply orb_false_iff in Hd. tauto.
Qed.

(* whatever the stdlib returned: afterwards the path has no '?', and no '#' when fragments
   are allowed; nothing is lost (the pieces glue back to the stdlib's path) *)
Theorem urlsplit_post_clean s n p q f a :
  match urlsplit_post s n p q f a with
  | (s', n', p', q', f') =>
      s' = s /\ n' = n /\ has_char 63 p' = false /\ (a = true -> has_char 35 p' = false) /\
      (exists tl, p = p' ++ tl)
  end.
Proof.
  unfold urlsplit_post.
  set (pf := if a then match cut_at 35 p with Some (a0, b) => (a0, b) | None => (p, f) end else (p, f)).
  assert (P1 : (a = true -> has_char 35 (fst pf) = false) /\ exists tl, p = fst pf ++ tl).
  { subst pf. destruct a.
    - destruct (cut_at 35 p) as [[a0 b0]|] eqn:E; cbn [fst].
      + destruct (cut_at_spec _ _ _ _ E) as [-> Ha]. split; [intros _; exact Ha|]. eexists; reflexivity.
      + split; [intros _; rewrite cut_at_has, E; reflexivity|]. exists []. symmetry; apply app_nil_r.
    - cbn [fst]. split; [discriminate|]. exists []. symmetry; apply app_nil_r. }
  destruct P1 as [P35 [tl1 Ptl]].
  destruct (cut_at 63 (fst pf)) as [[a1 b1]|] eqn:E; cbn [fst snd].
  - destruct (cut_at_spec _ _ _ _ E) as [Es Ha]. repeat split; try assumption.
    + intros Ht. eapply cut_prefix_clean; [exact E|]. auto.
    + exists (63 :: b1 ++ tl1). rewrite Ptl, Es, <- app_assoc. reflexivity.
  - repeat split; try assumption.
    + rewrite cut_at_has, E. reflexivity.
    + exists tl1. exact Ptl.
Qed.

Example ex_urlsplit_contract : has_char 63 (lit "/a;b/c") = false /\ has_char 35 (lit "/a;b/c") = false.
Proof. split; reflexivity. Qed.
(* what the post-processing would do to a path the contract excludes *)
Example ex_urlsplit_post_splits :
  urlsplit_post (lit "http") (lit "h") (lit "/p#f?q") [] [] true = (lit "http", lit "h", lit "/p", [], lit "f?q").
Proof. vm_compute. reflexivity. Qed.

(* ================================================================== params() *)

Section Dict.
  Context {V : Type}.

  Lemma dict_get_set (k k' : str) (v : V) d :
    dict_get k (dict_set k' v d) = if beq k k' then Some v else dict_get k d.
  Proof.
    induction d as [|[k0 v0] d IH]; cbn [dict_set dict_get].
    - destruct (beq k k'); reflexivity.
    - destruct (beq k' k0) eqn:E; cbn [dict_get].
      + apply beq_eq in E. subst k0. destruct (beq k k'); reflexivity.
      + destruct (beq k k0) eqn:E0.
        * apply beq_eq in E0. subst k0.
          destruct (beq k k') eqn:E1; [|reflexivity].
          apply beq_eq in E1. subst k'. rewrite beq_refl in E. discriminate.
        * exact IH.
  Qed.

  Lemma dict_set_keys (k : str) (v : V) d :
    map fst (dict_set k v d) = if existsb (beq k) (map fst d) then map fst d else map fst d ++ [k].
  Proof.
    induction d as [|[k0 v0] d IH]; cbn [dict_set map fst existsb]; [reflexivity|].
    destruct (beq k k0); cbn [orb map fst]; [reflexivity|].
    rewrite IH. destruct (existsb (beq k) (map fst d)); reflexivity.
  Qed.

  Lemma dict_set_nodup (k : str) (v : V) d : NoDup (map fst d) -> NoDup (map fst (dict_set k v d)).
  Proof.
    intros H. rewrite dict_set_keys. destruct (existsb (beq k) (map fst d)) eqn:E; [exact H|].
    apply NoDup_snoc; [exact H|]. intros Hin.
    assert (existsb (beq k) (map fst d) = true); [|congruence].
    apply existsb_exists. exists k. split; [exact Hin|apply beq_refl].
  Qed.
End Dict.

Lemma params_collapse_snoc l kv :
  params_collapse (l ++ [kv]) = dict_set (fst kv) (snd kv) (params_collapse l).
Proof. unfold params_collapse. rewrite fold_left_app. reflexivity. Qed.

Lemma params_all_snoc l kv : params_all (l ++ [kv]) = params_step (params_all l) kv.
Proof. unfold params_all. rewrite fold_left_app. reflexivity. Qed.

Lemma values_of_snoc k l kv :
  values_of k (l ++ [kv]) = values_of k l ++ (if beq k (fst kv) then [snd kv] else []).
Proof.
  unfold values_of. rewrite filter_app, map_app. cbn [filter]. cbv beta.
  unfold str, bytes in *. destruct (beq k (fst kv)); reflexivity || (cbn [map]; reflexivity).
Qed.

(* collapse=True: every name maps to the LAST value given for it; absent names are absent *)
Theorem params_last_wins pairs k :
  dict_get k (params_collapse pairs) = last_opt (values_of k pairs).
Proof.
  induction pairs as [|kv l IH] using rev_ind; [reflexivity|].
  rewrite params_collapse_snoc, dict_get_set, values_of_snoc.
  destruct (beq k (fst kv)).
  - unfold last_opt. rewrite rev_app_distr. reflexivity.
  - rewrite app_nil_r. exact IH.
Qed.

(* collapse=False: every name maps to ALL its values in order (a single value stays bare) *)
Theorem params_all_values pairs k :
  dict_get k (params_all pairs) = pval_of (values_of k pairs).
Proof.
  induction pairs as [|kv l IH] using rev_ind; [reflexivity|].
  rewrite params_all_snoc, values_of_snoc. unfold params_step.
  destruct (beq k (fst kv)) eqn:E.
  - apply beq_eq in E. subst k. rewrite IH.
    destruct (values_of (fst kv) l) as [|v1 [|v2 vs]]; cbn [pval_of app];
      rewrite dict_get_set, beq_refl; reflexivity.
  - rewrite app_nil_r, <- IH.
    destruct (dict_get (fst kv) (params_all l)) as [[x|xs]|]; rewrite dict_get_set, E; reflexivity.
Qed.

Definition ex_pairs : list (str * str) := [(lit "a", lit "1"); (lit "b", lit "x"); (lit "a", lit "2"); (lit "a", lit "3")].
Example ex_params :
  (params_collapse ex_pairs = [(lit "a", lit "3"); (lit "b", lit "x")]) /\
  (params_all ex_pairs = [(lit "a", Many [lit "1"; lit "2"; lit "3"]); (lit "b", One (lit "x"))]).
Proof. split; vm_compute; reflexivity. Qed.

Example ex_params_contract : bempty (lit "a=1") = true -> [(lit "a", lit "1")] = @nil (str * str).
Proof. discriminate. Qed.
