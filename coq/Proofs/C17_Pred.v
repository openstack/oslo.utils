(* Proofs/C17_Pred.v — VersionPredicate: the parser on the generated predicate regex and operator map *)
From Coq Require Import String.
Require Import OV.Base.Bytes OV.Base.Py OV.Base.PyInt OV.Base.Str OV.Base.Regex.
Require Import OV.Gen.Versionutils OV.Model.C17 OV.Model.C17_Spec.
Require Import OV.Proofs.C04_Regex OV.Proofs.C11_Split.
Require Import OV.Proofs.C17_Regex OV.Proofs.C17_PredRe OV.Proofs.C17_Str.
Open Scope N_scope.

(* ---------- the parts of the generated predicate regex ---------- *)
Definition pparts : cset * list str * cset :=
  match pred_parts predicate_re with Some x => x | None => ([], [], []) end.
Definition pred_ws : cset := fst (fst pparts).
Definition pred_ops : list str := snd (fst pparts).
Definition pred_nw : cset := snd pparts.
Lemma pred_ok_gen : pred_ok pred_ws pred_ops pred_nw = true.
Proof. vm_compute. reflexivity. Qed.
Definition psplit : str -> option (str * str * str * str * str) := pred_split pred_ws pred_ops pred_nw.

(* the generated regex has the shape, with these parts *)
Definition pred_a : re := pred_alt predicate_re.
Lemma predicate_re_shape : predicate_re = pred_re pred_ws pred_a pred_nw /\ alts_of pred_a = Some pred_ops.
Proof. split; reflexivity. Qed.
Lemma re_match_predicate s : re_match predicate_re s = option_map pred_groups (psplit s).
Proof.
  destruct predicate_re_shape as [E Ha]. rewrite E. exact (re_match_pred _ _ _ _ Ha pred_ok_gen s).
Qed.

Definition cmpop_eqb (a b : cmpop) : bool :=
  match a, b with
  | OpLt, OpLt | OpLe, OpLe | OpEq, OpEq | OpGt, OpGt | OpGe, OpGe | OpNe, OpNe => true
  | _, _ => false
  end.
Lemma cmpop_eqb_eq a b : cmpop_eqb a b = true -> a = b.
Proof. destruct a, b; try discriminate; reflexivity. Qed.

Lemma assoc_in k v : In (k, v) comp_map -> assoc_str k comp_map = Some v.
Proof.
  assert (P : forallb (fun kv => match assoc_str (fst kv) comp_map with Some x => cmpop_eqb x (snd kv) | None => false end) comp_map = true)
    by (vm_compute; reflexivity).
  rewrite forallb_forall in P. intros H. specialize (P _ H). cbn [fst snd] in P.
  destruct (assoc_str k comp_map) as [x|]; [|discriminate]. apply cmpop_eqb_eq in P. subst. reflexivity.
Qed.

(* every alternative of the regex is a key of the operator map (no KeyError later) ... *)
Lemma ops_are_keys o : In o pred_ops -> exists op, assoc_str o comp_map = Some op.
Proof.
  assert (P : forallb (fun o => match assoc_str o comp_map with Some _ => true | None => false end) pred_ops = true)
    by (vm_compute; reflexivity).
  rewrite forallb_forall in P. intros H. specialize (P _ H). destruct (assoc_str o comp_map) as [x|]; [eauto|discriminate].
Qed.
(* ... and every key of the map is an alternative of the regex *)
Lemma keys_are_ops k v : In (k, v) comp_map -> In k pred_ops.
Proof.
  assert (P : forallb (fun kv => existsb (beq (fst kv)) pred_ops) comp_map = true) by (vm_compute; reflexivity).
  rewrite forallb_forall in P. intros H. specialize (P _ H). cbn [fst] in P.
  apply existsb_exists in P. destruct P as [o [Ho E]]. apply beq_eq in E. subst. exact Ho.
Qed.

Lemma comma_not_ws : cmem comma pred_ws = false. Proof. vm_compute. reflexivity. Qed.
Lemma eq_not_ws : cmem 61 pred_ws = false. Proof. vm_compute. reflexivity. Qed.
Lemma keys_no_comma k v : In (k, v) comp_map -> ~ In comma k.
Proof.
  assert (P : forallb (fun kv => negb (existsb (N.eqb comma) (fst kv))) comp_map = true) by (vm_compute; reflexivity).
  rewrite forallb_forall in P. intros H Hin. specialize (P _ H). cbn [fst] in P. apply negb_true_iff in P.
  assert (existsb (N.eqb comma) k = true); [|congruence]. apply existsb_exists. exists comma. split; [exact Hin|apply N.eqb_refl].
Qed.

Lemma all_in_notin cs w c : all_in cs w = true -> cmem c cs = false -> ~ In c w.
Proof. unfold all_in. rewrite forallb_forall. intros H Hc Hin. rewrite (H c Hin) in Hc. discriminate. Qed.

(* the generated alternation, in its order: "<=" and ">=" stand before "<" and ">".  The order is what
   [first_op] is about, and it is proved by going through these six; a regenerated regex with other
   operators or another order has to be looked at again here. *)
Lemma pred_ops_val : pred_ops = [[60; 61]; [62; 61]; [60]; [62]; [33; 61]; [61; 61]].
Proof. vm_compute. reflexivity. Qed.
(* the first alternative (in the regex's order) that is a prefix of "k rest" is k itself,
   unless rest starts with '=' *)
Lemma first_op k v rest : In (k, v) comp_map -> hd 0 rest <> 61 ->
  List.find (fun x => prefixb x (k ++ rest)) pred_ops = Some k.
Proof.
  intros H Hr. rewrite pred_ops_val. unfold comp_map in H. cbn [In] in H.
  destruct rest as [|y rest].
  - destruct H as [H|[H|[H|[H|[H|[H|[]]]]]]]; injection H as <- <-; reflexivity.
  - cbn [hd] in Hr. assert (E : (61 =? y) = false) by lia.
    destruct H as [H|[H|[H|[H|[H|[H|[]]]]]]]; injection H as <- <-; cbn [List.find prefixb app]; rewrite ?E; reflexivity.
Qed.

Lemma parse_predicate_eq part : parse_predicate part =
  match psplit part with
  | Some (a1, o, a2, ver, a3) => match assoc_str o comp_map with Some op => Some (op, ver) | None => None end
  | None => None
  end.
Proof.
  unfold parse_predicate. rewrite re_match_predicate. unfold psplit.
  destruct (pred_split pred_ws pred_ops pred_nw part) as [[[[[a1 o] a2] ver] a3]|] eqn:E; [|reflexivity].
  destruct (pred_split_sound _ _ _ _ _ _ _ _ _ E) as (-> & _).
  destruct (pred_groups_text a1 o a2 ver a3) as [G1 G2]. cbn [pred_groups snd] in G1, G2.
  cbn [option_map pred_groups]. rewrite G1, G2. reflexivity.
Qed.

Lemma parse_predicate_none part : parse_predicate part = None <-> psplit part = None.
Proof.
  rewrite parse_predicate_eq. destruct (psplit part) as [[[[[a1 o] a2] ver] a3]|] eqn:E; [|tauto].
  destruct (pred_split_sound _ _ _ _ _ _ _ _ _ E) as (_ & Ho & _).
  destruct (ops_are_keys o Ho) as [op ->]. split; discriminate.
Qed.

Definition wf_cmp (c : cmp_text) (op : cmpop) : Prop :=
  In (c_op c, op) comp_map /\
  all_in pred_ws (c_lead c) = true /\ all_in pred_ws (c_mid c) = true /\ all_in pred_ws (c_trail c) = true /\
  c_ver c <> [] /\ all_in pred_nw (c_ver c) = true /\ ~ In comma (c_ver c) /\
  (c_mid c <> [] \/ hd 0 (c_ver c) <> 61).

Lemma parse_predicate_wf c op : wf_cmp c op -> parse_predicate (render_cmp c) = Some (op, c_ver c).
Proof.
  intros (Hk & A1 & A2 & A3 & Nv & Av & _ & Hd). rewrite parse_predicate_eq. unfold psplit, render_cmp.
  rewrite (pred_split_complete _ _ _ pred_ok_gen); auto.
  - rewrite (assoc_in _ _ Hk). reflexivity.
  - apply (first_op _ op); [exact Hk|]. destruct (c_mid c) as [|x m] eqn:Em.
    + cbn [app]. destruct Hd as [Hd|Hd]; [congruence|]. destruct (c_ver c); [congruence|exact Hd].
    + cbn [app hd]. cbn [all_in forallb] in A2. apply andb_true_iff in A2. destruct A2 as [A2 _].
      intros ->. rewrite eq_not_ws in A2. discriminate.
Qed.

Lemma render_no_comma c op : wf_cmp c op -> ~ In comma (render_cmp c).
Proof.
  intros (Hk & A1 & A2 & A3 & Nv & Av & Hc & _) H. unfold render_cmp in H.
  apply in_app_or in H; destruct H as [H|H]; [exact (all_in_notin _ _ _ A1 comma_not_ws H)|].
  apply in_app_or in H; destruct H as [H|H]; [exact (keys_no_comma _ _ Hk H)|].
  apply in_app_or in H; destruct H as [H|H]; [exact (all_in_notin _ _ _ A2 comma_not_ws H)|].
  apply in_app_or in H; destruct H as [H|H]; [exact (Hc H)|exact (all_in_notin _ _ _ A3 comma_not_ws H)].
Qed.

(* the PARSER: a comma-joined list of well-formed comparisons is parsed into exactly the
   list of (operator, version text) pairs, in order *)
Theorem parse_predicates_wf cs ops : cs <> [] -> Forall2 wf_cmp cs ops ->
  parse_predicates (join [comma] (map render_cmp cs)) = Some (combine ops (map c_ver cs)).
Proof.
  intros Hne HF. unfold parse_predicates. change 44 with comma. rewrite split_join.
  - clear Hne. induction HF as [|c op cs ops Hc _ IH]; [reflexivity|].
    cbn [map map_opt combine]. rewrite (parse_predicate_wf c op Hc), IH. reflexivity.
  - destruct cs; [congruence|discriminate].
  - clear Hne. induction HF as [|c op cs ops Hc _ IH]; [constructor|]. cbn [map]. constructor; [|exact IH].
    eapply render_no_comma. exact Hc.
Qed.

Lemma parse_predicates_none s :
  parse_predicates s = None <-> exists part, In part (split_char comma s) /\ psplit part = None.
Proof.
  unfold parse_predicates. change 44 with comma. rewrite map_opt_none. split; intros [part [Hin H]]; exists part; (split; [exact Hin|]).
  - apply parse_predicate_none. exact H.
  - apply parse_predicate_none. exact H.
Qed.

Theorem reject_empty_ver a1 o a2 :
  all_in pred_ws a1 = true -> In o pred_ops -> all_in pred_ws a2 = true ->
  (forall x, In x pred_ops -> prefixb x (o ++ a2) = true -> x = o) ->
  psplit (a1 ++ o ++ a2) = None.
Proof. apply (reject_empty_version _ _ _ pred_ok_gen). Qed.

Theorem reject_inner_blank a1 o a2 v1 w v2 a3 :
  all_in pred_ws a1 = true -> In o pred_ops -> v1 <> [] -> all_in pred_nw v1 = true ->
  w <> [] -> all_in pred_ws w = true -> v2 <> [] -> all_in pred_nw v2 = true ->
  (forall x, In x pred_ops -> prefixb x (o ++ a2 ++ v1 ++ w ++ v2 ++ a3) = true -> (length x < length (o ++ a2 ++ v1))%nat) ->
  psplit (a1 ++ o ++ a2 ++ v1 ++ w ++ v2 ++ a3) = None.
Proof. apply (reject_inner_space _ _ _ pred_ok_gen). Qed.

Section Init.
  Variable V : Type.
  Variable vparse : str -> option V.

  Theorem init_wf cs ops vs : cs <> [] -> Forall2 wf_cmp cs ops ->
    Forall2 (fun c v => vparse (c_ver c) = Some v) cs vs ->
    predicate_init V vparse (join [comma] (map render_cmp cs)) = Ok (combine ops vs).
  Proof.
    intros Hne HF HV. unfold predicate_init. rewrite (parse_predicates_wf cs ops Hne HF).
    assert (E : map_opt (parse_version_of V vparse) (combine ops (map c_ver cs)) = Some (combine ops vs)).
    { clear Hne. revert vs HV. induction HF as [|c op cs ops Hc _ IH]; intros vs HV; inversion HV as [|? v ? vs' Hv HV']; subst; [reflexivity|].
      cbn [map combine map_opt]. unfold parse_version_of at 1. cbn [fst snd]. rewrite Hv, (IH vs' HV'). reflexivity. }
    rewrite E. reflexivity.
  Qed.

  Theorem init_bad_version cs ops c : cs <> [] -> Forall2 wf_cmp cs ops -> In c cs -> vparse (c_ver c) = None ->
    predicate_init V vparse (join [comma] (map render_cmp cs)) = Exn ValueError.
  Proof.
    intros Hne HF Hin Hv. unfold predicate_init. rewrite (parse_predicates_wf cs ops Hne HF).
    assert (E : map_opt (parse_version_of V vparse) (combine ops (map c_ver cs)) = None).
    { apply map_opt_none. clear Hne. induction HF as [|c' op cs ops Hc _ IH]; [destruct Hin|].
      cbn [map combine]. destruct Hin as [->|Hin].
      - exists (op, c_ver c). split; [left; reflexivity|]. unfold parse_version_of. cbn [snd]. rewrite Hv. reflexivity.
      - destruct (IH Hin) as [x [Hx Hn]]. exists x. split; [right; exact Hx|exact Hn]. }
    rewrite E. reflexivity.
  Qed.
End Init.

(* non-vacuity, and what the regex really does on the edge cases *)
Example parse_examples :
  parse_predicates (lit " >= 1.0 , < 2") = Some [(OpGe, lit "1.0"); (OpLt, lit "2")] /\
  parse_predicates (lit "<=1") = Some [(OpLe, lit "1")] /\          (* not ('<', '=1') *)
  parse_predicates (lit ">=") = Some [(OpGt, lit "=")] /\           (* "empty version" after >= is read as '>' '=' *)
  parse_predicates (lit "==") = None /\ parse_predicates (lit "") = None /\
  parse_predicates (lit ">=1,") = None /\ parse_predicates (lit ">=1 0") = None /\
  parse_predicates (lit "~=1") = None /\ parse_predicates (10 :: lit ">=1" ++ [10]) = Some [(OpGe, lit "1")].
Proof. vm_compute. repeat split. Qed.

(* instances of the hypotheses (non-vacuity) *)
Example wf_example :
  Forall2 wf_cmp [ {| c_lead := lit " "; c_op := lit ">="; c_mid := lit " "; c_ver := lit "1.0"; c_trail := [] |};
                   {| c_lead := []; c_op := lit "<"; c_mid := []; c_ver := lit "2"; c_trail := [10] |} ] [OpGe; OpLt].
Proof.
  constructor; [|constructor; [|constructor]]; unfold wf_cmp; cbn [c_lead c_op c_mid c_ver c_trail].
  - repeat split; try (vm_compute; reflexivity); try discriminate.
    + unfold comp_map. cbn. auto 10.
    + vm_compute. intuition discriminate.
    + left. discriminate.
  - repeat split; try (vm_compute; reflexivity); try discriminate.
    + unfold comp_map. cbn. auto 10.
    + vm_compute. intuition discriminate.
    + right. vm_compute. discriminate.
Qed.

Example reject_empty_ver_instance : psplit (lit " == ") = None.
Proof.
  apply (reject_empty_ver (lit " ") (lit "==") (lit " ")); try (vm_compute; reflexivity).
  - rewrite pred_ops_val. cbn. auto 10.
  - intros x Hx. rewrite pred_ops_val in Hx. cbn [In] in Hx.
    destruct Hx as [<-|[<-|[<-|[<-|[<-|[<-|[]]]]]]]; vm_compute; intros; congruence.
Qed.

Example reject_inner_blank_instance : psplit (lit ">=1 0") = None.
Proof.
  apply (reject_inner_blank [] (lit ">=") [] (lit "1") (lit " ") (lit "0") []); try (vm_compute; reflexivity); try discriminate.
  - rewrite pred_ops_val. cbn. auto 10.
  - intros x Hx. rewrite pred_ops_val in Hx. cbn [In] in Hx.
    destruct Hx as [<-|[<-|[<-|[<-|[<-|[<-|[]]]]]]]; vm_compute; intros; try discriminate; lia.
Qed.
