(* Proofs/C12_Calendar.v — the civil calendar conversions are mutually inverse,
   for every day number >= 0 and every valid date of every year >= 1 (unbounded).

   Years and months are handled the same way: days_before_year and days_before_month are running totals
   of year_len and days_in_month, a running total of non-negative lengths splits a number in at most one
   way ([cum_unique]), and the functions that go back (yd_of_days, md_of_doy) return such a split. *)
From Coq Require Import ZArith Bool Lia List.
Require Import OV.Model.C12_Calendar.
Open Scope Z_scope.

Ltac zdm := Z.div_mod_to_equations.

Section Cumulative.
Variables (f len : Z -> Z) (lo hi : Z).
Hypothesis f_step : forall k, lo <= k < hi -> f (k + 1) = f k + len k.
Hypothesis len_nonneg : forall k, lo <= k < hi -> 0 <= len k.

Lemma cum_mono a b : lo <= a <= b -> b <= hi -> f a <= f b.
Proof.
  intros Ha Hb. replace b with (a + (b - a)) by lia.
  assert (Hk : 0 <= b - a <= hi - a) by lia. revert Hk. generalize (b - a) as k.
  intros k [Hk0 Hk]. revert Hk. pattern k. apply natlike_ind; [rewrite Z.add_0_r; lia| |exact Hk0].
  intros x Hx IH Hxa. replace (a + Z.succ x) with (a + x + 1) by lia.
  rewrite f_step by lia. specialize (len_nonneg (a + x)). lia.
Qed.

Lemma cum_unique a ra b rb :
  lo <= a < hi -> lo <= b < hi -> 0 <= ra < len a -> 0 <= rb < len b -> f a + ra = f b + rb -> a = b /\ ra = rb.
Proof.
  intros Ha Hb Hra Hrb E.
  assert (Hlt : forall x rx y ry, lo <= x -> y < hi -> rx < len x -> 0 <= ry -> x < y -> f x + rx < f y + ry).
  { intros x rx y ry Hx Hy Hrx Hry Hxy. pose proof (cum_mono (x + 1) y ltac:(lia) ltac:(lia)) as Hm.
    rewrite f_step in Hm by lia. lia. }
  destruct (Z.lt_trichotomy a b) as [L|[L|L]].
  - specialize (Hlt a ra b rb). lia.
  - subst. lia.
  - specialize (Hlt b rb a ra). lia.
Qed.
End Cumulative.

Lemma is_leap_cases y :
  (is_leap y = true /\ (y mod 4 = 0 /\ (y mod 100 <> 0 \/ y mod 400 = 0))) \/
  (is_leap y = false /\ (y mod 4 <> 0 \/ (y mod 100 = 0 /\ y mod 400 <> 0))).
Proof.
  unfold is_leap.
  destruct (y mod 4 =? 0) eqn:E4; destruct (y mod 100 =? 0) eqn:E100; destruct (y mod 400 =? 0) eqn:E400;
    cbn [andb orb negb]; lia.
Qed.

Lemma year_len_pos y : 365 <= year_len y <= 366.
Proof. unfold year_len. destruct (is_leap y); lia. Qed.

(* one year further = year_len more days *)
Lemma dby_step y : days_before_year (y + 1) = days_before_year y + year_len y.
Proof.
  unfold days_before_year, year_len.
  destruct (is_leap_cases y) as [[-> H]|[-> H]]; replace (y + 1 - 1) with y by lia; zdm; lia.
Qed.

Lemma dby_mono a b : a <= b -> days_before_year a <= days_before_year b.
Proof.
  intro H. apply (cum_mono days_before_year year_len a b); try lia.
  - intros k _. apply dby_step.
  - intros k _. pose proof (year_len_pos k). lia.
Qed.

Lemma dby_nonneg y : 1 <= y -> 0 <= days_before_year y.
Proof. apply (dby_mono 1 y). Qed.

(* a (year, day-of-year) decomposition of a day number is unique *)
Lemma yd_unique y1 d1 y2 d2 :
  0 <= d1 < year_len y1 -> 0 <= d2 < year_len y2 ->
  days_before_year y1 + d1 = days_before_year y2 + d2 -> y1 = y2 /\ d1 = d2.
Proof.
  apply (cum_unique days_before_year year_len (Z.min y1 y2) (Z.max y1 y2 + 1)); try lia.
  - intros k _. apply dby_step.
  - intros k _. pose proof (year_len_pos k). lia.
Qed.

(* the day number of January 1st from the position of the year in its 400-, 100- and 4-year cycles *)
Lemma dby_digits a b c d : 0 <= b <= 3 -> 0 <= c <= 24 -> 0 <= d <= 3 ->
  days_before_year (400 * a + 100 * b + 4 * c + d + 1) = 146097 * a + 36524 * b + 1461 * c + 365 * d.
Proof.
  intros Hb Hc Hd. unfold days_before_year.
  replace (400 * a + 100 * b + 4 * c + d + 1 - 1) with (400 * a + 100 * b + 4 * c + d) by lia.
  assert (E4 : (400 * a + 100 * b + 4 * c + d) / 4 = 100 * a + 25 * b + c) by (zdm; lia).
  assert (E100 : (400 * a + 100 * b + 4 * c + d) / 100 = 4 * a + b) by (zdm; lia).
  assert (E400 : (400 * a + 100 * b + 4 * c + d) / 400 = a) by (zdm; lia).
  rewrite E4, E100, E400. lia.
Qed.

Lemma yd_of_days_spec n : 0 <= n ->
  let '(y, doy) := yd_of_days n in
  1 <= y /\ 0 <= doy < year_len y /\ days_before_year y + doy = n.
Proof.
  intros Hn. unfold yd_of_days.
  set (n400 := n / 146097). set (r := n mod 146097).
  set (n100 := r / 36524). set (r2 := r mod 36524).
  set (n4 := r2 / 1461). set (r3 := r2 mod 1461).
  set (n1 := r3 / 365). set (r4 := r3 mod 365).
  assert (E1 : n = 146097 * n400 + r /\ 0 <= r < 146097) by (subst n400 r; zdm; lia).
  assert (E2 : r = 36524 * n100 + r2 /\ 0 <= r2 < 36524) by (subst n100 r2; zdm; lia).
  assert (E3 : r2 = 1461 * n4 + r3 /\ 0 <= r3 < 1461) by (subst n4 r3; zdm; lia).
  assert (E4 : r3 = 365 * n1 + r4 /\ 0 <= r4 < 365) by (subst n1 r4; zdm; lia).
  clearbody n400 r n100 r2 n4 r3 n1 r4.
  set (y := n400 * 400 + n100 * 100 + n4 * 4 + n1 + 1).
  destruct (Z.eqb_spec n1 4) as [H1|H1]; [|destruct (Z.eqb_spec n100 4) as [H100|H100]]; cbn [orb].
  - (* last day of a 4-year cycle: n is 365 days into year y - 1, and year y starts 366 days after it *)
    pose proof (dby_step (y - 1)) as S. replace (y - 1 + 1) with y in S by lia.
    replace y with (400 * n400 + 100 * n100 + 4 * (n4 + 1) + 0 + 1) in S at 1 by lia.
    replace (y - 1) with (400 * n400 + 100 * n100 + 4 * n4 + 3 + 1) in * by lia.
    rewrite !dby_digits in * by lia. lia.
  - (* last day of a 400-year cycle: the same *)
    pose proof (dby_step (y - 1)) as S. replace (y - 1 + 1) with y in S by lia.
    replace y with (400 * (n400 + 1) + 100 * 0 + 4 * 0 + 0 + 1) in S at 1 by lia.
    replace (y - 1) with (400 * n400 + 100 * 3 + 4 * 24 + 3 + 1) in * by lia.
    rewrite !dby_digits in * by lia. lia.
  - pose proof (year_len_pos y). replace y with (400 * n400 + 100 * n100 + 4 * n4 + n1 + 1) in * by lia.
    rewrite dby_digits by lia. lia.
Qed.

Lemma yd_of_days_inv y doy : 1 <= y -> 0 <= doy < year_len y ->
  yd_of_days (days_before_year y + doy) = (y, doy).
Proof.
  intros Hy Hd. pose proof (dby_nonneg y Hy) as H0.
  pose proof (yd_of_days_spec (days_before_year y + doy) ltac:(lia)) as S.
  destruct (yd_of_days (days_before_year y + doy)) as [y' d'].
  destruct S as (_ & Hr & He).
  destruct (yd_unique y' d' y doy Hr Hd He) as [-> ->]. reflexivity.
Qed.

Definition month_ok (m : Z) : Prop := 1 <= m <= 12.

Lemma month_cases m : month_ok m ->
  m = 1 \/ m = 2 \/ m = 3 \/ m = 4 \/ m = 5 \/ m = 6 \/ m = 7 \/ m = 8 \/ m = 9 \/ m = 10 \/ m = 11 \/ m = 12.
Proof. unfold month_ok. lia. Qed.

Lemma dbm_next leap m : month_ok m ->
  days_before_month leap (m + 1) = days_before_month leap m + days_in_month leap m.
Proof.
  intros H. destruct (month_cases m H) as [->|[->|[->|[->|[->|[->|[->|[->|[->|[->|[->| ->]]]]]]]]]]];
    destruct leap; reflexivity.
Qed.

Lemma days_in_month_pos leap m : 28 <= days_in_month leap m <= 31.
Proof.
  unfold days_in_month.
  destruct (m =? 2), leap, ((m =? 4) || (m =? 6) || (m =? 9) || (m =? 11)); cbv iota; lia.
Qed.

Lemma dbm_mono leap a b : 1 <= a <= b -> b <= 13 -> days_before_month leap a <= days_before_month leap b.
Proof.
  apply (cum_mono (days_before_month leap) (days_in_month leap) 1 13).
  - intros k Hk. apply dbm_next. unfold month_ok. lia.
  - intros k _. pose proof (days_in_month_pos leap k). lia.
Qed.

Lemma year_len_dbm y : year_len y = days_before_month (is_leap y) 13.
Proof. unfold year_len. destruct (is_leap y); reflexivity. Qed.

(* a valid (month, day) is a day of the year; days_before_month leap 1 is 0 *)
Lemma doy_range leap m d : month_ok m -> 1 <= d <= days_in_month leap m ->
  0 <= days_before_month leap m + (d - 1) < days_before_month leap 13.
Proof.
  intros Hm Hd. unfold month_ok in Hm.
  pose proof (dbm_mono leap 1 m ltac:(lia) ltac:(lia)) as H1. change (days_before_month leap 1) with 0 in H1.
  pose proof (dbm_mono leap (m + 1) 13 ltac:(lia) ltac:(lia)) as H13. rewrite (dbm_next leap m Hm) in H13. lia.
Qed.

Lemma md_unique leap m1 d1 m2 d2 :
  month_ok m1 -> month_ok m2 -> 1 <= d1 <= days_in_month leap m1 -> 1 <= d2 <= days_in_month leap m2 ->
  days_before_month leap m1 + (d1 - 1) = days_before_month leap m2 + (d2 - 1) -> m1 = m2 /\ d1 = d2.
Proof.
  unfold month_ok. intros H1 H2 Hd1 Hd2 E.
  assert (U : m1 = m2 /\ d1 - 1 = d2 - 1); [|lia].
  apply (cum_unique (days_before_month leap) (days_in_month leap) 1 13); try lia.
  - intros k Hk. apply dbm_next. unfold month_ok. lia.
  - intros k _. pose proof (days_in_month_pos leap k). lia.
Qed.

(* the month the cascade of md_of_doy picks is the one whose days contain doy: each test that fails
   gives the lower bound of the next branch, the one that succeeds the upper bound *)
Lemma month_of_doy leap doy : days_before_month leap 1 <= doy < days_before_month leap 13 ->
  let m := fst (md_of_doy leap doy) in
  month_ok m /\ days_before_month leap m <= doy < days_before_month leap (m + 1).
Proof.
  intros [H1 H13]. unfold md_of_doy, month_ok. cbn [fst].
  repeat match goal with |- context [?a <? ?b] =>
    destruct (Z.ltb_spec a b); cbv iota; [split; [lia|split; assumption]|] end.
  split; [lia|split; assumption].
Qed.

Lemma md_of_doy_spec (leap : bool) doy : 0 <= doy < days_before_month leap 13 ->
  let '(m, d) := md_of_doy leap doy in
  month_ok m /\ 1 <= d <= days_in_month leap m /\ days_before_month leap m + (d - 1) = doy.
Proof.
  intros Hd. destruct (month_of_doy leap doy Hd) as (Hm & Hlo & Hhi).
  change (md_of_doy leap doy) with (fst (md_of_doy leap doy), doy - days_before_month leap (fst (md_of_doy leap doy)) + 1).
  rewrite (dbm_next leap _ Hm) in Hhi. split; [exact Hm|lia].
Qed.

Lemma md_of_doy_inv (leap : bool) m d : month_ok m -> 1 <= d <= days_in_month leap m ->
  md_of_doy leap (days_before_month leap m + (d - 1)) = (m, d).
Proof.
  intros Hm Hd. pose proof (md_of_doy_spec leap _ (doy_range leap m d Hm Hd)) as S.
  destruct (md_of_doy leap (days_before_month leap m + (d - 1))) as [m' d']. destruct S as (Hm' & Hd' & E).
  destruct (md_unique leap m' d' m d Hm' Hm Hd' Hd E) as [-> ->]. reflexivity.
Qed.

Lemma valid_ymd_spec y m d : valid_ymd y m d = true <->
  1 <= y /\ month_ok m /\ 1 <= d <= days_in_month (is_leap y) m.
Proof. unfold valid_ymd, month_ok. lia. Qed.

Theorem ymd_of_days_of_ymd y m d : valid_ymd y m d = true ->
  ymd_of_days (days_of_ymd y m d) = (y, m, d).
Proof.
  rewrite valid_ymd_spec. intros (Hy & Hm & Hd).
  unfold ymd_of_days, days_of_ymd.
  pose proof (doy_range (is_leap y) m d Hm Hd) as Hdoy. rewrite <- year_len_dbm in Hdoy.
  rewrite <- Z.add_assoc. rewrite (yd_of_days_inv y _ Hy Hdoy).
  rewrite (md_of_doy_inv _ m d Hm Hd). reflexivity.
Qed.

Theorem days_of_ymd_of_days n : 0 <= n ->
  let '(y, m, d) := ymd_of_days n in
  valid_ymd y m d = true /\ days_of_ymd y m d = n.
Proof.
  intros Hn. unfold ymd_of_days.
  pose proof (yd_of_days_spec n Hn) as S. destruct (yd_of_days n) as [y doy].
  destruct S as (Hy & Hr & He). rewrite year_len_dbm in Hr.
  pose proof (md_of_doy_spec (is_leap y) doy Hr) as S2. destruct (md_of_doy (is_leap y) doy) as [m d].
  destruct S2 as (Hm & Hd & Hs).
  split.
  - apply valid_ymd_spec. auto.
  - unfold days_of_ymd. lia.
Qed.

(* the days of year y are those from days_before_year y up to, not including, days_before_year (y + 1):
   used for the range facts (first and last representable day) *)
Lemma days_of_ymd_range y m d : valid_ymd y m d = true ->
  days_before_year y <= days_of_ymd y m d < days_before_year (y + 1).
Proof.
  intros H. apply valid_ymd_spec in H. destruct H as (Hy & Hm & Hd).
  pose proof (doy_range (is_leap y) m d Hm Hd) as Hdoy. rewrite <- year_len_dbm in Hdoy.
  unfold days_of_ymd. rewrite dby_step. lia.
Qed.

Lemma ymd_of_days_year_bound n Y : 0 <= n < days_before_year (Y + 1) -> fst (fst (ymd_of_days n)) <= Y.
Proof.
  intros Hn. unfold ymd_of_days. pose proof (yd_of_days_spec n ltac:(lia)) as S.
  destruct (yd_of_days n) as [y doy]. destruct (md_of_doy (is_leap y) doy). cbn [fst]. destruct S as (Hy & Hr & He).
  destruct (Z_le_gt_dec y Y) as [L|G]; [exact L|exfalso].
  pose proof (dby_mono (Y + 1) y ltac:(lia)). lia.
Qed.
