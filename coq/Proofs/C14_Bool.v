(* Proofs/C14_Bool.v — bool_from_string and is_valid_boolstr on the generated word tuples *)
From Coq Require Import String.
Require Import OV.Base.Bytes OV.Base.Py OV.Base.PyInt OV.Base.Str OV.Gen.Unicode.
Require Import OV.Model.C14_Py OV.Gen.C14 OV.Model.C14 OV.Proofs.C14_Str.
Open Scope N_scope.

Definition all_words : list str := TRUE_STRINGS ++ FALSE_STRINGS.
(* every character that occurs in a generated word *)
Definition cs_words : list N := concat all_words.

(* no non-ASCII code point lowers into a character of a word (KELVIN SIGN lowers to 'k',
   U+0130 to 'i' + U+0307: neither letter occurs in a word) — recomputed from the generated
   Unicode tables and the generated words on every run *)
Lemma no_nonascii_letter_folds_into_a_word : lower_avoids cs_words = true.
Proof. apply lower_avoids_low_ok. vm_compute. reflexivity. Qed.

(* every word is non-empty and neither starts nor ends with whitespace *)
Lemma words_trimmed : forallb ends_nonspace all_words = true.
Proof. vm_compute. reflexivity. Qed.

(* no word is both a true word and a false word *)
Lemma words_disjoint : forallb (fun w => negb (mem_str w FALSE_STRINGS)) TRUE_STRINGS = true.
Proof. vm_compute. reflexivity. Qed.

Lemma mem_str_In x l : mem_str x l = true <-> In x l.
Proof.
  induction l as [|y t IH]; cbn [mem_str In]; [split; [discriminate|tauto]|].
  rewrite orb_true_iff, IH, beq_eq. split; intros [H|H]; auto.
Qed.

Lemma mem_str_app x a b : mem_str x (a ++ b) = mem_str x a || mem_str x b.
Proof. induction a as [|y t IH]; cbn [app mem_str]; [reflexivity|]. rewrite IH. apply orb_assoc. Qed.

(* s is the word w up to ASCII case, possibly surrounded by whitespace *)
Definition case_pad_variant (s w : str) : Prop :=
  exists pre x post, s = pre ++ x ++ post /\ all_space pre = true /\ all_space post = true /\ lower_ascii x = w.

Definition word_match (s : str) (ws : list str) : Prop := exists w, In w ws /\ case_pad_variant s w.

Lemma word_chars w a : In w all_words -> In a w -> In a cs_words.
Proof. intros Hw Ha. unfold cs_words. apply in_concat. exists w. split; assumption. Qed.

(* subject.strip().lower() is the word w  <->  the subject is w in some ASCII casing with whitespace padding *)
Lemma norm_bool_word s w : In w all_words -> (norm_bool s = w <-> case_pad_variant s w).
Proof.
  intros Hw. unfold norm_bool.
  pose proof (py_lower_eq_word cs_words w no_nonascii_letter_folds_into_a_word (fun a => word_chars w a Hw)) as L.
  split.
  - intros H. destruct (strip_padded s) as (pre & post & E & Hpre & Hpost).
    exists pre, (strip s), post. repeat split; try assumption. apply L. exact H.
  - intros (pre & x & post & -> & Hpre & Hpost & Hx).
    pose proof words_trimmed as T. rewrite forallb_forall in T. specialize (T _ Hw).
    rewrite <- Hx in T. apply ends_nonspace_lower_ascii in T.
    rewrite (strip_unique pre x post Hpre Hpost T). apply L. exact Hx.
Qed.

Lemma mem_norm_iff s ws : incl ws all_words -> (mem_str (norm_bool s) ws = true <-> word_match s ws).
Proof.
  intros Hi. rewrite mem_str_In. split.
  - intros H. exists (norm_bool s). split; [exact H|]. apply norm_bool_word; [apply Hi, H|reflexivity].
  - intros (w & Hw & Hv). apply norm_bool_word in Hv; [|apply Hi, Hw]. rewrite Hv. exact Hw.
Qed.

Lemma incl_true : incl TRUE_STRINGS all_words.
Proof. intros w H. apply in_or_app. left. exact H. Qed.
Lemma incl_false : incl FALSE_STRINGS all_words.
Proof. intros w H. apply in_or_app. right. exact H. Qed.

Lemma true_false_exclusive s : word_match s TRUE_STRINGS -> word_match s FALSE_STRINGS -> False.
Proof.
  intros Ht Hf. apply (mem_norm_iff s _ incl_true) in Ht. apply (mem_norm_iff s _ incl_false) in Hf.
  pose proof words_disjoint as D. rewrite forallb_forall in D.
  apply mem_str_In in Ht. specialize (D _ Ht). rewrite Hf in D. discriminate.
Qed.

(* anything that is not a bool is converted with str() first; if str() raises, that escapes *)
Lemma bool_from_string_via_str lim v strict default : is_bool v = false ->
  bool_from_string lim v strict default =
  match py_str lim v with
  | Ok s => bool_from_string lim (PStr s) strict default
  | Exn e => Exn e
  end.
Proof. destruct v; try discriminate; intros _; unfold bool_from_string, bind; cbn [py_str]; try reflexivity;
  destruct (str_of_int lim z); reflexivity. Qed.

(* with default=False the result is always a bool *)
Lemma bool_from_string_default_false_is_bool lim v r :
  bool_from_string lim v false (PBool false) = Ok r -> exists b, r = PBool b.
Proof.
  destruct (is_bool v) eqn:Eb.
  - destruct v; try discriminate Eb. intros H. injection H as <-. eauto.
  - rewrite (bool_from_string_via_str lim v false (PBool false) Eb).
    destruct (py_str lim v) as [s|e]; [|discriminate].
    unfold bool_from_string. cbn [py_str bind]. unfold classify_bool.
    destruct (mem_str _ TRUE_STRINGS); [intros H; injection H as <-; eauto|].
    destruct (mem_str _ FALSE_STRINGS); intros H; injection H as <-; eauto.
Qed.

Definition recognised (r : res pyval) : bool := match r with Ok _ => true | Exn _ => false end.

(* on unpadded text is_valid_boolstr says exactly whether strict bool_from_string recognises it *)
Lemma is_valid_boolstr_agrees_unpadded lim s default : strip s = s ->
  is_valid_boolstr lim (PStr s) = Ok (recognised (bool_from_string lim (PStr s) true default)).
Proof.
  intros Hs. unfold is_valid_boolstr, bool_from_string. cbn [py_str bind]. unfold classify_bool, norm_bool.
  rewrite Hs. rewrite mem_str_app.
  destruct (mem_str (py_lower s) TRUE_STRINGS); [reflexivity|].
  destruct (mem_str (py_lower s) FALSE_STRINGS); reflexivity.
Qed.

(* a padded word: is_valid_boolstr does not strip (why the hypothesis above is needed) *)
Example is_valid_boolstr_padded :
  is_valid_boolstr 0 (PStr (32 :: lit "true")) = Ok false /\
  bool_from_string 0 (PStr (32 :: lit "true")) true PNone = Ok (PBool true).
Proof. split; vm_compute; reflexivity. Qed.

Lemma is_valid_boolstr_spec lim s :
  is_valid_boolstr lim (PStr s) = Ok (mem_str (py_lower s) all_words).
Proof. reflexivity. Qed.

