(* Proofs/Insp_All.v — engine theorems lifted to the uniform interface of Model/Insp_All.v *)
Require Import OV.Base.Bytes OV.Base.Py OV.Base.Insp_Struct OV.Gen.Insp_Consts OV.Model.Insp_Engine.
Require Import OV.Model.Insp_Raw OV.Model.Insp_Qcow2 OV.Model.Insp_Qed OV.Model.Insp_Vhd OV.Model.Insp_Vdi
               OV.Model.Insp_Iso OV.Model.Insp_Gpt OV.Model.Insp_Luks OV.Model.Insp_Vhdx OV.Model.Insp_Vmdk OV.Model.Insp_All.
Require Import OV.Proofs.Insp_Engine OV.Proofs.Insp_FmtOk.
Open Scope N_scope.

(* every state an inspector object of any of the ten classes can be driven into: any chunks
   (also after an exception, also after finish), finish at any time *)
Inductive ireach : bytes -> istate -> Prop :=
| ireach_init f : ireach [] (init f)
| ireach_eat st i c i' e : ireach st i -> eat i c = (i', e) -> ireach (st ++ c) i'
| ireach_finish st i : ireach st i -> ireach st (finish i).

Lemma ufmt_ok f : f <> F_qcow2 -> f <> F_vmdk -> fmt_ok K_fixed (ufmt f).
Proof.
  (* vhdx has a post hook; the other seven have neither hook nor region completion *)
  intros H1 H2. destruct f; try contradiction; cbn [ufmt]; try exact vhdx_fmt_ok; apply static_fmt_ok; reflexivity.
Qed.

Definition ireach_spec (st : bytes) (i : istate) : Prop :=
  match i with
  | I_unit f s => f <> F_qcow2 /\ f <> F_vmdk /\ reach (ufmt f) st s
  | I_qcow s => reach qcow_fmt st s
  | I_vmdk s => reach vmdk_fmt st s
  end.

Lemma ireach_reach st i : ireach st i -> ireach_spec st i.
Proof.
  intros H. induction H as [f|st i c i' e H IH He|st i H IH].
  - destruct f; cbn [init ireach_spec]; try (split; [discriminate|split; [discriminate|apply reach_init]]); apply reach_init.
  - destruct i as [f s|s|s]; cbn [eat ireach_spec] in *.
    + destruct (eat_chunk (ufmt f) s c) as [s' e'] eqn:Hc. inversion He; subst. destruct IH as (H1 & H2 & H3).
      split; [exact H1|]. split; [exact H2|]. eapply reach_eat; eassumption.
    + destruct (eat_chunk qcow_fmt s c) as [s' e'] eqn:Hc. inversion He; subst. eapply reach_eat; eassumption.
    + destruct (eat_chunk vmdk_fmt s c) as [s' e'] eqn:Hc. inversion He; subst. eapply reach_eat; eassumption.
  - destruct i as [f s|s|s]; cbn [Insp_All.finish ireach_spec] in *.
    + destruct IH as (H1 & H2 & H3). split; [exact H1|]. split; [exact H2|]. apply reach_finish. exact H3.
    + apply reach_finish. exact IH.
    + apply reach_finish. exact IH.
Qed.

Lemma run_ireach f cs i e : run f cs = (i, e) -> exists st, ireach st i.
Proof.
  unfold run. intros H.
  assert (G : forall cs i0 st0 i1 e1, ireach st0 i0 -> eat_list i0 cs = (i1, e1) -> exists st, ireach st i1).
  { clear. induction cs as [|c t IH]; intros i0 st0 i1 e1 H0 He; cbn [eat_list] in He.
    - inversion He; subst. exists st0. exact H0.
    - destruct (eat i0 c) as [i' [x|]] eqn:Hc.
      + inversion He; subst. exists (st0 ++ c). eapply ireach_eat; eassumption.
      + eapply IH; [|exact He]. eapply ireach_eat; eassumption. }
  destruct (eat_list (init f) cs) as [i1 e1] eqn:Hl. inversion H; subst.
  destruct (G _ _ _ _ _ (ireach_init f) Hl) as [st Hst]. exists st. apply ireach_finish. exact Hst.
Qed.

Require Import OV.Proofs.Insp_Static.

(* the inspectors without private attributes whose regions all come from _initialize *)
Definition is_static_unit (f : fmt_id) : bool :=
  match f with F_raw | F_qed | F_vhd | F_vdi | F_iso | F_gpt | F_luks => true | _ => false end.

Lemma static_unit_facts f : is_static_unit f = true ->
  f_post (ufmt f) = no_post /\ f_rcomplete (ufmt f) = no_rcomplete /\ f_id (ufmt f) = f /\
  static_specs (init_regions f) = true /\ f <> F_qcow2 /\ f <> F_vmdk.
Proof. destruct f; intros H; try discriminate H; repeat split; try reflexivity; discriminate. Qed.

(* spec: the state of inspector f after the whole buffer b — a function of b alone (no chunks, no
   streaming): position |b|, every region holds b[off : off+len], finished *)
Definition spec_unit (f : fmt_id) (b : bytes) : istate := I_unit f (ideal (ufmt f) b true tt).

Lemma eat_list_unit f s cs :
  eat_list (I_unit f s) cs = let '(s', e) := eat_all (ufmt f) s cs in (I_unit f s', e).
Proof.
  revert s. induction cs as [|c cs IH]; intros s; cbn [eat_list eat_all eat]; [reflexivity|].
  destruct (eat_chunk (ufmt f) s c) as [s' [e|]]; [reflexivity|apply IH].
Qed.
Lemma eat_list_qcow s cs :
  eat_list (I_qcow s) cs = let '(s', e) := eat_all qcow_fmt s cs in (I_qcow s', e).
Proof.
  revert s. induction cs as [|c cs IH]; intros s; cbn [eat_list eat_all eat]; [reflexivity|].
  destruct (eat_chunk qcow_fmt s c) as [s' [e|]]; [reflexivity|apply IH].
Qed.
Lemma eat_list_vmdk s cs :
  eat_list (I_vmdk s) cs = let '(s', e) := eat_all vmdk_fmt s cs in (I_vmdk s', e).
Proof.
  revert s. induction cs as [|c cs IH]; intros s; cbn [eat_list eat_all eat]; [reflexivity|].
  destruct (eat_chunk vmdk_fmt s c) as [s' [e|]]; [reflexivity|apply IH].
Qed.

Lemma run_unit_fmt f cs : f <> F_qcow2 -> f <> F_vmdk ->
  run f cs = let '(s, e) := run_fmt (ufmt f) cs in (I_unit f s, e).
Proof.
  intros Hq Hv. unfold run, run_fmt.
  assert (Hi : init f = I_unit f (init_ist (ufmt f))) by (destruct f; try contradiction; reflexivity).
  rewrite Hi, eat_list_unit. destruct (eat_all (ufmt f) (init_ist (ufmt f)) cs) as [s e]. reflexivity.
Qed.
Lemma run_qcow_fmt cs : run F_qcow2 cs = let '(s, e) := run_fmt qcow_fmt cs in (I_qcow s, e).
Proof.
  unfold run, run_fmt. change (init F_qcow2) with (I_qcow (init_ist qcow_fmt)).
  rewrite eat_list_qcow. destruct (eat_all qcow_fmt (init_ist qcow_fmt) cs) as [s e]. reflexivity.
Qed.
Lemma run_vmdk_fmt cs : run F_vmdk cs = let '(s, e) := run_fmt vmdk_fmt cs in (I_vmdk s, e).
Proof.
  unfold run, run_fmt. change (init F_vmdk) with (I_vmdk (init_ist vmdk_fmt)).
  rewrite eat_list_vmdk. destruct (eat_all vmdk_fmt (init_ist vmdk_fmt) cs) as [s e]. reflexivity.
Qed.

Lemma run_unit f cs : is_static_unit f = true -> run f cs = (spec_unit f (concat cs), None).
Proof.
  intros Hs. destruct (static_unit_facts f Hs) as (Hp & Hc & Hi & Hsp & Hq & Hv).
  rewrite <- Hi in Hsp. rewrite (run_unit_fmt f cs Hq Hv), (static_run (ufmt f) Hp Hsp Hc cs).
  unfold spec_unit. destruct (f_ext0 (ufmt f)). reflexivity.
Qed.

Require Import OV.Proofs.Insp_StaticQcow.

Lemma run_qcow cs : run F_qcow2 cs = (I_qcow (ideal qcow_fmt (concat cs) true (qext (concat cs))), None).
Proof. rewrite run_qcow_fmt, qcow_run. reflexivity. Qed.

(* the eight inspectors whose regions all come from _initialize, without min_length *)
Definition is_static (f : fmt_id) : bool :=
  match f with F_vhdx | F_vmdk => false | _ => true end.

(* spec_f: the inspector's final state as a function of the whole buffer — no chunks, no streaming *)
Definition spec_state (f : fmt_id) (b : bytes) : istate :=
  match f with
  | F_qcow2 => I_qcow (ideal qcow_fmt b true (qext b))
  | _ => spec_unit f b
  end.
Definition spec_verdict (f : fmt_id) (b : bytes) : verdict := verdict_of (spec_state f b, None).

Theorem static_inspector_refines_spec_state f cs :
  is_static f = true -> run f cs = (spec_state f (concat cs), None).
Proof.
  intros H. destruct f; try discriminate H; try (apply run_unit; reflexivity). apply run_qcow.
Qed.

Theorem static_inspector_refines_spec f cs :
  is_static f = true -> verdict_of (run f cs) = spec_verdict f (concat cs).
Proof. intros H. unfold spec_verdict. rewrite (static_inspector_refines_spec_state f cs H). reflexivity. Qed.

Definition nonempty (c : bytes) : bool := match c with [] => false | _ => true end.
Lemma concat_filter_nonempty cs : concat (filter nonempty cs) = concat cs.
Proof. induction cs as [|c t IH]; [reflexivity|]. destruct c; cbn [filter nonempty concat app]; [exact IH | rewrite IH; reflexivity]. Qed.
