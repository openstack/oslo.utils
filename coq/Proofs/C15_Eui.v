(* Proofs/C15_Eui.v — get_ipv6_addr_by_EUI64 / get_mac_addr_by_ipv6: bit-level facts turned
   into div/mod arithmetic, the value theorem, the MAC round trip, the exception clause. *)
Require Import OV.Base.Bytes OV.Base.Py OV.Base.PyInt OV.Base.Str OV.Base.C15_PyVal.
Require Import OV.Gen.C15_Netutils OV.Model.C15 OV.Model.C15_Spec.
Open Scope Z_scope.

(* x xor 2^k flips one bit: adds or subtracts 2^k *)
Lemma lxor_pow2 x k : 0 <= k ->
  Z.lxor x (2 ^ k) = if Z.testbit x k then x - 2 ^ k else x + 2 ^ k.
Proof.
  intros Hk.
  assert (Clear : forall y, Z.testbit y k = false -> Z.lxor y (2 ^ k) = y + 2 ^ k).
  { intros y Hy. symmetry. apply Z.add_nocarry_lxor.
    apply Z.bits_inj'. intros n Hn. rewrite Z.land_spec, Z.bits_0, Z.pow2_bits_eqb by exact Hk.
    destruct (Z.eqb_spec k n) as [->|]; [rewrite Hy; reflexivity|apply andb_false_r]. }
  destruct (Z.testbit x k) eqn:Hx; [|apply Clear; exact Hx].
  set (y := Z.lxor x (2 ^ k)).
  assert (Hy : Z.testbit y k = false).
  { subst y. rewrite Z.lxor_spec, Hx, Z.pow2_bits_true by exact Hk. reflexivity. }
  pose proof (Clear y Hy) as E. subst y.
  rewrite Z.lxor_assoc, Z.lxor_nilpotent, Z.lxor_0_r in E. lia.
Qed.

Lemma testbit_arith x k : 0 <= k -> Z.testbit x k = ((x / 2 ^ k) mod 2 =? 1).
Proof. apply Z.testbit_eqb. Qed.

(* a * 2^k and a number below 2^k have no common bit: or = + *)
Lemma land_mul_pow2_small a b k : 0 <= k -> 0 <= b < 2 ^ k -> Z.land (a * 2 ^ k) b = 0.
Proof.
  intros Hk Hb. apply Z.bits_inj'. intros n Hn. rewrite Z.land_spec, Z.bits_0.
  destruct (Z.ltb_spec n k) as [Hlt|Hge].
  - rewrite Z.mul_pow2_bits_low by exact Hlt. reflexivity.
  - replace (Z.testbit b n) with false; [apply andb_false_r|].
    symmetry. destruct (Z.eq_dec b 0) as [->|Hnz]; [apply Z.bits_0|].
    apply Z.bits_above_log2; [lia|].
    apply Z.log2_lt_pow2; [lia|].
    apply Z.lt_le_trans with (2 ^ k); [lia|]. apply Z.pow_le_mono_r; lia.
Qed.

Lemma lor_mul_pow2_small a b k : 0 <= k -> 0 <= b < 2 ^ k -> Z.lor (a * 2 ^ k) b = a * 2 ^ k + b.
Proof.
  intros Hk Hb. pose proof (land_mul_pow2_small a b k Hk Hb) as L.
  rewrite <- Z.lxor_lor by exact L. symmetry. apply Z.add_nocarry_lxor. exact L.
Qed.

(* x & (ones(a) << b) = ((x / 2^b) mod 2^a) * 2^b *)
Lemma land_shifted_ones x a b : 0 <= a -> 0 <= b ->
  Z.land x (Z.shiftl (Z.ones a) b) = ((x / 2 ^ b) mod 2 ^ a) * 2 ^ b.
Proof.
  intros Ha Hb. apply Z.bits_inj'. intros n Hn.
  rewrite Z.land_spec, Z.shiftl_spec, Z.mul_pow2_bits by assumption.
  destruct (Z.ltb_spec n b) as [Hlt|Hge].
  - rewrite (Z.testbit_neg_r (Z.ones a)), (Z.testbit_neg_r (_ mod _)) by lia. apply andb_false_r.
  - rewrite Z.testbit_ones_nonneg by lia. rewrite Z.testbit_mod_pow2 by exact Ha.
    rewrite Z.div_pow2_bits by lia. replace (n - b + b) with n by lia.
    destruct (Z.ltb_spec (n - b) a).
    + rewrite andb_true_r. reflexivity.
    + rewrite andb_false_r. reflexivity.
Qed.

Lemma mask_hi_eq : 0xFFFFFF0000000000 = Z.shiftl (Z.ones 24) 40. Proof. reflexivity. Qed.
Lemma mask_lo_eq : 0xFFFFFF = Z.ones 24. Proof. reflexivity. Qed.

Lemma eui48_to_64_arith mac : 0 <= mac < 2 ^ 48 -> eui48_to_64 mac = eui64_arith mac.
Proof.
  intros Hm. unfold eui48_to_64, eui64_arith.
  rewrite Z.shiftr_div_pow2, Z.shiftl_mul_pow2 by lia.
  rewrite mask_lo_eq, Z.land_ones by lia.
  assert (H1 : 0 <= mac mod 2 ^ 24 < 2 ^ 24) by (apply Z.mod_pos_bound; lia).
  rewrite (lor_mul_pow2_small (mac / 2 ^ 24) 0xFFFE000000 40) by lia.
  replace (mac / 2 ^ 24 * 2 ^ 40 + 0xFFFE000000) with ((mac / 2 ^ 24 * 2 ^ 16 + 0xFFFE) * 2 ^ 24) by lia.
  rewrite lor_mul_pow2_small by lia. lia.
Qed.

(* ================================================================== the U/L flip on the 24-bit OUI *)

Ltac dm := Z.div_mod_to_equations; lia.

Definition flip17 (hi : Z) : Z := if (hi / 2 ^ 17) mod 2 =? 1 then hi - 2 ^ 17 else hi + 2 ^ 17.

Lemma flip17_range hi : 0 <= hi < 2 ^ 24 -> 0 <= flip17 hi < 2 ^ 24.
Proof. intros H. unfold flip17. destruct (Z.eqb_spec ((hi / 2 ^ 17) mod 2) 1); dm. Qed.

Lemma flip17_invol hi : 0 <= hi < 2 ^ 24 -> flip17 (flip17 hi) = hi.
Proof.
  intros H. unfold flip17.
  destruct (Z.eqb_spec ((hi / 2 ^ 17) mod 2) 1) as [E|E].
  - assert (E' : ((hi - 2 ^ 17) / 2 ^ 17) mod 2 = 0) by dm.
    rewrite E'. cbn [Z.eqb]. lia.
  - assert (E' : ((hi + 2 ^ 17) / 2 ^ 17) mod 2 = 1) by dm.
    rewrite E'. cbn [Z.eqb Pos.eqb]. lia.
Qed.

(* flipping bit k+17 of h * 2^k + c is the flip on h *)
Lemma lxor_flip17 h k c : 0 <= k -> 0 <= c < 2 ^ k -> Z.lxor (h * 2 ^ k + c) (2 ^ (k + 17)) = flip17 h * 2 ^ k + c.
Proof.
  intros Hk Hc. rewrite lxor_pow2, testbit_arith by lia.
  rewrite Z.pow_add_r, <- Z.div_div, Z.div_add_l, (Z.div_small c) by lia. rewrite Z.add_0_r.
  unfold flip17. destruct (Z.eqb_spec ((h / 2 ^ 17) mod 2) 1); ring.
Qed.

(* (hi24 * 2^40 + 0xFFFE * 2^24 + lo24) xor 2^57, with the flip pushed into hi24 *)
Lemma modified_arith_form mac : 0 <= mac < 2 ^ 48 ->
  modified_eui64_arith mac = flip17 (mac / 2 ^ 24) * 2 ^ 40 + 0xFFFE * 2 ^ 24 + mac mod 2 ^ 24.
Proof.
  intros Hm. unfold modified_eui64_arith, eui64_arith.
  assert (Hlo : 0 <= mac mod 2 ^ 24 < 2 ^ 24) by (apply Z.mod_pos_bound; lia).
  rewrite <- !Z.add_assoc. apply (lxor_flip17 _ 40); lia.
Qed.

Lemma modified_arith_range mac : 0 <= mac < 2 ^ 48 -> 2 ^ 32 <= modified_eui64_arith mac < 2 ^ 64.
Proof.
  intros Hm. rewrite modified_arith_form by exact Hm.
  assert (Hhi : 0 <= mac / 2 ^ 24 < 2 ^ 24) by dm.
  pose proof (flip17_range _ Hhi). assert (0 <= mac mod 2 ^ 24 < 2 ^ 24) by dm. lia.
Qed.

(* ================================================================== value of get_ipv6_addr_by_EUI64 *)

Lemma run_guards_ipv6 gs : run_guards true false false gs = None.
Proof. induction gs as [|[[| |] e] gs IH]; cbn [run_guards guard_holds negb]; exact IH || reflexivity. Qed.

(* bits below j do not see a multiple of 2^j *)
Lemma testbit_add_high a e j k : 0 <= k < j -> Z.testbit (a * 2 ^ j + e) k = Z.testbit e k.
Proof.
  intros H. rewrite <- (Z.mod_pow2_bits_low (a * 2 ^ j + e) j k), Z.add_comm, Z.mod_add by (try apply Z.pow_nonzero; lia).
  apply Z.mod_pow2_bits_low. lia.
Qed.

Lemma lxor_pow2_add_high a e j k : 0 <= k < j -> Z.lxor (a * 2 ^ j + e) (2 ^ k) = a * 2 ^ j + Z.lxor e (2 ^ k).
Proof. intros H. rewrite !lxor_pow2, testbit_add_high by lia. destruct (Z.testbit e k); ring. Qed.

(* netaddr.IPAddress(int) on a non-negative value, by magnitude *)
Lemma ip_address_of_int_nonneg v : 0 <= v ->
  ip_address_of_int v = if v <? 2 ^ 32 then LOk (4, v) else if v <? 2 ^ 128 then LOk (6, v) else LExn LAddrFormatError.
Proof.
  intros Hv. unfold ip_address_of_int. replace (0 <=? v) with true by lia.
  replace (v <=? 2 ^ 32 - 1) with (v <? 2 ^ 32) by lia. replace (2 ^ 32 - 1 <? v) with (negb (v <? 2 ^ 32)) by lia.
  replace (v <=? 2 ^ 128 - 1) with (v <? 2 ^ 128) by lia. destruct (v <? 2 ^ 32); reflexivity.
Qed.

(* (q * 2^64 + eui64) xor 2^57 = q * 2^64 + (eui64 xor 2^57): the low 64 bits of the network address are clear *)
Lemma combine_low_clear q mac : 0 <= mac < 2 ^ 48 ->
  eui64_combine (q * 2 ^ 64) (eui48_to_64 mac) = q * 2 ^ 64 + modified_eui64_arith mac.
Proof.
  intros Hm. unfold eui64_combine, modified_eui64_arith. rewrite eui48_to_64_arith by exact Hm.
  apply lxor_pow2_add_high. lia.
Qed.

(* the property's first sentence, forward half: for every 48-bit MAC and every IPv6 network
   address whose low 64 bits are clear (every prefix of length <= 64, host bits or not, since
   IPNetwork.first masks them; and longer prefixes without bits there) the result is the IPv6
   address first + modified EUI-64 = first | modified EUI-64 *)
Theorem eui64_value first mac : 0 <= mac < 2 ^ 48 -> 0 <= first < 2 ^ 128 -> first mod 2 ^ 64 = 0 ->
  get_ipv6_addr_by_EUI64 true false false (LOk (EUI48 mac)) (LOk first)
    = Ok (6, first + modified_eui64_arith mac) /\
  first + modified_eui64_arith mac = Z.lor first (modified_eui64_arith mac) /\
  (first + modified_eui64_arith mac) / 2 ^ 64 = first / 2 ^ 64 /\
  (first + modified_eui64_arith mac) mod 2 ^ 64 = modified_eui64_arith mac.
Proof.
  intros Hm Hf H0. pose proof (modified_arith_range mac Hm) as R.
  apply Z.div_exact in H0; [|lia]. rewrite Z.mul_comm in H0.
  set (q := first / 2 ^ 64) in *. clearbody q. subst first. set (m := modified_eui64_arith mac) in *.
  split; [|split; [|split]].
  - unfold get_ipv6_addr_by_EUI64. rewrite run_guards_ipv6. cbn [eui64_int].
    change (gen_eui64_combine ?f ?e) with (eui64_combine f e). rewrite combine_low_clear by exact Hm. fold m.
    rewrite ip_address_of_int_nonneg by lia.
    replace (q * 2 ^ 64 + m <? 2 ^ 32) with false by lia. replace (q * 2 ^ 64 + m <? 2 ^ 128) with true by lia.
    reflexivity.
  - symmetry. apply lor_mul_pow2_small; lia.
  - rewrite Z.div_add_l, Z.div_small by lia. lia.
  - rewrite Z.add_comm, Z.mod_add, Z.mod_small by lia. reflexivity.
Qed.

(* what the code computes for EVERY network address (prefixes longer than /64 with bits in the
   low half included): arithmetic +, then the bit flip, then IPAddress(int)'s range rule *)
Theorem eui64_general first mac : 0 <= mac < 2 ^ 48 -> 0 <= first ->
  let r := Z.lxor (first + eui64_arith mac) (2 ^ 57) in
  get_ipv6_addr_by_EUI64 true false false (LOk (EUI48 mac)) (LOk first) =
    if r <? 2 ^ 32 then Ok (4, r) else if r <? 2 ^ 128 then Ok (6, r) else Exn (handle LAddrFormatError).
Proof.
  intros Hm Hf r. unfold get_ipv6_addr_by_EUI64. rewrite run_guards_ipv6. cbn [eui64_int].
  change (gen_eui64_combine first (eui48_to_64 mac)) with (Z.lxor (first + eui48_to_64 mac) (2 ^ 57)).
  rewrite eui48_to_64_arith by exact Hm. fold r.
  assert (Hr : 0 <= r).
  { subst r. apply Z.lxor_nonneg. split; intros _; [lia|].
    unfold eui64_arith. assert (0 <= mac / 2 ^ 24) by dm. assert (0 <= mac mod 2 ^ 24) by dm. lia. }
  rewrite ip_address_of_int_nonneg by exact Hr.
  destruct (r <? 2 ^ 32); [reflexivity|]. destruct (r <? 2 ^ 128); reflexivity.
Qed.

(* ... and that is NOT "network address | modified EUI-64" once the low half of the network
   address is occupied: ::200:0:0:0/128 with 02:00:00:00:00:00 carries into bit 58 *)
Example ex_eui64_low_bits_add :
  let first := 2 ^ 57 in let mac := 0x020000000000 in
  get_ipv6_addr_by_EUI64 true false false (LOk (EUI48 mac)) (LOk first) = Ok (6, 2 ^ 58 + 2 ^ 57 + 0xFFFE000000) /\
  Z.lor first (modified_eui64_arith mac) = 2 ^ 57 + 0xFFFE000000.
Proof. split; vm_compute; reflexivity. Qed.
(* the returned IPAddress can even be an IPv4 one *)
Example ex_eui64_ipv4_result :
  get_ipv6_addr_by_EUI64 true false false (LOk (EUI48 0)) (LOk (2 ^ 57 - 0xFFFE000000)) = Ok (4, 0).
Proof. vm_compute. reflexivity. Qed.
(* and past the top of the address space the overflow is reported as ValueError *)
Example ex_eui64_overflow :
  get_ipv6_addr_by_EUI64 true false false (LOk (EUI48 0)) (LOk (2 ^ 128 - 1)) = Exn ValueError.
Proof. vm_compute. reflexivity. Qed.
Example ex_eui64_value_hyp : 0 <= 0x00163e334455 < 2 ^ 48 /\ 0 <= 0x20010db8 * 2 ^ 96 < 2 ^ 128 /\ (0x20010db8 * 2 ^ 96) mod 2 ^ 64 = 0.
Proof. repeat split; vm_compute; congruence. Qed.

(* ================================================================== get_mac_addr_by_ipv6 *)

Lemma mac_of_ipv6_arith v : 0 <= v ->
  mac_of_ipv6 v = Z.lxor (((v / 2 ^ 40) mod 2 ^ 24) * 2 ^ 24 + v mod 2 ^ 24) (2 ^ 41).
Proof.
  intros Hv. unfold mac_of_ipv6.
  rewrite mask_hi_eq, land_shifted_ones by lia.
  rewrite mask_lo_eq, Z.land_ones by lia.
  rewrite Z.shiftr_div_pow2 by lia.
  replace ((v / 2 ^ 40) mod 2 ^ 24 * 2 ^ 40 / 2 ^ 16) with ((v / 2 ^ 40) mod 2 ^ 24 * 2 ^ 24).
  - reflexivity.
  - replace (2 ^ 40) with (2 ^ 24 * 2 ^ 16) by reflexivity.
    rewrite Z.mul_assoc, Z.div_mul by lia. reflexivity.
Qed.

(* the inverse on its own: any address whose low 64 bits are the modified EUI-64 of a MAC *)
Theorem mac_of_interface_id hi64 mac : 0 <= mac < 2 ^ 48 -> 0 <= hi64 ->
  gen_mac_of_ipv6 (hi64 * 2 ^ 64 + modified_eui64_arith mac) = mac.
Proof.
  intros Hm Hh. change (gen_mac_of_ipv6 ?v) with (mac_of_ipv6 v).
  pose proof (modified_arith_range mac Hm) as R.
  rewrite mac_of_ipv6_arith by lia.
  rewrite modified_arith_form by exact Hm.
  set (hi := mac / 2 ^ 24). set (lo := mac mod 2 ^ 24).
  assert (Hhi : 0 <= hi < 2 ^ 24) by (subst hi; dm).
  assert (Hlo : 0 <= lo < 2 ^ 24) by (subst lo; dm).
  assert (Hmac : mac = hi * 2 ^ 24 + lo) by (subst hi lo; dm).
  pose proof (flip17_range hi Hhi) as Hf. pose proof (flip17_invol hi Hhi) as Hinv.
  set (h' := flip17 hi) in *. clearbody hi lo h'.
  set (v := hi64 * 2 ^ 64 + (h' * 2 ^ 40 + 65534 * 2 ^ 24 + lo)).
  assert (E1 : (v / 2 ^ 40) mod 2 ^ 24 = h') by (subst v; dm).
  assert (E2 : v mod 2 ^ 24 = lo) by (subst v; dm).
  rewrite E1, E2, (lxor_flip17 h' 24), Hinv by lia. lia.
Qed.

(* the property's first sentence, both halves: get_mac_addr_by_ipv6 recovers the MAC from
   what get_ipv6_addr_by_EUI64 returned *)
Theorem mac_roundtrip first mac : 0 <= mac < 2 ^ 48 -> 0 <= first < 2 ^ 128 -> first mod 2 ^ 64 = 0 ->
  exists r, get_ipv6_addr_by_EUI64 true false false (LOk (EUI48 mac)) (LOk first) = Ok (6, r) /\
            get_mac_addr_by_ipv6 6 r = LOk (EUI48 mac).
Proof.
  intros Hm Hf H0. exists (first + modified_eui64_arith mac). split; [apply eui64_value; assumption|].
  unfold get_mac_addr_by_ipv6. cbn [Z.eqb Pos.eqb].
  replace first with (first / 2 ^ 64 * 2 ^ 64) by dm.
  rewrite mac_of_interface_id by (try exact Hm; dm).
  unfold eui_of_int. replace (0 <=? mac) with true by lia. replace (mac <=? 2 ^ 48 - 1) with true by lia.
  reflexivity.
Qed.

(* not so once the low half of the network address is occupied (see ex_eui64_low_bits_add) *)
Example ex_roundtrip_needs_clear_low :
  get_mac_addr_by_ipv6 6 (2 ^ 58 + 2 ^ 57 + 0xFFFE000000) = LOk (EUI48 0x040000000000).
Proof. vm_compute. reflexivity. Qed.

(* appending the next base-256 digit of v to its leading part *)
Lemma byte_step v j k : 0 <= k -> j = k + 1 -> v / 256 ^ j * 256 + (v / 256 ^ k) mod 256 = v / 256 ^ k.
Proof.
  intros Hk ->. rewrite Z.pow_add_r, Z.pow_1_r, <- Z.div_div by lia.
  rewrite Z.mul_comm. symmetry. apply Z.div_mod. lia.
Qed.

(* bit 17 of the 24-bit OUI is bit 1 of its first byte *)
Lemma flip17_byte b r : 0 <= r < 2 ^ 16 -> flip17 (b * 2 ^ 16 + r) = Z.lxor b 2 * 2 ^ 16 + r.
Proof.
  intros Hr. unfold flip17. change (Z.lxor b 2) with (Z.lxor b (2 ^ 1)). rewrite lxor_pow2, testbit_arith by lia.
  assert (E : ((b * 2 ^ 16 + r) / 2 ^ 17) mod 2 = (b / 2 ^ 1) mod 2) by dm.
  rewrite E. destruct (Z.eqb_spec ((b / 2 ^ 1) mod 2) 1); lia.
Qed.

(* (hi24 * 2^40 + 0xFFFE * 2^24 + lo24) xor 2^57 is the RFC 4291 interface identifier
   b0^0x02 : b1 : b2 : ff : fe : b3 : b4 : b5 *)
Theorem modified_eui64_bytes mac : 0 <= mac < 2 ^ 48 -> modified_eui64_arith mac = modified_eui64 mac.
Proof.
  intros Hm. rewrite modified_arith_form by exact Hm.
  unfold modified_eui64, be_bytes. cbn [fold_left]. set (b := mac_byte mac).
  assert (B : forall i, 0 <= b i < 256) by (intros i; apply Z.mod_pos_bound; lia).
  (* the MAC read byte by byte from the top *)
  assert (S0 : b 0 = mac / 256 ^ 5).
  { apply Z.mod_small. split; [apply Z.div_pos; lia|apply Z.div_lt_upper_bound; lia]. }
  pose proof (byte_step mac 5 4 ltac:(lia) eq_refl : mac / 256 ^ 5 * 256 + b 1 = mac / 256 ^ 4) as S1.
  pose proof (byte_step mac 4 3 ltac:(lia) eq_refl : mac / 256 ^ 4 * 256 + b 2 = mac / 256 ^ 3) as S2.
  pose proof (byte_step mac 3 2 ltac:(lia) eq_refl : mac / 256 ^ 3 * 256 + b 3 = mac / 256 ^ 2) as S3.
  pose proof (byte_step mac 2 1 ltac:(lia) eq_refl : mac / 256 ^ 2 * 256 + b 4 = mac / 256 ^ 1) as S4.
  pose proof (byte_step mac 1 0 ltac:(lia) eq_refl : mac / 256 ^ 1 * 256 + b 5 = mac / 256 ^ 0) as S5.
  rewrite Z.pow_0_r, Z.div_1_r in S5.
  change (2 ^ 24) with (256 ^ 3). rewrite Z.mod_eq by lia.
  replace (mac / 256 ^ 3) with (b 0 * 2 ^ 16 + (b 1 * 256 + b 2)) at 1 by lia.
  rewrite flip17_byte by (pose proof (B 1); pose proof (B 2); lia).
  lia.
Qed.

Definition lib_class (e : libexn) : bool := match e with LOtherExn => false | _ => true end.
Definition is_VE_TE (e : exn) : Prop := e = ValueError \/ e = TypeError.

Lemma handle_classes e : lib_class e = true -> is_VE_TE (handle e).
Proof. destruct e; intros H; try discriminate; vm_compute; auto. Qed.

Lemma guards_classes is_str v4l v4s e :
  run_guards is_str v4l v4s gen_eui64_prechecks = Some e -> is_VE_TE e.
Proof.
  destruct is_str, v4l, v4s; vm_compute; intros H; inversion H; auto.
Qed.

(* an IPv4 address given as prefix (is_valid_ipv4 says yes, strictly and loosely) *)
Theorem ipv4_prefix_rejected mac net :
  exists e, get_ipv6_addr_by_EUI64 true true true mac net = Exn e /\ is_VE_TE e.
Proof.
  unfold get_ipv6_addr_by_EUI64.
  destruct (run_guards true true true gen_eui64_prechecks) as [g|] eqn:G.
  - exists g. split; [reflexivity|]. eapply guards_classes; exact G.
  - exfalso. vm_compute in G. discriminate.
Qed.

(* a MAC or a prefix netaddr refuses (with ValueError, AddrFormatError or TypeError) *)
Theorem bad_mac_rejected is_str v4l v4s e net : lib_class e = true ->
  exists e', get_ipv6_addr_by_EUI64 is_str v4l v4s (LExn e) net = Exn e' /\ is_VE_TE e'.
Proof.
  intros He. unfold get_ipv6_addr_by_EUI64.
  destruct (run_guards is_str v4l v4s gen_eui64_prechecks) as [g|] eqn:G.
  - exists g. split; [reflexivity|]. eapply guards_classes; exact G.
  - exists (handle e). split; [reflexivity|]. apply handle_classes; exact He.
Qed.

Theorem bad_prefix_rejected is_str v4l v4s m e : lib_class e = true ->
  exists e', get_ipv6_addr_by_EUI64 is_str v4l v4s (LOk m) (LExn e) = Exn e' /\ is_VE_TE e'.
Proof.
  intros He. unfold get_ipv6_addr_by_EUI64.
  destruct (run_guards is_str v4l v4s gen_eui64_prechecks) as [g|] eqn:G.
  - exists g. split; [reflexivity|]. eapply guards_classes; exact G.
  - exists (handle e). split; [reflexivity|]. apply handle_classes; exact He.
Qed.

(* nothing but ValueError / TypeError ever escapes, whatever the inputs, as long as netaddr
   itself raises only the classes the except clauses name *)
Theorem eui64_only_VE_TE is_str v4l v4s mac net e :
  (forall x, mac = LExn x -> lib_class x = true) -> (forall x, net = LExn x -> lib_class x = true) ->
  get_ipv6_addr_by_EUI64 is_str v4l v4s mac net = Exn e -> is_VE_TE e.
Proof.
  intros Hm Hn. unfold get_ipv6_addr_by_EUI64.
  destruct (run_guards is_str v4l v4s gen_eui64_prechecks) as [g|] eqn:G.
  - intros H. inversion H; subst. eapply guards_classes; exact G.
  - destruct mac as [m|x]; [|intros H; inversion H; apply handle_classes; auto].
    destruct net as [f|x]; [|intros H; inversion H; apply handle_classes; auto].
    unfold ip_address_of_int.
    destruct ((0 <=? _) && (_ <=? 2 ^ 32 - 1)); [discriminate|].
    destruct ((2 ^ 32 - 1 <? _) && (_ <=? 2 ^ 128 - 1)); [discriminate|].
    intros H. inversion H. apply handle_classes. reflexivity.
Qed.

Example ex_lib_class : lib_class LAddrFormatError = true /\ lib_class LValueError = true /\ lib_class LTypeError = true.
Proof. repeat split. Qed.
Example ex_bad_mac : get_ipv6_addr_by_EUI64 true false false (LExn LAddrFormatError) (LOk 0) = Exn ValueError.
Proof. vm_compute. reflexivity. Qed.
Example ex_bad_mac_type : get_ipv6_addr_by_EUI64 true false false (LExn LTypeError) (LOk 0) = Exn TypeError.
Proof. vm_compute. reflexivity. Qed.
(* 00:16:3e:33:44:55 on 2001:db8::/64 -> 2001:db8::216:3eff:fe33:4455, and back *)
Example ex_eui64_doc :
  get_ipv6_addr_by_EUI64 true false false (LOk (EUI48 0x00163e334455)) (LOk (0x20010db8 * 2 ^ 96))
    = Ok (6, 0x20010db80000000002163efffe334455) /\
  get_mac_addr_by_ipv6 6 0x20010db80000000002163efffe334455 = LOk (EUI48 0x00163e334455).
Proof. split; vm_compute; reflexivity. Qed.
