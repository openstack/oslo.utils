(* Proofs/C16_Closed.v — the abstract theorems instantiated with the concrete world of
   Model/C16_Codecs.v: no contract premises are left. *)
From Coq Require Import String.
Require Import OV.Base.Bytes OV.Base.PyInt OV.Base.Str OV.Base.Regex OV.Base.C16_Py.
Require Import OV.Gen.C16_Aliases OV.Gen.C16_Fold OV.Gen.C16_Slug OV.Gen.C16_Code.
Require Import OV.Model.C16 OV.Model.C16_Codecs.
Require Import OV.Gen.C16_Charmaps OV.Proofs.C16 OV.Proofs.C16_Codecs.
Open Scope N_scope.

(* round trip through any ASCII spelling, in any letter case, of a name of one of the eleven
   codecs, for every text that codec can represent, under any error policy *)
Theorem world3_roundtrip d e c t incoming0 errors :
  forallb is_ascii e = true ->
  lookup3 e = Some c ->
  representable3 c t = true ->
  exists b, safe_encode (world3 d) (PStr t) incoming0 e errors = COk (PBytes b) /\
            safe_decode (world3 d) (PBytes b) (Some e) errors = COk t.
Proof.
  intros Ha Hl Hr.
  apply (encode_decode_roundtrip (world3 d) e c t incoming0 errors).
  - exact (lookup3_nonempty e c Hl).
  - exact Hl.
  - exact (lookup3_lower e Ha).
  - apply world3_enc_policy_irrelevant.
  - apply world3_dec_policy_irrelevant.
  - apply world3_dec_empty.
  - apply world3_represents. exact Hr.
Qed.

(* to_slug of a str always succeeds *)
Theorem world3_slug_str_total d s incoming errors :
  exists o, to_slug (world3 d) (PStr s) incoming errors = COk o.
Proof. eexists. reflexivity. Qed.

Lemma lookup3_lower_some name c : forallb is_ascii name = true -> lookup3 name = Some c -> lookup3 (py_lower name) = Some c.
Proof. intros Ha H. rewrite (lookup3_lower _ Ha). exact H. Qed.

(* decode with codec a, encode with codec b: what the transcoding branch computes *)
Lemma world3_transcode_eval d b incoming encoding errors cin cout t :
  b <> [] ->
  forallb is_ascii (resolve_incoming (world3 d) incoming) = true -> forallb is_ascii encoding = true ->
  lookup3 (resolve_incoming (world3 d) incoming) = Some cin -> lookup3 encoding = Some cout ->
  dec3 cin b errors = COk t ->
  transcode (world3 d) b incoming encoding errors = cmap PBytes (enc3 cout t errors).
Proof.
  intros Hb Hai Hae Hcin Hcout Hdec. unfold transcode, safe_decode, decode_with_fallback.
  rewrite resolve_some by (apply py_lower_nonempty; exact (lookup3_nonempty _ _ Hcin)).
  unfold bytes_decode. destruct b as [|x b']; [exfalso; apply Hb; reflexivity|].
  cbn [lookup dec world3]. rewrite (lookup3_lower_some _ _ Hai Hcin), Hdec. cbn [cbind].
  unfold str_encode. cbn [lookup enc world3]. rewrite (lookup3_lower_some _ _ Hae Hcout). reflexivity.
Qed.

(* transcoding from a codec to itself, through any two names of it, is the identity on valid input —
   for the nine codecs without BOM *)
Lemma world3_transcode_same_codec d b incoming encoding errors c t :
  b <> [] -> all_bytes b = true ->
  forallb is_ascii (resolve_incoming (world3 d) incoming) = true -> forallb is_ascii encoding = true ->
  lookup3 (resolve_incoming (world3 d) incoming) = Some c -> lookup3 encoding = Some c ->
  canonical3 c = true ->
  dec3 c b strict_name = COk t ->
  transcode (world3 d) b incoming encoding errors = COk (PBytes b).
Proof.
  intros Hb Hall Hai Hae Hcin Hcout Hcan Hdec.
  rewrite (world3_transcode_eval d b incoming encoding errors c c t Hb Hai Hae Hcin Hcout).
  - pose proof (enc3_after_dec3 c b t Hcan Hall Hdec) as He.
    pose proof (world3_enc_policy_irrelevant d c t errors b He) as He'. change (enc3 c t errors = COk b) in He'.
    rewrite He'. reflexivity.
  - exact (world3_dec_policy_irrelevant d c b errors t Hdec).
Qed.
