(* Proofs/C01_Vmdk_Witness.v — concrete byte strings: one counterexample per known-finding zone (two chunkings of the
   same bytes, different verdicts) and two well-formed images outside both zones. *)
From Coq Require Import String.
Require Import OV.Base.Bytes OV.Base.Py OV.Base.Insp_Struct OV.Gen.Insp_Consts.
Require Import OV.Model.Insp_Engine OV.Model.Insp_Vmdk OV.Model.Insp_All OV.Model.C01_Vmdk.
Open Scope N_scope.

Definition zeros (n : N) : bytes := repeatN 0 (N.to_nat n).
Definition pad_to (n : N) (b : bytes) : bytes := b ++ zeros (n - blen b).
Definition q : bytes := [34].
Definition nl : bytes := [10].

(* the 64-byte sparse header '<4sIIQQQQIQQ' *)
Definition w_header (ver sectors desc_sec desc_num gd : N) : bytes :=
  VMDK_MAGIC_PP ++ le_enc 4 ver ++ le_enc 4 3 ++ le_enc 8 sectors ++ le_enc 8 128 ++ le_enc 8 desc_sec ++ le_enc 8 desc_num
  ++ le_enc 4 512 ++ le_enc 8 1 ++ le_enc 8 gd.

Definition w_desc (ctype : string) : bytes :=
  lit "# Disk DescriptorFile" ++ nl ++ lit "version=1" ++ nl ++ lit "createType=" ++ q ++ lit ctype ++ q ++ nl
  ++ lit "RW 2048 SPARSE " ++ q ++ lit "disk.vmdk" ++ q ++ nl ++ lit "ddb.adapterType = " ++ q ++ lit "ide" ++ q ++ nl.

(* a well-formed monolithicSparse image: header, descriptor sector, one data sector *)
Definition w_sparse : bytes :=
  pad_to 512 (w_header 1 2048 1 1 21) ++ pad_to 512 (w_desc "monolithicSparse") ++ zeros 512.

(* a well-formed streamOptimized image: gdOffset = GD_AT_END, footer marker + footer header + end-of-stream marker *)
Definition w_stream : bytes :=
  pad_to 512 (w_header 3 2048 1 1 VMDK_GD_AT_END) ++ pad_to 512 (w_desc "streamOptimized") ++ zeros 1024
  ++ pad_to 512 (le_enc 8 1 ++ le_enc 4 0 ++ le_enc 4 3) ++ pad_to 512 (w_header 3 2048 1 1 21) ++ zeros 512.

Lemma w_sparse_outside : zone_vmdk_text w_sparse = false /\ zone_vmdk_shortfoot w_sparse = false.
Proof. split; vm_compute; reflexivity. Qed.

(* and the streaming inspector agrees on a chunking that cuts inside the header (an instance of the theorem, computed) *)
Lemma w_stream_run :
  verdict_of (run F_vmdk [btake 63 w_stream; []; bslice 63 1000 w_stream; bskip 1063 w_stream]) = vmdk_spec w_stream.
Proof. vm_compute. reflexivity. Qed.

(* F1: createtype="monolithicsparse" followed by a non-ASCII byte.  One chunk: the offset-0 descriptor region holds all 30
   bytes, decoding fails, nothing is parsed (virtual_size 0).  [29; 1]: the region completes on the first 29 bytes, the
   type is found, and virtual_size tries to unpack a 30-byte header (struct.error). *)
Definition w_text : bytes := lit "createtype=" ++ q ++ lit "monolithicsparse" ++ q ++ [128].

(* F3: valid header with gdOffset = GD_AT_END, 1598 bytes.  One chunk: the footer region, created when the header
   completes, is shown the whole chunk and keeps the last 1536 bytes (complete).  [63; 1535]: it never sees the first
   63 bytes and ends with 1535 (incomplete). *)
Definition w_short : bytes := pad_to 1598 (w_header 1 2048 1 1 VMDK_GD_AT_END).
