(* Proofs/Insp_FormatEquiv.v — the ten inspectors meet the obligations of gen_eat_chunk_equiv ([hooks_wf]),
   every reachable state is well-formed, hence in every reachable state of every inspector the translated
   eat_chunk / finish / ... of the source equal the model. *)
Require Import OV.Base.Bytes OV.Base.Py OV.Base.Insp_Struct OV.Gen.Insp_Consts OV.Model.Insp_Engine OV.Model.Insp_PyPrims.
Require Import OV.Model.Insp_Raw OV.Model.Insp_Qcow2 OV.Model.Insp_Qed OV.Model.Insp_Vhd OV.Model.Insp_Vdi
               OV.Model.Insp_Iso OV.Model.Insp_Gpt OV.Model.Insp_Luks OV.Model.Insp_Vhdx OV.Model.Insp_Vmdk OV.Model.Insp_All.
Require Import OV.Gen.Insp_EngineCode.
Require Import OV.Proofs.Insp_Engine OV.Proofs.Insp_FmtOk OV.Proofs.Insp_All OV.Proofs.Insp_EngineEquiv.
Open Scope N_scope.

Lemma rdel_ids_NoDup n l : NoDup (ids l) -> NoDup (ids (rdel n l)).
Proof.
  unfold ids. induction l as [|[k r] t IH]; cbn [rdel map snd]; [intros H; exact H|].
  intros H. inversion H as [|? ? Hn Hd]; subst. destruct (rname_beq k n); [exact Hd|].
  cbn [map snd]. constructor; [|exact (IH Hd)].
  intros Hin. apply Hn. apply in_map_iff in Hin. destruct Hin as (p & Hf & Hp). apply rdel_In in Hp.
  apply in_map_iff. exists p. split; assumption.
Qed.

Section WfHooks.
Context {X : Type}.

Lemma Wf_same (s s' : ist X) : Wf s -> i_regs s' = i_regs s -> i_next s' = i_next s -> Wf s'.
Proof. intros (H1 & H2 & H3) Hr Hn. unfold Wf. rewrite Hr, Hn. auto. Qed.

Lemma Wf_new_region (s s' : ist X) n sp e : Wf s -> new_region n sp s = (s', e) -> Wf s'.
Proof.
  intros (H1 & H2 & H3) Hn. unfold new_region, has_region, rhas in Hn.
  destruct (rget n (i_regs s)) eqn:Hg; inversion Hn; subst; clear Hn; [repeat split; assumption|].
  unfold Wf. cbn [i_regs i_next]. unfold ids in *. rewrite !map_app. cbn [map fst snd region_of_spec r_id].
  split; [apply NoDup_snoc; [exact H1 | apply rget_None_notin; exact Hg]|]. split.
  - apply NoDup_snoc; [exact H2|]. intros Hin. rewrite Forall_forall in H3. specialize (H3 _ Hin). lia.
  - apply Forall_app. split; [eapply Forall_impl; [|exact H3]; intros a Ha; cbv beta in *; lia | constructor; [lia | constructor]].
Qed.

Lemma Wf_delete_region (s s' : ist X) n e : Wf s -> delete_region n s = (s', e) -> Wf s'.
Proof.
  intros (H1 & H2 & H3) Hd. unfold delete_region in Hd. destruct (has_region n s); inversion Hd; subst; clear Hd; [|repeat split; assumption].
  unfold Wf. cbn [set_regs i_regs i_next]. split; [apply rdel_NoDup; exact H1|]. split; [apply rdel_ids_NoDup; exact H2|].
  apply Forall_forall. intros i Hi. unfold ids in Hi. apply in_map_iff in Hi. destruct Hi as (p & <- & Hp). apply rdel_In in Hp.
  rewrite Forall_forall in H3. apply H3. unfold ids. apply in_map_iff. exists p. split; [reflexivity | exact Hp].
Qed.

Lemma Wf_add_check (s s' : ist X) c e : Wf s -> add_check c s = (s', e) -> Wf s'.
Proof.
  intros HW Ha. unfold add_check in Ha. destruct (mem_cname c (i_checks s)); inversion Ha; subst; [exact HW|].
  eapply Wf_same; [exact HW| |]; reflexivity.
Qed.

Lemma Wf_set_ext (s : ist X) x : Wf s -> Wf (set_ext s x).
Proof. intros HW. eapply Wf_same; [exact HW| |]; reflexivity. Qed.

Lemma Wf_rset (s : ist X) n m m' : Wf s -> rget n (i_regs s) = Some m -> r_id m' = r_id m -> Wf (set_regs s (rset n m' (i_regs s))).
Proof.
  intros (H1 & H2 & H3) Hg Hi. unfold Wf. cbn [set_regs i_regs i_next]. rewrite rset_names, (rset_ids _ _ _ _ Hg Hi). auto.
Qed.
End WfHooks.

(* a format whose post_process is made of the hook operations and whose region_complete only sets its
   own attributes meets the obligations *)
Lemma hooks_wf_acts {X} (F : fmt X) (Q : rname -> rspec -> Prop) D (T : rname -> Prop) :
  (forall s s' e, f_post F s = (s', e) -> acts Q D T s s') ->
  (forall n s s' e, f_rcomplete F n s = (s', e) -> exists x, s' = set_ext s x) ->
  hooks_wf F.
Proof.
  intros Hp Hc. split.
  - intros s s' e HW H. apply (acts_pres Q D T Wf) with (s := s); [| | | |exact (Hp s s' e H)|exact HW].
    + intros n sp s0 s1 e0 _. apply Wf_new_region.
    + intros n s0 s1 e0 _. apply Wf_delete_region.
    + intros c s0 s1 e0. apply Wf_add_check.
    + intros n m s0 _ HW0 Hg. exact (Wf_rset s0 n m (set_len m (flen (r_data m))) HW0 Hg eq_refl).
  - intros n s s' e HW H. destruct (Hc _ _ _ _ H) as [x ->]. split; [apply Wf_set_ext; exact HW | reflexivity].
Qed.

Lemma ufmt_static_hooks f : is_static_unit f = true -> hooks_wf (ufmt f).
Proof.
  intros H. destruct (static_unit_facts f H) as (Hp & Hc & _).
  apply (hooks_wf_acts _ (fun _ _ => False) (fun _ _ => False) (fun _ => False)); [|apply no_rcomplete_ext; exact Hc].
  intros s s' e. apply no_post_acts. exact Hp.
Qed.
Lemma qcow_hooks : hooks_wf qcow_fmt.
Proof.
  apply (hooks_wf_acts _ (fun _ _ => False) (fun _ _ => False) (fun _ => False)); [|exact qcow_rc_ext].
  intros s s' e. apply no_post_acts. reflexivity.
Qed.
Lemma vhdx_hooks : hooks_wf vhdx_fmt.
Proof. exact (hooks_wf_acts vhdx_fmt _ _ _ vhdx_post_acts (no_rcomplete_ext vhdx_fmt eq_refl)). Qed.
Lemma vmdk_hooks : hooks_wf vmdk_fmt.
Proof. exact (hooks_wf_acts vmdk_fmt _ _ _ vmdk_post_acts vmdk_rc_ext). Qed.

Section Reach.
Context {X : Type}.
Variable F : fmt X.
Hypothesis HF : hooks_wf F.

Lemma Wf_finish (s : ist X) : Wf s -> Wf (Insp_Engine.finish s).
Proof.
  intros (H1 & H2 & H3). unfold Wf, Insp_Engine.finish, ids. cbn [i_regs i_next]. rewrite !map_map. cbn [fst snd].
  assert (E : map (fun x => r_id (if r_end (snd x) then set_fin (snd x) true else snd x)) (i_regs s) = ids (i_regs s)).
  { unfold ids. apply map_ext. intros p. destruct (r_end (snd p)); reflexivity. }
  rewrite E. auto.
Qed.

Lemma init_regs_ids id l : ids (init_regs id l) = seq id (length l).
Proof.
  revert id. induction l as [|[n sp] t IH]; intros id; cbn [init_regs ids map snd length seq region_of_spec r_id]; [reflexivity|].
  f_equal. apply IH.
Qed.

Lemma Wf_init : NoDup (map fst (init_regions (f_id F))) -> Wf (init_ist F).
Proof.
  intros Hn. unfold Wf, init_ist. cbn [i_regs i_next]. rewrite init_regs_ids, init_regs_names.
  split; [exact Hn|]. split; [apply seq_NoDup|].
  apply Forall_forall. intros i Hi. apply in_seq in Hi. lia.
Qed.

Lemma reach_Wf st (s : ist X) : NoDup (map fst (init_regions (f_id F))) -> reach F st s -> Wf s.
Proof.
  intros Hn. apply (reach_pres F Wf).
  - exact Wf_set_pos.
  - exact Wf_capture.
  - exact (proj1 HF).
  - intros n s0 s' e HW Hc. exact (proj1 (proj2 HF n s0 s' e HW Hc)).
  - exact Wf_finish.
  - apply Wf_init. exact Hn.
Qed.
End Reach.

(* the interface level: in every reachable state of every inspector the translated eat_chunk of
   the source is the model's eat *)
Definition gen_eat (i : istate) (chunk : bytes) : istate * option exn :=
  match i with
  | I_unit f s => let '(s', e) := gen_eat_chunk (ufmt f) s chunk in (I_unit f s', e)
  | I_qcow s => let '(s', e) := gen_eat_chunk qcow_fmt s chunk in (I_qcow s', e)
  | I_vmdk s => let '(s', e) := gen_eat_chunk vmdk_fmt s chunk in (I_vmdk s', e)
  end.

Lemma ufmt_hooks f : f <> F_qcow2 -> f <> F_vmdk -> hooks_wf (ufmt f).
Proof.
  intros H1 H2. destruct f; try contradiction; try (apply ufmt_static_hooks; reflexivity). exact vhdx_hooks.
Qed.

Theorem gen_eat_reachable_equiv st i c : ireach st i -> gen_eat i c = eat i c.
Proof.
  intros H. apply ireach_reach in H. destruct i as [f s|s|s]; cbn [ireach_spec gen_eat eat] in *.
  - destruct H as (H1 & H2 & H3). pose proof (ufmt_ok f H1 H2) as (_ & _ & Hn & _).
    rewrite (gen_eat_chunk_equiv (ufmt f) (ufmt_hooks f H1 H2) s c (reach_Wf (ufmt f) (ufmt_hooks f H1 H2) st s Hn H3)). reflexivity.
  - pose proof qcow_fmt_ok as (_ & _ & Hn & _).
    rewrite (gen_eat_chunk_equiv qcow_fmt qcow_hooks s c (reach_Wf qcow_fmt qcow_hooks st s Hn H)). reflexivity.
  - pose proof vmdk_fmt_ok as (_ & _ & Hn & _).
    rewrite (gen_eat_chunk_equiv vmdk_fmt vmdk_hooks s c (reach_Wf vmdk_fmt vmdk_hooks st s Hn H)). reflexivity.
Qed.
