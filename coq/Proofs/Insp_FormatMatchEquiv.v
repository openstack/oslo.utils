(* Proofs/Insp_FormatMatchEquiv.v — the format_match properties of the ten inspector classes (and
   GPTInspector._check_for_fat), translated statement by statement from the source
   (Gen/Insp_FormatCode.v), equal the hand-written model's f_match. *)
Require Import OV.Base.Bytes OV.Base.Py OV.Base.Insp_Struct OV.Gen.Insp_Consts OV.Model.Insp_Engine OV.Model.Insp_PyPrims.
Require Import OV.Model.Insp_Raw OV.Model.Insp_Qcow2 OV.Model.Insp_Qed OV.Model.Insp_Vhd OV.Model.Insp_Vdi
               OV.Model.Insp_Iso OV.Model.Insp_Gpt OV.Model.Insp_Luks OV.Model.Insp_Vhdx OV.Model.Insp_Vmdk.
Require Import OV.Gen.Insp_EngineCode OV.Gen.Insp_FormatCode.
Require Import OV.Proofs.Insp_EngineEquiv.
Open Scope N_scope.

Ltac fm_start := intros; unfold gen_region, py_getitem, get_region, gen_has_region, py_contains, has_region, rhas, py_region_complete.
Ltac fm_region s n := destruct (rget n (i_regs s)) as [?r|]; cbn [bind]; [|reflexivity].

Lemma gen_raw_format_match_equiv s : gen_raw_format_match s = f_match raw_fmt s.
Proof. reflexivity. Qed.

Lemma gen_qcow2_format_match_equiv s : gen_qcow2_format_match s = f_match qcow_fmt s.
Proof.
  cbn [f_match qcow_fmt]. unfold gen_qcow2_format_match, qcow_match. fm_start. fm_region s R_header.
  destruct (negb (rcomplete r)); [reflexivity|]. destruct (i_ext s); reflexivity.
Qed.

Lemma gen_qed_format_match_equiv s : gen_qed_format_match s = f_match qed_fmt s.
Proof.
  cbn [f_match qed_fmt]. unfold gen_qed_format_match, qed_match. fm_start. fm_region s R_header.
  destruct (negb (rcomplete r)); reflexivity.
Qed.

Lemma gen_vhd_format_match_equiv s : gen_vhd_format_match s = f_match vhd_fmt s.
Proof. cbn [f_match vhd_fmt]. unfold gen_vhd_format_match, vhd_match. fm_start. fm_region s R_header. reflexivity. Qed.

Lemma gen_vhdx_format_match_equiv s : gen_vhdx_format_match s = f_match vhdx_fmt s.
Proof. cbn [f_match vhdx_fmt]. unfold gen_vhdx_format_match, vhdx_match. fm_start. fm_region s R_ident. reflexivity. Qed.

Lemma gen_vmdk_format_match_equiv s : gen_vmdk_format_match s = f_match vmdk_fmt s.
Proof.
  cbn [f_match vmdk_fmt]. unfold gen_vmdk_format_match, vmdk_match. fm_start.
  destruct (rget R_header (i_regs s)); reflexivity.
Qed.

Lemma gen_vdi_format_match_equiv s : gen_vdi_format_match s = f_match vdi_fmt s.
Proof.
  cbn [f_match vdi_fmt]. unfold gen_vdi_format_match, vdi_match. fm_start. fm_region s R_header.
  destruct (negb (rcomplete r)); [reflexivity|]. reflexivity.
Qed.

Lemma gen_iso_format_match_equiv s : gen_iso_format_match s = f_match iso_fmt s.
Proof.
  cbn [f_match iso_fmt]. unfold gen_iso_format_match, iso_match. rewrite gen_inspector_complete_equiv. fm_start.
  destruct (negb (complete s)); [reflexivity|]. fm_region s R_header. reflexivity.
Qed.

Lemma gen_gpt_check_for_fat_equiv s : gen_gpt_check_for_fat s = gpt_check_for_fat s.
Proof.
  unfold gen_gpt_check_for_fat, gpt_check_for_fat. fm_start. fm_region s R_mbr.
  destruct (bidx (r_data r) _); cbn [bind]; [|reflexivity]. destruct (bidx (r_data r) _); reflexivity.
Qed.

Lemma gen_gpt_format_match_equiv s : gen_gpt_format_match s = f_match gpt_fmt s.
Proof.
  cbn [f_match gpt_fmt]. unfold gen_gpt_format_match, gpt_match. rewrite gen_gpt_check_for_fat_equiv. fm_start.
  destruct (rget R_mbr (i_regs s)) as [r|] eqn:Hg; cbn [bind]; [|reflexivity].
  destruct (negb (rcomplete r)); [reflexivity|].
  destruct (gpt_check_for_fat s) as [fat|]; cbn [bind]; [|reflexivity].
  cbn [bind]. reflexivity.
Qed.

Lemma gen_luks_format_match_equiv s : gen_luks_format_match s = f_match luks_fmt s.
Proof. cbn [f_match luks_fmt]. unfold gen_luks_format_match, luks_match. fm_start. fm_region s R_header. reflexivity. Qed.
