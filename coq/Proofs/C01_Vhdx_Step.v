(* Proofs/C01_Vhdx_Step.v — one eat_chunk of VHDXInspector, executed symbolically.

   Outside the backward-pointer zone every state the inspector goes through is [vst skel st]: the
   regions listed in the skeleton [skel] (name, offset, length), each holding exactly the part of its
   window that the stream [st] has reached.  The skeleton is one of
       SK0                      ident, header
       SK1 mo L                 + metadata at mo (length L)
       SK2 mo L vo il           + vds at vo (length il)
   This file computes eat_chunk on such states: first capture (engine, generic in the skeleton), then
   post_process (three cases), then the `while new_regions` loop, whose fuel is never
   used up. *)
Require Import OV.Base.Bytes OV.Base.Py OV.Base.Insp_Struct OV.Gen.Insp_Consts OV.Model.Insp_Engine.
Require Import OV.Model.Insp_Vhdx OV.Model.Insp_All OV.Model.C01_Vhdx.
Require Import OV.Proofs.Insp_Engine OV.Proofs.Insp_Static OV.Proofs.C01_Vhdx_Tables.
Open Scope N_scope.

Definition skeleton := list (rname * rspec).

(* the state after the stream [st] when the regions are those of [skel] *)
Definition vst (skel : skeleton) (st : bytes) : ist unit :=
  mkIst (blen st) (fill_regs 0 skel st) (length skel) false [K_null] tt.

(* ... and right after post_process created region n (still empty) *)
Definition fresh_st (skel : skeleton) (st : bytes) (n : rname) (sp : rspec) : ist unit :=
  mkIst (blen st) (fill_regs 0 skel st ++ [(n, region_of_spec (length skel) sp)]) (S (length skel)) false [K_null] tt.

Lemma fill_regs_app id l1 l2 st :
  fill_regs id (l1 ++ l2) st = fill_regs id l1 st ++ fill_regs (id + length l1) l2 st.
Proof.
  revert id. induction l1 as [|[n sp] t IH]; intros id; cbn [app fill_regs length].
  - rewrite Nat.add_0_r. reflexivity.
  - rewrite IH. rewrite Nat.add_succ_r. reflexivity.
Qed.

Lemma ids_fill id l st : ids (fill_regs id l st) = seq id (length l).
Proof.
  revert id. induction l as [|[n sp] t IH]; intros id; cbn [fill_regs ids map snd r_id length seq]; [reflexivity|].
  f_equal. apply IH.
Qed.

Lemma ids_app a b : ids (a ++ b) = ids a ++ ids b.
Proof. unfold ids. apply map_app. Qed.

Lemma mem_nat_seq_ge k i n : (i + n <= k)%nat -> mem_nat k (seq i n) = false.
Proof.
  intros H. destruct (mem_nat k (seq i n)) eqn:Hm; [|reflexivity].
  apply mem_nat_In in Hm. apply in_seq in Hm. lia.
Qed.

Lemma new_names_fresh skel st n sp :
  new_names (seq 0 (length skel)) (fill_regs 0 skel st ++ [(n, region_of_spec (length skel) sp)]) = [n].
Proof.
  unfold new_names. rewrite filter_app, map_app.
  pose proof (new_names_same_ids (fill_regs 0 skel st) _ eq_refl) as H0. unfold new_names in H0. rewrite ids_fill in H0. rewrite H0.
  cbn [filter snd region_of_spec r_id app]. rewrite mem_nat_seq_ge by lia. reflexivity.
Qed.

(* regions whose name is not asked for are left alone *)
Lemma capture_only_other n c pos id skel st :
  mem_rname n (map fst skel) = false ->
  capture_regs [n] c pos (fill_regs id skel st) = fill_regs id skel st.
Proof.
  revert id. induction skel as [|[k sp] t IH]; intros id Hm; cbn [fill_regs]; [reflexivity|].
  cbn [map fst mem_rname] in Hm. apply orb_false_iff in Hm. destruct Hm as [Hk Ht].
  rewrite capture_regs_map. cbn [map]. rewrite <- capture_regs_map, (IH _ Ht). f_equal.
  unfold cap1. cbn [mem_rname].
  assert (Hnk : rname_beq n k = false).
  { destruct (rname_beq n k) eqn:E; [|reflexivity]. apply rname_beq_eq in E. subst. rewrite rname_beq_refl in Hk. discriminate. }
  rewrite Hnk. reflexivity.
Qed.

(* the re-presentation of the chunk to a region created during this chunk: a region that does not start
   before the chunk (forward pointer) takes exactly its part of it; one that starts behind the chunk's start is
   given nothing, now or later, because the byte it waits for has gone by (finding F2) *)
Lemma capture_new skel st c n sp :
  mem_rname n (map fst skel) = false -> rs_end sp = false -> rs_min sp = None ->
  capture_regs [n] c (blen st + blen c) (fill_regs 0 skel (st ++ c) ++ [(n, region_of_spec (length skel) sp)])
  = if blen st <=? rs_off sp then fill_regs 0 (skel ++ [(n, sp)]) (st ++ c)
    else fill_regs 0 skel (st ++ c) ++ [(n, region_of_spec (length skel) sp)].
Proof.
  intros Hm He Hmin. rewrite fill_regs_app. cbn [fill_regs Nat.add].
  rewrite capture_regs_map, map_app, <- capture_regs_map. rewrite (capture_only_other _ _ _ _ _ _ Hm).
  cbn [map]. unfold cap1. cbn [mem_rname]. rewrite rname_beq_refl. cbn [orb negb].
  destruct sp as [e o l m]. cbn [rs_end rs_off rs_len rs_min] in *. subst e m.
  unfold region_of_spec. cbn [rs_end rs_off rs_len rs_min].
  destruct (blen st <=? o) eqn:Hoff.
  - pose proof (capture_step_mk (length skel) o l st c) as H. cbv zeta in H.
    assert (Hnil : bslice o l st = []) by (unfold bslice; rewrite bskip_all by lia; apply btake_nil).
    rewrite Hnil in H. rewrite <- H.
    match goal with |- context [if ?b then _ else _] => destruct b end; reflexivity.
  - destruct (r_end _ || negb _); [|reflexivity]. do 3 f_equal.
    unfold rcapture, cap_fixed. cbn [r_end r_off r_data flen flen_acc].
    rewrite flen_blen. replace (blen st + blen c - blen c <=? o + 0) with false by lia. reflexivity.
Qed.

Lemma vhdx_no_callbacks names (s : ist unit) : run_callbacks vhdx_fmt names s = (s, None).
Proof. apply run_callbacks_none. reflexivity. Qed.

(* eat_chunk on a tracked state: capture, then post_process, then the loop *)
Lemma eat_chunk_vst skel st c :
  eat_chunk vhdx_fmt (vst skel st) c =
  match vhdx_post (vst skel (st ++ c)) with
  | (s2, Some e) => (s2, Some e)
  | (s2, None) => settle eat_fuel vhdx_fmt c (seq 0 (length skel)) s2
  end.
Proof.
  unfold eat_chunk, do_capture. cbn [vst i_fin i_pos i_regs set_pos set_regs].
  rewrite flen_blen, capture_regs_fill, ids_fill. cbn [f_post vhdx_fmt].
  assert (E : set_regs (set_pos (vst skel st) (blen st + blen c)) (fill_regs 0 skel (st ++ c)) = vst skel (st ++ c)).
  { unfold vst, set_regs, set_pos. cbn [i_pos i_regs i_next i_fin i_checks i_ext]. rewrite blen_app. reflexivity. }
  rewrite E.
  destruct (vhdx_post (vst skel (st ++ c))) as [s2 [e|]]; [reflexivity|].
  destruct (settle eat_fuel vhdx_fmt c (seq 0 (length skel)) s2) as [s3 [e|]]; [reflexivity|].
  apply vhdx_no_callbacks.
Qed.

(* the loop when nothing new was created *)
Lemma settle_vst fuel c skel st :
  settle fuel vhdx_fmt c (seq 0 (length skel)) (vst skel st) = (vst skel st, None).
Proof.
  apply settle_done. cbn [vst i_regs]. rewrite <- (ids_fill 0 skel st). apply new_names_same_ids. reflexivity.
Qed.

Lemma ids_fresh skel st n sp : ids (i_regs (fresh_st skel st n sp)) = seq 0 (S (length skel)).
Proof. cbn [fresh_st i_regs]. rewrite ids_app, ids_fill, seq_S. reflexivity. Qed.

(* the loop when post_process has just created region n: one more capture, one more post_process *)
Lemma settle_new fuel c skel st n sp :
  mem_rname n (map fst skel) = false -> rs_end sp = false -> rs_min sp = None ->
  settle (S fuel) vhdx_fmt c (seq 0 (length skel)) (fresh_st skel (st ++ c) n sp) =
  match vhdx_post (if blen st <=? rs_off sp then vst (skel ++ [(n, sp)]) (st ++ c) else fresh_st skel (st ++ c) n sp) with
  | (s2, Some e) => (s2, Some e)
  | (s2, None) => settle fuel vhdx_fmt c (seq 0 (S (length skel))) s2
  end.
Proof.
  intros Hm He Hmin. cbn [settle].
  assert (N1 : new_names (seq 0 (length skel)) (i_regs (fresh_st skel (st ++ c) n sp)) = [n]) by apply new_names_fresh.
  rewrite N1.
  assert (D : do_capture [n] c (fresh_st skel (st ++ c) n sp) =
              (if blen st <=? rs_off sp then vst (skel ++ [(n, sp)]) (st ++ c) else fresh_st skel (st ++ c) n sp, None)).
  { unfold do_capture, fresh_st, vst, set_regs. cbn [i_pos i_regs i_next i_fin i_checks i_ext].
    rewrite blen_app, (capture_new skel st c n sp Hm He Hmin).
    destruct (blen st <=? rs_off sp); [rewrite app_length; cbn [length]; rewrite Nat.add_1_r|]; reflexivity. }
  rewrite D. cbn [f_post vhdx_fmt].
  replace (ids (i_regs (if blen st <=? rs_off sp then vst (skel ++ [(n, sp)]) (st ++ c) else fresh_st skel (st ++ c) n sp)))
    with (seq 0 (S (length skel))); [reflexivity|].
  destruct (blen st <=? rs_off sp); [|symmetry; apply ids_fresh].
  cbn [vst i_regs]. rewrite ids_fill, app_length. cbn [length]. rewrite Nat.add_1_r. reflexivity.
Qed.

Definition SK0 : skeleton :=
  [(R_ident, mkRspec false 0 VX_IDENT_LEN None); (R_header, mkRspec false VX_HDR_OFF VX_HDR_LEN None)].
Definition SK1 (mo L : N) : skeleton := SK0 ++ [(R_metadata, mkRspec false mo L None)].
Definition SK2 (mo L vo il : N) : skeleton := SK1 mo L ++ [(R_vds, mkRspec false vo il None)].

(* the regions and the check of _initialize, as regenerated from the source *)
Lemma vhdx_init_regions : init_regions F_vhdx = SK0.
Proof. reflexivity. Qed.
Lemma vhdx_init_checks : init_checks F_vhdx = [K_null].
Proof. reflexivity. Qed.

Lemma vhdx_init : init_ist vhdx_fmt = vst SK0 [].
Proof.
  unfold init_ist, vst. cbn [f_id vhdx_fmt f_ext0]. rewrite vhdx_init_regions, vhdx_init_checks.
  rewrite (init_regs_fill 0 SK0) by reflexivity. reflexivity.
Qed.

Definition hdr_region (st : bytes) : region :=
  mkRegion 1 false VX_HDR_OFF VX_HDR_LEN None (bslice VX_HDR_OFF VX_HDR_LEN st) false.
Definition meta_region (mo L : N) (st : bytes) : region :=
  mkRegion 2 false mo L None (bslice mo L st) false.

Lemma hdr_complete st : rcomplete (hdr_region st) = (VX_HDR_END <=? blen st).
Proof.
  unfold rcomplete, base_complete, hdr_region. cbn [r_end r_min r_len r_data].
  rewrite flen_blen, blen_bslice. unfold VX_HDR_LEN, VX_HDR_OFF, VX_HDR_END.
  destruct (262144 <=? blen st) eqn:H; lia.
Qed.

(* post_process, skeleton SK0, before the header is complete: inert *)
Lemma post_SK0_early st : blen st < VX_HDR_END -> vhdx_post (vst SK0 st) = (vst SK0 st, None).
Proof.
  intros H. unfold vhdx_post.
  change (get_region R_header (vst SK0 st)) with (Ok (A:=region) (hdr_region st)).
  cbv beta iota.
  rewrite hdr_complete. replace (VX_HDR_END <=? blen st) with false by lia. reflexivity.
Qed.

(* post_process, skeleton SK0, header complete: read the region table *)
Lemma post_SK0_late st :
  VX_HDR_END <= blen st ->
  vhdx_post (vst SK0 st) =
  match vx_region_table (bslice VX_HDR_OFF VX_HDR_LEN st) with
  | Exn e => (vst SK0 st, Some e)
  | Ok None => (vst SK0 st, None)
  | Ok (Some mo) => (fresh_st SK0 st R_metadata (rt_spec_of mo), None)
  end.
Proof.
  intros H. unfold vhdx_post.
  change (get_region R_header (vst SK0 st)) with (Ok (A:=region) (hdr_region st)).
  cbv beta iota.
  rewrite hdr_complete. replace (VX_HDR_END <=? blen st) with true by lia.
  change (has_region R_metadata (vst SK0 st)) with false. cbn [negb andb].
  rewrite (find_meta_region_spec (vst SK0 st) (hdr_region st)); [|reflexivity|].
  - cbn [hdr_region r_data].
    destruct (vx_region_table (bslice VX_HDR_OFF VX_HDR_LEN st)) as [[mo|]|e]; cbn [option_map]; reflexivity.
  - cbn [hdr_region r_data]. rewrite blen_bslice. unfold VX_HDR_LEN, VX_HDR_OFF, VX_HDR_END in *. lia.
Qed.

(* post_process, skeleton SK1: read the metadata table; a found item shrinks the metadata region to
   what it holds and creates vds *)
Lemma post_SK1 mo L st :
  vhdx_post (vst (SK1 mo L) st) =
  match vx_meta_table (bslice mo L st) with
  | Exn e => (vst (SK1 mo L) st, Some e)
  | Ok None => (vst (SK1 mo L) st, None)
  | Ok (Some (io, il)) =>
    (fresh_st (SK1 mo (blen (bslice mo L st))) st R_vds (mkRspec false (mo + io) il None), None)
  end.
Proof.
  unfold vhdx_post.
  change (get_region R_header (vst (SK1 mo L) st)) with (Ok (A:=region) (hdr_region st)).
  cbv beta iota.
  change (has_region R_metadata (vst (SK1 mo L) st)) with true.
  change (has_region R_vds (vst (SK1 mo L) st)) with false.
  rewrite andb_false_r. cbn [negb andb].
  rewrite (find_meta_entry_spec (vst (SK1 mo L) st) (meta_region mo L st)) by reflexivity.
  cbn [meta_region r_data r_off].
  destruct (vx_meta_table (bslice mo L st)) as [[[io il]|]|e]; try reflexivity.
  rewrite flen_blen.
  replace (set_regs (vst (SK1 mo L) st) (rset R_metadata (set_len (meta_region mo L st) (blen (bslice mo L st))) (i_regs (vst (SK1 mo L) st))))
    with (vst (SK1 mo (blen (bslice mo L st))) st); [reflexivity|].
  unfold vst, SK1, SK0, set_regs, set_len, meta_region.
  cbn [i_pos i_regs i_next i_fin i_checks i_ext app fill_regs rset rname_beq length rs_off rs_len r_id r_end r_off r_min r_data r_fin].
  rewrite bslice_relen. reflexivity.
Qed.

(* post_process, skeleton SK2: nothing left to do *)
Lemma post_SK2 mo L vo il st : vhdx_post (vst (SK2 mo L vo il) st) = (vst (SK2 mo L vo il) st, None).
Proof.
  unfold vhdx_post.
  change (get_region R_header (vst (SK2 mo L vo il) st)) with (Ok (A:=region) (hdr_region st)).
  cbv beta iota.
  change (has_region R_metadata (vst (SK2 mo L vo il) st)) with true.
  change (has_region R_vds (vst (SK2 mo L vo il) st)) with true.
  rewrite andb_false_r. reflexivity.
Qed.

(* what the chunk leaves behind once the metadata region exists: the metadata table as far as the
   stream has it decides *)
Definition after_meta (mo L : N) (st' : bytes) : ist unit * option exn :=
  match vx_meta_table (bslice mo L st') with
  | Exn e => (vst (SK1 mo L) st', Some e)
  | Ok None => (vst (SK1 mo L) st', None)
  | Ok (Some (io, il)) => (vst (SK2 mo (blen (bslice mo L st')) (mo + io) il) st', None)
  end.

(* post_process on SK1 followed by the loop; two units of fuel are enough *)
Lemma post_loop_SK1 fuel mo L st c :
  (forall io il, vx_meta_table (bslice mo L (st ++ c)) = Ok (Some (io, il)) -> blen st <= mo + io) ->
  match vhdx_post (vst (SK1 mo L) (st ++ c)) with
  | (s2, Some e) => (s2, Some e)
  | (s2, None) => settle (S (S fuel)) vhdx_fmt c (seq 0 (length (SK1 mo L))) s2
  end = after_meta mo L (st ++ c).
Proof.
  intros Hfw. rewrite post_SK1. unfold after_meta.
  destruct (vx_meta_table (bslice mo L (st ++ c))) as [[[io il]|]|e] eqn:Hmt; [| |reflexivity].
  - change (length (SK1 mo L)) with (length (SK1 mo (blen (bslice mo L (st ++ c))))).
    rewrite settle_new by reflexivity. cbn [rs_off]. rewrite (proj2 (N.leb_le _ _) (Hfw io il eq_refl)).
    fold (SK2 mo (blen (bslice mo L (st ++ c))) (mo + io) il).
    rewrite post_SK2. apply (settle_vst _ _ (SK2 _ _ _ _)).
  - apply settle_vst.
Qed.

Lemma eat_chunk_SK0 st c :
  (forall mo, vx_region_table (bslice VX_HDR_OFF VX_HDR_LEN (st ++ c)) = Ok (Some mo) -> VX_HDR_END <= blen (st ++ c) ->
     blen st <= mo /\
     forall io il, vx_meta_table (bslice mo VX_META_LEN (st ++ c)) = Ok (Some (io, il)) -> blen st <= mo + io) ->
  eat_chunk vhdx_fmt (vst SK0 st) c =
  if blen (st ++ c) <? VX_HDR_END then (vst SK0 (st ++ c), None)
  else match vx_region_table (bslice VX_HDR_OFF VX_HDR_LEN (st ++ c)) with
       | Exn e => (vst SK0 (st ++ c), Some e)
       | Ok None => (vst SK0 (st ++ c), None)
       | Ok (Some mo) => after_meta mo VX_META_LEN (st ++ c)
       end.
Proof.
  intros Hfw. destruct (blen (st ++ c) <? VX_HDR_END) eqn:Hh.
  - rewrite eat_chunk_vst, post_SK0_early by lia. apply settle_vst.
  - destruct (vx_region_table (bslice VX_HDR_OFF VX_HDR_LEN (st ++ c))) as [[mo|]|e] eqn:Hrt.
    + destruct (Hfw mo eq_refl) as [Hmo Hio]; [lia|].
      rewrite eat_chunk_vst, post_SK0_late by lia. rewrite Hrt.
      unfold eat_fuel. rewrite settle_new by reflexivity. cbn [rt_spec_of rs_off]. rewrite (proj2 (N.leb_le _ _) Hmo).
      fold (SK1 mo VX_META_LEN). apply (post_loop_SK1 _ mo VX_META_LEN). exact Hio.
    + rewrite eat_chunk_vst, post_SK0_late by lia. rewrite Hrt. apply settle_vst.
    + rewrite eat_chunk_vst, post_SK0_late by lia. rewrite Hrt. reflexivity.
Qed.

Lemma eat_chunk_SK1 mo L st c :
  (forall io il, vx_meta_table (bslice mo L (st ++ c)) = Ok (Some (io, il)) -> blen st <= mo + io) ->
  eat_chunk vhdx_fmt (vst (SK1 mo L) st) c = after_meta mo L (st ++ c).
Proof. intros H. rewrite eat_chunk_vst. unfold eat_fuel. apply post_loop_SK1. exact H. Qed.

Lemma eat_chunk_SK2 mo L vo il st c :
  eat_chunk vhdx_fmt (vst (SK2 mo L vo il) st) c = (vst (SK2 mo L vo il) (st ++ c), None).
Proof. rewrite eat_chunk_vst, post_SK2. apply settle_vst. Qed.

Lemma settle_fresh_known fuel c skel st n sp :
  settle fuel vhdx_fmt c (seq 0 (S (length skel))) (fresh_st skel st n sp) = (fresh_st skel st n sp, None).
Proof. apply settle_done. rewrite <- (ids_fresh skel st n sp). apply new_names_same_ids. reflexivity. Qed.

(* post_process finds an empty metadata region: no table yet *)
Lemma post_stale_meta st sp : vhdx_post (fresh_st SK0 st R_metadata sp) = (fresh_st SK0 st R_metadata sp, None).
Proof.
  unfold vhdx_post.
  change (get_region R_header (fresh_st SK0 st R_metadata sp)) with (Ok (A:=region) (hdr_region st)).
  cbv beta iota.
  change (has_region R_metadata (fresh_st SK0 st R_metadata sp)) with true.
  change (has_region R_vds (fresh_st SK0 st R_metadata sp)) with false.
  rewrite andb_false_r. cbn [negb andb].
  rewrite (find_meta_entry_spec (fresh_st SK0 st R_metadata sp) (region_of_spec 2 sp)) by reflexivity.
  reflexivity.
Qed.

Lemma post_stale_vds mo L st sp : vhdx_post (fresh_st (SK1 mo L) st R_vds sp) = (fresh_st (SK1 mo L) st R_vds sp, None).
Proof.
  unfold vhdx_post.
  change (get_region R_header (fresh_st (SK1 mo L) st R_vds sp)) with (Ok (A:=region) (hdr_region st)).
  cbv beta iota.
  change (has_region R_metadata (fresh_st (SK1 mo L) st R_vds sp)) with true.
  change (has_region R_vds (fresh_st (SK1 mo L) st R_vds sp)) with true.
  rewrite andb_false_r. reflexivity.
Qed.

(* the chunk that completes the header when the metadata offset lies behind the chunk's start *)
Lemma eat_chunk_stale_meta st c mo :
  VX_HDR_END <= blen (st ++ c) -> vx_region_table (bslice VX_HDR_OFF VX_HDR_LEN (st ++ c)) = Ok (Some mo) -> mo < blen st ->
  eat_chunk vhdx_fmt (vst SK0 st) c = (fresh_st SK0 (st ++ c) R_metadata (rt_spec_of mo), None).
Proof.
  intros Hl Hrt Hmo. rewrite eat_chunk_vst, post_SK0_late by exact Hl. rewrite Hrt. unfold eat_fuel.
  rewrite settle_new by reflexivity. cbn [rt_spec_of rs_off]. rewrite (proj2 (N.leb_gt _ _) Hmo).
  rewrite post_stale_meta. apply settle_fresh_known.
Qed.

(* the chunk that completes the metadata table when the size item lies behind the chunk's start *)
Lemma eat_chunk_stale_vds mo L st c io il :
  vx_meta_table (bslice mo L (st ++ c)) = Ok (Some (io, il)) -> mo + io < blen st ->
  eat_chunk vhdx_fmt (vst (SK1 mo L) st) c =
  (fresh_st (SK1 mo (blen (bslice mo L (st ++ c)))) (st ++ c) R_vds (mkRspec false (mo + io) il None), None).
Proof.
  intros Hmt Hio. rewrite eat_chunk_vst, post_SK1, Hmt. unfold eat_fuel.
  change (length (SK1 mo L)) with (length (SK1 mo (blen (bslice mo L (st ++ c))))).
  rewrite settle_new by reflexivity. cbn [rs_off]. rewrite (proj2 (N.leb_gt _ _) Hio).
  rewrite post_stale_vds. apply settle_fresh_known.
Qed.
