(* Proofs/C04_Refute.v — K12: the wildcard pattern refutes the full statement (witness by vm_compute) *)
From Coq Require Import String.
Require Import OV.Base.Bytes OV.Base.PyInt OV.Base.Str OV.Base.Regex.
Require Import OV.Model.C04 OV.Model.C04_Spec OV.Model.C04_Sweep OV.Proofs.C04_Bounded.
Open Scope N_scope.

Definition k12_witness : str := [32; 34] ++ lit "password" ++ [34; 58; 32; 34] ++ lit "abc" ++ [34; 32; 32; 32; 34] ++ lit "token" ++ [34; 58; 32; 34] ++ lit "def" ++ [34; 32].
Definition k12_once : str := mask_password k12_witness (lit "***").
Definition k12_twice : str := mask_password k12_once (lit "***").

Lemma k12_values :
  k12_once = [32; 34] ++ lit "password" ++ [34; 58; 32; 34] ++ lit "***" ++ [34; 32; 32; 32; 34] ++ lit "token" ++ [34; 58; 32; 34; 32] /\
  k12_once <> k12_twice /\ zone_K12 k12_witness = true.
Proof. unfold k12_twice, k12_once. rewrite <- !mask_fast_eq. vm_compute. split; [reflexivity|split; [discriminate|reflexivity]]. Qed.

Lemma idempotent_bounded c : In c family_quick -> in_zone (case_msg c) = false ->
  mask_password (mask_password (case_msg c) (case_mask c)) (case_mask c) = mask_password (case_msg c) (case_mask c).
Proof. intros Hin Hz. destruct (mask_whole_bounded c Hin Hz) as [H1 H2]. rewrite H1. exact H2. Qed.

(* the full statement: two secrets in neutral text (digits / white space) *)
Definition full_statement : Prop :=
  forall k1 k2 KD1 KD2 (r1 r2 : rend) v1 v2 pre sep post mask,
    In k1 spec_keys_35 -> In k2 spec_keys_35 -> In KD1 (casings k1) -> In KD2 (casings k2) ->
    In r1 (renderings KD1) -> In r2 (renderings KD2) ->
    forallb (fst r1) v1 = true -> forallb (fst r2) v2 = true -> v1 <> [] -> v2 <> [] ->
    neutral pre = true -> neutral sep = true -> neutral post = true ->
    mask_password (pre ++ [32] ++ fst (snd r1) ++ v1 ++ snd (snd r1) ++ [32] ++ sep ++ [32] ++
                   fst (snd r2) ++ v2 ++ snd (snd r2) ++ [32] ++ post) mask
    = pre ++ [32] ++ fst (snd r1) ++ mask ++ snd (snd r1) ++ [32] ++ sep ++ [32] ++
      fst (snd r2) ++ mask ++ snd (snd r2) ++ [32] ++ post.

Lemma refuted_wildcard :
  ~ full_statement /\
  mask_password k12_witness (lit "***") = k12_once /\ mask_password k12_once (lit "***") = k12_twice /\
  k12_once <> k12_twice /\ zone_K12 k12_witness = true.
Proof.
  split; [|exact (conj eq_refl (conj eq_refl (proj2 k12_values)))].
  intros H.
  specialize (H (lit "password") (lit "token") (lit "password") (lit "token")
                (quoted_char, ([34] ++ lit "password" ++ [34; 58; 32; 34], [34]))
                (quoted_char, ([34] ++ lit "token" ++ [34; 58; 32; 34], [34]))
                (lit "abc") (lit "def") [] [] [] (lit "***")).
  (* password and token are keys 2 and 10 of the list, taken as written, in the "k": "v" rendering (index 7) *)
  assert (H' := H (nth_error_In spec_keys_35 2 eq_refl) (nth_error_In spec_keys_35 10 eq_refl) (or_introl eq_refl) (or_introl eq_refl)
                  (nth_error_In (renderings (lit "password")) 7 eq_refl) (nth_error_In (renderings (lit "token")) 7 eq_refl)
                  eq_refl eq_refl ltac:(discriminate) ltac:(discriminate) eq_refl eq_refl eq_refl).
  clear H. rewrite <- mask_fast_eq in H'. vm_compute in H'. discriminate H'.
Qed.

(* ---------- K14: one secret in neutral text, `--K value` with a flag-like value ---------- *)
Definition single_statement : Prop :=
  forall k KD (r : rend) v pre post mask,
    In k spec_keys_35 -> In KD (casings k) -> In r (renderings KD) ->
    forallb (fst r) v = true -> v <> [] -> neutral pre = true -> neutral post = true ->
    mask_password (pre ++ [32] ++ fst (snd r) ++ v ++ snd (snd r) ++ [32] ++ post) mask
    = pre ++ [32] ++ fst (snd r) ++ mask ++ snd (snd r) ++ [32] ++ post.

Definition k14_witness : str := lit " --auth_password -ab 1".

Lemma refuted_K14 :
  ~ single_statement /\
  mask_password k14_witness (lit "***") = lit " --auth_password *** ***" /\
  zone_K14 k14_witness = true /\ zone_K12 k14_witness = false /\
  (* the same value under the suffix key itself, and a non-flag value under the longer key, are fine *)
  mask_password (lit " --password -ab 1") (lit "***") = lit " --password *** 1" /\
  zone_K14 (lit " --password -ab 1") = false /\
  mask_password (lit " --auth_password -ab1 1") (lit "***") = lit " --auth_password *** 1" /\
  zone_K14 (lit " --auth_password -ab1 1") = false.
Proof.
  split; [|rewrite <- !mask_fast_eq; vm_compute; repeat split; reflexivity].
  intros H.
  specialize (H (lit "auth_password") (lit "auth_password") (dd_char, (lit "--" ++ lit "auth_password" ++ lit " ", []))
                (lit "-ab") [] (lit "1") (lit "***")).
  (* auth_password is key 6 of the list, taken as written, in the --k v rendering (index 5) *)
  assert (H' := H (nth_error_In spec_keys_35 6 eq_refl) (or_introl eq_refl) (nth_error_In (renderings (lit "auth_password")) 5 eq_refl)
                  eq_refl ltac:(discriminate) eq_refl eq_refl).
  clear H. rewrite <- mask_fast_eq in H'. vm_compute in H'. discriminate H'.
Qed.
