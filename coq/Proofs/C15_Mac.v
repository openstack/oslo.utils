(* Proofs/C15_Mac.v — netaddr.EUI(text): every accepted EUI-48 text denotes a value below 2^48;
   the six-group forms (':' or '-', 1..2 hex digits per group, either case) and what
   str(EUI) prints in the mac_unix_expanded dialect are read back to their value. *)
From Coq Require Import String.
Require Import OV.Base.Bytes OV.Base.Py OV.Base.PyInt OV.Base.Str OV.Base.C11_Lib.
Require Import OV.Model.C11 OV.Proofs.C11_Split OV.Proofs.C11_V6.
Require Import OV.Gen.C15_Netutils OV.Model.C15 OV.Model.C15_Text.
Open Scope N_scope.

Ltac Zify.zify_post_hook ::= Z.div_mod_to_equations.

Lemma hexword_bound lo hi bits f : hexword lo hi f = true -> 4 * N.of_nat hi <= bits -> hexval f < 2 ^ bits.
Proof.
  unfold hexword. intros H Hb. apply andb_true_iff in H. destruct H as [H Hx].
  apply andb_true_iff in H. destruct H as [_ Hl]. apply Nat.leb_le in Hl.
  eapply N.lt_le_trans; [apply hexval_bound; exact Hx|].
  replace 16 with (2 ^ 4) by reflexivity. rewrite <- N.pow_mul_r. apply N.pow_le_mono_r; lia.
Qed.

Lemma fold_words_bound bits ws acc : Forall (fun w => hexval w < 2 ^ bits) ws ->
  fold_left (fun a w => a * 2 ^ bits + hexval w) ws acc < (acc + 1) * 2 ^ (bits * N.of_nat (length ws)).
Proof.
  revert acc. induction ws as [|w ws IH]; intros acc H; cbn [fold_left length].
  - rewrite N.mul_0_r. cbn. lia.
  - inversion H as [|? ? Hw Hws]; subst. specialize (IH (acc * 2 ^ bits + hexval w) Hws).
    rewrite Nat2N.inj_succ, N.mul_succ_r, N.pow_add_r.
    assert (0 < 2 ^ (bits * N.of_nat (length ws))) by (apply N.neq_0_lt_0, N.pow_nonzero; lia).
    nia.
Qed.

Lemma words_val_bound bits ws : Forall (fun w => hexval w < 2 ^ bits) ws ->
  words_val bits ws < 2 ^ (bits * N.of_nat (length ws)).
Proof. intros H. pose proof (fold_words_bound bits ws 0 H). unfold words_val. lia. Qed.

Lemma fmt_match_some sep n lo hi s ws : fmt_match sep n lo hi s = Some ws ->
  length ws = n /\ forallb (hexword lo hi) ws = true.
Proof.
  unfold fmt_match. destruct ((length (split_char sep s) =? n)%nat && forallb (hexword lo hi) (split_char sep s)) eqn:E; [|discriminate].
  intros H. inversion H; subst. apply andb_true_iff in E. destruct E as [E1 E2].
  apply Nat.eqb_eq in E1. split; assumption.
Qed.

Lemma fmt_bound sep n lo hi bits s : 4 * N.of_nat hi <= bits ->
  forall ws, fmt_match sep n lo hi s = Some ws -> words_val bits ws < 2 ^ (bits * N.of_nat n).
Proof.
  intros Hb ws H. destruct (fmt_match_some _ _ _ _ _ _ H) as [<- F].
  apply words_val_bound. rewrite forallb_forall in F. apply Forall_forall. intros w Hw.
  eapply hexword_bound; [apply F; exact Hw|exact Hb].
Qed.

Lemma bare_bound n bits s : 4 * N.of_nat n <= bits ->
  forall ws, bare_match n s = Some ws -> words_val bits ws < 2 ^ bits.
Proof.
  unfold bare_match. intros Hb ws. destruct ((length s =? n)%nat && forallb is_hex s) eqn:E; [|discriminate].
  intros [= <-]. apply andb_true_iff in E. destruct E as [E1 E2]. apply Nat.eqb_eq in E1.
  unfold words_val. cbn [fold_left]. rewrite N.mul_0_l, N.add_0_l.
  eapply N.lt_le_trans; [apply hexval_bound; exact E2|].
  replace 16 with (2 ^ 4) by reflexivity. rewrite <- N.pow_mul_r, E1. apply N.pow_le_mono_r; lia.
Qed.

(* a bound that holds for the words of every format holds for what the first matching one reads *)
Lemma first_match_bound B fs s v :
  Forall (fun fb : fmt => forall ws, fst fb s = Some ws -> words_val (snd fb) ws < B) fs ->
  first_match fs s = Some v -> v < B.
Proof.
  induction 1 as [|[f bits] fs Hf _ IH]; cbn [first_match]; [discriminate|].
  destruct (f s) as [ws|] eqn:E; [|exact IH]. intros [= <-]. exact (Hf ws E).
Qed.

(* every text the EUI-48 formats accept denotes a value below 2^48: words x bits = 48 in each row *)
Lemma eui48_str_bound s v : eui48_str s = Some v -> v < 2 ^ 48.
Proof.
  apply first_match_bound. unfold eui48_formats. repeat apply Forall_cons; try apply Forall_nil.
  - apply (fmt_bound 58 6 1 2 8). cbn; lia.
  - apply (fmt_bound 45 6 1 2 8). cbn; lia.
  - apply (fmt_bound 58 3 1 4 16). cbn; lia.
  - apply (fmt_bound 45 3 1 4 16). cbn; lia.
  - apply (fmt_bound 46 3 1 4 16). cbn; lia.
  - apply (fmt_bound 45 2 5 6 24). cbn; lia.
  - apply (fmt_bound 58 2 5 6 24). cbn; lia.
  - apply (bare_bound 12 48). cbn; lia.
  - apply (bare_bound 11 48). cbn; lia.
Qed.

(* "a MAC text denoting a 48-bit value": whatever EUI(text) takes for an EUI-48 is below 2^48 *)
Theorem eui_of_text_48_range m v : eui_of_text m = Some (EUI48 v) -> (0 <= v < 2 ^ 48)%Z.
Proof.
  unfold eui_of_text. destruct (eui48_str m) as [n|] eqn:E.
  - intros H. inversion H; subst. apply eui48_str_bound in E.
    change (2 ^ 48)%Z with (Z.of_N (2 ^ 48)). lia.
  - unfold int_in. destruct (py_int_str m) as [z|].
    + destruct ((0 <=? z)%Z && (z <=? 2 ^ 48 - 1)%Z) eqn:R.
      * intros H. inversion H; subst. lia.
      * destruct (eui64_str m); [discriminate|].
        destruct ((0 <=? z)%Z && (z <=? 2 ^ 64 - 1)%Z); discriminate.
    + destruct (eui64_str m); discriminate.
Qed.

(* ------------------------------------------------------------------ six groups joined by ':' or '-' *)

Lemma dollar_no_nl s : ~ In 10 s -> dollar s = s.
Proof.
  intros H. unfold dollar. destruct (rev s) as [|c r] eqn:E; [reflexivity|].
  destruct (N.eq_dec c 10) as [->|Hc].
  - exfalso. apply H. apply in_rev. rewrite E. left. reflexivity.
  - destruct c as [|p]; [reflexivity|]. repeat (destruct p as [p|p|]; try reflexivity). congruence.
Qed.

Lemma In_join c sep ws : In c (join [sep] ws) -> c = sep \/ exists w, In w ws /\ In c w.
Proof.
  induction ws as [|w ws IH]; [intros []|].
  destruct ws as [|w' ws'].
  - cbn [join]. intros H. right. exists w. split; [left; reflexivity|exact H].
  - rewrite join_cons. intros H. apply in_app_or in H. destruct H as [H|H].
    + right. exists w. split; [left; reflexivity|exact H].
    + cbn [app] in H. destruct H as [<-|H]; [left; reflexivity|].
      destruct (IH H) as [->|[x [Hx Hc]]]; [left; reflexivity|]. right. exists x. split; [right; exact Hx|exact Hc].
Qed.

Lemma is_hex_chars c : is_hex c = true -> c <> 10 /\ c <> 58 /\ c <> 45 /\ c <> 46.
Proof. unfold is_hex. intros H. repeat split; intros ->; discriminate. Qed.

Lemma hexword_chars lo hi w c : hexword lo hi w = true -> In c w -> is_hex c = true.
Proof.
  unfold hexword. intros H Hc. apply andb_true_iff in H. destruct H as [_ H].
  rewrite forallb_forall in H. apply H. exact Hc.
Qed.

Theorem eui_of_text_six_groups sep ws : sep = 58 \/ sep = 45 ->
  length ws = 6%nat -> forallb (hexword 1 2) ws = true ->
  eui_of_text (join [sep] ws) = Some (EUI48 (Z.of_N (words_val 8 ws))).
Proof.
  intros Hsep Hl Hw. rewrite forallb_forall in Hw.
  assert (Hhex : forall c, In c (join [sep] ws) -> c = sep \/ is_hex c = true).
  { intros c Hc. destruct (In_join _ _ _ Hc) as [->|[w [Hin Hcw]]]; [left; reflexivity|].
    right. eapply hexword_chars; [apply Hw; exact Hin|exact Hcw]. }
  assert (Hnl : ~ In 10 (join [sep] ws)).
  { intros H. destruct (Hhex _ H) as [E|E]; [destruct Hsep; subst; discriminate|discriminate]. }
  assert (Hne : ws <> []) by (destruct ws; [discriminate|discriminate]).
  assert (Hns : Forall (fun f => ~ In sep f) ws).
  { apply Forall_forall. intros w Hin Hc. pose proof (hexword_chars _ _ _ _ (Hw w Hin) Hc) as Hx.
    apply is_hex_chars in Hx. destruct Hsep; subst; tauto. }
  assert (M : fmt_match sep 6 1 2 (join [sep] ws) = Some ws).
  { unfold fmt_match. rewrite (split_join sep ws Hne Hns), Hl. cbn [Nat.eqb andb].
    replace (forallb (hexword 1 2) ws) with true; [reflexivity|].
    symmetry. apply forallb_forall. exact Hw. }
  unfold eui_of_text, eui48_str. rewrite (dollar_no_nl _ Hnl). unfold eui48_formats. cbn [first_match].
  destruct Hsep as [->| ->].
  - rewrite M. reflexivity.
  - assert (N58 : ~ In 58 (join [45] ws)).
    { intros H. destruct (Hhex _ H) as [E|E]; discriminate. }
    unfold fmt_match at 1. rewrite (split_notin 58 _ N58). cbn [length Nat.eqb andb].
    rewrite M. reflexivity.
Qed.

(* ------------------------------------------------------------------ str(EUI), mac_unix_expanded *)

Lemma hexdig_ok d : d < 16 -> is_hex (hexdig d) = true /\ hex_digit_val (hexdig d) = d.
Proof.
  intros H. unfold hexdig, is_hex, hex_digit_val. destruct (d <? 10) eqn:E.
  - replace (48 + d <=? 57) with true by lia. lia.
  - replace (87 + d <=? 57) with false by lia. replace (87 + d <=? 70) with false by lia. lia.
Qed.

Lemma hex2_ok b : b < 256 -> hexword 1 2 (hex2 b) = true /\ hexval (hex2 b) = b.
Proof.
  intros H. unfold hexword, hexval, hex2. cbn [length Nat.leb forallb radix_val andb].
  destruct (hexdig_ok (b / 16)) as [H1 V1]; [lia|]. destruct (hexdig_ok (b mod 16)) as [H2 V2]; [lia|].
  rewrite H1, H2, V1, V2. split; [reflexivity|lia].
Qed.

Lemma mac_bytes_small v : Forall (fun b => b < 256) (mac_bytes v).
Proof. unfold mac_bytes. repeat constructor; apply N.mod_lt; lia. Qed.

(* appending the next base-256 digit of v to its leading part *)
Lemma byte_step_N v j k : j = k + 8 -> v / 2 ^ j * 2 ^ 8 + (v / 2 ^ k) mod 2 ^ 8 = v / 2 ^ k.
Proof.
  intros ->. rewrite N.pow_add_r, <- N.div_div by (apply N.pow_nonzero; discriminate).
  rewrite N.mul_comm. symmetry. apply N.div_mod'.
Qed.

Lemma words_val_bytes v : v < 2 ^ 48 -> words_val 8 (map hex2 (mac_bytes v)) = v.
Proof.
  intros Hv. unfold words_val, mac_bytes. cbn [map fold_left].
  rewrite !(fun b H => proj2 (hex2_ok b H)) by (apply N.mod_lt; discriminate).
  change 256 with (2 ^ 8). rewrite N.mul_0_l, N.add_0_l.
  rewrite (N.mod_small (v / 2 ^ 40)) by (apply N.div_lt_upper_bound; [discriminate|exact Hv]).
  rewrite (byte_step_N v 40 32), (byte_step_N v 32 24), (byte_step_N v 24 16), (byte_step_N v 16 8) by reflexivity.
  rewrite N.mul_comm. symmetry. apply N.div_mod'.
Qed.

(* str(EUI(v)) is read back as v *)
Theorem eui_print_parse v : v < 2 ^ 48 -> eui_of_text (eui48_print v) = Some (EUI48 (Z.of_N v)).
Proof.
  intros Hv. unfold eui48_print.
  rewrite (eui_of_text_six_groups 58 (map hex2 (mac_bytes v))).
  - rewrite words_val_bytes by exact Hv. reflexivity.
  - left. reflexivity.
  - reflexivity.
  - apply forallb_forall. intros w Hw. apply in_map_iff in Hw. destruct Hw as [b [<- Hb]].
    pose proof (mac_bytes_small v) as S. rewrite Forall_forall in S. apply hex2_ok, S, Hb.
Qed.

Example ex_print : eui48_print 0x00163e334455 = lit "00:16:3e:33:44:55".
Proof. vm_compute. reflexivity. Qed.
Example ex_parse_dash_upper : eui_of_text (lit "00-16-3E-33-44-55") = Some (EUI48 0x00163e334455).
Proof. vm_compute. reflexivity. Qed.
Example ex_parse_cisco : eui_of_text (lit "0016.3e33.4455") = Some (EUI48 0x00163e334455).
Proof. vm_compute. reflexivity. Qed.
Example ex_parse_bare : eui_of_text (lit "00163e334455") = Some (EUI48 0x00163e334455).
Proof. vm_compute. reflexivity. Qed.
Example ex_parse_short_groups : eui_of_text (lit "0:16:3e:33:44:5") = Some (EUI48 0x00163e334405).
Proof. vm_compute. reflexivity. Qed.
Example ex_parse_bad : eui_of_text (lit "00:16:3e:33:44") = None /\ eui_of_text (lit "zz") = None.
Proof. split; vm_compute; reflexivity. Qed.
