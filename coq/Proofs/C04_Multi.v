(* Proofs/C04_Multi.v — bounded: four secrets under the same key and rendering in one message; the empty mask *)
Require Import OV.Base.Bytes OV.Base.PyInt OV.Base.Str OV.Base.Regex.
Require Import OV.Model.C04 OV.Model.C04_Spec OV.Model.C04_Sweep OV.Proofs.C04_Bounded.

Lemma family_multi_checked : all_checked check_multi_with family_multi = true.
Proof. vm_compute. reflexivity. Qed.

Lemma check_multi_with_spec f z c : check_multi_with f z c = true -> z (fst c) = false ->
  f (fst c) (snd (snd c)) = fst (snd c) /\ f (fst (snd c)) (snd (snd c)) = fst (snd c).
Proof.
  unfold check_multi_with. intros H Hz. rewrite Hz in H. cbn [orb] in H. apply andb_true_iff in H.
  destruct H as [H1 H2]. apply beq_eq in H1, H2. split; assumption.
Qed.

Lemma family_empty_checked :
  all_checked check_with family_empty = true /\ all_checked check_first_with family_empty_dd = true.
Proof. vm_compute. split; reflexivity. Qed.

Lemma check_first_with_spec f z c : check_first_with f z c = true -> z (case_msg c) = false ->
  f (case_msg c) (case_mask c) = case_want c.
Proof. unfold check_first_with. intros H Hz. rewrite Hz in H. cbn [orb] in H. apply beq_eq in H. exact H. Qed.
