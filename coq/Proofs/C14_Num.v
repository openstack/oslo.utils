(* Proofs/C14_Num.v — is_int_like, validate_integer, check_string_length *)
From Coq Require Import String.
Require Import OV.Base.Bytes OV.Base.Py OV.Base.PyInt OV.Base.Str.
Require Import OV.Model.C14_Py OV.Gen.C14 OV.Model.C14 OV.Proofs.C14_Int.
Open Scope Z_scope.

Definition within_limit (lim : N) (z : Z) : bool := negb (over_limit lim (ndigits_Z z)).

Lemma str_of_int_ok lim z : within_limit lim z = true -> str_of_int lim z = Ok (dec_of_Z z).
Proof. unfold within_limit. rewrite str_of_int_eq. intros H. apply negb_true_iff in H. rewrite H. reflexivity. Qed.

Lemma str_of_int_over lim z : within_limit lim z = false -> str_of_int lim z = Exn ValueError.
Proof. unfold within_limit. rewrite str_of_int_eq. intros H. apply negb_false_iff in H. rewrite H. reflexivity. Qed.

Lemma within_limit_unlimited z : within_limit 0 z = true.
Proof. reflexivity. Qed.

(* |z| < 10^lim  ->  z is within the limit *)
Lemma within_limit_pow lim z : (1 <= lim)%N -> Z.abs z < 10 ^ Z.of_N lim -> within_limit lim z = true.
Proof.
  intros Hl Hz. unfold within_limit, over_limit. pose proof (ndigits_le z lim Hl Hz).
  apply negb_true_iff. apply andb_false_iff. right. lia.
Qed.

(* the only exception str() raises in this model is ValueError (digit limit) *)
Lemma py_str_exn lim v e : py_str lim v = Exn e -> e = ValueError.
Proof.
  destruct v as [s|z|[|]| |sv iv]; cbn [py_str]; try discriminate.
  rewrite str_of_int_eq. destruct (over_limit lim (ndigits_Z z)); [congruence|discriminate].
Qed.

Lemma catches_VE : catches [ValueError] ValueError = true. Proof. reflexivity. Qed.
Lemma catches_TV_VE : catches [TypeError; ValueError; OverflowError] ValueError = true. Proof. reflexivity. Qed.
Lemma catches_TV_TE : catches [TypeError; ValueError; OverflowError] TypeError = true. Proof. reflexivity. Qed.
Lemma catches_TV_OE : catches [TypeError; ValueError; OverflowError] OverflowError = true. Proof. reflexivity. Qed.

(* generic form: str(v) is the canonical rendering of int(v) *)
Lemma is_int_like_iff lim v :
  is_int_like lim v = Ok true <->
  exists z, py_int_of lim v = Ok z /\ within_limit lim z = true /\ py_str lim v = Ok (dec_of_Z z).
Proof.
  unfold is_int_like, try_except, bind. split.
  - intros H. destruct (py_int_of lim v) as [z|e] eqn:Ei.
    + destruct (within_limit lim z) eqn:Ew.
      * rewrite (str_of_int_ok lim z Ew) in H.
        destruct (py_str lim v) as [s|e] eqn:Es.
        -- exists z. split; [reflexivity|]. split; [exact Ew|].
           assert (Hb : beq (dec_of_Z z) s = true) by congruence.
           apply beq_eq in Hb. congruence.
        -- apply py_str_exn in Es. subst e. rewrite catches_TV_VE in H. discriminate.
      * rewrite (str_of_int_over lim z Ew), catches_TV_VE in H. discriminate.
    + destruct (catches [TypeError; ValueError; OverflowError] e); discriminate.
  - intros (z & -> & Hw & ->). rewrite (str_of_int_ok lim z Hw), beq_refl. reflexivity.
Qed.

(* for a string: it is the decimal rendering of an integer (within the digit limit) *)
Lemma is_int_like_str lim s :
  is_int_like lim (PStr s) = Ok true <-> exists z, s = dec_of_Z z /\ within_limit lim z = true.
Proof.
  rewrite is_int_like_iff. cbn [py_int_of py_str]. split.
  - intros (z & _ & Hw & Hs). exists z. split; [congruence|exact Hw].
  - intros (z & -> & Hw). exists z. unfold within_limit in Hw. apply negb_true_iff in Hw.
    rewrite (int_parse_dec lim z Hw). repeat split. unfold within_limit. rewrite Hw. reflexivity.
Qed.

(* is_int_like never raises on str / int / bool / None *)
Lemma is_int_like_str_total lim s : is_int_like lim (PStr s) = Ok true \/ is_int_like lim (PStr s) = Ok false.
Proof.
  unfold is_int_like, try_except, bind. cbn [py_int_of py_str].
  destruct (int_parse lim 10 s) as [z|]; [|right; reflexivity].
  rewrite str_of_int_eq. destruct (over_limit lim (ndigits_Z z)); [right; reflexivity|].
  destruct (beq (dec_of_Z z) s); [left|right]; reflexivity.
Qed.

Lemma is_int_like_int lim z : is_int_like lim (PInt z) = Ok (within_limit lim z).
Proof.
  unfold is_int_like, try_except, bind, within_limit. cbn [py_int_of py_str]. rewrite str_of_int_eq.
  destruct (over_limit lim (ndigits_Z z)); [reflexivity|]. rewrite beq_refl. reflexivity.
Qed.

Lemma over_limit_1 lim : over_limit lim 1 = false.
Proof. unfold over_limit. destruct lim; [reflexivity|]. apply andb_false_iff. right. lia. Qed.

Lemma is_int_like_bool lim b : is_int_like lim (PBool b) = Ok false.
Proof.
  unfold is_int_like, try_except, bind. cbn [py_int_of py_str]. rewrite str_of_int_eq.
  destruct b.
  - change (ndigits_Z 1) with 1%N. rewrite over_limit_1. reflexivity.
  - change (ndigits_Z 0) with 1%N. rewrite over_limit_1. reflexivity.
Qed.

Lemma is_int_like_none lim : is_int_like lim PNone = Ok false.
Proof. reflexivity. Qed.

(* other objects: an exception from int(v) other than TypeError / ValueError / OverflowError escapes *)
Lemma is_int_like_other_exn lim sv e :
  is_int_like lim (POther sv (Exn e)) = if catches [TypeError; ValueError; OverflowError] e then Ok false else Exn e.
Proof. reflexivity. Qed.

(* floats: int(v) is an integer, or raises OverflowError (inf, -inf) or ValueError (nan) *)
Definition float_like_int (iv : res Z) : bool :=
  match iv with Ok _ => true | Exn OverflowError => true | Exn ValueError => true | Exn _ => false end.

Lemma is_int_like_float lim sv iv : float_like_int iv = true ->
  is_int_like lim (POther sv iv) = Ok true \/ is_int_like lim (POther sv iv) = Ok false.
Proof.
  destruct iv as [z|e].
  - intros _. unfold is_int_like, try_except, bind. cbn [py_int_of py_str]. rewrite str_of_int_eq.
    destruct (over_limit lim (ndigits_Z z)); [right; reflexivity|]. destruct (beq (dec_of_Z z) sv); auto.
  - destruct e; try discriminate; intros _; right; reflexivity.
Qed.

Example is_int_like_inf_nan lim :
  is_int_like lim (POther (lit "inf") (Exn OverflowError)) = Ok false /\
  is_int_like lim (POther (lit "nan") (Exn ValueError)) = Ok false.
Proof. split; reflexivity. Qed.

Definition in_range (z : Z) (lo hi : option Z) : bool := negb (below z lo) && negb (above z hi).

Lemma in_range_spec z lo hi :
  in_range z lo hi = true <-> (forall m, lo = Some m -> m <= z) /\ (forall m, hi = Some m -> z <= m).
Proof.
  unfold in_range, below, above. rewrite andb_true_iff, !negb_true_iff.
  destruct lo as [a|], hi as [b|]; split.
  all: try (intros [H1 H2]; split; intros m Hm; inversion Hm; subst; lia).
  all: intros [H1 H2]; split; try reflexivity;
       try (specialize (H1 _ eq_refl)); try (specialize (H2 _ eq_refl)); lia.
Qed.

(* the integer literal, if the value's text is one: int(str(value)) *)
Definition int_of_text (lim : N) (v : pyval) : option Z :=
  match py_str lim v with Ok s => int_parse lim 10 s | Exn _ => None end.

Lemma validate_integer_spec lim v lo hi :
  validate_integer lim v lo hi =
  match int_of_text lim v with
  | Some z => if in_range z lo hi then Ok z else Exn ValueError
  | None => Exn ValueError
  end.
Proof.
  unfold validate_integer, int_of_text, try_except, bind, in_range.
  destruct (py_str lim v) as [s|e] eqn:Es.
  - cbn [py_int_of]. destruct (int_parse lim 10 s) as [z|]; [|reflexivity].
    destruct (below z lo); [reflexivity|]. destruct (above z hi); reflexivity.
  - apply py_str_exn in Es. subst e. reflexivity.
Qed.

Lemma validate_integer_ok lim v lo hi z :
  validate_integer lim v lo hi = Ok z <->
  int_of_text lim v = Some z /\ (forall m, lo = Some m -> m <= z) /\ (forall m, hi = Some m -> z <= m).
Proof.
  rewrite validate_integer_spec, <- in_range_spec.
  destruct (int_of_text lim v) as [z'|].
  - destruct (in_range z' lo hi) eqn:E; split.
    + intros H. injection H as ->. split; [reflexivity|exact E].
    + intros [H _]. congruence.
    + discriminate.
    + intros [H1 H2]. injection H1 as ->. congruence.
  - split; [discriminate|intros [H _]; discriminate].
Qed.

Lemma validate_integer_total lim v lo hi :
  (exists z, validate_integer lim v lo hi = Ok z) \/ validate_integer lim v lo hi = Exn ValueError.
Proof.
  rewrite validate_integer_spec. destruct (int_of_text lim v) as [z|]; [|right; reflexivity].
  destruct (in_range z lo hi); [left; eauto|right; reflexivity].
Qed.

(* an int, or the canonical rendering of one, is validated to itself exactly when in range *)
Lemma int_of_text_int lim z : within_limit lim z = true -> int_of_text lim (PInt z) = Some z.
Proof.
  intros H. unfold int_of_text. cbn [py_str]. rewrite (str_of_int_ok lim z H).
  apply int_parse_dec. unfold within_limit in H. apply negb_true_iff in H. exact H.
Qed.

Lemma int_of_text_dec lim z : within_limit lim z = true -> int_of_text lim (PStr (dec_of_Z z)) = Some z.
Proof.
  intros H. unfold int_of_text. cbn [py_str].
  apply int_parse_dec. unfold within_limit in H. apply negb_true_iff in H. exact H.
Qed.

(* values that are not integer literals *)
Lemma validate_integer_none_bool lim lo hi b :
  validate_integer lim PNone lo hi = Exn ValueError /\ validate_integer lim (PBool b) lo hi = Exn ValueError.
Proof. split; [|destruct b]; vm_compute; reflexivity. Qed.

Lemma check_string_length_ok v mn mx :
  check_string_length v mn mx = Ok tt <->
  exists s, v = PStr s /\ mn <= zlen s /\ (forall m, mx = Some m -> m = 0 \/ zlen s <= m).
Proof.
  unfold check_string_length. destruct v as [s| | | |]; try (split; [discriminate|intros (s' & H & _); discriminate]).
  destruct (zlen s <? mn) eqn:E1.
  - split; [discriminate|]. intros (s' & H & H1 & _). injection H as <-. lia.
  - destruct mx as [m|].
    + destruct (negb (m =? 0) && (zlen s >? m)) eqn:E2.
      * split; [discriminate|]. intros (s' & H & _ & H2). injection H as <-.
        destruct (H2 m eq_refl); lia.
      * split; [|reflexivity]. intros _. exists s. split; [reflexivity|]. split; [lia|].
        intros m' Hm. injection Hm as <-. lia.
    + split; [|reflexivity]. intros _. exists s. split; [reflexivity|]. split; [lia|]. intros m' Hm. discriminate.
Qed.

Lemma check_string_length_type v mn mx :
  check_string_length v mn mx = Exn TypeError <-> is_str v = false.
Proof.
  unfold check_string_length. destruct v as [s| | | |]; cbn [is_str]; try (split; reflexivity).
  split; [|discriminate]. destruct (zlen s <? mn); [discriminate|].
  destruct mx as [m|]; [destruct (negb (m =? 0) && (zlen s >? m))|]; discriminate.
Qed.

Lemma check_string_length_value v mn mx :
  check_string_length v mn mx = Exn ValueError <->
  exists s, v = PStr s /\ (zlen s < mn \/ exists m, mx = Some m /\ m <> 0 /\ m < zlen s).
Proof.
  unfold check_string_length. destruct v as [s| | | |]; try (split; [discriminate|intros (s' & H & _); discriminate]).
  destruct (zlen s <? mn) eqn:E1.
  - split; [|reflexivity]. intros _. exists s. split; [reflexivity|left; lia].
  - destruct mx as [m|].
    + destruct (negb (m =? 0) && (zlen s >? m)) eqn:E2.
      * split; [|reflexivity]. intros _. exists s. split; [reflexivity|]. right. exists m. repeat split; lia.
      * split; [discriminate|]. intros (s' & H & [H1|(m' & Hm & H2 & H3)]); injection H as <-; [lia|].
        injection Hm as <-. lia.
    + split; [discriminate|]. intros (s' & H & [H1|(m' & Hm & _)]); injection H as <-; [lia|discriminate].
Qed.

(* the three outcomes are the only ones *)
Lemma check_string_length_total v mn mx :
  check_string_length v mn mx = Ok tt \/ check_string_length v mn mx = Exn TypeError \/
  check_string_length v mn mx = Exn ValueError.
Proof.
  unfold check_string_length. destruct v as [s| | | |]; auto.
  destruct (zlen s <? mn); auto. destruct mx as [m|]; auto.
  destruct (negb (m =? 0) && (zlen s >? m)); auto.
Qed.

Lemma check_string_length_spec v mn mx :
  (check_string_length v mn mx = Ok tt <->
     exists s, v = PStr s /\ mn <= zlen s /\ (forall m, mx = Some m -> m = 0 \/ zlen s <= m)) /\
  (check_string_length v mn mx = Exn TypeError <-> is_str v = false) /\
  (check_string_length v mn mx = Exn ValueError <->
     exists s, v = PStr s /\ (zlen s < mn \/ exists m, mx = Some m /\ m <> 0 /\ m < zlen s)) /\
  (check_string_length v mn mx = Ok tt \/ check_string_length v mn mx = Exn TypeError \/
   check_string_length v mn mx = Exn ValueError).
Proof.
  split; [apply check_string_length_ok|]. split; [apply check_string_length_type|].
  split; [apply check_string_length_value|apply check_string_length_total].
Qed.
