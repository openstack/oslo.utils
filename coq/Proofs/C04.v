(* Proofs/C04.v — mask_password: the translator tie (concrete regexes = templates at
   the generated keys), the key list, the no-key theorem, the frame theorems for every
   substitution the function performs. *)
From Coq Require Import String.
Require Import OV.Base.Bytes OV.Base.PyInt OV.Base.Str OV.Base.Regex OV.Base.C04_Tmpl.
Require Import OV.Gen.C04_Sanitize OV.Gen.C04_Concrete OV.Model.C04 OV.Model.C04_Spec OV.Proofs.C04_Regex.
Open Scope N_scope.

(* ---------- the compile loop: what the module compiled is the templates at its keys ---------- *)
Lemma concrete_templates_equiv : gen_concrete = template_table.
Proof. vm_compute. reflexivity. Qed.

Lemma concrete_keys : map fst gen_concrete = gen_keys.
Proof. rewrite concrete_templates_equiv. unfold template_table. rewrite map_map. cbn [fst template_entry]. apply map_id. Qed.

(* ---------- lower = str.lower() of Base/Str ---------- *)
Lemma lower1_eq c : lower1 c = py_lower1 c.
Proof.
  unfold lower1. destruct (c <? 128) eqn:E; [|reflexivity]. symmetry. apply py_lower1_ascii. apply N.ltb_lt. exact E.
Qed.

Lemma lower_eq s : lower s = py_lower s.
Proof. unfold lower, py_lower. induction s as [|c s IH]; [reflexivity|]. cbn [flat_map]. rewrite lower1_eq, IH. reflexivity. Qed.

Lemma spec_keys_count : length spec_keys_35 = 35%nat.
Proof. reflexivity. Qed.

Lemma keys_cover_spec : incl spec_keys_35 gen_keys /\ Forall (fun k => key_ok k = true) gen_keys.
Proof.
  split.
  - assert (H : forallb (fun k => existsb (beq k) gen_keys) spec_keys_35 = true) by (vm_compute; reflexivity).
    rewrite forallb_forall in H. intros k Hk. specialize (H k Hk). apply existsb_exists in H.
    destruct H as (k' & Hin & He). apply beq_eq in He. subst. exact Hin.
  - apply Forall_forall. apply forallb_forall. vm_compute. reflexivity.
Qed.

(* ---------- a message without any sanitize key is returned unchanged ---------- *)
Lemma mask_with_nokey steps secret m : forall tbl : list entry,
  (forall e : entry, In e tbl -> occursb (fst e) (lower m) = false) ->
  fold_left (apply_key steps secret) tbl m = m.
Proof.
  induction tbl as [|e tbl IH]; intros H; [reflexivity|]. cbn [fold_left].
  assert (E : apply_key steps secret m e = m) by (unfold apply_key; rewrite (H e (or_introl eq_refl)); reflexivity).
  rewrite E. apply IH. intros e' He'. apply H. right. exact He'.
Qed.

Lemma no_key_unchanged m secret :
  (forall k, In k gen_keys -> occursb k (py_lower m) = false) -> mask_password m secret = m.
Proof.
  intros H. unfold mask_password, mask_with. apply mask_with_nokey. intros e He.
  rewrite lower_eq. apply H. rewrite <- concrete_keys. apply in_map. exact He.
Qed.

(* ---------- frame: every substitution mask_password performs ---------- *)
Lemma concrete_shapes :
  forallb (fun e : entry => forallb two_group_shape (fst (snd e)) &&
                            forallb one_group_shape (fst (snd (snd e))) &&
                            forallb one_group_shape (snd (snd (snd e)))) gen_concrete = true.
Proof. vm_compute. reflexivity. Qed.

Lemma entry_shapes e : In e gen_concrete ->
  (forall r, In r (pick SelP2 (snd e)) -> two_group_shape r = true) /\
  (forall r, In r (pick SelP1 (snd e)) -> one_group_shape r = true) /\
  (forall r, In r (pick SelPW (snd e)) -> one_group_shape r = true).
Proof.
  intros He. pose proof concrete_shapes as H. rewrite forallb_forall in H. specialize (H e He).
  destruct e as [k [p2 [p1 pw]]]. cbn [fst snd pick] in *.
  apply andb_true_iff in H. destruct H as [H H3]. apply andb_true_iff in H. destruct H as [H1 H2].
  rewrite forallb_forall in H1, H2, H3. auto.
Qed.

(* the same, generically in the key: the shape is a property of the TEMPLATE *)
Lemma gids_keyseq tbl k rest : gids (keyseq tbl k rest) = gids rest.
Proof. induction k as [|c k IH]; [reflexivity|]. cbn [keyseq gids app]. exact IH. Qed.

Lemma template_shapes k :
  forallb two_group_shape (gen_tp2 k) = true /\ forallb one_group_shape (gen_tp1 k) = true /\
  forallb one_group_shape (gen_tpw k) = true.
Proof.
  repeat split;
    cbv [gen_tp2 gen_tp1 gen_tpw gen_tp2_0 gen_tp2_1 gen_tp2_2 gen_tp2_3 gen_tp2_4 gen_tp2_5 gen_tp2_6 gen_tp2_7
         gen_tp2_8 gen_tp2_9 gen_tp1_0 gen_tpw_0 forallb two_group_shape one_group_shape no_gid];
    cbn [gids app]; rewrite ?gids_keyseq; reflexivity.
Qed.

(* sub_frame: whatever the message, a _PATTERNS_2 substitution changes only the text between
   group 1 and group 2 of each match; a _PATTERNS_1 substitution only the text after group 1;
   the wildcard substitution DELETES the text after group 1 of each match (finding K12). *)
Lemma sub_frame e secret s : In e gen_concrete ->
  (forall r, In r (pick SelP2 (snd e)) -> sub2_rel r secret 0 s (re_sub r (t2 secret) s)) /\
  (forall r, In r (pick SelP1 (snd e)) -> sub1_rel r secret 0 s (re_sub r (t1 secret) s)) /\
  (forall r, In r (pick SelPW (snd e)) -> sub1_rel r [] 0 s (re_sub r tw s)).
Proof.
  intros He. destruct (entry_shapes e He) as (H2 & H1 & Hw). repeat split; intros r Hr.
  - apply re_sub_frame_two. auto.
  - apply re_sub_frame_one. auto.
  - apply re_sub_frame_wild. auto.
Qed.
