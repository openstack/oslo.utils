(* Proofs/C15_Text.v — the C15 headline theorems END TO END on text: prefix text through C11's
   IPNetwork / is_valid_ipv4 models, MAC text through the netaddr.EUI recogniser, escape_ipv6
   through C11's is_valid_ipv6 model. *)
From Coq Require Import String.
Require Import OV.Base.Bytes OV.Base.Py OV.Base.PyInt OV.Base.Str OV.Base.C11_Lib.
Require Import OV.Gen.C11_Netutils OV.Model.C11 OV.Model.C11_Spec.
Require Import OV.Proofs.C11.
Require Import OV.Base.C15_PyVal OV.Gen.C15_Netutils OV.Model.C15 OV.Model.C15_Spec OV.Model.C15_Text.
Require Import OV.Proofs.C15_Eui OV.Proofs.C15 OV.Proofs.C15_Net OV.Proofs.C15_Mac.
Open Scope Z_scope.

(* the network address of an IPv6 network: the value with the host bits cleared *)
Definition network_of (value plen : N) : Z := Z.of_N value / 2 ^ (128 - Z.of_N plen) * 2 ^ (128 - Z.of_N plen).

Lemma text_flags_v6 p value plen : ipnetwork_v p = Net true value plen ->
  flag_of (valid_ipv4 false p) = false /\ flag_of (valid_ipv4 true p) = false.
Proof.
  intros H. apply v6_result_has_colon in H. rewrite !(colon_not_ipv4 _ p H). split; reflexivity.
Qed.

(* for every MAC text m that netaddr.EUI reads as the 48-bit value v and every IPv6 network text p
   (value, prefix length as netaddr.IPNetwork computes them) whose network address has its low 64
   bits clear: the result is the IPv6 address network(p) + iid(v) = network(p) | iid(v) *)
Theorem eui64_text_value_gen p m v value plen :
  eui_of_text m = Some (EUI48 v) -> ipnetwork_v p = Net true value plen ->
  network_of value plen mod 2 ^ 64 = 0 ->
  get_ipv6_addr_by_EUI64_text p m = Ok (6, network_of value plen + modified_eui64_arith v) /\
  network_of value plen + modified_eui64_arith v = Z.lor (network_of value plen) (modified_eui64_arith v).
Proof.
  intros Hm Hp H0. pose proof (eui_of_text_48_range m v Hm) as Rv.
  destruct (v6_result_bounds p value plen Hp) as [Bv Bk].
  destruct (text_flags_v6 p value plen Hp) as [F1 F2].
  assert (NF : Z.of_N (net_first true value plen) = network_of value plen) by (apply net_first_Z; assumption).
  assert (R : 0 <= network_of value plen < 2 ^ 128).
  { rewrite <- NF. split; [lia|]. unfold network_of in NF.
    assert (P : 0 < 2 ^ (128 - Z.of_N plen)) by (apply Z.pow_pos_nonneg; lia).
    pose proof (Z.mul_div_le (Z.of_N value) _ P). rewrite NF. unfold network_of.
    change (2 ^ 128) with (Z.of_N (2 ^ 128)). lia. }
  unfold get_ipv6_addr_by_EUI64_text, get_ipv6_addr_by_EUI64_gen, mac_lres, net_lres.
  rewrite Hm, Hp, F1, F2, NF.
  destruct (eui64_value (network_of value plen) v Rv R H0) as (E1 & E2 & _).
  split; assumption.
Qed.

(* every prefix length up to 64 — with or without host bits in the text — qualifies *)
Theorem eui64_text_value p m v value plen :
  eui_of_text m = Some (EUI48 v) -> ipnetwork_v p = Net true value plen -> (plen <= 64)%N ->
  get_ipv6_addr_by_EUI64_text p m = Ok (6, network_of value plen + modified_eui64_arith v) /\
  network_of value plen + modified_eui64_arith v = Z.lor (network_of value plen) (modified_eui64_arith v).
Proof.
  intros Hm Hp Hk. apply eui64_text_value_gen; try assumption.
  destruct (v6_result_bounds p value plen Hp) as [Bv _].
  destruct (net_first_low_clear value plen Bv Hk) as [_ L].
  rewrite net_first_Z in L by lia. exact L.
Qed.

(* get_mac_addr_by_ipv6 of the result prints the canonical text of the MAC, and that text is
   read back by netaddr.EUI as the same value *)
Theorem eui64_text_roundtrip p m v value plen :
  eui_of_text m = Some (EUI48 v) -> ipnetwork_v p = Net true value plen -> (plen <= 64)%N ->
  exists r, get_ipv6_addr_by_EUI64_text p m = Ok (6, r) /\
            get_mac_text r = Some (eui48_print (Z.to_N v)) /\
            eui_of_text (eui48_print (Z.to_N v)) = Some (EUI48 v).
Proof.
  intros Hm Hp Hk. pose proof (eui_of_text_48_range m v Hm) as Rv.
  destruct (eui64_text_value p m v value plen Hm Hp Hk) as [E _].
  exists (network_of value plen + modified_eui64_arith v). split; [exact E|]. split.
  - unfold get_mac_text, get_mac_addr_by_ipv6. cbn [Z.eqb Pos.eqb].
    assert (K : 2 ^ (128 - Z.of_N plen) = 2 ^ (64 - Z.of_N plen) * 2 ^ 64).
    { rewrite <- Z.pow_add_r by lia. f_equal. lia. }
    unfold network_of. set (q := Z.of_N value / 2 ^ (128 - Z.of_N plen)).
    assert (Hq : 0 <= q) by (subst q; apply Z.div_pos; [lia|apply Z.pow_pos_nonneg; lia]).
    replace (q * 2 ^ (128 - Z.of_N plen)) with (q * 2 ^ (64 - Z.of_N plen) * 2 ^ 64)
      by (rewrite <- Z.mul_assoc, <- K; reflexivity).
    rewrite mac_of_interface_id.
    + unfold eui_of_int. replace (0 <=? v) with true by lia. replace (v <=? 2 ^ 48 - 1) with true by lia. reflexivity.
    + exact Rv.
    + apply Z.mul_nonneg_nonneg; [exact Hq|apply Z.pow_nonneg; lia].
  - rewrite eui_print_parse.
    + rewrite Z2N.id by lia. reflexivity.
    + change (2 ^ 48)%N with (Z.to_N (2 ^ 48)). lia.
Qed.

(* an IPv4 address text (is_valid_ipv4(prefix, False), i.e. C11's inet_aton text without ':') *)
Theorem eui64_text_ipv4_rejected p mac :
  valid_ipv4 false p = AOk true -> exists e, get_ipv6_addr_by_EUI64_gen p mac = Exn e /\ is_VE_TE e.
Proof.
  intros H. unfold get_ipv6_addr_by_EUI64_gen, get_ipv6_addr_by_EUI64. rewrite H. cbn [flag_of].
  destruct (run_guards true true (flag_of (valid_ipv4 true p)) gen_eui64_prechecks) as [g|] eqn:G.
  - exists g. split; [reflexivity|]. eapply guards_classes; exact G.
  - exfalso. destruct (flag_of (valid_ipv4 true p)); vm_compute in G; discriminate.
Qed.

(* ------------------------------------------------------------------ escape_ipv6 / parse_host_port on text *)

Lemma flag_ipv6_iff h : flag_of (is_valid_ipv6 h) = true <-> ipv6_scoped_text h.
Proof.
  rewrite <- is_valid_ipv6_iff. destruct (is_valid_ipv6 h) as [[|]|e]; cbn [flag_of]; split; intros H; try reflexivity; try discriminate.
Qed.

(* exactly which texts round-trip *)
Theorem host_port_roundtrip_text_iff h port :
  parse_host_port (escape_ipv6_text h ++ [58%N] ++ dec_of_Z port) VNone = Ok (Some h, Some port)
  <-> ipv6_scoped_text h \/ (has_char 58%N h = false /\ prefixb [91%N] h = false).
Proof.
  unfold escape_ipv6_text. rewrite host_port_roundtrip_iff. unfold rt_host.
  destruct (flag_of (is_valid_ipv6 h)) eqn:F.
  - apply flag_ipv6_iff in F. split; [intros _; left; exact F|reflexivity].
  - split.
    + intros H. apply andb_true_iff in H. destruct H as [H1 H2]. right.
      split; [destruct (has_char 58%N h)|destruct (prefixb [91%N] h)]; try reflexivity; discriminate.
    + intros [H|[H1 H2]].
      * apply flag_ipv6_iff in H. congruence.
      * rewrite H1, H2. reflexivity.
Qed.

Example ex_scoped_text : ipv6_scoped_text (lit "fe80::1%eth0").
Proof. apply is_valid_ipv6_iff. vm_compute. reflexivity. Qed.
Example ex_text_doc :
  get_ipv6_addr_by_EUI64_text (lit "2001:db8::1/64") (lit "00-16-3E-33-44-55") = Ok (6, 0x20010db80000000002163efffe334455) /\
  get_mac_text 0x20010db80000000002163efffe334455 = Some (lit "00:16:3e:33:44:55").
Proof. split; vm_compute; reflexivity. Qed.
Example ex_text_hyps :
  eui_of_text (lit "00-16-3E-33-44-55") = Some (EUI48 0x00163e334455) /\
  ipnetwork_v (lit "2001:db8::1/64") = Net true 0x20010db8000000000000000000000001 64.
Proof. split; vm_compute; reflexivity. Qed.
Example ex_text_ipv4 : valid_ipv4 false (lit "10.1") = AOk true /\
  get_ipv6_addr_by_EUI64_text (lit "10.1") (lit "00:16:3e:33:44:55") = Exn ValueError.
Proof. split; vm_compute; reflexivity. Qed.
Example ex_text_bad : get_ipv6_addr_by_EUI64_text (lit "2001:db8::/129") (lit "00:16:3e:33:44:55") = Exn ValueError /\
  get_ipv6_addr_by_EUI64_text (lit "2001:db8::/64") (lit "00:16:3e:33:44") = Exn ValueError.
Proof. split; vm_compute; reflexivity. Qed.
