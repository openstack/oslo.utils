(* Proofs/C16_Slug.v — to_slug: alphabet, single hyphens, idempotence, for every input,
   over any world whose NFKD/ASCII fold yields ASCII (and, for idempotence, leaves
   ASCII alone).  The only facts used about the regenerated regexes are the decidable
   [slug_tables_ok] (shape: a deleting class substitution, then runs of a class
   replaced by '-'; plus per-ASCII-character facts), re-checked by computation on
   every run, and the engine lemmas of Proofs/C16_Regex.v. *)
Require Import OV.Base.Bytes OV.Base.PyInt OV.Base.Str OV.Base.Regex OV.Base.C16_Py.
Require Import OV.Gen.C16_Slug OV.Gen.C16_Code OV.Model.C16 OV.Proofs.C16_Regex.
Open Scope N_scope.

Lemma is_ascii_lt c : is_ascii c = true <-> c < 128.
Proof. unfold is_ascii. lia. Qed.

(* ---------- str.strip() ---------- *)
Lemma strip_In c s : In c (strip s) -> In c s.
Proof.
  rewrite strip_is_by. intros H. destruct (strip_by_split is_space s) as (pre & post & E & _).
  rewrite E. apply in_or_app. right. apply in_or_app. left. exact H.
Qed.
Lemma strip_id s : (forall c, In c s -> is_space c = false) -> strip s = s.
Proof.
  intros H. destruct s as [|x t]; [reflexivity|]. rewrite strip_is_by.
  apply (strip_by_ends is_space _ 0); [discriminate|apply H; left; reflexivity|].
  destruct (exists_last (l := x :: t)) as (l' & a & E); [discriminate|].
  apply H. rewrite E, last_last. apply in_or_app. right. left. reflexivity.
Qed.

(* ---------- what the theorems need from the two regenerated substitutions ---------- *)
(* the ranges of a class that can hold an ASCII character *)
Definition ascii_part (cs : cset) : cset := filter (fun r => fst r <? 128) cs.
Lemma cmem_ascii_part c cs : c < 128 -> cmem c (ascii_part cs) = cmem c cs.
Proof.
  intros Hc. induction cs as [|[lo hi] t IH]; [reflexivity|]. cbn [ascii_part filter fst cmem].
  destruct (lo <? 128) eqn:E; cbn [cmem]; fold (ascii_part t); rewrite IH; [reflexivity|].
  replace ((lo <=? c) && (c <=? hi)) with false by lia. reflexivity.
Qed.

(* only ASCII characters are asked about, so the classes are cut down to their ASCII parts first *)
Definition slug_facts (cs1 cs2 : cset) : bool :=
  let a1 := ascii_part cs1 in
  let a2 := ascii_part cs2 in
  cmem 45 a2 &&
  forallb (fun c =>
      (* a character that survives the first substitution and, lower-cased, is not hyphenated, is in the alphabet *)
      implb (negb (cmem c a1) && negb (cmem (lower_ascii1 c) a2)) (slug_char (lower_ascii1 c))
      (* alphabet characters survive, are not blank, are lower case, and only '-' is hyphenated *)
      && implb (slug_char c)
               (negb (cmem c a1) && negb (is_space c) && (lower_ascii1 c =? c) && implb (cmem c a2) (c =? 45)))
    ascii_range.

(* the shape both substitutions must have: the first deletes a class, the second replaces runs of a class by '-' *)
Definition slug_tables_ok (r1 : re) (t1 : list titem) (r2 : re) (t2 : list titem) : bool :=
  match csub_of r1 t1, csub_of r2 t2 with
  | Some d1, Some (CsRuns cs2 [h]) =>
      match deletes d1 with
      | Some cs1 => (h =? 45) && slug_facts cs1 cs2
      | None => false
      end
  | _, _ => false
  end.

Lemma slug_tables_ok_true : slug_tables_ok slug_sub1_re slug_sub1_tpl slug_sub2_re slug_sub2_tpl = true.
Proof. vm_compute. reflexivity. Qed.

Lemma slug_facts_spec cs1 cs2 : slug_facts cs1 cs2 = true ->
  cmem 45 cs2 = true /\
  forall c, c < 128 ->
    (cmem c cs1 = false -> cmem (lower_ascii1 c) cs2 = false -> slug_char (lower_ascii1 c) = true) /\
    (slug_char c = true ->
       cmem c cs1 = false /\ is_space c = false /\ lower_ascii1 c = c /\ (cmem c cs2 = true -> c = 45)).
Proof.
  unfold slug_facts. cbv zeta. intros H. apply andb_true_iff in H. destruct H as [H45 Hall].
  rewrite cmem_ascii_part in H45 by lia.
  split; [exact H45|]. intros c Hc.
  pose proof (proj1 (forallb_forall _ _) Hall c (in_ascii_range c Hc)) as Hf. cbv beta in Hf.
  rewrite !cmem_ascii_part in Hf by (try apply lower_ascii1_ascii; exact Hc).
  apply andb_true_iff in Hf. destruct Hf as [Ha Hb]. split.
  - intros H1 H2. rewrite H1, H2 in Ha. exact Ha.
  - intros Hs. rewrite Hs in Hb. cbn [implb] in Hb.
    rewrite !andb_true_iff in Hb. destruct Hb as [[[Hb1 Hb2] Hb3] Hb4].
    apply negb_true_iff in Hb1, Hb2. apply N.eqb_eq in Hb3.
    repeat split; try assumption.
    intros Hm. rewrite Hm in Hb4. cbn [implb] in Hb4. apply N.eqb_eq. exact Hb4.
Qed.

Lemma slug_char_ascii c : slug_char c = true -> c < 128.
Proof. unfold slug_char. lia. Qed.

Lemma no_double_hyphen_eq s : no_double_hyphen s = no_double 45 s.
Proof.
  induction s as [|a t IH]; [reflexivity|]. destruct t as [|b r]; [reflexivity|].
  rewrite no_double_cons2. rewrite <- IH. reflexivity.
Qed.

(* two substitutions of that shape, with the regex engine eliminated *)
Lemma slug_tables_ok_spec r1 t1 r2 t2 : slug_tables_ok r1 t1 r2 t2 = true -> exists cs1 cs2,
  slug_facts cs1 cs2 = true /\
  forall (f : str -> str) s,
    re_sub r2 t2 (f (re_sub r1 t1 s)) = replace_runs cs2 [45] (f (filter (fun c => negb (cmem c cs1)) s)) false.
Proof.
  unfold slug_tables_ok. intros H.
  destruct (csub_of r1 t1) as [d1|] eqn:E1; [|discriminate].
  destruct (csub_of r2 t2) as [[|cs2 [|h [|]]]|] eqn:E2; try discriminate.
  destruct (deletes d1) as [cs1|] eqn:Ed; [|discriminate].
  apply andb_true_iff in H. destruct H as [Hh Hf]. apply N.eqb_eq in Hh. subst h.
  exists cs1, cs2. split; [exact Hf|]. intros f s.
  rewrite (csub_correct _ _ _ _ E2), (csub_correct _ _ _ _ E1), (deletes_filter _ _ _ Ed). reflexivity.
Qed.

Lemma slugify_unfold : exists cs1 cs2,
  slug_facts cs1 cs2 = true /\
  forall w s, slugify w s =
    replace_runs cs2 [45] (py_lower (strip (filter (fun c => negb (cmem c cs1)) (ascii_fold w s)))) false.
Proof.
  destruct (slug_tables_ok_spec _ _ _ _ slug_tables_ok_true) as (cs1 & cs2 & Hf & Hs).
  exists cs1, cs2. split; [exact Hf|]. intros w s. apply (Hs (fun x => py_lower (strip x))).
Qed.

Section Slug.
  Variable w : world.
  Hypothesis Hout : fold_ascii_out w.

  Theorem slugify_alphabet s :
    forallb slug_char (slugify w s) = true /\ no_double_hyphen (slugify w s) = true.
  Proof.
    destruct slugify_unfold as (cs1 & cs2 & Hf & Hs). rewrite Hs.
    destruct (slug_facts_spec _ _ Hf) as [H45 Hc]. split.
    - apply forallb_forall. intros y Hy.
      apply replace_runs_chars in Hy. destruct Hy as [->|[Hy Hm]]; [reflexivity|].
      set (v1 := filter (fun c => negb (cmem c cs1)) (ascii_fold w s)) in *.
      assert (Hv1 : forall c, In c v1 -> c < 128 /\ cmem c cs1 = false).
      { intros c Hi. apply filter_In in Hi. destruct Hi as [Hi Hk]. split.
        - apply is_ascii_lt. exact (proj1 (forallb_forall _ _) (Hout s) c Hi).
        - apply negb_true_iff. exact Hk. }
      assert (Hv2 : forallb is_ascii (strip v1) = true).
      { apply forallb_forall. intros c Hi. apply is_ascii_lt. apply Hv1. apply strip_In. exact Hi. }
      rewrite (py_lower_ascii _ Hv2) in Hy. unfold lower_ascii in Hy. apply in_map_iff in Hy.
      destruct Hy as (c & <- & Hi). apply strip_In in Hi. destruct (Hv1 c Hi) as [Hlt Hk].
      apply (proj1 (Hc c Hlt)); assumption.
    - rewrite no_double_hyphen_eq. apply replace_runs_no_double. exact H45.
  Qed.

  Hypothesis Hid : fold_ascii_id w.

  Lemma slugify_fixed o :
    forallb slug_char o = true -> no_double_hyphen o = true -> slugify w o = o.
  Proof.
    intros Ha Hn. destruct slugify_unfold as (cs1 & cs2 & Hf & Hs). rewrite Hs.
    destruct (slug_facts_spec _ _ Hf) as [H45 Hc].
    assert (Hall : forall c, In c o -> c < 128 /\ cmem c cs1 = false /\ is_space c = false /\ lower_ascii1 c = c /\ (cmem c cs2 = true -> c = 45)).
    { intros c Hi. pose proof (proj1 (forallb_forall _ _) Ha c Hi) as Hsc.
      split; [apply slug_char_ascii; exact Hsc|]. apply (proj2 (Hc c (slug_char_ascii c Hsc))). exact Hsc. }
    assert (Hasc : forallb is_ascii o = true).
    { apply forallb_forall. intros c Hi. apply is_ascii_lt. apply Hall. exact Hi. }
    rewrite (Hid o Hasc).
    rewrite filter_all by (apply forallb_forall; intros c Hi; apply negb_true_iff; apply Hall; exact Hi).
    rewrite strip_id by (intros c Hi; apply Hall; exact Hi).
    rewrite (py_lower_ascii _ Hasc). unfold lower_ascii.
    rewrite (map_ext_in _ (fun c => c)), map_id by (intros c Hi; apply Hall; exact Hi).
    apply replace_runs_fixed.
    - intros c Hi. apply Hall. exact Hi.
    - exact H45.
    - rewrite <- no_double_hyphen_eq. exact Hn.
    - discriminate.
  Qed.

  Theorem slugify_idempotent s : slugify w (slugify w s) = slugify w s.
  Proof. destruct (slugify_alphabet s) as [Ha Hn]. apply slugify_fixed; assumption. Qed.
End Slug.

(* ---------- to_slug itself (safe_decode first) ---------- *)
Theorem to_slug_alphabet w value incoming errors o :
  fold_ascii_out w ->
  to_slug w value incoming errors = COk o ->
  forallb slug_char o = true /\ no_double_hyphen o = true.
Proof.
  intros Hout H. unfold to_slug in H. destruct (safe_decode w value incoming errors) as [s|e]; [|discriminate].
  cbn [cmap] in H. injection H as <-. apply slugify_alphabet. exact Hout.
Qed.

(* the second application is to the str result: incoming/errors are irrelevant for it *)
Theorem to_slug_idempotent w value incoming errors o incoming' errors' :
  fold_ascii_out w -> fold_ascii_id w ->
  to_slug w value incoming errors = COk o ->
  to_slug w (PStr o) incoming' errors' = COk o.
Proof.
  intros Hout Hid H. unfold to_slug in *. destruct (safe_decode w value incoming errors) as [s|e]; [|discriminate].
  cbn [cmap] in H. injection H as <-. cbn [safe_decode cmap]. f_equal. apply slugify_idempotent; assumption.
Qed.
