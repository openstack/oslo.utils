(* Proofs/C10_Float.v — facts about the float model (Base/PyFloat.v) used by C10:
   part 1: float() accepts every number the unit regexes admit (and what it returns);
   part 2: exact arithmetic on SpecFloat for representable values (no axioms). *)
From Coq Require Import String.
From Coq Require Import ZArith SpecFloat.
Require Import OV.Base.Bytes OV.Base.Py OV.Base.PyInt OV.Base.PyFloat.
Require Import OV.Proofs.C10_Form.
Open Scope N_scope.

(* ================= part 1: float(str) on [sign] digits [.] digits+ ================= *)

Definition asc (c : N) : N := if c <? 127 then c else match digit_val c with Some d => 48 + d | None => c end.

Lemma to_ascii1_digit c : is_digit c = true -> to_ascii1 c = Some (asc c) /\ c_digit (asc c) = true.
Proof.
  unfold is_digit, to_ascii1, asc. destruct (digit_val c) as [d|] eqn:E; [|discriminate]. intros _.
  destruct (digit_val_props c d E) as [Hd [Hlo Hhi]].
  destruct (c <? 127) eqn:Ec.
  - split; [reflexivity|]. unfold c_digit. lia.
  - rewrite Hhi by lia. split; [reflexivity|]. unfold c_digit. lia.
Qed.

Lemma to_ascii_app x : forall y a b, to_ascii x = Some a -> to_ascii y = Some b -> to_ascii (x ++ y) = Some (a ++ b).
Proof.
  induction x as [|c x IH]; intros y a b Hx Hy; cbn [to_ascii app] in *.
  - injection Hx as <-. exact Hy.
  - destruct (to_ascii1 c) as [c'|]; [|discriminate].
    destruct (to_ascii x) as [a'|]; [|discriminate]. cbn in Hx. injection Hx as <-.
    rewrite (IH y a' b eq_refl Hy). reflexivity.
Qed.

Lemma to_ascii_digits d : digits d = true ->
  to_ascii d = Some (map asc d) /\ forallb c_digit (map asc d) = true.
Proof.
  unfold digits. induction d as [|c d IH]; cbn [forallb to_ascii map]; [auto|].
  intros H. apply andb_true_iff in H. destruct H as [Hc Hd].
  destruct (to_ascii1_digit c Hc) as [-> Hc']. destruct (IH Hd) as [-> Hd'].
  rewrite Hc', Hd'. auto.
Qed.

(* ASCII, neither whitespace nor underscore: float() parses a text of such characters as it stands *)
Definition plain (c : N) : bool := negb (c_space c) && negb (c =? 95) && (c <? 127).

Lemma c_digit_plain c : c_digit c = true -> plain c = true.
Proof. unfold c_digit, plain, c_space. lia. Qed.

Lemma digits_plain a : forallb c_digit a = true -> forallb plain a = true.
Proof. intros H. rewrite forallb_forall in *. intros x Hx. apply c_digit_plain, H, Hx. Qed.

Lemma to_ascii_plain s : forallb plain s = true -> to_ascii s = Some s.
Proof.
  induction s as [|c s IH]; cbn [forallb to_ascii]; [reflexivity|].
  intros H. apply andb_true_iff in H. destruct H as [Hc Hs].
  unfold to_ascii1. replace (c <? 127) with true by (unfold plain in Hc; lia). rewrite (IH Hs). reflexivity.
Qed.

Lemma strip_us_id : forall a prev, forallb plain a = true -> prev <> 95 -> strip_us a prev = Some a.
Proof.
  induction a as [|c a IH]; intros prev H Hp; cbn [strip_us].
  - replace (prev =? 95) with false by lia. reflexivity.
  - cbn [forallb] in H. apply andb_true_iff in H. destruct H as [Hc Ha].
    assert (c <> 95) by (unfold plain in Hc; lia).
    replace (c =? 95) with false by lia. replace (prev =? 95) with false by lia. cbn [andb].
    rewrite (IH c Ha) by assumption. reflexivity.
Qed.

Lemma c_lstrip_id s : forallb plain s = true -> c_lstrip s = s.
Proof.
  destruct s as [|c s]; [reflexivity|]. cbn [forallb c_lstrip]. intros H.
  apply andb_true_iff in H. destruct H as [Hc _].
  replace (c_space c) with false; [reflexivity|]. unfold plain in Hc. destruct (c_space c); [discriminate|reflexivity].
Qed.

Lemma c_strip_id s : forallb plain s = true -> c_strip s = s.
Proof.
  intros H. unfold c_strip. rewrite (c_lstrip_id s H).
  rewrite c_lstrip_id; [apply rev_involutive|].
  rewrite forallb_forall in *. intros x Hx. apply H. apply in_rev. exact Hx.
Qed.

(* [sign] followed by a text whose ASCII form is plain and starts like a number: the sign is split off and
   the rest goes to parse_unsigned *)
Lemma float_of_sign_text sg s a :
  (sg = [] \/ sg = [43] \/ sg = [45]) -> to_ascii s = Some a -> forallb plain a = true ->
  match a with c :: _ => (c =? 46) || c_digit c = true | [] => False end ->
  py_float_of_str (sg ++ s) = parse_unsigned a (beq sg [45]).
Proof.
  intros Hs T P Hh.
  assert (Tsg : to_ascii sg = Some sg) by (destruct Hs as [->|[->| ->]]; reflexivity).
  assert (PA : forallb plain (sg ++ a) = true) by (rewrite forallb_app, P; destruct Hs as [->|[->| ->]]; reflexivity).
  unfold py_float_of_str. rewrite (to_ascii_app sg s sg a Tsg T), (strip_us_id _ 0 PA), (c_strip_id _ PA) by discriminate.
  destruct Hs as [->|[->| ->]]; [|reflexivity..].
  destruct a as [|c t]; [contradiction|]. cbn [app]. unfold c_digit in Hh.
  replace (c =? 43) with false by lia. replace (c =? 45) with false by lia. reflexivity.
Qed.

(* value of an ASCII digit string, continuing an accumulator *)
Fixpoint dvalN (s : str) (acc : N) : N :=
  match s with [] => acc | c :: t => dvalN t (acc * 10 + (c - 48)) end.

Lemma digits_run_app : forall a r acc cnt, forallb c_digit a = true ->
  digits_run (a ++ r) acc cnt = digits_run r (dvalN a acc) (cnt + Z.of_nat (length a))%Z.
Proof.
  induction a as [|c a IH]; intros r acc cnt H; cbn [app digits_run dvalN length].
  - f_equal. lia.
  - cbn [forallb] in H. apply andb_true_iff in H. destruct H as [Hc Ha]. rewrite Hc.
    rewrite (IH r _ _ Ha). f_equal. lia.
Qed.

Lemma digits_run_all a acc cnt : forallb c_digit a = true ->
  digits_run a acc cnt = (dvalN a acc, (cnt + Z.of_nat (length a))%Z, []).
Proof.
  intros H. rewrite <- (app_nil_r a) at 1. rewrite (digits_run_app a [] acc cnt H). reflexivity.
Qed.

Lemma not_special c s : (c =? 46) || c_digit c = true ->
  let l := map c_lower (c :: s) in
  beq l (lit "inf") || beq l (lit "infinity") = false /\ beq l (lit "nan") = false.
Proof.
  intros H. cbn [map]. unfold c_lower at 1 3 5.
  replace ((65 <=? c) && (c <=? 90)) with false by (unfold c_digit in H; lia).
  change (lit "inf") with [105; 110; 102]. change (lit "nan") with [110; 97; 110].
  change (lit "infinity") with [105; 110; 102; 105; 110; 105; 116; 121].
  cbn [beq].
  replace (c =? 105) with false by (unfold c_digit in H; lia).
  replace (c =? 110) with false by (unfold c_digit in H; lia). auto.
Qed.

(* a1 [.] a2 with a2 non-empty starts with a digit or the dot *)
Lemma num_head a1 dot a2 : forallb c_digit a1 = true -> (dot = [] \/ dot = [46]) -> forallb c_digit a2 = true -> a2 <> [] ->
  match a1 ++ dot ++ a2 with c :: _ => (c =? 46) || c_digit c = true | [] => False end.
Proof.
  intros H1 Hd H2 Hne. destruct a1 as [|c a1']; cbn [app].
  - destruct Hd as [->| ->]; cbn [app]; [|reflexivity].
    destruct a2 as [|c a2']; [congruence|]. cbn in H2. apply andb_true_iff in H2. destruct H2 as [-> _]. apply orb_true_r.
  - cbn in H1. apply andb_true_iff in H1. destruct H1 as [-> _]. apply orb_true_r.
Qed.

Lemma parse_unsigned_num a1 dot a2 neg :
  forallb c_digit a1 = true -> (dot = [] \/ dot = [46]) -> forallb c_digit a2 = true -> a2 <> [] ->
  parse_unsigned (a1 ++ dot ++ a2) neg =
  Some (f_of_decimal neg (dvalN a2 (dvalN a1 0)) (Z.of_nat (length a1) + Z.of_nat (length a2))
          (match dot with [] => 0 | _ => - Z.of_nat (length a2) end))%Z.
Proof.
  intros H1 Hd H2 Hne. pose proof (num_head a1 dot a2 H1 Hd H2 Hne) as Hc.
  unfold parse_unsigned.
  destruct (a1 ++ dot ++ a2) as [|c s] eqn:Ecs; [contradiction|].
  destruct (not_special c s Hc) as [N1 N2]. cbn zeta in N1, N2. rewrite N1, N2, <- Ecs.
  clear N1 N2 Hc. (* lia below would chew on them *)
  rewrite (digits_run_app a1 (dot ++ a2) 0 0%Z H1).
  assert (L2 : (0 < Z.of_nat (length a2))%Z) by (destruct a2; [congruence|cbn [length]; lia]).
  destruct Hd as [->| ->]; cbn [app].
  - rewrite (digits_run_all a2 _ _ H2).
    replace (0 + Z.of_nat (length a1) + Z.of_nat (length a2) + 0 =? 0)%Z with false by lia.
    cbn [parse_exp]; f_equal; f_equal; lia.
  - cbn [digits_run]. replace (c_digit 46) with false by reflexivity.
    replace (46 =? 46) with true by reflexivity.
    rewrite (digits_run_all a2 _ _ H2).
    replace (0 + Z.of_nat (length a1) + (0 + Z.of_nat (length a2)) =? 0)%Z with false by lia.
    cbn [parse_exp]; f_equal; f_equal; lia.
Qed.

(* float() of a number the unit regexes admit: the decimal value of its (Unicode) digits *)
Theorem float_of_numform sg d1 dot d2 :
  (sg = [] \/ sg = [43] \/ sg = [45]) -> digits d1 = true -> (dot = [] \/ dot = [46]) -> digits d2 = true -> d2 <> [] ->
  py_float_of_str (sg ++ d1 ++ dot ++ d2) =
  Some (f_of_decimal (beq sg [45%N]) (dvalN (map asc d2) (dvalN (map asc d1) 0%N))
          (Z.of_nat (length d1) + Z.of_nat (length d2))
          (match dot with [] => 0 | _ => - Z.of_nat (length d2) end))%Z.
Proof.
  intros Hs H1 Hd H2 Hne.
  destruct (to_ascii_digits d1 H1) as [T1 C1]. destruct (to_ascii_digits d2 H2) as [T2 C2].
  assert (Hne2 : map asc d2 <> []) by (destruct d2; [congruence|discriminate]).
  assert (Tdot : to_ascii dot = Some dot) by (destruct Hd as [->| ->]; reflexivity).
  rewrite <- (map_length asc d1), <- (map_length asc d2).
  rewrite <- (parse_unsigned_num _ dot _ (beq sg [45]) C1 Hd C2 Hne2).
  apply float_of_sign_text; [exact Hs| | |apply num_head; assumption].
  - apply to_ascii_app; [exact T1|]. apply to_ascii_app; assumption.
  - rewrite !forallb_app, (digits_plain _ C1), (digits_plain _ C2). destruct Hd as [->| ->]; reflexivity.
Qed.

Corollary float_of_numform_total num : numform num -> py_float_of_str num <> None.
Proof.
  intros [sg [d1 [dot [d2 [-> [Hs [H1 [Hd [H2 Hne]]]]]]]]]. rewrite float_of_numform by assumption. discriminate.
Qed.

(* float() of [sign] Unicode decimal digits: the value of the digits *)
Lemma float_of_signed_digits sg ds : (sg = [] \/ sg = [43%N] \/ sg = [45%N]) ->
  digits ds = true -> ds <> [] ->
  py_float_of_str (sg ++ ds) =
  Some (f_of_decimal (beq sg [45%N]) (dvalN (map asc ds) 0) (Z.of_nat (length ds)) 0).
Proof. intros Hs Hd Hne. exact (float_of_numform sg [] [] ds Hs eq_refl (or_introl eq_refl) Hd Hne). Qed.

Lemma c_digit_is_digit ds : forallb c_digit ds = true -> digits ds = true.
Proof.
  unfold digits. intros H. rewrite forallb_forall in *. intros x Hx. specialize (H x Hx).
  unfold is_digit. rewrite (digit_val_ascii x H). reflexivity.
Qed.

Lemma map_asc_ascii ds : forallb c_digit ds = true -> map asc ds = ds.
Proof.
  induction ds as [|c ds IH]; cbn [forallb map]; [reflexivity|].
  intros H. apply andb_true_iff in H. destruct H as [Hc Hd].
  rewrite (IH Hd). unfold asc. replace (c <? 127)%N with true by (unfold c_digit in Hc; lia). reflexivity.
Qed.

(* float() of [sign] ASCII digits *)
Lemma float_of_signed_ascii_digits sg ds : (sg = [] \/ sg = [43%N] \/ sg = [45%N]) ->
  forallb c_digit ds = true -> ds <> [] ->
  py_float_of_str (sg ++ ds) =
  Some (f_of_decimal (beq sg [45%N]) (dvalN ds 0) (Z.of_nat (length ds)) 0).
Proof.
  intros Hs H Hne. rewrite (float_of_signed_digits sg ds Hs (c_digit_is_digit ds H) Hne), (map_asc_ascii ds H). reflexivity.
Qed.

(* an integer magnitude: no scaling by a power of ten *)
Lemma f_of_decimal_int s p cnt : (-400 < cnt)%Z -> f_of_decimal s (Npos p) cnt 0 = f_round s p 0.
Proof.
  intros H. unfold f_of_decimal. change (400 <=? 0)%Z with false. replace (cnt + 0 <=? -400)%Z with false by lia.
  change (0 <=? 0)%Z with true. change (Z.to_pos (10 ^ 0)%Z) with 1%positive. cbv iota. rewrite Pos.mul_1_r. reflexivity.
Qed.

(* ================= part 2: exact arithmetic on representable values ================= *)
Open Scope Z_scope.

Definition dig (p : positive) : Z := Zpos (digits2_pos p).

Lemma dig_pos p : 1 <= dig p.
Proof. unfold dig. lia. Qed.

Lemma dig_xO p : dig p~0 = dig p + 1.
Proof. unfold dig. cbn [digits2_pos]. lia. Qed.

Lemma dig_bounds p : 2 ^ (dig p - 1) <= Zpos p < 2 ^ dig p.
Proof.
  assert (E : digits2_pos p = Pos.size p) by (induction p; cbn; congruence).
  unfold dig. rewrite E. pose proof (Pos.size_gt p) as G. pose proof (Pos.size_le p) as L.
  apply Pos2Z.pos_lt_pos in G. apply Pos2Z.pos_le_pos in L. rewrite Pos2Z.inj_pow in G, L.
  replace (2 ^ Zpos (Pos.size p)) with (2 * 2 ^ (Zpos (Pos.size p) - 1)) in L by (rewrite <- Z.pow_succ_r by lia; f_equal; lia).
  lia.
Qed.

Lemma dig_unique p d : 2 ^ (d - 1) <= Zpos p < 2 ^ d -> dig p = d.
Proof.
  intros [H1 H2]. pose proof (dig_bounds p) as [B1 B2]. pose proof (dig_pos p).
  destruct (Z.lt_trichotomy (dig p) d) as [L|[E|L]]; [|exact E|].
  - assert (2 ^ dig p <= 2 ^ (d - 1)) by (apply Z.pow_le_mono_r; lia). lia.
  - assert (0 <= d) by (destruct (Z.neg_nonneg_cases d) as [N|N]; [rewrite (Z.pow_neg_r 2 d N) in H2; lia|exact N]).
    assert (2 ^ d <= 2 ^ (dig p - 1)) by (apply Z.pow_le_mono_r; lia). lia.
Qed.

Lemma pow2_pos k : 0 <= k -> 0 < 2 ^ k.
Proof. intros. apply Z.pow_pos_nonneg; lia. Qed.

Lemma dig_shift p q j : 0 <= j -> Zpos p = Zpos q * 2 ^ j -> dig p = dig q + j.
Proof.
  intros Hj E. apply dig_unique. rewrite E. pose proof (dig_bounds q) as [B1 B2]. pose proof (dig_pos q).
  pose proof (pow2_pos j Hj).
  replace (dig q + j - 1) with (dig q - 1 + j) by lia. rewrite !Z.pow_add_r by lia. nia.
Qed.

(* ---- shifting right by k bits a multiple of 2^k ---- *)
Definition rec0 (m : Z) : shr_record := Build_shr_record m false false.

Lemma shr_1_even x : 0 < x -> shr_1 (rec0 (2 * x)) = rec0 x.
Proof. destruct x as [|p|p]; try lia. intros _. reflexivity. Qed.

Lemma iter_shr p : forall x, 0 < x -> SpecFloat.iter_pos shr_1 p (rec0 (x * 2 ^ Zpos p)) = rec0 x.
Proof.
  induction p as [p IH|p IH|]; intros x Hx; cbn [SpecFloat.iter_pos].
  - pose proof (pow2_pos (Zpos p) ltac:(lia)) as Hp.
    replace (x * 2 ^ Zpos p~1) with (2 * (x * 2 ^ Zpos p * 2 ^ Zpos p))
      by (replace (Zpos p~1) with (Zpos p + Zpos p + 1) by lia; rewrite !Z.pow_add_r by lia; change (2 ^ 1) with 2; ring).
    rewrite shr_1_even, IH by nia. apply IH. exact Hx.
  - pose proof (pow2_pos (Zpos p) ltac:(lia)) as Hp.
    replace (x * 2 ^ Zpos p~0) with (x * 2 ^ Zpos p * 2 ^ Zpos p)
      by (replace (Zpos p~0) with (Zpos p + Zpos p) by lia; rewrite Z.pow_add_r by lia; ring).
    rewrite IH by nia. apply IH. exact Hx.
  - rewrite <- (shr_1_even x Hx). f_equal. f_equal. change (2 ^ 1) with 2. lia.
Qed.

Lemma shr_exact m e k : 0 < m -> 0 < k -> shr (rec0 (m * 2 ^ k)) e k = (rec0 m, e + k).
Proof. intros Hm Hk. destruct k as [|p|p]; try lia. unfold shr. rewrite iter_shr by exact Hm. reflexivity. Qed.

Lemma fexp53 x : -1074 <= x - 53 -> fexp 53 1024 x = x - 53.
Proof. unfold fexp, emin. lia. Qed.

(* the binary64 value (-1)^s * q * 2^t for a q of at most 53 bits (normal range), in canonical form *)
Definition normal (s : bool) (q : positive) (t : Z) : float64 :=
  S754_finite s (Z.to_pos (Zpos q * 2 ^ (53 - dig q))) (t - 53 + dig q).

Lemma normal_mant_Z q : dig q <= 53 -> Zpos (Z.to_pos (Zpos q * 2 ^ (53 - dig q))) = Zpos q * 2 ^ (53 - dig q).
Proof. intros H. apply Z2Pos.id. pose proof (pow2_pos (53 - dig q)). nia. Qed.

Lemma normal_mant_dig q : dig q <= 53 -> dig (Z.to_pos (Zpos q * 2 ^ (53 - dig q))) = 53.
Proof. intros H. rewrite (dig_shift _ q (53 - dig q)) by (try apply normal_mant_Z; lia). lia. Qed.

(* binary_round_aux on an exact mantissa of at least 53 bits whose bits below the 53rd are zero (it is q shifted
   left), normal range: the mantissa is cut to 53 bits and nothing is rounded *)
Lemma aux_normal s mx ex q :
  53 <= dig mx -> dig q <= 53 -> Zpos mx = Zpos q * 2 ^ (dig mx - dig q) ->
  -1074 <= dig mx + ex - 53 -> dig mx + ex - 53 <= 971 ->
  binary_round_aux 53 1024 s (Zpos mx) ex loc_Exact = normal s q (ex + dig mx - dig q).
Proof.
  intros D Dq M Rl Rh. pose proof (dig_pos q). set (k := dig mx - 53).
  set (m' := Z.to_pos (Zpos q * 2 ^ (53 - dig q))).
  assert (M' : Zpos mx = Zpos m' * 2 ^ k).
  { unfold m', k. rewrite normal_mant_Z, <- Z.mul_assoc, <- Z.pow_add_r by lia. rewrite M. f_equal. f_equal. lia. }
  assert (S1 : shr (rec0 (Zpos mx)) ex k = (rec0 (Zpos m'), ex + k)).
  { destruct (Z.eq_dec k 0) as [E|E]; [|rewrite M'; apply shr_exact; lia].
    rewrite M', E, Z.mul_1_r, Z.add_0_r. reflexivity. }
  unfold binary_round_aux, shr_fexp. change (Zdigits2 (Z.pos mx)) with (dig mx).
  rewrite fexp53 by lia. unfold shr_record_of_loc.
  replace (dig mx + ex - 53 - ex) with k by (unfold k; lia).
  change (Build_shr_record (Z.pos mx) false false) with (rec0 (Z.pos mx)). rewrite S1.
  cbn [rec0 shr_m loc_of_shr_record round_nearest_even].
  change (Zdigits2 (Z.pos m')) with (dig m'). replace (dig m') with 53 by (symmetry; apply normal_mant_dig; exact Dq).
  rewrite fexp53 by (unfold k; lia).
  replace (53 + (ex + k) - 53 - (ex + k)) with 0 by lia. cbn [shr shr_m].
  replace (Zle_bool (ex + k) (1024 - 53)) with true by (symmetry; apply Zle_is_le_bool; unfold k; lia).
  unfold normal. fold m'. f_equal. unfold k. lia.
Qed.

(* correctly rounding an integer q * 2^j with q of at most 53 bits is exact *)
Lemma round_exact s p q j : 0 <= j -> Zpos p = Zpos q * 2 ^ j -> dig q <= 53 -> dig q + j <= 1024 ->
  f_round s p 0 = normal s q j.
Proof.
  intros Hj HZ Hq Hr. pose proof (dig_pos q) as Hq1. pose proof (dig_shift p q j Hj HZ) as Hd.
  unfold f_round, binary_round. change fprec with 53. change femax with 1024.
  change (Z.pos (digits2_pos p)) with (dig p).
  rewrite fexp53 by lia. unfold shl_align.
  destruct (dig p + 0 - 53 - 0) as [|k|k] eqn:K.
  1,2: rewrite (aux_normal s p 0 q) by (try (rewrite HZ; f_equal; f_equal); lia); f_equal; lia.
  (* fewer than 53 bits: the mantissa is first shifted left to 53 *)
  assert (E : Zpos (shift_pos k p) = Zpos q * 2 ^ (53 - dig q)).
  { rewrite shift_pos_correct, HZ. change (Z.pow_pos 2 k) with (2 ^ Z.pos k).
    rewrite Z.mul_comm, <- Z.mul_assoc, <- Z.pow_add_r by lia. f_equal. f_equal. lia. }
  pose proof (dig_shift _ q (53 - dig q) ltac:(lia) E) as D.
  rewrite (aux_normal s (shift_pos k p) _ q) by (try (rewrite E; f_equal; f_equal); lia). f_equal. lia.
Qed.

(* float(int) of such an integer *)
Lemma float_of_Z_exact (s : bool) p q j : 0 <= j -> Zpos p = Zpos q * 2 ^ j -> dig q <= 53 -> dig q + j <= 1024 ->
  float_of_Z (if s then Zneg p else Zpos p) = Some (normal s q j).
Proof.
  intros Hj HZ Hq Hr. pose proof (round_exact s p q j Hj HZ Hq Hr) as R.
  unfold float_of_Z, f_normalize. destruct s; cbn [binary_normalize]; fold (f_round true p 0); fold (f_round false p 0);
    rewrite R; reflexivity.
Qed.

Lemma dig_mul_lower q1 q2 : dig q1 + dig q2 - 1 <= dig (q1 * q2).
Proof.
  pose proof (dig_bounds q1) as [A1 _]. pose proof (dig_bounds q2) as [A2 _].
  pose proof (dig_bounds (q1 * q2)) as [_ B]. pose proof (dig_pos q1). pose proof (dig_pos q2). pose proof (dig_pos (q1 * q2)).
  destruct (Z_le_gt_dec (dig q1 + dig q2 - 1) (dig (q1 * q2))) as [L|G]; [exact L|exfalso].
  assert (P : 2 ^ dig (q1 * q2) <= 2 ^ (dig q1 - 1 + (dig q2 - 1))) by (apply Z.pow_le_mono_r; lia).
  rewrite Z.pow_add_r in P by lia. rewrite Pos2Z.inj_mul in B.
  pose proof (pow2_pos (dig q1 - 1)). pose proof (pow2_pos (dig q2 - 1)). nia.
Qed.

(* the product of two exact values whose product still fits 53 bits is exact *)
Lemma mul_normal s1 q1 t1 s2 q2 t2 :
  dig q1 <= 53 -> dig q2 <= 53 -> dig (q1 * q2) <= 53 ->
  -1074 <= t1 + t2 - 53 + dig (q1 * q2) -> t1 + t2 - 53 + dig (q1 * q2) <= 971 ->
  f_mul (normal s1 q1 t1) (normal s2 q2 t2) = normal (xorb s1 s2) (q1 * q2) (t1 + t2).
Proof.
  intros H1 H2 H12 Rl Rh. pose proof (dig_pos q1). pose proof (dig_pos q2). pose proof (dig_mul_lower q1 q2) as DL.
  unfold f_mul, normal at 1 2, SFmul.
  set (m1 := Z.to_pos (Zpos q1 * 2 ^ (53 - dig q1))). set (m2 := Z.to_pos (Zpos q2 * 2 ^ (53 - dig q2))).
  set (D := dig (q1 * q2)) in *.
  assert (HM : Zpos (m1 * m2) = Zpos (q1 * q2) * 2 ^ (106 - dig q1 - dig q2)).
  { rewrite !Pos2Z.inj_mul. unfold m1, m2. rewrite !normal_mant_Z by lia.
    replace (106 - dig q1 - dig q2) with ((53 - dig q1) + (53 - dig q2)) by lia.
    rewrite Z.pow_add_r by lia. lia. }
  assert (HD : dig (m1 * m2) = D + (106 - dig q1 - dig q2)) by (apply dig_shift; [lia|exact HM]).
  rewrite (aux_normal _ (m1 * m2) _ (q1 * q2)) by (try (rewrite HM; f_equal; f_equal); fold D; lia).
  fold D. f_equal. lia.
Qed.

Lemma div_eucl_eq a b : Z.div_eucl a b = (a / b, a mod b).
Proof. unfold Z.div, Z.modulo. destruct (Z.div_eucl a b). reflexivity. Qed.

Lemma div_core m1 e1 : dig m1 = 53 -> -1074 <= e1 - 4 ->
  SFdiv_core_binary 53 1024 (Zpos m1) e1 4503599627370496 (-49) = (Zpos m1~0, e1 - 4, loc_Exact).
Proof.
  intros D R. unfold SFdiv_core_binary. cbv zeta.
  change (Zdigits2 (Z.pos m1)) with (dig m1). rewrite D.
  change (Zdigits2 4503599627370496) with 53.
  replace (53 + e1 - (53 + -49)) with (e1 + 49) by lia. rewrite fexp53 by lia.
  replace (Z.min (e1 + 49 - 53) (e1 - -49)) with (e1 - 4) by lia.
  replace (e1 - -49 - (e1 - 4)) with 53 by lia.
  rewrite Z.shiftl_mul_pow2 by lia. rewrite div_eucl_eq.
  change (2 ^ 53) with (2 * 4503599627370496).
  replace (Z.pos m1 * (2 * 4503599627370496)) with (Z.pos m1~0 * 4503599627370496) by (rewrite (Pos2Z.inj_xO m1); lia).
  rewrite Z.div_mul, Z.mod_mul by lia. reflexivity.
Qed.

(* dividing an exact value by 8.0 is exact *)
Lemma div8_normal s q t : dig q <= 53 -> -1074 <= t - 3 - 53 + dig q - 1 -> t - 3 - 53 + dig q <= 971 ->
  f_div (normal s q t) (S754_finite false 4503599627370496 (-49)) = Some (normal s q (t - 3)).
Proof.
  intros Hq Rl Rh. unfold f_div. cbn [f_is_zero]. f_equal.
  unfold normal at 1. set (m1 := Z.to_pos (Zpos q * 2 ^ (53 - dig q))).
  assert (Dm : dig m1 = 53) by (apply normal_mant_dig; exact Hq).
  assert (E : Zpos m1~0 = Zpos q * 2 ^ (dig m1~0 - dig q)).
  { rewrite dig_xO, Dm, Pos2Z.inj_xO. unfold m1. rewrite normal_mant_Z by exact Hq.
    replace (53 + 1 - dig q) with (53 - dig q + 1) by lia. rewrite Z.pow_add_r by lia. change (2 ^ 1) with 2. lia. }
  unfold SFdiv. rewrite div_core by (try exact Dm; lia). rewrite dig_xO, Dm in E.
  rewrite (aux_normal _ (m1~0) _ q) by (rewrite ?dig_xO, ?Dm; (exact E || lia)).
  rewrite dig_xO, Dm, Bool.xorb_false_r. f_equal. lia.
Qed.

(* the value of an exact float, when it is an integer *)
Lemma ceil_normal s q t : dig q <= 53 -> 0 <= t ->
  ceil_to_Z (normal s q t) = Ok ((if s then -1 else 1) * (Zpos q * 2 ^ t)).
Proof.
  intros Hq Ht. pose proof (dig_pos q). unfold normal, ceil_to_Z. rewrite normal_mant_Z by exact Hq.
  set (m := Zpos q * 2 ^ (53 - dig q)).
  assert (Hm : Zpos (Z.to_pos m) = m) by (apply normal_mant_Z; exact Hq).
  replace (if s then Z.neg (Z.to_pos m) else m) with ((if s then -1 else 1) * m)
    by (destruct s; [change (Z.neg (Z.to_pos m)) with (- Z.pos (Z.to_pos m)); rewrite Hm|]; lia).
  unfold f_pow2. f_equal.
  destruct (0 <=? t - 53 + dig q) eqn:E.
  - unfold m. rewrite <- !Z.mul_assoc, <- Z.pow_add_r by lia. f_equal. f_equal. f_equal. lia.
  - assert (E2 : m = (Zpos q * 2 ^ t) * 2 ^ (- (t - 53 + dig q))).
    { unfold m. rewrite <- Z.mul_assoc, <- Z.pow_add_r by lia. f_equal. f_equal. lia. }
    rewrite E2. pose proof (pow2_pos (- (t - 53 + dig q))).
    replace (- ((if s then -1 else 1) * (Z.pos q * 2 ^ t * 2 ^ (- (t - 53 + dig q)))))
      with ((- ((if s then -1 else 1) * (Z.pos q * 2 ^ t))) * 2 ^ (- (t - 53 + dig q))) by lia.
    rewrite Z.div_mul by lia. lia.
Qed.

(* ---- representable positive integers: odd part times a power of two ---- *)
Fixpoint odd_part (p : positive) : positive * Z :=
  match p with
  | xO p' => let '(q, j) := odd_part p' in (q, j + 1)
  | _ => (p, 0)
  end.

Lemma odd_part_spec p : let '(q, j) := odd_part p in
  0 <= j /\ Zpos p = Zpos q * 2 ^ j /\ Z.odd (Zpos q) = true.
Proof.
  induction p as [p IH|p IH|]; cbn [odd_part].
  - split; [lia|]. split; [lia|reflexivity].
  - destruct (odd_part p) as [q j]. destruct IH as [Hj [Hp Ho]].
    split; [lia|]. split; [|exact Ho].
    change (Z.pos p~0) with (2 * Z.pos p). rewrite Hp, Z.pow_add_r by lia. lia.
  - split; [lia|]. split; [lia|reflexivity].
Qed.

(* the decidable hypothesis: at most 53 significant bits *)
Definition repr53b (p : positive) : bool := dig (fst (odd_part p)) <=? 53.

Lemma dig_le_of_lt p k : 0 <= k -> Zpos p < 2 ^ k -> dig p <= k.
Proof.
  intros Hk H. pose proof (dig_bounds p) as [B _]. pose proof (dig_pos p).
  destruct (Z_le_gt_dec (dig p) k) as [L|G]; [exact L|exfalso].
  assert (2 ^ k <= 2 ^ (dig p - 1)) by (apply Z.pow_le_mono_r; lia). lia.
Qed.

Lemma dig_mono p q : Zpos p <= Zpos q -> dig p <= dig q.
Proof.
  intros H. pose proof (dig_bounds q) as [_ B]. apply dig_le_of_lt; [pose proof (dig_pos q); lia|lia].
Qed.

Lemma odd_part_le p : Zpos (fst (odd_part p)) <= Zpos p.
Proof.
  pose proof (odd_part_spec p) as S. destruct (odd_part p) as [q j]. destruct S as [Hj [Hp _]].
  cbn [fst]. pose proof (pow2_pos j Hj). nia.
Qed.

Lemma repr53b_of_lt p : Zpos p < 2 ^ 53 -> repr53b p = true.
Proof.
  intros H. unfold repr53b. apply Z.leb_le. apply dig_le_of_lt; [lia|].
  pose proof (odd_part_le p). lia.
Qed.

(* an odd number times 2^j that is a multiple of 2^k has j >= k *)
Lemma odd_pow_div q j a k : Z.odd q = true -> 0 <= j -> 0 <= k -> q * 2 ^ j = a * 2 ^ k -> k <= j.
Proof.
  intros Ho Hj Hk E. destruct (Z_le_gt_dec k j) as [L|G]; [exact L|exfalso].
  replace k with (j + (k - j)) in E by lia. rewrite Z.pow_add_r in E by lia.
  pose proof (pow2_pos j Hj).
  assert (E2 : q = a * 2 ^ (k - j)) by nia.
  replace (k - j) with (1 + (k - j - 1)) in E2 by lia. rewrite Z.pow_add_r in E2 by lia.
  rewrite E2 in Ho. replace (a * (2 ^ 1 * 2 ^ (k - j - 1))) with (2 * (a * 2 ^ (k - j - 1))) in Ho by (change (2 ^ 1) with 2; lia).
  rewrite Z.odd_mul in Ho. discriminate.
Qed.

(* the same value written with a larger mantissa *)
Lemma normal_scale s p q j t : 0 <= j -> Zpos p = Zpos q * 2 ^ j -> dig p <= 53 -> normal s p t = normal s q (t + j).
Proof.
  intros Hj E D. pose proof (dig_shift p q j Hj E) as Dp. pose proof (dig_pos q).
  unfold normal. rewrite Dp. f_equal; [|lia].
  f_equal. rewrite E, <- Z.mul_assoc, <- Z.pow_add_r by lia. f_equal. f_equal. lia.
Qed.

(* n * F = a * 2^k with a of at most 53 bits, n and F split into odd part and power of two: the odd parts
   divide a, so they and their product have at most 53 bits, and k does not exceed the two exponents *)
Lemma odd_product qn jn qf jf a k :
  Z.odd (Zpos qn) = true -> Z.odd (Zpos qf) = true -> 0 <= jn -> 0 <= jf -> 0 <= k -> dig a <= 53 ->
  (Zpos qn * 2 ^ jn) * (Zpos qf * 2 ^ jf) = Zpos a * 2 ^ k ->
  k <= jn + jf /\ Zpos a = Zpos (qn * qf) * 2 ^ (jn + jf - k) /\
  dig (qn * qf) + (jn + jf - k) = dig a /\ dig qn <= 53 /\ dig qf <= 53.
Proof.
  intros On Of Hjn Hjf Hk Da E.
  assert (E0 : Zpos (qn * qf) * 2 ^ (jn + jf) = Zpos a * 2 ^ k)
    by (rewrite Pos2Z.inj_mul, Z.pow_add_r, <- E by lia; ring).
  assert (Kle : k <= jn + jf).
  { apply (odd_pow_div (Zpos (qn * qf)) (jn + jf) (Zpos a) k); [|lia|lia|exact E0].
    rewrite Pos2Z.inj_mul, Z.odd_mul, On, Of. reflexivity. }
  assert (Ea : Zpos a = Zpos (qn * qf) * 2 ^ (jn + jf - k)).
  { replace (jn + jf) with (jn + jf - k + k) in E0 by lia. rewrite Z.pow_add_r in E0 by lia.
    pose proof (pow2_pos k Hk). nia. }
  pose proof (dig_shift a (qn * qf) (jn + jf - k) ltac:(lia) Ea).
  pose proof (dig_mul_lower qn qf). pose proof (dig_pos qn). pose proof (dig_pos qf).
  repeat split; lia.
Qed.

(* rounding keeps the sign *)
Lemma binary_round_aux_sign s m e l :
  match binary_round_aux 53 1024 s m e l with
  | S754_zero s' | S754_infinity s' | S754_finite s' _ _ => s' = s
  | S754_nan => True
  end.
Proof.
  unfold binary_round_aux. destruct (shr_fexp 53 1024 m e l) as [mrs e'].
  destruct (shr_fexp 53 1024 _ e' loc_Exact) as [mrs'' e''].
  destruct (shr_m mrs''); [reflexivity| |exact I]. destruct (Zle_bool e'' (1024 - 53)); reflexivity.
Qed.

Lemma float_of_pos_sign p x : float_of_Z (Zpos p) = Some x ->
  match x with S754_zero s | S754_finite s _ _ => s = false | S754_infinity _ => False | S754_nan => True end.
Proof.
  unfold float_of_Z, f_normalize. cbn [binary_normalize]. unfold binary_round.
  destruct (shl_align p 0 _) as [mz ez].
  pose proof (binary_round_aux_sign false (Zpos mz) ez loc_Exact) as S.
  change fprec with 53. change femax with 1024.
  destruct (binary_round_aux 53 1024 false (Zpos mz) ez loc_Exact); intros H; try discriminate; injection H as <-; exact S.
Qed.
