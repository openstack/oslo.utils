(* Proofs/C20.v — the file helpers: the statement-level translation of the source equals the
   model (gen_*_equiv, by the case-analysis tactic [equiv_auto]); the file object and the read
   loop; compute_file_checksum under [hash_contract]; last_bytes; the two errno filters;
   the write loop; and, under [fs_contract] (the clauses assumed of os / tempfile), ensure_tree,
   delete_if_exists and write_to_tempfile. *)
Require Import OV.Base.Bytes OV.Base.Py OV.Gen.C20_Consts OV.Model.C20_OS OV.Model.C20 OV.Gen.C20_Code.
Open Scope Z_scope.

(* ---------- the statement-level translation of the source equals the model ----------
   The proofs are by exhaustive case analysis on the scrutinees of the two sides (robust
   against renamings and reorderings of the generated text; a behavioural difference
   leaves an unprovable goal). *)
Ltac atomic_bool x :=
  lazymatch x with
  | true => fail | false => fail
  | context [negb _] => fail | context [andb _ _] => fail | context [orb _ _] => fail
  | context [match _ with _ => _ end] => fail
  | _ => first [is_var x; destruct x | destruct x eqn:?]
  end.
Ltac break_match :=
  match goal with
  | |- context [negb ?x] => atomic_bool x           (* atoms of boolean conditions first *)
  | |- context [andb ?x _] => atomic_bool x
  | |- context [andb _ ?x] => atomic_bool x
  | |- context [orb ?x _] => atomic_bool x
  | |- context [orb _ ?x] => atomic_bool x
  | |- context [match ?x with _ => _ end] =>
      lazymatch x with
      | context [match _ with _ => _ end] => fail      (* innermost scrutinee first *)
      | _ => first [is_var x; destruct x | destruct x eqn:?]
      end
  end.
Ltac equiv_step := first [reflexivity | solve [cbn [andb orb negb] in *; congruence] | progress cbn [andb orb negb] | break_match].
Ltac equiv_auto := repeat equiv_step.

Section Equiv.
Context {W H : Type} (rt : runtime W H).

Theorem gen_ensure_tree_equiv path mode w :
  gen_ensure_tree rt path mode w = ensure_tree rt path mode w.
Proof. unfold gen_ensure_tree, ensure_tree. equiv_auto. Qed.

Theorem gen_delete_if_exists_equiv (path : bytes) (remove : bytes -> W -> W * ores unit) (w : W) :
  gen_delete_if_exists path remove w = delete_if_exists path remove w.
Proof. unfold gen_delete_if_exists, delete_if_exists. equiv_auto. Qed.

Lemma gen_wloop_equiv fuel fd view w :
  gen_write_to_tempfile_wloop rt fuel fd view w = write_loop rt fuel fd view w.
Proof.
  revert view w. induction fuel as [|k IH]; intros view w; [reflexivity|].
  cbn [gen_write_to_tempfile_wloop write_loop].
  repeat first [apply IH | equiv_step].
Qed.

Theorem gen_write_to_tempfile_equiv content path suffix prefix w :
  gen_write_to_tempfile rt content path suffix prefix w = write_to_tempfile rt content path suffix prefix w.
Proof.
  unfold gen_write_to_tempfile, write_to_tempfile, write_and_close, write_all.
  (* in program order: the directory phase, mkstemp, and then the write loop has its arguments *)
  destruct path as [p|]; [destruct (nonempty p)|].
  1: rewrite gen_ensure_tree_equiv; destruct (ensure_tree rt p default_mode w) as [w1 [u|e|x]]; try reflexivity.
  all: destruct (rt_mkstemp rt suffix _ prefix _) as [w2 [[fd nm]|e|x]]; try reflexivity.
  all: cbv zeta; rewrite gen_wloop_equiv; equiv_auto.
Qed.

Lemma gen_loop_equiv fuel n f h :
  gen_compute_file_checksum_loop rt fuel n f h = read_loop rt fuel n f h.
Proof.
  revert f h. induction fuel as [|k IH]; intros f h; [reflexivity|].
  cbn [gen_compute_file_checksum_loop read_loop].
  repeat first [apply IH | equiv_step].
Qed.

Theorem gen_compute_file_checksum_equiv path n alg w :
  gen_compute_file_checksum rt path n alg w =
  match compute_file_checksum rt path n alg w with Some r => r | None => OExn OtherError end.
Proof.
  unfold gen_compute_file_checksum, compute_file_checksum.
  repeat first [rewrite gen_loop_equiv in * | equiv_step].
Qed.

Theorem gen_last_bytes_equiv path num w :
  gen_last_bytes rt path num w = last_bytes rt path num w.
Proof. unfold gen_last_bytes, last_bytes, tell_and_read. equiv_auto. Qed.
End Equiv.

Definition wf_fobj (f : fobj) : Prop := 0 <= f_pos f.

Lemma wf_fopen data : wf_fobj (fopen data).
Proof. unfold wf_fobj, fopen. cbn [f_pos]. lia. Qed.

Lemma frest_fopen data : frest (fopen data) = data.
Proof. unfold frest, fopen. cbn [f_pos f_data]. reflexivity. Qed.

Lemma zlen_nonneg b : 0 <= zlen b.
Proof. unfold zlen. lia. Qed.

Lemma zlen_app a b : zlen (a ++ b) = zlen a + zlen b.
Proof. unfold zlen. rewrite blen_app. lia. Qed.

Lemma zlen_nil_iff b : zlen b = 0 <-> b = [].
Proof.
  split; [|intros ->; reflexivity].
  unfold zlen. intros Hz. apply blen_0_nil. lia.
Qed.

(* what a successful read returns and where it leaves the file *)
Definition read_data (f : fobj) (n : Z) : bytes :=
  if n =? -1 then frest f else btake (Z.to_N n) (frest f).
Definition read_next (f : fobj) (n : Z) : fobj := mk_fobj (f_data f) (f_pos f + zlen (read_data f n)).

Lemma fread_ok f n : -1 <= n -> fread f n = (read_next f n, OOk (read_data f n)).
Proof.
  intros Hn. unfold fread, read_next, read_data.
  destruct (n <? -1) eqn:E; [lia|]. reflexivity.
Qed.

Lemma fread_bad f n : n < -1 -> fread f n = (f, OExn ValueError).
Proof. intros Hn. unfold fread. destruct (n <? -1) eqn:E; [reflexivity|lia]. Qed.

Lemma wf_read_next f n : wf_fobj f -> wf_fobj (read_next f n).
Proof. unfold wf_fobj, read_next. cbn [f_pos]. pose proof (zlen_nonneg (read_data f n)). lia. Qed.

(* the data read is a prefix of what was left; the rest is what is left afterwards *)
Lemma read_data_split f n : wf_fobj f -> frest f = read_data f n ++ frest (read_next f n).
Proof.
  intros Hwf. unfold wf_fobj in Hwf.
  set (d := read_data f n).
  assert (Hpre : exists t, frest f = d ++ t).
  { subst d. unfold read_data. destruct (n =? -1).
    - exists []. rewrite app_nil_r. reflexivity.
    - exists (bskip (Z.to_N n) (frest f)). symmetry. apply btake_bskip_app. }
  destruct Hpre as [t Ht].
  unfold frest at 2, read_next. fold d. cbn [f_pos f_data].
  replace (Z.to_N (f_pos f + zlen d)) with (Z.to_N (f_pos f) + blen d)%N by (unfold zlen; lia).
  rewrite <- bskip_bskip. fold (frest f). rewrite Ht at 2.
  rewrite bskip_app_ge by lia. rewrite N.sub_diag, bskip_0. exact Ht.
Qed.

Lemma read_data_nil f n : 1 <= n \/ n = -1 -> read_data f n = [] -> frest f = [].
Proof.
  intros Hn Hd. unfold read_data in Hd.
  destruct (n =? -1) eqn:E; [exact Hd|].
  assert (Hl : blen (btake (Z.to_N n) (frest f)) = 0%N) by (rewrite Hd; reflexivity).
  rewrite blen_btake in Hl. apply blen_0_nil. lia.
Qed.

Lemma read_data_end f n : frest f = [] -> read_data f n = [].
Proof. intros Hr. unfold read_data. rewrite Hr. destruct (n =? -1); [reflexivity|apply btake_nil]. Qed.

Lemma read_data_len f n : 0 <= n -> zlen (read_data f n) = Z.min n (zlen (frest f)).
Proof.
  intros Hn. unfold read_data. destruct (n =? -1) eqn:E; [lia|].
  unfold zlen. rewrite blen_btake. lia.
Qed.

(* a non-empty read leaves strictly less *)
Lemma read_next_shorter f n k : wf_fobj f -> (length (frest f) < S k)%nat -> read_data f n <> [] ->
  (length (frest (read_next f n)) < k)%nat.
Proof.
  intros Hwf Hk Hd. rewrite (read_data_split f n Hwf), app_length in Hk.
  destruct (read_data f n); [congruence|]. cbn [length] in Hk. lia.
Qed.

(* ---------- the read loop: chunks, termination, fold ---------- *)
Section Loop.
Context {W H : Type} (rt : runtime W H).

Definition proper_chunk (n : Z) : Prop := 1 <= n \/ n = -1.

(* With fuel exceeding the number of unread bytes the chunks are what was left ... *)
Lemma read_chunks_concat n : proper_chunk n -> forall fuel f,
  wf_fobj f -> (length (frest f) < fuel)%nat -> concat (read_chunks fuel n f) = frest f.
Proof.
  intros Hn. induction fuel as [|k IH]; intros f Hwf Hfuel; [lia|].
  cbn [read_chunks]. rewrite (fread_ok f n) by (destruct Hn; lia).
  destruct (beq (read_data f n) []) eqn:Ed.
  - apply beq_eq in Ed. symmetry. exact (read_data_nil f n Hn Ed).
  - assert (Hd : read_data f n <> []) by (intros E; rewrite E in Ed; discriminate).
    cbn [concat]. rewrite (IH _ (wf_read_next f n Hwf) (read_next_shorter f n k Hwf Hfuel Hd)).
    symmetry. apply read_data_split, Hwf.
Qed.

(* ... and the loop terminates normally, having fed exactly them to the hash *)
Lemma read_loop_chunks n : proper_chunk n -> forall fuel f h,
  wf_fobj f -> (length (frest f) < fuel)%nat ->
  exists f', read_loop rt fuel n f h = Some (OOk (f', fold_left (rt_update rt) (read_chunks fuel n f) h)).
Proof.
  intros Hn. induction fuel as [|k IH]; intros f h Hwf Hfuel; [lia|].
  cbn [read_loop read_chunks]. rewrite (fread_ok f n) by (destruct Hn; lia).
  destruct (beq (read_data f n) []) eqn:Ed; [eexists; reflexivity|].
  assert (Hd : read_data f n <> []) by (intros E; rewrite E in Ed; discriminate).
  apply IH; [apply wf_read_next, Hwf|exact (read_next_shorter f n k Hwf Hfuel Hd)].
Qed.

Lemma read_chunks_nonempty n fuel : forall f, Forall (fun c => c <> []) (read_chunks fuel n f).
Proof.
  induction fuel as [|k IH]; intros f; [constructor|].
  cbn [read_chunks]. destruct (fread f n) as [f1 [d|e|x]]; try constructor.
  destruct (beq d []) eqn:Ed; [constructor|].
  constructor; [intros ->; discriminate|apply IH].
Qed.

(* for a positive chunk size: no chunk is longer than it, and every chunk except
   possibly the last one is exactly that long *)
Lemma read_chunks_sizes n : 1 <= n -> forall fuel f, wf_fobj f ->
  Forall (fun c => zlen c <= n) (read_chunks fuel n f) /\
  Forall (fun c => zlen c = n) (removelast (read_chunks fuel n f)).
Proof.
  intros Hn. induction fuel as [|k IH]; intros f Hwf; [split; constructor|].
  cbn [read_chunks]. rewrite (fread_ok f n) by lia.
  destruct (beq (read_data f n) []) eqn:Ed; [split; constructor|].
  destruct (IH (read_next f n) (wf_read_next f n Hwf)) as [IH1 IH2].
  assert (Hdlen : zlen (read_data f n) = Z.min n (zlen (frest f))) by (apply read_data_len; lia).
  split; [constructor; [lia|exact IH1]|].
  (* if a further chunk follows, this one was not cut short by the end of the file *)
  destruct (read_chunks k n (read_next f n)) as [|c2 rest] eqn:Ec; [constructor|].
  change (removelast (read_data f n :: c2 :: rest)) with (read_data f n :: removelast (c2 :: rest)).
  constructor; [|exact IH2].
  destruct (Z_le_gt_dec n (zlen (frest f))) as [Hle|Hgt]; [lia|]. exfalso.
  (* everything that was left has been read: the next read is empty and ends the list *)
  assert (Hr1 : frest (read_next f n) = []).
  { pose proof (f_equal zlen (read_data_split f n Hwf)) as Hs. rewrite zlen_app in Hs.
    pose proof (zlen_nonneg (frest (read_next f n))). apply zlen_nil_iff. lia. }
  destruct k as [|k']; [discriminate Ec|].
  cbn [read_chunks] in Ec. rewrite (fread_ok _ n), (read_data_end _ n Hr1) in Ec by lia. discriminate Ec.
Qed.

End Loop.

Section Checksum.
Context {W H : Type} (rt : runtime W H).

(* CONTRACT on hashlib (tested by the harness on every algorithm): feeding a then b is
   feeding a ++ b; feeding nothing changes nothing.  (The digest is a function of the
   state: [rt_hexdigest].) *)
Record hash_contract : Prop := {
  update_app : forall h a b, rt_update rt (rt_update rt h a) b = rt_update rt h (a ++ b);
  update_nil : forall h, rt_update rt h [] = h
}.

Lemma fold_update_concat : hash_contract -> forall cs h,
  fold_left (rt_update rt) cs h = rt_update rt h (concat cs).
Proof.
  intros HC. induction cs as [|c cs IH]; intros h; cbn [fold_left concat].
  - symmetry. apply (update_nil HC).
  - rewrite IH. apply (update_app HC).
Qed.

(* the chunk list of a whole file *)
Definition file_chunks (n : Z) (data : bytes) : list bytes :=
  read_chunks (loop_fuel (fopen data)) n (fopen data).

Lemma loop_fuel_enough data : (length (frest (fopen data)) < loop_fuel (fopen data))%nat.
Proof. rewrite frest_fopen. unfold loop_fuel, fopen. cbn [f_data]. lia. Qed.

Theorem file_chunks_spec n data : proper_chunk n ->
  concat (file_chunks n data) = data /\
  Forall (fun c => c <> []) (file_chunks n data) /\
  (1 <= n -> Forall (fun c => zlen c <= n) (file_chunks n data) /\
             Forall (fun c => zlen c = n) (removelast (file_chunks n data))).
Proof.
  intros Hn. unfold file_chunks. split; [|split].
  - rewrite (read_chunks_concat n Hn _ _ (wf_fopen data) (loop_fuel_enough data)). apply frest_fopen.
  - apply read_chunks_nonempty.
  - intros H1. apply (read_chunks_sizes n H1 _ _ (wf_fopen data)).
Qed.

(* the loop as written in the source, started on a freshly opened file: it terminates
   (never [None]) and has folded [update] over [file_chunks] *)
Theorem read_loop_total n data h : proper_chunk n ->
  exists f', read_loop rt (loop_fuel (fopen data)) n (fopen data) h
             = Some (OOk (f', fold_left (rt_update rt) (file_chunks n data) h)).
Proof.
  intros Hn.
  apply (read_loop_chunks rt n Hn _ (fopen data) h (wf_fopen data) (loop_fuel_enough data)).
Qed.

(* MAIN: for every content and every chunk size >= 1 (or -1 = "read everything"), the
   checksum is the digest of one update with the whole content *)
Theorem checksum_chunking_independent :
  hash_contract ->
  forall path n alg w data h0,
    proper_chunk n ->
    rt_hash_new rt alg = OOk h0 ->
    rt_open_rb rt path w = OOk data ->
    compute_file_checksum rt path n alg w = Some (rt_hexdigest rt (rt_update rt h0 data)).
Proof.
  intros HC path n alg w data h0 Hn Hnew Hopen.
  unfold compute_file_checksum. rewrite Hnew, Hopen.
  destruct (read_loop_total n data h0 Hn) as [f' Hrun]. rewrite Hrun.
  rewrite (fold_update_concat HC).
  destruct (file_chunks_spec n data Hn) as [Hcat _]. rewrite Hcat. reflexivity.
Qed.

End Checksum.

Section LastBytes.
Context {W H : Type} (rt : runtime W H).

Lemma fits_off_iff z : fits_off z = true <-> off_min <= z <= off_max.
Proof. unfold fits_off. rewrite andb_true_iff, !Z.leb_le. reflexivity. Qed.

Lemma seek_end_whence : (os_SEEK_END =? os_SEEK_SET) = false /\ (os_SEEK_END =? os_SEEK_CUR) = false.
Proof. split; reflexivity. Qed.

Lemma fseek_end (f : fobj) (off : Z) : off_min <= off <= off_max ->
  fseek f off os_SEEK_END =
  if fsize f + off <? 0 then (f, OErr (std_oserror errno_EINVAL))
  else (mk_fobj (f_data f) (fsize f + off), OOk (fsize f + off)).
Proof.
  intros Hoff. unfold fseek.
  replace (fits_off off) with true by (symmetry; apply fits_off_iff; exact Hoff).
  cbn [negb]. destruct seek_end_whence as [E1 E2]. rewrite E1, E2, Z.eqb_refl. reflexivity.
Qed.

Lemma fseek_set0 (f : fobj) : fseek f 0 os_SEEK_SET = (mk_fobj (f_data f) 0, OOk 0).
Proof. unfold fseek. cbn [fits_off]. rewrite Z.eqb_refl. reflexivity. Qed.

Lemma tell_and_read_spec data p : 0 <= p ->
  tell_and_read (mk_fobj data p) = OOk (bskip (Z.to_N p) data, p).
Proof.
  intros Hp. unfold tell_and_read, ftell. rewrite fread_ok by lia.
  unfold read_data, frest. cbn [f_pos f_data Z.eqb]. reflexivity.
Qed.

(* MAIN: for every content and every num with 0 <= num <= 2^63: the final
   min(num, size) bytes, and the number of bytes that precede them *)
Theorem last_bytes_spec path num w data :
  rt_open_rb rt path w = OOk data ->
  0 <= num <= - off_min ->
  let k := Z.min num (zlen data) in
  last_bytes rt path num w = OOk (bskip (Z.to_N (zlen data - k)) data, zlen data - k).
Proof.
  intros Hopen Hnum k. unfold last_bytes. rewrite Hopen.
  rewrite fseek_end by (unfold off_min, off_max in *; lia).
  unfold fsize, fopen. cbn [f_data f_pos].
  destruct (zlen data + - num <? 0) eqn:E.
  - (* num > size: seek fails with EINVAL, the handler goes to the start *)
    cbn [os_errno std_oserror]. rewrite Z.eqb_refl. rewrite fseek_set0. cbn [f_data].
    rewrite tell_and_read_spec by lia.
    subst k. replace (Z.min num (zlen data)) with (zlen data) by lia.
    rewrite Z.sub_diag. reflexivity.
  - rewrite tell_and_read_spec by lia.
    subst k. replace (Z.min num (zlen data)) with num by lia.
    replace (zlen data + - num) with (zlen data - num) by lia. reflexivity.
Qed.

End LastBytes.

Section Filters.
Context {W H : Type} (rt : runtime W H).

(* MAIN: for EVERY outcome of os.makedirs — in particular for every OSError instance e,
   whatever its class (OSError, a builtin subclass, a user-defined subclass) and whatever its
   errno — ensure_tree succeeds exactly when makedirs succeeded, or failed with
   errno = EEXIST while the path is a directory; every other error is re-raised unchanged (the
   same instance: same class, same errno); the world is the one makedirs left.  Only the errno
   attribute is looked at. *)
Theorem ensure_tree_errno_filter path mode w w1 r :
  rt_makedirs rt path mode w = (w1, r) ->
  (forall u, r = OOk u -> ensure_tree rt path mode w = (w1, OOk tt)) /\
  (forall e, r = OErr e -> os_errno e = errno_EEXIST -> rt_isdir rt path w1 = true ->
             ensure_tree rt path mode w = (w1, OOk tt)) /\
  (forall e, r = OErr e -> os_errno e = errno_EEXIST -> rt_isdir rt path w1 = false ->
             ensure_tree rt path mode w = (w1, OErr e)) /\
  (forall e, r = OErr e -> os_errno e <> errno_EEXIST -> ensure_tree rt path mode w = (w1, OErr e)) /\
  (forall x, r = OExn x -> ensure_tree rt path mode w = (w1, OExn x)).
Proof.
  intros Hmk. unfold ensure_tree. rewrite Hmk.
  split; [|split; [|split; [|split]]].
  - intros u ->. reflexivity.
  - intros e -> He Hd. rewrite He, Z.eqb_refl, Hd. reflexivity.
  - intros e -> He Hd. rewrite He, Z.eqb_refl, Hd. reflexivity.
  - intros e -> Hne. replace (os_errno e =? errno_EEXIST) with false by (symmetry; apply Z.eqb_neq; exact Hne). reflexivity.
  - intros x ->. reflexivity.
Qed.

(* the same as a single equation *)
Corollary ensure_tree_outcome path mode w :
  ensure_tree rt path mode w =
  let (w1, r) := rt_makedirs rt path mode w in
  (w1, match r with
       | OOk _ => OOk tt
       | OErr e => if (os_errno e =? errno_EEXIST) && rt_isdir rt path w1 then OOk tt else OErr e
       | OExn x => OExn x
       end).
Proof. unfold ensure_tree. destruct (rt_makedirs rt path mode w) as [w1 [u|e|x]]; try reflexivity.
  destruct ((os_errno e =? errno_EEXIST) && rt_isdir rt path w1); reflexivity. Qed.

(* MAIN: for EVERY outcome of the remove callable — every OSError instance e of whatever class,
   every errno — delete_if_exists succeeds exactly when remove succeeded or failed with
   errno = ENOENT; every other error is re-raised unchanged; remove is called once and nothing
   else happens.  Only the errno attribute is looked at. *)
Theorem delete_if_exists_errno_filter (remove : bytes -> W -> W * ores unit) path w w1 r :
  remove path w = (w1, r) ->
  (forall u, r = OOk u -> delete_if_exists path remove w = (w1, OOk tt)) /\
  (forall e, r = OErr e -> os_errno e = errno_ENOENT -> delete_if_exists path remove w = (w1, OOk tt)) /\
  (forall e, r = OErr e -> os_errno e <> errno_ENOENT -> delete_if_exists path remove w = (w1, OErr e)) /\
  (forall x, r = OExn x -> delete_if_exists path remove w = (w1, OExn x)).
Proof.
  intros Hrm. unfold delete_if_exists. rewrite Hrm.
  split; [|split; [|split]].
  - intros u ->. reflexivity.
  - intros e -> He. rewrite He, Z.eqb_refl. reflexivity.
  - intros e -> Hne. replace (os_errno e =? errno_ENOENT) with false by (symmetry; apply Z.eqb_neq; exact Hne). reflexivity.
  - intros x ->. reflexivity.
Qed.

End Filters.

Lemma zlen_zero_nil view : (zlen view =? 0) = true -> view = [].
Proof. intros Hz. apply Z.eqb_eq in Hz. apply zlen_nil_iff. exact Hz. Qed.

Lemma zlen_nonzero view : (zlen view =? 0) = false -> view <> [].
Proof. intros Hz ->. discriminate Hz. Qed.

Lemma length_bskip_lt n view k : 1 <= n -> (length view < S k)%nat -> view <> [] ->
  (length (bskip (Z.to_N n) view) < k)%nat.
Proof.
  intros Hn Hlen Hne. pose proof (blen_bskip (Z.to_N n) view) as Hb. unfold blen in Hb.
  destruct view; [congruence|]. cbn [length] in *. lia.
Qed.

(* the write loop never runs out of fuel (its default is unreachable) on any runtime whose
   write, when it returns a count for a non-empty buffer, transfers at least one byte *)
Theorem write_loop_total {W H : Type} (rt : runtime W H) :
  (forall fd c w w' n, rt_write rt fd c w = (w', OOk n) -> c <> [] -> 1 <= n <= zlen c) ->
  forall fuel fd view w, (length view < fuel)%nat -> exists r, write_loop rt fuel fd view w = Some r.
Proof.
  intros Hprog. induction fuel as [|k IH]; intros fd view w Hlen; [lia|].
  cbn [write_loop]. destruct (zlen view =? 0) eqn:Ez; [eexists; reflexivity|].
  pose proof (zlen_nonzero view Ez) as Hne.
  destruct (rt_write rt fd view w) as [w1 [n|e|x]] eqn:Hw; try (eexists; reflexivity).
  destruct (Hprog _ _ _ _ _ Hw Hne) as [Hn1 Hn2].
  rewrite zslice_from by lia. apply IH. apply length_bskip_lt; assumption.
Qed.

(* ---------- the file-system contract; idempotence; write_to_tempfile ---------- *)
Section FSContract.
Context {W H K : Type} (rt : runtime W H).
(* observations used to STATE the contract and the theorems:
   [key p]       the file-system object a path string denotes
   [look k w]    what is there in world w: nothing, a directory, a regular file + content
   [fd_key fd w] the object an open descriptor refers to
   [tmpdir]      the directory mkstemp uses when dir is None *)
Variable key : bytes -> K.
Variable look : K -> W -> option node.
Variable fd_key : Z -> W -> option K.
Variable tmpdir : bytes.

(* CONTRACT on os / tempfile (each clause is tested by the harness on the real calls) *)
Record fs_contract : Prop := {
  isdir_look : forall p w, rt_isdir rt p w = true <-> look (key p) w = Some NDir;
  (* makedirs: on success the path is a directory; it never removes or alters anything *)
  makedirs_ok : forall p m w w', rt_makedirs rt p m w = (w', OOk tt) -> look (key p) w' = Some NDir;
  makedirs_keeps : forall p m w w' r, rt_makedirs rt p m w = (w', r) ->
      forall k n, look k w = Some n -> look k w' = Some n;
  (* ... and on something that exists (file or directory) it fails with EEXIST, changing nothing *)
  makedirs_exists : forall p m w n, look (key p) w = Some n ->
      exists e, rt_makedirs rt p m w = (w, OErr e) /\ os_errno e = errno_EEXIST;
  (* unlink: on success the path is gone, nothing else changed, and a second unlink
     reports ENOENT; a failed unlink changes nothing; ENOENT means there was nothing *)
  unlink_ok : forall p w w', rt_unlink rt p w = (w', OOk tt) ->
      look (key p) w' = None /\ (forall k, k <> key p -> look k w' = look k w) /\
      (exists e, rt_unlink rt p w' = (w', OErr e) /\ os_errno e = errno_ENOENT);
  unlink_err : forall p w w' e, rt_unlink rt p w = (w', OErr e) -> w' = w;
  unlink_enoent : forall p w w' e, rt_unlink rt p w = (w', OErr e) -> os_errno e = errno_ENOENT -> look (key p) w = None;
  (* mkstemp: a name that did not exist, now an empty regular file, open on the returned
     descriptor, inside the requested directory, with the requested prefix and suffix *)
  mkstemp_ok : forall s d pre w w' fd p, rt_mkstemp rt s d pre w = (w', OOk (fd, p)) ->
      look (key p) w = None /\ look (key p) w' = Some (NFile []) /\ fd_key fd w' = Some (key p) /\
      (forall k, k <> key p -> look k w' = look k w) /\
      (exists tag, p = (match d with Some x => x | None => tmpdir end) ++ [47%N] ++ pre ++ tag ++ s);
  (* write: PROGRESS — a write of a non-empty buffer that returns at all transfers at least
     one byte and at most the buffer (it may be short: Linux caps one write(2) at
     0x7ffff000 bytes); on a descriptor of a regular file it appends the transferred prefix *)
  write_progress : forall fd c w w' n, rt_write rt fd c w = (w', OOk n) -> c <> [] -> 1 <= n <= zlen c;
  write_appends : forall fd k c old w, fd_key fd w = Some k -> look k w = Some (NFile old) -> c <> [] ->
      exists w' n, rt_write rt fd c w = (w', OOk n) /\
                   look k w' = Some (NFile (old ++ btake (Z.to_N n) c)) /\
                   (forall k', k' <> k -> look k' w' = look k' w) /\ fd_key fd w' = Some k;
  close_ok : forall fd k w, fd_key fd w = Some k ->
      exists w', rt_close rt fd w = (w', OOk tt) /\ (forall k', look k' w' = look k' w);
  open_look : forall p w c, rt_open_rb rt p w = OOk c <-> look (key p) w = Some (NFile c)
}.

Hypothesis HC : fs_contract.

Theorem ensure_tree_already_done path mode w :
  look (key path) w = Some NDir -> ensure_tree rt path mode w = (w, OOk tt).
Proof.
  intros Hd. unfold ensure_tree. destruct (makedirs_exists HC path mode w NDir Hd) as [e [Hmk He]].
  rewrite Hmk, He, Z.eqb_refl. replace (rt_isdir rt path w) with true by (symmetry; apply (isdir_look HC); exact Hd).
  reflexivity.
Qed.

Theorem ensure_tree_post path mode w w' :
  ensure_tree rt path mode w = (w', OOk tt) ->
  look (key path) w' = Some NDir /\ (forall k n, look k w = Some n -> look k w' = Some n).
Proof.
  unfold ensure_tree. destruct (rt_makedirs rt path mode w) as [w1 r] eqn:Hmk.
  pose proof (makedirs_keeps HC path mode w w1 r Hmk) as Hkeep.
  destruct r as [u|e|x].
  - intros Heq. injection Heq as <-. destruct u. split; [apply (makedirs_ok HC _ _ _ _ Hmk)|exact Hkeep].
  - destruct ((os_errno e =? errno_EEXIST) && rt_isdir rt path w1) eqn:Ec; intros Heq; [|discriminate].
    injection Heq as <-. apply andb_true_iff in Ec. destruct Ec as [_ Ed].
    split; [apply (isdir_look HC); exact Ed|exact Hkeep].
  - intros Heq. discriminate.
Qed.

Theorem ensure_tree_idempotent path mode w w' :
  ensure_tree rt path mode w = (w', OOk tt) -> ensure_tree rt path mode w' = (w', OOk tt).
Proof.
  intros Hrun. apply ensure_tree_already_done.
  destruct (ensure_tree_post _ _ _ _ Hrun) as [Hd _]. exact Hd.
Qed.

(* --- delete_if_exists with the default remove (os.unlink) --- *)
(* success of delete_if_exists: the removal succeeded, or reported ENOENT *)
Lemma delete_if_exists_ok (remove : bytes -> W -> W * ores unit) path w w' :
  delete_if_exists path remove w = (w', OOk tt) ->
  remove path w = (w', OOk tt) \/ exists e, remove path w = (w', OErr e) /\ os_errno e = errno_ENOENT.
Proof.
  unfold delete_if_exists. destruct (remove path w) as [w1 [[]|e|x]]; [intros [= <-]; auto| |discriminate].
  destruct (os_errno e =? errno_ENOENT) eqn:Ee; intros [= <-]; right. exists e. split; [reflexivity|lia].
Qed.

Theorem delete_if_exists_post path w w' :
  delete_if_exists path (rt_unlink rt) w = (w', OOk tt) ->
  look (key path) w' = None /\ (forall k, k <> key path -> look k w' = look k w).
Proof.
  intros Hrun. destruct (delete_if_exists_ok _ _ _ _ Hrun) as [Hrm|[e [Hrm He]]].
  - destruct (unlink_ok HC _ _ _ Hrm) as [Hgone [Hframe _]]. split; assumption.
  - pose proof (unlink_err HC _ _ _ _ Hrm) as ->. split; [apply (unlink_enoent HC _ _ _ _ Hrm He)|reflexivity].
Qed.

Theorem delete_if_exists_idempotent path w w' :
  delete_if_exists path (rt_unlink rt) w = (w', OOk tt) ->
  delete_if_exists path (rt_unlink rt) w' = (w', OOk tt).
Proof.
  intros Hrun. unfold delete_if_exists. destruct (delete_if_exists_ok _ _ _ _ Hrun) as [Hrm|[e [Hrm He]]].
  - destruct (unlink_ok HC _ _ _ Hrm) as [_ [_ [e2 [Hagain He2]]]]. rewrite Hagain, He2, Z.eqb_refl. reflexivity.
  - pose proof (unlink_err HC _ _ _ _ Hrm) as ->. rewrite Hrm, He, Z.eqb_refl. reflexivity.
Qed.

(* on an open descriptor of a regular file the loop ends normally with everything appended,
   however short the individual writes were *)
Lemma write_loop_ok : forall fuel fd k view old w,
  fd_key fd w = Some k -> look k w = Some (NFile old) -> (length view < fuel)%nat ->
  exists w', write_loop rt fuel fd view w = Some (w', OOk tt) /\ look k w' = Some (NFile (old ++ view)) /\
             (forall k', k' <> k -> look k' w' = look k' w) /\ fd_key fd w' = Some k.
Proof.
  induction fuel as [|m IH]; intros fd k view old w Hfd Hold Hlen; [lia|].
  cbn [write_loop]. destruct (zlen view =? 0) eqn:Ez.
  - apply zlen_zero_nil in Ez. subst view. exists w. rewrite app_nil_r. auto.
  - pose proof (zlen_nonzero view Ez) as Hne.
    destruct (write_appends HC fd k view old w Hfd Hold Hne) as [w1 [n [Hw [Hl1 [Hfr1 Hfd1]]]]].
    destruct (write_progress HC _ _ _ _ _ Hw Hne) as [Hn1 Hn2].
    rewrite Hw. rewrite zslice_from by lia.
    destruct (IH fd k (bskip (Z.to_N n) view) (old ++ btake (Z.to_N n) view) w1 Hfd1 Hl1
                 (length_bskip_lt n view m Hn1 Hlen Hne)) as [w' [Hrun [Hl' [Hfr' Hfd']]]].
    exists w'. split; [exact Hrun|]. split; [|split; [|exact Hfd']].
    + rewrite Hl'. rewrite <- app_assoc, btake_bskip_app. reflexivity.
    + intros k' Hk'. rewrite (Hfr' k' Hk'). apply Hfr1. exact Hk'.
Qed.

Lemma write_and_close_ok fd k c w2 :
  fd_key fd w2 = Some k -> look k w2 = Some (NFile []) ->
  exists w4, write_and_close rt fd c w2 = (w4, OOk tt) /\ look k w4 = Some (NFile c) /\
             (forall k', k' <> k -> look k' w4 = look k' w2).
Proof.
  intros Hfd Hempty.
  destruct (write_loop_ok (S (length c)) fd k c [] w2 Hfd Hempty) as [w3 [Hw [Hc [Hframe Hfd3]]]]; [lia|].
  destruct (close_ok HC fd k w3 Hfd3) as [w4 [Hcl Hsame]].
  exists w4. unfold write_and_close, write_all. rewrite Hw, Hcl.
  split; [reflexivity|]. split.
  - rewrite Hsame. exact Hc.
  - intros k' Hk'. rewrite Hsame. apply Hframe. exact Hk'.
Qed.

Definition tempfile_dir (path : option bytes) : bytes :=
  match path with Some x => x | None => tmpdir end.

(* MAIN: whenever write_to_tempfile returns a name,
   (1) nothing existed under that name before (it is distinct from every existing file),
   (2) it is now a regular file holding exactly the content,
   (3) it lies in the requested directory (or the default one) and carries prefix and suffix,
   (4) if a non-empty path was given, that path is a directory afterwards, and it was made
       one (ensure_tree) BEFORE mkstemp ran,
   (5) everything that existed before is still there, unchanged. *)
Theorem write_to_tempfile_spec content path suffix prefix w w' name :
  write_to_tempfile rt content path suffix prefix w = (w', OOk name) ->
  look (key name) w = None /\
  look (key name) w' = Some (NFile content) /\
  (exists tag, name = tempfile_dir path ++ [47%N] ++ prefix ++ tag ++ suffix) /\
  (forall p, path = Some p -> nonempty p = true ->
     look (key p) w' = Some NDir /\
     exists w1 w2 fd, ensure_tree rt p default_mode w = (w1, OOk tt) /\
                      rt_mkstemp rt suffix path prefix w1 = (w2, OOk (fd, name))) /\
  (forall k n, look k w = Some n -> look k w' = Some n).
Proof.
  unfold write_to_tempfile.
  set (pre := match path with
              | Some p => if nonempty p then ensure_tree rt p default_mode w else (w, OOk tt)
              | None => (w, OOk tt) end).
  destruct pre as [w1 r1] eqn:Hpre.
  destruct r1 as [u|e|x]; [|intros Heq; discriminate|intros Heq; discriminate].
  (* facts about the first phase *)
  assert (Hkeep1 : forall k n, look k w = Some n -> look k w1 = Some n).
  { subst pre. destruct path as [p|]; [destruct (nonempty p)|].
    - destruct u. destruct (ensure_tree_post _ _ _ _ Hpre) as [_ Hk]. exact Hk.
    - injection Hpre as <- _. auto.
    - injection Hpre as <- _. auto. }
  assert (Hdir1 : forall p, path = Some p -> nonempty p = true ->
                  look (key p) w1 = Some NDir /\ ensure_tree rt p default_mode w = (w1, OOk tt)).
  { intros p -> Hp. subst pre. rewrite Hp in Hpre. destruct u.
    split; [destruct (ensure_tree_post _ _ _ _ Hpre) as [Hd _]; exact Hd|exact Hpre]. }
  destruct (rt_mkstemp rt suffix path prefix w1) as [w2 [[fd nm]|e|x]] eqn:Hmk;
    [|intros Heq; discriminate|intros Heq; discriminate].
  destruct (mkstemp_ok HC _ _ _ _ _ _ _ Hmk) as [Hfresh [Hempty [Hfd [Hframe2 Hname]]]].
  destruct (write_and_close_ok fd (key nm) content w2 Hfd Hempty) as [w4 [Hwc [Hcontent Hframe4]]].
  rewrite Hwc. intros Heq. injection Heq as <- <-.
  assert (Hkeep : forall k n, look k w1 = Some n -> look k w4 = Some n).
  { intros k n Hk. assert (Hne : k <> key nm) by (intros ->; congruence).
    rewrite (Hframe4 k Hne), (Hframe2 k Hne). exact Hk. }
  split; [|split; [|split; [|split]]].
  - destruct (look (key nm) w) as [n|] eqn:El; [|reflexivity].
    apply Hkeep1 in El. congruence.
  - exact Hcontent.
  - exact Hname.
  - intros p Hp Hne. destruct (Hdir1 p Hp Hne) as [Hd He]. split.
    + apply Hkeep. exact Hd.
    + exists w1, w2, fd. split; [exact He|exact Hmk].
  - intros k n Hk. apply Hkeep, Hkeep1. exact Hk.
Qed.

End FSContract.
