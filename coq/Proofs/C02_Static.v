(* Proofs/C02_Static.v — the static formats without private attributes: for EVERY chunk list the run ends in
   Insp_All.spec_unit of the concatenated bytes, and safety_check() on it is characterised on the bytes. *)
Require Import OV.Base.Bytes OV.Base.Py OV.Base.Insp_Struct OV.Gen.Insp_Consts OV.Model.Insp_Engine.
Require Import OV.Model.Insp_Raw OV.Model.Insp_Qcow2 OV.Model.Insp_Qed OV.Model.Insp_Vhd OV.Model.Insp_Vdi
               OV.Model.Insp_Iso OV.Model.Insp_Gpt OV.Model.Insp_Luks OV.Model.Insp_Vhdx OV.Model.Insp_Vmdk OV.Model.Insp_All.
Require Import OV.Proofs.Insp_Static OV.Proofs.Insp_All.
Require Import OV.Model.C02 OV.Proofs.C02_Engine OV.Proofs.C02_Bytes.
Open Scope N_scope.

Lemma rcomplete_slice id off len b :
  rcomplete (mkRegion id false off len None (bslice off len b) false) = (len <=? blen b - off).
Proof. rewrite fill_complete. lia. Qed.

(* an inspector whose only region is [0, len) *)
Lemma complete_header {X} pos n id len b k fin checks (x : X) :
  Insp_Engine.complete (mkIst pos [(n, mkRegion id false 0 len None (bslice 0 len b) false)] k fin checks x)
  = (len <=? blen b).
Proof. unfold Insp_Engine.complete. cbn [i_regs forallb snd]. rewrite rcomplete_slice. lia. Qed.

Lemma unpack_slice f o l b : l = sf_size f -> o + l <= blen b -> unpack f (bslice o l b) = Ok (bslice o l b).
Proof. intros -> H. apply unpack_ok. apply blen_bslice_full. exact H. Qed.

Ltac slices :=
  repeat first [rewrite nsub_bslice | rewrite ntake_bslice | rewrite bslice_bslice by lia].

Lemma null_check_only {X} (F : fmt X) (s : ist X) :
  i_checks s = [K_null] -> f_check F K_null s = Ok tt ->
  ((forall c, In c (i_checks s) -> f_check F c s = Ok tt) <-> true = true).
Proof. intros Hc H. split; [reflexivity|]. intros _. apply (single_check_iff F s K_null Hc). exact H. Qed.

Theorem raw_pass cs : safety (fst (Insp_All.run F_raw cs)) = Pass.
Proof.
  rewrite run_unit by reflexivity. cbn [fst spec_unit safety ufmt].
  apply safety_pass_iff. split; [reflexivity|]. split; [reflexivity|].
  apply (null_check_only raw_fmt); reflexivity.
Qed.

(* ---------- QED: banned ---------- *)
(* any QED inspector object whatsoever: the banned check is registered by _initialize and checks only grow *)
Lemma qed_state_never_passes (s : ist unit) : In K_banned (i_checks s) -> safety_check qed_fmt s <> Pass.
Proof. intros Hin. apply (check_exception_fails qed_fmt s K_banned SafetyViolation Hin). reflexivity. Qed.

Theorem qed_never_passes cs : safety (fst (Insp_All.run F_qed cs)) <> Pass.
Proof.
  rewrite run_unit by reflexivity. cbn [fst spec_unit safety ufmt].
  apply qed_state_never_passes. left. reflexivity.
Qed.

Lemma vhd_state b fin :
  ideal vhd_fmt b fin tt
  = mkIst (blen b) [(R_header, mkRegion 0 false 0 512 None (bslice 0 512 b) false)] 1 fin [K_null] tt.
Proof. reflexivity. Qed.

Theorem vhd_pass_okb cs :
  safety (fst (Insp_All.run F_vhd cs)) = Pass <-> vhd_okb (concat cs) = true.
Proof.
  rewrite run_unit by reflexivity. cbn [fst spec_unit safety ufmt]. set (b := concat cs). rewrite vhd_state.
  rewrite (safety_pass_staged vhd_fmt _ (beq (bslice 0 8 b) vhd_magic) true).
  - rewrite complete_header, andb_true_r. reflexivity.
  - intros _. cbn [f_match vhd_fmt vhd_match get_region i_regs rget rname_beq bind r_data].
    rewrite prefixb_bslice by (vm_compute; discriminate). reflexivity.
  - intros _ _. apply null_check_only; reflexivity.
Qed.

Lemma vhd_okb_iff b : vhd_okb b = true <-> vhd_ok b.
Proof. unfold vhd_okb, vhd_ok. rewrite !andb_true_iff, beq_eq, N.leb_le. tauto. Qed.
Theorem vhd_pass_iff cs :
  safety (fst (Insp_All.run F_vhd cs)) = Pass <-> vhd_ok (concat cs).
Proof. rewrite vhd_pass_okb. apply vhd_okb_iff. Qed.

Lemma vdi_state b fin :
  ideal vdi_fmt b fin tt
  = mkIst (blen b) [(R_header, mkRegion 0 false 0 512 None (bslice 0 512 b) false)] 1 fin [K_null] tt.
Proof. reflexivity. Qed.

Theorem vdi_pass_okb cs :
  safety (fst (Insp_All.run F_vdi cs)) = Pass <-> vdi_okb (concat cs) = true.
Proof.
  rewrite run_unit by reflexivity. cbn [fst spec_unit safety ufmt]. set (b := concat cs). rewrite vdi_state.
  rewrite (safety_pass_staged vdi_fmt _ (le_at 64 4 b =? 3201962111) true).
  - rewrite complete_header, andb_true_r. reflexivity.
  - rewrite complete_header. intros Hl.
    cbn [f_match vdi_fmt vdi_match get_region i_regs rget rname_beq bind r_data].
    rewrite rcomplete_slice, N.sub_0_r, Hl. cbn [negb]. apply N.leb_le in Hl.
    unfold VDI_SIG_LO, VDI_SIG_HI. slices. change (68 - 64) with 4. change (0 + 64) with 64.
    rewrite unpack_slice by (try reflexivity; lia). cbn [bind].
    change (sint sf_vdi_sig 0 (bslice 64 4 b)) with (le_val (bslice 0 4 (bslice 64 4 b))).
    slices. reflexivity.
  - intros _ _. apply null_check_only; reflexivity.
Qed.

Lemma vdi_okb_iff b : vdi_okb b = true <-> vdi_ok b.
Proof. unfold vdi_okb, vdi_ok. rewrite !andb_true_iff, N.leb_le, N.eqb_eq. tauto. Qed.
Theorem vdi_pass_iff cs :
  safety (fst (Insp_All.run F_vdi cs)) = Pass <-> vdi_ok (concat cs).
Proof. rewrite vdi_pass_okb. apply vdi_okb_iff. Qed.

Lemma iso_state b fin :
  ideal iso_fmt b fin tt
  = mkIst (blen b) [(R_system_area, mkRegion 0 false 0 32768 None (bslice 0 32768 b) false);
                    (R_header, mkRegion 1 false 32768 2048 None (bslice 32768 2048 b) false)] 2 fin [K_null] tt.
Proof. reflexivity. Qed.

Theorem iso_pass_okb cs :
  safety (fst (Insp_All.run F_iso cs)) = Pass <-> iso_okb (concat cs) = true.
Proof.
  rewrite run_unit by reflexivity. cbn [fst spec_unit safety ufmt]. set (b := concat cs). rewrite iso_state.
  match goal with |- safety_check _ ?s = _ <-> _ =>
    assert (Hc : Insp_Engine.complete s = (34816 <=? blen b))
      by (unfold Insp_Engine.complete; cbn [i_regs forallb snd]; rewrite !rcomplete_slice; lia) end.
  rewrite (safety_pass_staged iso_fmt _ (mem_str (bslice 32769 5 b) iso_idents) true).
  - rewrite Hc, andb_true_r. reflexivity.
  - intros Hl. cbn [f_match iso_fmt]. unfold iso_match. rewrite Hl. cbn [negb].
    cbn [get_region i_regs rget rname_beq bind r_data].
    unfold ISO_SIG_LO, ISO_SIG_HI. slices. reflexivity.
  - intros _ _. apply null_check_only; reflexivity.
Qed.

Lemma iso_okb_iff b : iso_okb b = true <-> iso_ok b.
Proof. unfold iso_okb, iso_ok. rewrite !andb_true_iff, mem_str_In, N.leb_le. tauto. Qed.
Theorem iso_pass_iff cs :
  safety (fst (Insp_All.run F_iso cs)) = Pass <-> iso_ok (concat cs).
Proof. rewrite iso_pass_okb. apply iso_okb_iff. Qed.

Lemma luks_state b fin :
  ideal luks_fmt b fin tt
  = mkIst (blen b) [(R_header, mkRegion 0 false 0 592 None (bslice 0 592 b) false)] 1 fin [K_version] tt.
Proof. reflexivity. Qed.

Theorem luks_pass_okb cs :
  safety (fst (Insp_All.run F_luks cs)) = Pass <-> luks_safeb (concat cs) = true.
Proof.
  rewrite run_unit by reflexivity. cbn [fst spec_unit safety ufmt]. set (b := concat cs). rewrite luks_state.
  rewrite (safety_pass_staged luks_fmt _ (beq (bslice 0 6 b) luks_magic) (be_at 6 2 b =? 1)).
  - rewrite complete_header. reflexivity.
  - intros _. cbn [f_match luks_fmt luks_match get_region i_regs rget rname_beq bind r_data].
    unfold LUKS_MAGIC_TAKE. slices. reflexivity.
  - rewrite complete_header. intros Hl _. apply N.leb_le in Hl.
    etransitivity; [apply single_check_iff; reflexivity|]. rewrite <- if_ok_iff.
    cbn [f_check luks_fmt luks_check]. unfold luks_check_version, luks_header_items.
    cbn [get_region i_regs rget rname_beq bind r_data].
    unfold LUKS_HDR_SLICE. slices. change (0 + 0) with 0.
    rewrite unpack_slice by (try reflexivity; lia). cbn [bind].
    change (sint sf_luks_hdr 1 (bslice 0 108 b)) with (be_val (bslice 6 2 (bslice 0 108 b))).
    slices. reflexivity.
Qed.

Lemma luks_safeb_iff b : luks_safeb b = true <-> luks_safe b.
Proof. unfold luks_safeb, luks_safe. rewrite !andb_true_iff, beq_eq, N.leb_le, N.eqb_eq. tauto. Qed.
Theorem luks_pass_iff cs :
  safety (fst (Insp_All.run F_luks cs)) = Pass <-> luks_safe (concat cs).
Proof. rewrite luks_pass_okb. apply luks_safeb_iff. Qed.

(* a static inspector fed less than one of its regions is refused, whatever the bytes are (no StructError
   can escape): it is not complete *)
Theorem static_short_refused f cs : is_static f = true ->
  forallb (fun p => (rs_off (snd p) + rs_len (snd p) <=? blen (concat cs)) || (rs_len (snd p) =? 0)) (init_regions f) = false ->
  safety (fst (Insp_All.run f cs)) = Refused.
Proof.
  intros Hs Hc. rewrite (static_inspector_refines_spec_state f cs Hs).
  destruct f; try discriminate; cbn [fst spec_state spec_unit safety]; apply safety_incomplete_refused;
    unfold Insp_Engine.complete, ideal; cbn [i_regs]; rewrite fill_regs_complete; exact Hc.
Qed.

Theorem luks_short_refused cs : blen (concat cs) < 592 -> safety (fst (Insp_All.run F_luks cs)) = Refused.
Proof. intros H. apply static_short_refused; [reflexivity|]. cbn [init_regions forallb snd rs_off rs_len]. lia. Qed.
