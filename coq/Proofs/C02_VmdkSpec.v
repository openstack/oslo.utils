(* Proofs/C02_VmdkSpec.v — the executable sparse-VMDK predicate is the declarative one, and it decides acceptance *)
Require Import OV.Base.Bytes OV.Base.Py OV.Base.PyInt OV.Base.Str OV.Base.Insp_Struct OV.Gen.Insp_Consts OV.Model.Insp_Engine.
Require Import OV.Model.Insp_Vmdk OV.Model.Insp_All.
Require Import OV.Model.C02 OV.Proofs.C02_Vmdk OV.Proofs.C02_VmdkRun.
Open Scope N_scope.

Lemma descriptor_okb_iff x : descriptor_okb x = true <-> descriptor_ok x.
Proof.
  unfold descriptor_okb. rewrite <- (check_descriptor_iff (mkIst 0 [] 0%nat false [] x)).
  destruct (vmdk_check_descriptor _) as [[]|e]; split; intros H; try reflexivity; discriminate H.
Qed.

Lemma andb_iff (c d : bool) (P Q : Prop) : (c = true <-> P) -> (d = true <-> Q) -> (c && d = true <-> P /\ Q).
Proof. intros HP HQ. rewrite andb_true_iff, HP, HQ. reflexivity. Qed.

Lemma footer_okb_iff hdr foot : footer_okb hdr foot = true <-> footer_ok hdr foot.
Proof.
  unfold footer_okb, footer_ok. cbn zeta. generalize (zeros 496). intros pad.
  rewrite <- !andb_assoc.
  apply andb_iff; [apply N.eqb_eq|]. apply andb_iff; [apply beq_eq|]. apply andb_iff; [apply N.eqb_eq|]. apply andb_iff; [apply N.eqb_eq|].
  apply andb_iff; [apply N.eqb_eq|]. apply andb_iff; [rewrite negb_true_iff; apply N.eqb_neq|].
  apply andb_iff; [apply N.eqb_eq|]. apply andb_iff; [apply N.eqb_eq|]. apply andb_iff; [apply beq_eq|].
  apply andb_iff; [apply N.eqb_eq|]. apply andb_iff; [apply N.eqb_eq|]. apply andb_iff; [apply N.eqb_eq|]. apply beq_eq.
Qed.

Theorem vmdk_sparse_safeb_correct cs v :
  vmdk_sparse_safeb (concat cs) = Some v -> (accepted (Insp_All.run F_vmdk cs) = true <-> v = true).
Proof.
  set (b := concat cs). unfold vmdk_sparse_safeb. fold b.
  destruct ((64 <=? blen b) && beq (vmdk_sig b) VMDK_MAGIC_PP && ((vmdk_ver b =? 1) || (vmdk_ver b =? 2) || (vmdk_ver b =? 3))) eqn:Hz; [|discriminate].
  apply andb_true_iff in Hz. destruct Hz as [Hz Hver]. apply andb_true_iff in Hz. destruct Hz as [Hlen Hsig].
  apply beq_eq in Hsig.
  assert (Hl : 64 <= blen b) by lia.
  assert (Hpre : hdr_pre b) by (split; [exact Hsig|lia]).
  destruct ((vmdk_gd b =? gd_at_end) && (blen b <? 1599)) eqn:Hf3; [discriminate|].
  (* not [injection]: it would normalise the arithmetic inside the verdict, and every later step would carry the result *)
  intros Hv. apply (f_equal (fun o => match o with Some x => x | None => v end)) in Hv. cbv beta iota zeta in Hv. subst v.
  rewrite !andb_true_iff, orb_true_iff, negb_true_iff, descriptor_okb_iff, footer_okb_iff, N.eqb_eq, N.leb_le.
  split.
  - intros Hacc.
    assert (Hp : safety (fst (Insp_All.run F_vmdk cs)) = Pass).
    { unfold accepted in Hacc. destruct (snd (Insp_All.run F_vmdk cs)); [discriminate|].
      destruct (safety (fst (Insp_All.run F_vmdk cs))); try discriminate. reflexivity. }
    destruct (vmdk_sparse_pass_implies cs Hl Hpre Hp) as [H1 [H2 [H3 [H4 H5]]]]. fold b in H1, H2, H3, H4, H5.
    split; [split; [split; [split|]|]|]; try assumption.
    destruct (vmdk_gd b =? gd_at_end) eqn:E; [right|left; reflexivity].
    apply N.eqb_eq in E. apply (H5 E).
  - intros [[[[H1 H2] H3] H4] H5].
    apply (clean_vmdk_accepted cs Hl Hpre H1 H2 H3 H4). fold b.
    intros Hgd. split; [lia|]. destruct H5 as [H5|H5]; [lia|exact H5].
Qed.
