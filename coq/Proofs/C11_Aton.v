(* Proofs/C11_Aton.v — inet_aton (glibc) text form: model recogniser <-> declarative grammar;
   netaddr.valid_ipv4(s, INET_ATON). *)
Require Import OV.Base.Bytes OV.Base.Py OV.Base.PyInt OV.Base.Str OV.Base.C11_Lib.
Require Import OV.Gen.C11_Netutils OV.Model.C11 OV.Model.C11_Spec OV.Proofs.C11_Split OV.Proofs.C11_V4 OV.Proofs.C11_V6.
Open Scope N_scope.

Lemma is_c_space_iff c : is_c_space c = true <-> c_space c.
Proof. unfold is_c_space, c_space. lia. Qed.

Lemma before_space_split s : exists rest, s = before_space s ++ rest /\ (rest = [] \/ exists w t, rest = w :: t /\ c_space w).
Proof.
  induction s as [|c t IH]; cbn [before_space].
  - exists []. split; [reflexivity|left; reflexivity].
  - destruct (is_c_space c) eqn:E.
    + exists (c :: t). split; [reflexivity|]. right. exists c, t. split; [reflexivity|apply is_c_space_iff; exact E].
    + destruct IH as [rest [E1 E2]]. exists rest. split; [cbn [app]; f_equal; exact E1|exact E2].
Qed.

Lemma before_space_app b rest : forallb (fun c => negb (is_c_space c)) b = true ->
  (rest = [] \/ exists w t, rest = w :: t /\ c_space w) -> before_space (b ++ rest) = b.
Proof.
  intros Hb Hr. induction b as [|c t IH]; cbn [app].
  - destruct Hr as [->|[w [t [-> Hw]]]]; [reflexivity|]. cbn [before_space].
    apply is_c_space_iff in Hw. rewrite Hw. reflexivity.
  - cbn [forallb] in Hb. apply andb_true_iff in Hb. destruct Hb as [Hc Ht]. cbn [before_space].
    apply negb_true_iff in Hc. rewrite Hc. f_equal. apply IH, Ht.
Qed.

Lemma forallb_digit t : forallb ascii_digit t = true <-> Forall digit_char t.
Proof. apply forallb_Forall. intros c. unfold ascii_digit, digit_char. lia. Qed.
Lemma forallb_octal t : forallb is_octal t = true <-> Forall octal_char t.
Proof. apply forallb_Forall. intros c. unfold is_octal, octal_char. lia. Qed.
Lemma forallb_hex t : forallb is_hex t = true <-> Forall hex_char t.
Proof. apply forallb_Forall. exact is_hex_iff. Qed.

Lemma c_octal_iff t v : c_octal t = Some v <-> Forall octal_char t /\ v = octval t.
Proof.
  unfold c_octal. destruct (forallb is_octal t) eqn:E.
  - apply forallb_octal in E. split; [intros [= <-]; split; [exact E|reflexivity]|intros [_ ->]; reflexivity].
  - split; [discriminate|]. intros [H _]. apply forallb_octal in H. congruence.
Qed.

Lemma c_number_iff p v : c_number p = Some v <-> c_literal p v.
Proof.
  unfold c_number, c_literal. destruct p as [|c t].
  - split; [discriminate|]. intros [[c [t [H _]]]|[[t [H _]]|[x [t [H _]]]]]; discriminate.
  - destruct (c =? 48) eqn:E0.
    + apply N.eqb_eq in E0. subst c. destruct t as [|x h].
      * rewrite c_octal_iff. split.
        -- intros H. right. left. exists []. split; [reflexivity|exact H].
        -- intros [[c [t [[= <- <-] [Hc _]]]]|[[t [[= <-] H]]|[x [t [H _]]]]]; [lia|exact H|discriminate].
      * destruct (((x =? 120) || (x =? 88)) && negb (beq h [])) eqn:EX.
        -- apply andb_true_iff in EX. destruct EX as [Ex Eh]. apply negb_true_iff in Eh.
           assert (Hh : h <> []) by (intros ->; discriminate).
           assert (Hx : x = 120 \/ x = 88) by lia.
           destruct (forallb is_hex h) eqn:EH.
           ++ apply forallb_hex in EH. split.
              ** intros [= <-]. right. right. exists x, h. repeat split; assumption.
              ** intros [[c [t [[= <- <-] [Hc _]]]]|[[t [[= <-] [Ho _]]]|[x' [t [[= <- <-] [_ [_ [_ ->]]]]]]]]; [lia| |reflexivity].
                 inversion Ho as [|? ? Hxo _]. unfold octal_char in Hxo. lia.
           ++ split; [discriminate|].
              intros [[c [t [[= <- <-] [Hc _]]]]|[[t [[= <-] [Ho _]]]|[x' [t [[= <- <-] [_ [_ [Hf _]]]]]]]]; [lia| |].
              ** inversion Ho as [|? ? Hxo _]. unfold octal_char in Hxo. lia.
              ** apply forallb_hex in Hf. congruence.
        -- rewrite c_octal_iff. split.
           ++ intros H. right. left. exists (x :: h). split; [reflexivity|exact H].
           ++ intros [[c [t [[= <- <-] [Hc _]]]]|[[t [[= <-] H]]|[x' [t [[= <- <-] [Hx [Hne _]]]]]]]; [lia|exact H|].
              exfalso. apply andb_false_iff in EX. destruct EX as [EX|EX]; [lia|].
              apply negb_false_iff, beq_eq in EX. congruence.
    + apply N.eqb_neq in E0. destruct (ascii_digit c && forallb ascii_digit t) eqn:ED.
      * apply andb_true_iff in ED. destruct ED as [Hc Ht]. apply forallb_digit in Ht. unfold ascii_digit in Hc. split.
        -- intros [= <-]. left. exists c, t. repeat split; try assumption; lia.
        -- intros [[c' [t' [[= <- <-] [_ [_ ->]]]]]|[[t' [[= -> _] _]]|[x [t' [[= -> _] _]]]]]; [reflexivity|congruence|congruence].
      * split; [discriminate|].
        intros [[c' [t' [[= <- <-] [Hc [Ht _]]]]]|[[t' [[= -> _] _]]|[x [t' [[= -> _] _]]]]]; [|congruence|congruence].
        apply forallb_digit in Ht. rewrite Ht in ED. unfold ascii_digit in ED. lia.
Qed.

(* characters of a literal: digits, hex letters, x / X — neither '.' nor white space *)
Definition lit_char (c : N) : bool := is_hex c || (c =? 120) || (c =? 88).

Lemma Forall_forallb_impl (P : N -> Prop) (Q : N -> bool) t : (forall c, P c -> Q c = true) -> Forall P t -> forallb Q t = true.
Proof. intros I H. induction H as [|c t Hc _ IH]; [reflexivity|]. cbn [forallb]. rewrite (I c Hc), IH. reflexivity. Qed.

Lemma c_literal_chars p v : c_literal p v -> forallb lit_char p = true.
Proof.
  intros [[c [t [-> [Hc [Ht _]]]]]|[[t [-> [Ht _]]]|[x [t [-> [Hx [_ [Ht _]]]]]]]]; cbn [forallb].
  - rewrite (Forall_forallb_impl digit_char lit_char t) by (try exact Ht; intros d; unfold digit_char, lit_char, is_hex; lia).
    unfold lit_char, is_hex. lia.
  - rewrite (Forall_forallb_impl octal_char lit_char t) by (try exact Ht; intros d; unfold octal_char, lit_char, is_hex; lia).
    reflexivity.
  - rewrite (Forall_forallb_impl hex_char lit_char t) by (try exact Ht; intros d Hd; apply is_hex_iff in Hd; unfold lit_char; rewrite Hd; reflexivity).
    unfold lit_char, is_hex. lia.
Qed.

Definition num_of (p : str) (v : N) : Prop := c_number p = Some v.

Lemma aton_parts_iff ps : aton_parts ps 0 = true <-> exists vs, Forall2 num_of ps vs /\ aton_values vs.
Proof.
  unfold num_of. split.
  - intros H.
    destruct ps as [|a [|b [|c [|d [|e t]]]]]; cbn [aton_parts] in H; try discriminate.
    + destruct (c_number a) as [va|] eqn:Ea; [|discriminate]. exists [va].
      split; [repeat constructor; exact Ea|]. cbn [aton_values aton_limit] in *. lia.
    + destruct (c_number a) as [va|] eqn:Ea; [|discriminate]. destruct (c_number b) as [vb|] eqn:Eb; [|cbn in H; lia].
      exists [va; vb]. split; [repeat constructor; assumption|]. cbn [aton_values aton_limit] in *. lia.
    + destruct (c_number a) as [va|] eqn:Ea; [|discriminate]. destruct (c_number b) as [vb|] eqn:Eb; [|cbn in H; lia].
      destruct (c_number c) as [vc|] eqn:Ec; [|cbn in H; lia].
      exists [va; vb; vc]. split; [repeat constructor; assumption|]. cbn [aton_values aton_limit] in *. lia.
    + destruct (c_number a) as [va|] eqn:Ea; [|discriminate]. destruct (c_number b) as [vb|] eqn:Eb; [|cbn in H; lia].
      destruct (c_number c) as [vc|] eqn:Ec; [|cbn in H; lia]. destruct (c_number d) as [vd|] eqn:Ed; [|cbn in H; lia].
      exists [va; vb; vc; vd]. split; [repeat constructor; assumption|]. cbn [aton_values aton_limit] in *. lia.
    + exfalso. destruct (c_number a); [|discriminate]. destruct (c_number b); [|cbn in H; lia].
      destruct (c_number c); [|cbn in H; lia]. destruct (c_number d); cbn in H; lia.
  - intros [vs [F V]].
    destruct vs as [|va [|vb [|vc [|vd [|ve vs]]]]]; cbn [aton_values] in V; try contradiction.
    + inversion F as [|a ? ? t Ha Ht]; subst. inversion Ht; subst. cbn [aton_parts]. rewrite Ha. cbn [aton_limit]. lia.
    + inversion F as [|a ? ? t Ha Ht]; subst. inversion Ht as [|b ? ? t2 Hb Ht2]; subst. inversion Ht2; subst.
      cbn [aton_parts]. rewrite Ha, Hb. cbn [aton_limit]. lia.
    + inversion F as [|a ? ? t Ha Ht]; subst. inversion Ht as [|b ? ? t2 Hb Ht2]; subst.
      inversion Ht2 as [|c ? ? t3 Hc Ht3]; subst. inversion Ht3; subst.
      cbn [aton_parts]. rewrite Ha, Hb, Hc. cbn [aton_limit]. lia.
    + inversion F as [|a ? ? t Ha Ht]; subst. inversion Ht as [|b ? ? t2 Hb Ht2]; subst.
      inversion Ht2 as [|c ? ? t3 Hc Ht3]; subst. inversion Ht3 as [|d ? ? t4 Hd Ht4]; subst. inversion Ht4; subst.
      cbn [aton_parts]. rewrite Ha, Hb, Hc, Hd. cbn [aton_limit]. lia.
Qed.

Lemma Forall2_num_lit ps vs : Forall2 num_of ps vs <-> Forall2 c_literal ps vs.
Proof.
  split; intros H; induction H; constructor; try assumption; apply c_number_iff; assumption.
Qed.

Lemma aton_values_nonempty vs : aton_values vs -> vs <> [].
Proof. intros H ->. exact H. Qed.

Theorem aton_ok_iff s : aton_ok s = true <-> aton_text s.
Proof.
  unfold aton_ok, aton_text. rewrite aton_parts_iff. split.
  - intros [vs [F V]]. destruct (before_space_split s) as [rest [E R]].
    exists (split_char 46 (before_space s)), vs, rest. split; [apply Forall2_num_lit; exact F|].
    split; [exact V|]. split; [|exact R]. unfold dots. rewrite join_split. exact E.
  - intros [ps [vs [rest [F [V [-> R]]]]]]. exists vs. split; [|exact V].
    assert (Hps : Forall (fun p => forallb lit_char p = true) ps).
    { clear V. induction F as [|p v ps vs Hp _ IH]; constructor; [eapply c_literal_chars; exact Hp|exact IH]. }
    assert (Hne : ps <> []).
    { intros ->. inversion F; subst. exact V. }
    rewrite before_space_app; [| |exact R].
    + unfold dots. rewrite split_join; [apply Forall2_num_lit; exact F|exact Hne|].
      revert Hps. apply Forall_impl. intros p Hp Hin. rewrite forallb_forall in Hp. specialize (Hp _ Hin). discriminate.
    + assert (X : forallb (fun c => lit_char c || (c =? 46)) (dots ps) = true).
      { apply join_forallb; [reflexivity|]. revert Hps. apply Forall_impl. intros p. apply forallb_impl. intros c ->. reflexivity. }
      revert X. apply forallb_impl. intros c. unfold lit_char, is_hex, is_c_space. lia.
Qed.

(* socket.inet_aton and netaddr.valid_ipv4(s, flags=INET_ATON) *)
Theorem inet_aton_iff s : inet_aton s = AOk true <-> cstr_ok s = true /\ aton_text s.
Proof.
  unfold inet_aton. destruct (cstr_ok s); cbn [negb].
  - destruct (aton_ok s) eqn:E.
    + apply aton_ok_iff in E. split; [intros _; split; [reflexivity|exact E]|reflexivity].
    + split; [discriminate|]. intros [_ H]. apply aton_ok_iff in H. congruence.
  - split; [discriminate|intros [H _]; discriminate].
Qed.

Theorem netaddr_aton_iff s : netaddr_valid_ipv4_aton s = AOk true <-> ~ In 58 s /\ cstr_ok s = true /\ aton_text s.
Proof.
  unfold netaddr_valid_ipv4_aton. destruct (existsb (N.eqb 58) s) eqn:E.
  - apply existsb_eqb_In in E. split; [discriminate|]. intros [H _]. contradiction.
  - assert (Hn : ~ In 58 s) by (intros H; apply existsb_eqb_In in H; congruence).
    rewrite <- inet_aton_iff. destruct (inet_aton s) as [b|e] eqn:EA.
    + split; [intros [= ->]; split; [exact Hn|reflexivity]|intros [_ H]; exact H].
    + destruct e; split; try discriminate; intros [_ H]; discriminate.
Qed.

Lemma netaddr_aton_contract s : aton_contract (netaddr_valid_ipv4_aton s) = true.
Proof.
  unfold netaddr_valid_ipv4_aton, inet_aton. destruct (existsb (N.eqb 58) s); [reflexivity|].
  destruct (cstr_ok s); cbn [negb]; [|reflexivity]. destruct (aton_ok s); reflexivity.
Qed.
