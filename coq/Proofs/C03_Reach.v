(* Proofs/C03_Reach.v — signature soundness at the level of REACHABLE inspector states (any chunks,
   frozen after an exception, after finish), monotonicity of the signature predicates under extension of the
   stream, and the content-level clauses for runs in which inspectors raise or the expected-format abort
   happens: every inspector of the wrapper has seen a PREFIX of the bytes taken from the source. *)
Require Import OV.Base.Bytes OV.Base.Py OV.Base.C06_WrapShape OV.Base.Insp_Struct.
Require Import OV.Gen.Insp_Consts OV.Gen.C06_Wrapper OV.Model.Insp_Engine.
Require Import OV.Model.Insp_Raw OV.Model.Insp_Qcow2 OV.Model.Insp_Qed OV.Model.Insp_Vhd OV.Model.Insp_Vdi
               OV.Model.Insp_Iso OV.Model.Insp_Gpt OV.Model.Insp_Luks OV.Model.Insp_Vhdx OV.Model.Insp_Vmdk OV.Model.Insp_All.
Require Import OV.Model.Wrap OV.Model.C03.
Require Import OV.Proofs.Insp_Engine OV.Proofs.Insp_Static OV.Proofs.Insp_StaticQcow OV.Proofs.Insp_All.
Require Import OV.Proofs.C03_Total OV.Proofs.C03_Sig OV.Proofs.Wrap OV.Proofs.C06 OV.Proofs.C03_Wrap.
Open Scope N_scope.

Lemma bsub_app_le lo hi a t : hi <= blen a -> bsub lo hi (a ++ t) = bsub lo hi a.
Proof.
  intros H. unfold bsub. destruct (N.le_gt_cases lo hi) as [Hl|Hl].
  - rewrite bskip_app_le by lia. apply btake_app_le. rewrite blen_bskip. lia.
  - replace (hi - lo) with 0 by lia. rewrite !btake_0. reflexivity.
Qed.
Lemma bnth_app_lt i a t : i < blen a -> bnth i (a ++ t) = bnth i a.
Proof. intros H. unfold bnth. apply app_nth1. unfold blen in H. lia. Qed.

Lemma long_enough_app f st t : long_enough f st = true -> long_enough f (st ++ t) = true.
Proof.
  unfold long_enough. rewrite !forallb_forall. intros H p Hp. specialize (H p Hp). apply N.leb_le in H. apply N.leb_le.
  rewrite blen_app. lia.
Qed.

Theorem sigb_app f st t : sigb f st = true -> sigb f (st ++ t) = true.
Proof.
  destruct f; cbn [sigb]; intros H.
  - reflexivity.
  - apply andb_true_iff in H. destruct H as [H1 H2]. rewrite (long_enough_app _ _ _ H1), (prefixb_app_l _ _ _ H2). reflexivity.
  - apply prefixb_app_l. exact H.
  - apply prefixb_app_l. exact H.
  - apply sigb_vmdk_app. exact H.
  - apply andb_true_iff in H. destruct H as [H1 H2]. rewrite (long_enough_app _ _ _ H1). cbn [andb].
    rewrite bsub_app_le; [exact H2|]. unfold long_enough in H1. cbn [init_regions forallb snd rs_off rs_len] in H1.
    apply andb_true_iff in H1. destruct H1 as [H1 _]. apply N.leb_le in H1. unfold VDI_SIG_HI. lia.
  - apply andb_true_iff in H. destruct H as [H1 H2]. rewrite (long_enough_app _ _ _ H1), (prefixb_app_l _ _ _ H2). reflexivity.
  - apply andb_true_iff in H. destruct H as [H1 H2]. rewrite (long_enough_app _ _ _ H1). cbn [andb].
    rewrite bsub_app_le; [exact H2|]. unfold long_enough in H1. cbn [init_regions forallb snd rs_off rs_len] in H1.
    apply andb_true_iff in H1. destruct H1 as [_ H1]. apply andb_true_iff in H1. destruct H1 as [H1 _]. apply N.leb_le in H1.
    unfold iso_hdr, ISO_SIG_HI. cbn. lia.
  - apply andb_true_iff in H. destruct H as [H H3]. apply andb_true_iff in H. destruct H as [H1 H2].
    rewrite (long_enough_app _ _ _ H1). cbn [andb].
    unfold long_enough in H1. cbn [init_regions forallb snd rs_off rs_len] in H1.
    apply andb_true_iff in H1. destruct H1 as [H1 _]. apply N.leb_le in H1.
    rewrite bsub_app_le by (unfold GPT_SIG_HI; lia). rewrite H2. cbn [andb].
    rewrite !bnth_app_lt by (unfold GPT_FAT_NUM_IDX, GPT_FAT_MEDIA_IDX; lia). exact H3.
  - apply beq_eq in H. apply beq_eq.
    assert (Hl : LUKS_MAGIC_TAKE <= blen st).
    { apply (f_equal blen) in H. rewrite blen_btake in H. vm_compute (blen LUKS_MAGIC) in H. unfold LUKS_MAGIC_TAKE in *. lia. }
    rewrite btake_app_le by exact Hl. exact H.
Qed.

Section IdealReach.
Context {X : Type}.
Variable F : fmt X.
(* the private attributes as a function of the stream *)
Variable ext_of : bytes -> X.
Hypothesis Hinit : init_ist F = ideal F [] false (ext_of []).
Hypothesis Heat : forall st c, eat_chunk F (ideal F st false (ext_of st)) c = (ideal F (st ++ c) false (ext_of (st ++ c)), None).

(* the stream up to finish() [st'] determines everything but the position *)
Lemma ideal_reach st s : reach F st s ->
  exists st' t fin p, st = st' ++ t /\ s = set_pos (ideal F st' fin (ext_of st')) p /\ (fin = false -> t = [] /\ p = blen st).
Proof.
  intros Hr. induction Hr as [|st s c s' e Hr IH He|st s Hr IH].
  - exists [], [], false, 0. rewrite Hinit. repeat split.
  - destruct IH as (st' & t & fin & p & Hst & Hs & Hf). destruct fin.
    + subst s. rewrite eat_finished in He by reflexivity. inversion He; subst.
      exists st', (t ++ c), true, (i_pos (set_pos (ideal F st' true (ext_of st')) p) + flen c).
      split; [symmetry; apply app_assoc|]. split; [reflexivity | discriminate].
    + destruct (Hf eq_refl) as [-> ->]. rewrite app_nil_r in *. subst st'.
      assert (Hs0 : s = ideal F st false (ext_of st)) by (rewrite Hs; reflexivity).
      rewrite Hs0, Heat in He. inversion He; subst.
      exists (st ++ c), [], false, (blen (st ++ c)). rewrite app_nil_r. repeat split.
  - destruct IH as (st' & t & fin & p & Hst & Hs & Hf).
    exists st', t, true, p. split; [exact Hst|]. split; [|discriminate].
    subst s. unfold Insp_Engine.finish, ideal, set_pos. cbn [i_pos i_regs i_next i_checks i_ext]. rewrite finish_fill. reflexivity.
Qed.
End IdealReach.

(* a static inspector: the private attributes never change *)
Lemma static_reach {X} (F : fmt X) st s :
  f_post F = no_post -> f_rcomplete F = no_rcomplete -> static_specs (init_regions (f_id F)) = true -> reach F st s ->
  exists st' t fin p, st = st' ++ t /\ s = set_pos (ideal F st' fin (f_ext0 F)) p /\ (fin = false -> t = [] /\ p = blen st).
Proof.
  intros Hpost Hrc Hspecs. apply (ideal_reach F (fun _ => f_ext0 F)); [apply (ideal_init F Hspecs)|].
  intros st0 c. rewrite (ideal_eat_chunk F Hpost), (run_callbacks_none F Hrc). reflexivity.
Qed.

(* qcow2: the private attribute follows the stream as well *)
Lemma qcow_reach st s : reach qcow_fmt st s ->
  exists st' t fin p, st = st' ++ t /\ s = set_pos (ideal qcow_fmt st' fin (qext st')) p /\ (fin = false -> t = [] /\ p = blen st).
Proof. apply (ideal_reach qcow_fmt qext); [rewrite qext_nil; apply (ideal_init qcow_fmt qcow_specs) | exact qcow_eat]. Qed.

(* format_match of the inspectors without private attributes reads the region dictionary only *)
Lemma unit_match_regs_only f (s1 s2 : ist unit) : i_regs s1 = i_regs s2 -> f_match (ufmt f) s1 = f_match (ufmt f) s2.
Proof.
  intros H. destruct f; cbn [ufmt f_match raw_fmt vhd_fmt vhdx_fmt vdi_fmt qed_fmt iso_fmt gpt_fmt luks_fmt]; try reflexivity.
  (* each of the seven goes through get_region (iso also through complete), which read i_regs *)
  all: unfold vhd_match, vhdx_match, vdi_match, qed_match, iso_match, gpt_match, gpt_check_for_fat, luks_match,
         get_region, Insp_Engine.complete; rewrite H; reflexivity.
Qed.
Lemma qcow_match_regs_only (s1 s2 : ist qx) : i_regs s1 = i_regs s2 -> i_ext s1 = i_ext s2 -> qcow_match s1 = qcow_match s2.
Proof. intros H1 H2. unfold qcow_match, get_region. rewrite H1, H2. reflexivity. Qed.

(* format_match of a reachable static inspector is the signature of the stream it had seen when it was
   finished (the whole stream when it is not finished) *)
Lemma static_unit_reach_match f st s : is_static_unit f = true -> reach (ufmt f) st s ->
  exists st' t, st = st' ++ t /\ (i_fin s = false -> t = []) /\ cmatch (I_unit f s) = sigb f st'.
Proof.
  intros Hs Hr. destruct (static_unit_facts f Hs) as (Hp & Hc & Hi & Hsp & _ & _).
  assert (Hsp' : static_specs (init_regions (f_id (ufmt f))) = true) by (rewrite Hi; exact Hsp).
  destruct (static_reach (ufmt f) st s Hp Hc Hsp' Hr) as (st' & t & fin & p & Hst & Hs0 & Hf).
  exists st', t. split; [exact Hst|]. split.
  - intros Hfin. subst s. cbn [set_pos ideal i_fin] in Hfin. subst fin. apply Hf. reflexivity.
  - rewrite <- (static_match_is_signature f st') by (destruct f; try discriminate Hs; reflexivity).
    subst s. unfold cmatch. 
    assert (Hss : spec_state f st' = I_unit f (ideal (ufmt f) st' true tt)) by (destruct f; try discriminate Hs; reflexivity).
    rewrite Hss. cbn [format_match]. rewrite (unit_match_regs_only f _ (ideal (ufmt f) st' true tt)); reflexivity.
Qed.

Lemma qcow_reach_match st s : reach qcow_fmt st s ->
  exists st' t, st = st' ++ t /\ (i_fin s = false -> t = []) /\ cmatch (I_qcow s) = sigb F_qcow2 st'.
Proof.
  intros Hr. destruct (qcow_reach st s Hr) as (st' & t & fin & p & Hst & Hs0 & Hf).
  exists st', t. split; [exact Hst|]. split.
  - intros Hfin. subst s. cbn [set_pos ideal i_fin] in Hfin. subst fin. apply Hf. reflexivity.
  - rewrite <- (static_match_is_signature F_qcow2 st' eq_refl). subst s. unfold cmatch. cbn [spec_state format_match f_match qcow_fmt].
    rewrite (qcow_match_regs_only _ (ideal qcow_fmt st' true (qext st'))); reflexivity.
Qed.

(* C03_format_implies_signature at the level of reachable states, all ten inspectors *)
Theorem reach_match_signature st i : ireach st i -> cmatch i = true -> sigb (name_of i) st = true.
Proof.
  intros Hr Hm.
  assert (Hok : format_match i = Ok true) by (rewrite (cmatch_spec i (ex_intro _ st Hr)), Hm; reflexivity).
  apply ireach_reach in Hr. destruct i as [f s|s|s]; cbn [ireach_spec name_of format_match] in *.
  - destruct Hr as (H1 & H2 & Hr).
    destruct (is_static_unit f) eqn:Hs.
    + destruct (static_unit_reach_match f st s Hs Hr) as (st' & t & -> & _ & He). apply sigb_app. rewrite <- He. exact Hm.
    + destruct f; try discriminate Hs; try contradiction. eapply vhdx_match_signature; eauto.
  - destruct (qcow_reach_match st s Hr) as (st' & t & -> & _ & He). apply sigb_app. rewrite <- He. exact Hm.
  - eapply vmdk_match_signature; eauto.
Qed.

(* ------------------------------------------------------------------ every inspector has seen a prefix of what was taken from the source *)
(* [taken] = concatenation of the chunks the wrapper has taken from its source so far *)
Definition seen_prefix (taken : bytes) (s : cslot) : Prop :=
  s_name s = fmt_name (name_of (s_insp s)) /\ exists st t, ireach st (s_insp s) /\ taken = st ++ t.
(* while no exception has reached the reader, a non-errored inspector has seen everything *)
Definition seen_all (taken : bytes) (s : cslot) : Prop :=
  s_name s = fmt_name (name_of (s_insp s)) /\ exists st t, ireach st (s_insp s) /\ taken = st ++ t /\ (s_err s = false -> t = []).

Lemma name_of_eat i c i' e : eat i c = (i', e) -> name_of i' = name_of i.
Proof.
  destruct i as [f s|s|s]; cbn [eat]; [destruct (eat_chunk (ufmt f) s c) | destruct (eat_chunk qcow_fmt s c) | destruct (eat_chunk vmdk_fmt s c)];
    intros H; inversion H; reflexivity.
Qed.
Lemma name_of_finish i : name_of (finish i) = name_of i.
Proof. destruct i; reflexivity. Qed.

Lemma seen_all_prefix taken s : seen_all taken s -> seen_prefix taken s.
Proof. intros (Hn & st & t & Hr & Ht & _). split; [exact Hn|]. eauto. Qed.

Lemma touched_seen taken c s s' : seen_all taken s -> touched istate eat c s s' -> seen_prefix (taken ++ c) s'.
Proof.
  intros (Hn & st & t & Hr & Ht & Hall) (Hname & [->|(Herr & oe & He)]).
  - split; [exact Hn|]. exists st, (t ++ c). split; [exact Hr|]. rewrite Ht. symmetry. apply app_assoc.
  - split; [rewrite Hname, Hn, (name_of_eat _ _ _ _ He); reflexivity|].
    rewrite (Hall Herr), app_nil_r in Ht. subst taken. exists (st ++ c), []. split; [eapply ireach_eat; eauto | symmetry; apply app_nil_r].
Qed.

Lemma passed_seen taken c s s' : seen_all taken s -> fed_with istate eat [c] s s' -> seen_all (taken ++ c) s'.
Proof.
  intros (Hn & st & t & Hr & Ht & Hall) Hp. destruct (s_err s) eqn:Herr.
  - rewrite (fed_with_errored _ _ _ _ _ Hp Herr). split; [exact Hn|]. exists st, (t ++ c). split; [exact Hr|].
    split; [rewrite Ht; symmetry; apply app_assoc|]. rewrite Herr. discriminate.
  - destruct (fed_with_one _ _ _ _ _ Hp Herr) as (oe & He). destruct Hp as [Hname _].
    split; [rewrite Hname, Hn, (name_of_eat _ _ _ _ He); reflexivity|].
    rewrite (Hall eq_refl), app_nil_r in Ht. subst taken. exists (st ++ c), []. split; [eapply ireach_eat; eauto|].
    split; [symmetry; apply app_nil_r | reflexivity].
Qed.

(* the chunks a stopping reader's calls took from the source *)
Definition taken_chunks (cs : list bytes) (unused : list input) : list bytes := firstn (length cs - length unused) cs.

Lemma new_seen_all expected allowed : Forall (seen_all []) (w_slots (cw_new expected allowed)).
Proof.
  rewrite new_slots. rewrite Forall_map. apply Forall_forall. intros f _. split.
  - cbn [s_name s_insp]. destruct f; reflexivity.
  - exists [], []. cbn [s_insp s_err]. split; [apply ireach_init|]. split; reflexivity.
Qed.

(* a reader that stops at the first exception: whatever happened (inspectors raising and being frozen, the
   expected inspector aborting the stream), every inspector has seen a prefix of the bytes taken *)
Theorem run_stop_seen : forall cs (w w' : cwrapper) tr delivered stop unused taken0,
  Forall (seen_all taken0) (w_slots w) ->
  cw_run_stop w (map InChunk cs) = (w', tr, delivered, stop, unused) ->
  exists k, unused = map InChunk (skipn k cs) /\ (k <= length cs)%nat /\
            Forall (seen_prefix (taken0 ++ concat (firstn k cs))) (w_slots w') /\
            (stop = None -> k = length cs /\ delivered = cs) /\
            (forall e t, stop = Some (e, t) -> delivered = firstn (k - 1) cs /\ (0 < k)%nat).
Proof.
  unfold cw_run_stop. induction cs as [|c cs IH]; intros w w' tr delivered stop unused taken0 Hall H; cbn [map] in H.
  - cbn in H. inversion H; subst. exists 0%nat. cbn [skipn firstn concat length map]. rewrite app_nil_r.
    split; [reflexivity|]. split; [lia|]. split; [eapply Forall_impl; [|exact Hall]; apply seen_all_prefix|].
    split; [auto | discriminate].
  - rewrite w_run_stop_cons in H. cbn [w_step] in H. rewrite process_chunk_std in H by exact gen_shape_ok.
    destruct (pc_std istate eat complete cmatch (w_expected w) 0 (w_slots w) c) as [[ss t0] r] eqn:Hp.
    pose proof (pc_std_mono istate eat complete cmatch _ _ _ _ _ _ _ Hp) as Ht.
    destruct r as [e|].
    + inversion H; subst. exists 1%nat. cbn [skipn firstn concat length with_slots w_slots]. rewrite app_nil_r.
      split; [reflexivity|]. split; [lia|]. split.
      * eapply Forall2_Forall_l; [|exact Hall|exact Ht]. intros a b. apply touched_seen.
      * split; [discriminate|]. intros e0 t1 _. split; [reflexivity | lia].
    + pose proof (pc_std_full_pass istate eat complete cmatch _ _ _ _ _ _ _ Hp eq_refl) as Hpass.
      assert (Hall1 : Forall (seen_all (taken0 ++ c)) ss).
      { eapply Forall2_Forall_l; [|exact Hall|exact Hpass]. intros a b. apply passed_seen. }
      destruct (w_run_stop istate eat finish complete cmatch gen_shape (with_slots istate w ss) (map InChunk cs))
        as [[[[w2 tr2] cs2] stop2] un2] eqn:Hr.
      inversion H; subst.
      destruct (IH (with_slots istate w ss) _ _ _ _ _ (taken0 ++ c) Hall1 Hr) as (k & Hu & Hk & Hseen & Hnone & Hsome).
      exists (S k). cbn [skipn firstn concat length]. split; [exact Hu|]. split; [lia|]. split.
      * rewrite app_assoc. exact Hseen.
      * split.
        -- intros Hs. destruct (Hnone Hs) as [-> ->]. auto.
        -- intros e t1 Hs. destruct (Hsome e t1 Hs) as [Hd Hpos]. split; [|lia].
           rewrite Hd. destruct k; [lia|]. cbn [firstn]. replace (S k - 1)%nat with k by lia. replace (S (S k) - 1)%nat with (S k) by lia. reflexivity.
Qed.

Lemma seen_prefix_finish taken s : seen_prefix taken s -> seen_prefix taken (finish_slot istate finish s).
Proof.
  intros (Hn & st & t & Hr & Ht). split; [cbn [finish_slot s_name s_insp]; rewrite name_of_finish; exact Hn|].
  exists st, t. split; [apply ireach_finish; exact Hr | exact Ht].
Qed.

(* from the invariant to the signature clause *)
Lemma seen_format_signature (w : cwrapper) taken m f :
  Forall (seen_prefix taken) (w_slots w) -> cw_format w = Ok (Some m) -> s_name m = fmt_name f -> f <> F_raw ->
  sigb f taken = true.
Proof.
  intros Hall Hf Hn Hnr.
  destruct (format_some_implies_unique_match istate complete cmatch raw_lit_nonraw raw_lit_raw _ _ Hf) as (_ & [Hm|(_ & Hraw)]).
  - assert (Hin : In m (matches istate cmatch raw_lit_nonraw w)) by (rewrite Hm; left; reflexivity).
    unfold matches, non_raw in Hin. apply filter_In in Hin. destruct Hin as [Hin Hc]. apply filter_In in Hin. destruct Hin as [Hin _].
    rewrite Forall_forall in Hall. destruct (Hall m Hin) as (Hname & st & t & Hr & Ht).
    assert (Hf' : name_of (s_insp m) = f) by (apply fmt_name_inj; congruence).
    rewrite Ht. apply sigb_app. rewrite <- Hf'. apply reach_match_signature; assumption.
  - exfalso. apply Hnr. apply (is_raw_name m f Hn).
    assert (Hi : In m (filter (is_raw istate raw_lit_raw) (w_slots w))) by (rewrite Hraw; left; reflexivity).
    apply filter_In in Hi. tauto.
Qed.

(* C03_format_implies_signature for EVERY stopping run: whatever the inspectors did (raised and were frozen)
   and whether or not the expected-format abort happened, a specific format reported — right after the last call
   or after close() — has its signature in the bytes taken from the source *)
Theorem stopped_format_signature expected allowed cs w1 tr delivered stop unused :
  cw_run_stop (cw_new expected allowed) (map InChunk cs) = (w1, tr, delivered, stop, unused) ->
  forall w m f, (w = w1 \/ w = cw_close w1) -> cw_format w = Ok (Some m) -> s_name m = fmt_name f -> f <> F_raw ->
  sigb f (concat (taken_chunks cs unused)) = true.
Proof.
  intros H w m f Hw Hf Hn Hnr.
  destruct (run_stop_seen cs _ _ _ _ _ _ [] (new_seen_all expected allowed) H) as (k & Hu & Hk & Hseen & _ & _).
  cbn [app] in Hseen.
  assert (Htk : taken_chunks cs unused = firstn k cs).
  { unfold taken_chunks. rewrite Hu, map_length, skipn_length. f_equal. lia. }
  rewrite Htk. apply (seen_format_signature w _ m f); auto.
  destruct Hw as [->| ->]; [exact Hseen|]. unfold cw_close, finish_all. cbn [w_slots]. rewrite Forall_map.
  eapply Forall_impl; [|exact Hseen]. intros s. apply seen_prefix_finish.
Qed.

(* in particular after a read-through and close *)
Theorem format_implies_signature expected allowed cs w m f :
  read_and_closed expected allowed cs w -> cw_format w = Ok (Some m) -> s_name m = fmt_name f -> f <> F_raw ->
  sigb f (concat cs) = true.
Proof.
  intros (w1 & tr & un & H & ->) Hf Hn Hnr.
  pose proof (stopped_format_signature _ _ _ _ _ _ _ _ H (cw_close w1) m f (or_intror eq_refl) Hf Hn Hnr) as Hs.
  destruct (run_stop_seen cs _ _ _ _ _ _ [] (new_seen_all expected allowed) H) as (k & Hu & _ & _ & Hnone & _).
  destruct (Hnone eq_refl) as [-> _]. rewrite skipn_all in Hu. subst un.
  unfold taken_chunks in Hs. cbn [length map] in Hs. rewrite Nat.sub_0_r, firstn_all in Hs. exact Hs.
Qed.
