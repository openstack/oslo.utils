(* Proofs/C20_FS.v — the concrete runtime of Model/C20_FS.v (the one the correspondence
   check runs against the real file system) satisfies the contracts of Proofs/C20.v, for
   every world.  Hence the contract-premised theorems are not vacuous, and they apply to the
   validated model. *)
From Coq Require Import String.
Require Import OV.Base.Bytes OV.Base.Py OV.Base.PyInt OV.Base.Str.
Require Import OV.Gen.C20_Consts OV.Model.C20_OS OV.Model.C20 OV.Model.C20_FS OV.Proofs.C11_Split OV.Proofs.C20.
Open Scope Z_scope.

Lemma key_eqb_eq a b : key_eqb a b = true <-> a = b.
Proof.
  revert b. induction a as [|x a IH]; intros [|y b]; cbn [key_eqb]; try (split; [discriminate|congruence]).
  - split; reflexivity.
  - rewrite andb_true_iff, beq_eq, IH. split; [intros [-> ->]; reflexivity|intros Heq; injection Heq; auto].
Qed.

Lemma key_eqb_refl a : key_eqb a a = true.
Proof. apply key_eqb_eq. reflexivity. Qed.

Lemma key_eqb_neq a b : a <> b -> key_eqb a b = false.
Proof. intros Hne. destruct (key_eqb a b) eqn:E; [|reflexivity]. apply key_eqb_eq in E. contradiction. Qed.

Lemma assoc_remove_same {A} k (l : list (fskey * A)) : assoc_key k (remove_key k l) = None.
Proof.
  induction l as [|[k' v] l IH]; cbn [remove_key assoc_key]; [reflexivity|].
  destruct (key_eqb k k') eqn:E; [exact IH|]. cbn [assoc_key]. rewrite E. exact IH.
Qed.

Lemma assoc_remove_other {A} k k' (l : list (fskey * A)) : k' <> k ->
  assoc_key k' (remove_key k l) = assoc_key k' l.
Proof.
  intros Hne. induction l as [|[k2 v] l IH]; cbn [remove_key assoc_key]; [reflexivity|].
  destruct (key_eqb k k2) eqn:E.
  - apply key_eqb_eq in E. subst k2. rewrite (key_eqb_neq k' k Hne). exact IH.
  - cbn [assoc_key]. rewrite IH. reflexivity.
Qed.

Lemma look_nil w : fs_look [] w = Some NDir.
Proof. reflexivity. Qed.

Lemma look_cons x k w : fs_look (x :: k) w = assoc_key (x :: k) (fs_nodes w).
Proof. reflexivity. Qed.

Lemma look_nodes k w w' : fs_nodes w' = fs_nodes w -> fs_look k w' = fs_look k w.
Proof. intros Hn. destruct k; [reflexivity|]. rewrite !look_cons, Hn. reflexivity. Qed.

Lemma add_dirs_assoc ks : forall nodes k,
  assoc_key k (add_dirs ks nodes) =
  match assoc_key k nodes with
  | Some n => Some n
  | None => if existsb (key_eqb k) ks then Some NDir else None
  end.
Proof.
  unfold add_dirs. induction ks as [|a ks IH]; intros nodes k; cbn [fold_left existsb].
  - destruct (assoc_key k nodes); reflexivity.
  - rewrite IH. destruct (assoc_key a nodes) as [na|] eqn:Ea.
    + destruct (assoc_key k nodes) as [n|] eqn:Ek; [reflexivity|].
      destruct (key_eqb k a) eqn:Eka; [|reflexivity].
      apply key_eqb_eq in Eka. subst a. congruence.
    + cbn [assoc_key]. destruct (key_eqb k a) eqn:Eka.
      * apply key_eqb_eq in Eka. subst a. rewrite Ea. reflexivity.
      * destruct (assoc_key k nodes); reflexivity.
Qed.

Lemma existsb_ext_in' {A} (f g : A -> bool) l :
  (forall a, In a l -> f a = g a) -> existsb f l = existsb g l.
Proof.
  induction l as [|x l IH]; intros Hfg; cbn [existsb]; [reflexivity|].
  rewrite (Hfg x (or_introl eq_refl)), IH; [reflexivity|].
  intros a Ha. apply Hfg. right. exact Ha.
Qed.

Lemma existsb_key_last k ks : existsb (key_eqb k) (ks ++ [k]) = true.
Proof. rewrite existsb_app. cbn [existsb]. rewrite key_eqb_refl. cbn [orb]. apply orb_true_r. Qed.

(* proper prefixes are strictly shorter, hence different from the key *)
Lemma proper_prefixes_from_len pre k a :
  In a (proper_prefixes_from pre k) -> (length a < length pre + length k)%nat.
Proof.
  revert pre. induction k as [|x k IH]; intros pre Hin; cbn [proper_prefixes_from] in Hin; [contradiction|].
  destruct k as [|y k]; [contradiction|].
  destruct Hin as [<-|Hin].
  - rewrite app_length. cbn [length]. lia.
  - apply IH in Hin. rewrite app_length in Hin. cbn [length] in *. lia.
Qed.

Lemma proper_prefix_neq k a : In a (proper_prefixes k) -> a <> k.
Proof. intros Hin ->. apply proper_prefixes_from_len in Hin. cbn [length] in Hin. lia. Qed.

Definition comp_max (k : fskey) : nat := fold_right (fun c m => Nat.max (length c) m) O k.

Lemma comp_max_in k c : In c k -> (length c <= comp_max k)%nat.
Proof.
  induction k as [|x k IH]; intros Hin; [contradiction|]. cbn [comp_max fold_right].
  destruct Hin as [->|Hin]; [lia|]. apply IH in Hin. unfold comp_max in Hin. lia.
Qed.

Lemma assoc_some_len k nodes n c :
  assoc_key k nodes = Some n -> In c k -> (length c <= max_name_len nodes)%nat.
Proof.
  induction nodes as [|[k' v] nodes IH]; cbn [assoc_key]; [discriminate|].
  intros Hk Hin. unfold max_name_len. cbn [fold_right fst]. fold (max_name_len nodes). fold (comp_max k').
  destruct (key_eqb k k') eqn:E.
  - apply key_eqb_eq in E. subst k'. apply comp_max_in in Hin. lia.
  - specialize (IH Hk Hin). lia.
Qed.

Lemma fresh_name_missing w dk prefix suffix :
  assoc_key (dk ++ [prefix ++ fresh_tag w ++ suffix]) (fs_nodes w) = None.
Proof.
  destruct (assoc_key _ (fs_nodes w)) as [n|] eqn:E; [|reflexivity]. exfalso.
  assert (Hin : In (prefix ++ fresh_tag w ++ suffix) (dk ++ [prefix ++ fresh_tag w ++ suffix])).
  { apply in_or_app. right. left. reflexivity. }
  pose proof (assoc_some_len _ _ _ _ E Hin) as Hlen.
  rewrite !app_length in Hlen. unfold fresh_tag in Hlen. rewrite length_repeatN in Hlen. lia.
Qed.

Open Scope N_scope.
Lemma has_slash_false b : has_slash b = false -> ~ In 47 b.
Proof.
  unfold has_slash. intros H Hin. assert (E : existsb (N.eqb 47) b = true); [|congruence].
  apply existsb_exists. exists 47. split; [exact Hin|apply N.eqb_refl].
Qed.

Lemma repeatN_noslash n : ~ In 47 (repeatN 120 n).
Proof. induction n as [|n IH]; cbn [repeatN In]; [tauto|]. intros [E|Hin]; [discriminate|exact (IH Hin)]. Qed.

Lemma fs_key_join d name : ~ In 47 name -> name <> [] -> fs_key (d ++ [47] ++ name) = fs_key d ++ [name].
Proof.
  intros Hns Hne. unfold fs_key. cbn [app]. rewrite split_app, filter_app, (split_notin _ _ Hns).
  destruct name; [contradiction|reflexivity].
Qed.
Open Scope Z_scope.

(* ---------- the hash model satisfies the streaming contract ---------- *)
Theorem cat_hash_contract : hash_contract fs_runtime.
Proof.
  split; cbn [rt_update fs_runtime fs_runtime_lim]; unfold cat_update.
  - intros [alg d] a b. cbn [fst snd]. rewrite app_assoc. reflexivity.
  - intros [alg d]. cbn [fst snd]. rewrite app_nil_r. reflexivity.
Qed.

Lemma errno_distinct : (errno_EISDIR =? errno_ENOENT) = false /\ (errno_ENOTDIR =? errno_ENOENT) = false.
Proof. split; reflexivity. Qed.

Lemma is_file_at_nodes w w' a : fs_look a w' = fs_look a w -> is_file_at w' a = is_file_at w a.
Proof. unfold is_file_at. intros ->. reflexivity. Qed.

(* what one write of the model transfers: a prefix of the buffer, at least one byte of a
   non-empty buffer when the per-call limit is positive *)
Definition sent_of (limit : Z) (c : bytes) : bytes :=
  if zlen c <=? limit then c else btake (Z.to_N limit) c.

Lemma sent_of_prefix limit c : btake (Z.to_N (zlen (sent_of limit c))) c = sent_of limit c.
Proof.
  unfold sent_of. destruct (zlen c <=? limit) eqn:E.
  - apply btake_all. unfold zlen. lia.
  - apply Z.leb_gt in E. unfold zlen in *. rewrite blen_btake.
    f_equal. lia.
Qed.

Lemma sent_of_range limit c : 0 < limit -> c <> [] -> 1 <= zlen (sent_of limit c) <= zlen c.
Proof.
  intros Hl Hne. assert (Hc : 1 <= zlen c).
  { pose proof (zlen_nonneg c). destruct (Z.eq_dec (zlen c) 0) as [Hz|Hz]; [apply zlen_nil_iff in Hz; contradiction|lia]. }
  unfold sent_of. destruct (zlen c <=? limit) eqn:E; [lia|].
  apply Z.leb_gt in E. unfold zlen in *. rewrite blen_btake. lia.
Qed.

Theorem fs_lim_satisfies_contract (limit : Z) : 0 < limit ->
  fs_contract (fs_runtime_lim limit) fs_key fs_look fs_fd_key fs_tmpdir.
Proof.
  intros Hlimit.
  split; cbn [rt_isdir rt_makedirs rt_unlink rt_mkstemp rt_write rt_close rt_open_rb fs_runtime_lim].
  - (* isdir_look *)
    intros p w. unfold fs_isdir. destruct (fs_look (fs_key p) w) as [[|c]|]; split; congruence.
  - (* makedirs_ok *)
    intros p m w w'. unfold fs_makedirs.
    destruct (fs_look (fs_key p) w) as [n|] eqn:El; [intros Heq; discriminate|].
    destruct (existsb (is_file_at w) (proper_prefixes (fs_key p))); intros Heq; [discriminate|].
    injection Heq as <-.
    destruct (fs_key p) as [|x k] eqn:Ek; [discriminate El|].
    rewrite look_cons in *. cbn [fs_nodes]. rewrite add_dirs_assoc, El, existsb_key_last. reflexivity.
  - (* makedirs_keeps *)
    intros p m w w' r. unfold fs_makedirs.
    destruct (fs_look (fs_key p) w) as [n0|] eqn:El; [intros Heq; injection Heq as <- _; auto|].
    destruct (existsb (is_file_at w) (proper_prefixes (fs_key p))); intros Heq; injection Heq as <- _; [auto|].
    intros k n Hk. destruct k as [|x k]; [exact Hk|].
    rewrite look_cons in *. cbn [fs_nodes]. rewrite add_dirs_assoc, Hk. reflexivity.
  - (* makedirs_exists *)
    intros p m w n Hl. unfold fs_makedirs. rewrite Hl. eexists. split; reflexivity.
  - (* unlink_ok *)
    intros p w w'. unfold fs_unlink.
    destruct (existsb (is_file_at w) (proper_prefixes (fs_key p))) eqn:Epre; [intros Heq; discriminate|].
    destruct (fs_look (fs_key p) w) as [[|c]|] eqn:El; intros Heq; try discriminate.
    injection Heq as <-.
    destruct (fs_key p) as [|x k] eqn:Ek; [discriminate El|].
    set (w' := mk_fsw (remove_key (x :: k) (fs_nodes w)) (fs_fds w) (fs_next_fd w)).
    assert (Hframe : forall k', k' <> x :: k -> fs_look k' w' = fs_look k' w).
    { intros k' Hne. destruct k' as [|y k']; [reflexivity|].
      rewrite !look_cons. cbn [fs_nodes w']. apply assoc_remove_other. exact Hne. }
    assert (Hgone : fs_look (x :: k) w' = None).
    { rewrite look_cons. cbn [fs_nodes w']. apply assoc_remove_same. }
    split; [exact Hgone|]. split; [exact Hframe|].
    cbv zeta. rewrite Hgone.
    replace (existsb (is_file_at w') (proper_prefixes (x :: k))) with false; [eexists; split; reflexivity|].
    rewrite <- Epre. apply existsb_ext_in'.
    intros a Ha. symmetry. apply is_file_at_nodes, Hframe, proper_prefix_neq. exact Ha.
  - (* unlink_err *)
    intros p w w' e. unfold fs_unlink.
    destruct (existsb (is_file_at w) (proper_prefixes (fs_key p))); [intros Heq; injection Heq as <- _; reflexivity|].
    destruct (fs_look (fs_key p) w) as [[|c]|]; intros Heq; try discriminate; injection Heq as <- _; reflexivity.
  - (* unlink_enoent *)
    intros p w w' e. unfold fs_unlink. destruct errno_distinct as [E1 E2].
    destruct (existsb (is_file_at w) (proper_prefixes (fs_key p))).
    { intros Heq He. injection Heq as _ <-. cbn [os_errno std_oserror] in He.
      apply Z.eqb_eq in He. congruence. }
    destruct (fs_look (fs_key p) w) as [[|c]|]; intros Heq He.
    + injection Heq as _ <-. cbn [os_errno std_oserror] in He. apply Z.eqb_eq in He. congruence.
    + discriminate Heq.
    + reflexivity.
  - (* mkstemp_ok *)
    intros s d pre w w' fd p. unfold fs_mkstemp. cbv zeta.
    remember (match d with Some x => x | None => fs_tmpdir end) as dstr eqn:Hdstr.
    destruct (has_slash pre || has_slash s) eqn:Esl; [intros Heq; discriminate|].
    apply orb_false_iff in Esl. destruct Esl as [Hpre Hs].
    remember (pre ++ fresh_tag w ++ s) as name eqn:Hname.
    destruct (fs_look (fs_key dstr) w) as [[|c]|] eqn:Ed; intros Heq; try discriminate.
    injection Heq as <- <- <-. cbn [app].
    assert (Hkey : fs_key (dstr ++ 47%N :: name) = fs_key dstr ++ [name]).
    { apply (fs_key_join dstr name).
      - subst name. intros Hin. apply in_app_or in Hin. destruct Hin as [Hin|Hin]; [exact (has_slash_false _ Hpre Hin)|].
        apply in_app_or in Hin. destruct Hin as [Hin|Hin]; [exact (repeatN_noslash _ Hin)|exact (has_slash_false _ Hs Hin)].
      - subst name. unfold fresh_tag. cbn [repeatN]. destruct pre; discriminate. }
    rewrite Hkey.
    assert (Hk : exists x k, fs_key dstr ++ [name] = x :: k).
    { destruct (fs_key dstr) as [|x k]; [exists name, []|exists x, (k ++ [name])]; reflexivity. }
    destruct Hk as [x [k Hxk]].
    pose proof (fresh_name_missing w (fs_key dstr) pre s) as Hfresh. rewrite <- Hname in Hfresh.
    split; [|split; [|split; [|split]]].
    + rewrite Hxk, look_cons, <- Hxk. exact Hfresh.
    + rewrite Hxk, look_cons. cbn [fs_nodes assoc_key]. rewrite <- Hxk, key_eqb_refl. reflexivity.
    + unfold fs_fd_key. cbn [fs_fds assoc_fd]. rewrite Z.eqb_refl. reflexivity.
    + intros k' Hne. destruct k' as [|y k']; [reflexivity|].
      rewrite !look_cons. cbn [fs_nodes assoc_key]. rewrite (key_eqb_neq _ _ Hne). reflexivity.
    + exists (fresh_tag w). subst name dstr. reflexivity.
  - (* write_progress *)
    intros fd c w w' n. unfold fs_write_lim. fold (sent_of limit c).
    destruct (fs_fd_key fd w) as [k|]; [|intros Heq; discriminate].
    destruct (fs_look k w) as [[|old]|]; intros Heq; try discriminate.
    injection Heq as _ <-. apply sent_of_range. exact Hlimit.
  - (* write_appends *)
    intros fd k c old w Hfd Hold Hne. unfold fs_write_lim. fold (sent_of limit c). rewrite Hfd, Hold.
    eexists. eexists. split; [reflexivity|].
    destruct k as [|x k]; [discriminate Hold|].
    split; [|split].
    + rewrite look_cons. cbn [fs_nodes assoc_key]. rewrite key_eqb_refl, sent_of_prefix. reflexivity.
    + intros k' Hk'. destruct k' as [|y k']; [reflexivity|].
      rewrite !look_cons. cbn [fs_nodes assoc_key]. rewrite (key_eqb_neq _ _ Hk').
      apply assoc_remove_other. exact Hk'.
    + exact Hfd.
  - (* close_ok *)
    intros fd k w Hfd. unfold fs_close. rewrite Hfd. eexists. split; [reflexivity|].
    intros k'. apply look_nodes. reflexivity.
  - (* open_look *)
    intros p w c. unfold fs_open_rb.
    destruct (fs_look (fs_key p) w) as [[|c0]|]; split; intros Heq; try discriminate; congruence.
Qed.

Theorem fs_satisfies_contract : fs_contract fs_runtime fs_key fs_look fs_fd_key fs_tmpdir.
Proof. apply (fs_lim_satisfies_contract max_rw_count). reflexivity. Qed.

(* ---------- consequences for the validated model (no premises left) ---------- *)
Theorem fs_ensure_tree_idempotent path mode w w' :
  ensure_tree fs_runtime path mode w = (w', OOk tt) -> ensure_tree fs_runtime path mode w' = (w', OOk tt).
Proof. exact (ensure_tree_idempotent fs_runtime fs_key fs_look fs_fd_key fs_tmpdir fs_satisfies_contract path mode w w'). Qed.

Theorem fs_delete_if_exists_idempotent path w w' :
  delete_if_exists path fs_unlink w = (w', OOk tt) -> delete_if_exists path fs_unlink w' = (w', OOk tt).
Proof. exact (delete_if_exists_idempotent fs_runtime fs_key fs_look fs_fd_key fs_tmpdir fs_satisfies_contract path w w'). Qed.

(* ---------- concrete instances (non-vacuity of the hypotheses of the main theorems) ---------- *)
Definition ex_world : fsw :=
  mk_fsw [(fs_key (lit "tmp"), NDir); (fs_key (lit "a"), NDir); (fs_key (lit "a/f"), NFile (lit "0123456789"))] [] 3.

(* chunk size 4 over a 10-byte file: chunks 4,4,2; the digest is that of the whole content *)
Example ex_checksum :
  file_chunks 4 (lit "0123456789") = [lit "0123"; lit "4567"; lit "89"] /\
  compute_file_checksum fs_runtime (lit "a/f") 4 (lit "md5") ex_world
  = Some (OOk (lit "md5:0123456789")).
Proof. split; vm_compute; reflexivity. Qed.

Example ex_last_bytes :
  last_bytes fs_runtime (lit "a/f") 3 ex_world = OOk (lit "789", 7) /\
  last_bytes fs_runtime (lit "a/f") 11 ex_world = OOk (lit "0123456789", 0) /\
  last_bytes fs_runtime (lit "a/f") 1099511627776 ex_world = OOk (lit "0123456789", 0).
Proof. repeat split; vm_compute; reflexivity. Qed.

(* a missing nested directory is created, the new file is fresh and holds the content *)
Example ex_write_to_tempfile :
  exists w' name,
    write_to_tempfile fs_runtime (lit "data") (Some (lit "a/b/c")) (lit ".s") (lit "pp") ex_world = (w', OOk name) /\
    fs_look (fs_key name) ex_world = None /\
    fs_look (fs_key name) w' = Some (NFile (lit "data")) /\
    fs_look (fs_key (lit "a/b/c")) w' = Some NDir /\
    fs_look (fs_key (lit "a/f")) w' = Some (NFile (lit "0123456789")).
Proof.
  (* the run is evaluated once; the other clauses are then about its value *)
  eexists. eexists. split; [vm_compute; reflexivity|]. vm_compute. repeat split.
Qed.

(* a regular file at the path: EEXIST is re-raised *)
Example ex_ensure_tree_file :
  snd (ensure_tree fs_runtime (lit "a/f") default_mode ex_world) = OErr (mk_oserror (lit "FileExistsError") errno_EEXIST) /\
  snd (ensure_tree fs_runtime (lit "a") default_mode ex_world) = OOk tt /\
  snd (ensure_tree fs_runtime (lit "a/x/y") default_mode ex_world) = OOk tt /\
  snd (ensure_tree fs_runtime (lit "a/f/y") default_mode ex_world) = OErr (mk_oserror (lit "NotADirectoryError") errno_ENOTDIR).
Proof. repeat split; vm_compute; reflexivity. Qed.

(* fault injection, for EVERY class name and EVERY errno: instances of the two filter theorems
   (e.g. a user-defined OSError subclass carrying ENOENT is swallowed by delete_if_exists, a
   FileNotFoundError whose errno was changed to something else is re-raised) *)
Example ex_inject_every_class_and_errno : forall (cls : bytes) (e : Z) (p : bytes),
  snd (ensure_tree (script_rt (OErr (mk_oserror cls e)) true) p default_mode tt)
    = (if e =? errno_EEXIST then OOk tt else OErr (mk_oserror cls e)) /\
  snd (ensure_tree (script_rt (OErr (mk_oserror cls e)) false) p default_mode tt) = OErr (mk_oserror cls e) /\
  snd (delete_if_exists p (rt_unlink (script_rt (OErr (mk_oserror cls e)) false)) tt)
    = (if e =? errno_ENOENT then OOk tt else OErr (mk_oserror cls e)).
Proof.
  intros cls e p. unfold ensure_tree, delete_if_exists, script_rt. cbn [rt_makedirs rt_isdir rt_unlink snd os_errno].
  rewrite andb_true_r, andb_false_r.
  destruct (e =? errno_EEXIST); destruct (e =? errno_ENOENT); repeat split; reflexivity.
Qed.

(* Short writes (defect C20-W1): whatever the positive per-call limit of write(2), the loop stores the
   whole content.  Instance: at most 3 bytes per write, a 5-byte content (one os.write whose return value is
   ignored leaves "dat" in the file). *)
Theorem fs_write_to_tempfile_any_limit (limit : Z) : 0 < limit ->
  forall content path suffix prefix w w' name,
    write_to_tempfile (fs_runtime_lim limit) content path suffix prefix w = (w', OOk name) ->
    fs_look (fs_key name) w = None /\ fs_look (fs_key name) w' = Some (NFile content).
Proof.
  intros Hl content path suffix prefix w w' name Hrun.
  destruct (write_to_tempfile_spec (fs_runtime_lim limit) fs_key fs_look fs_fd_key fs_tmpdir
              (fs_lim_satisfies_contract limit Hl) content path suffix prefix w w' name Hrun) as [Hfresh [Hcontent _]].
  split; assumption.
Qed.

Example ex_short_writes :
  exists w' name,
    write_to_tempfile (fs_runtime_lim 3) (lit "data!") None [] (lit "tmp") ex_world = (w', OOk name) /\
    fs_look (fs_key name) w' = Some (NFile (lit "data!")).
Proof. eexists. eexists. split; [vm_compute; reflexivity|]. vm_compute. reflexivity. Qed.
