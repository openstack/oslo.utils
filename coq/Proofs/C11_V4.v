(* Proofs/C11_V4.v — the strict IPv4 text form: model recogniser and value <-> dotted quad. *)
Require Import OV.Base.Bytes OV.Base.Py OV.Base.PyInt OV.Base.Str OV.Base.C11_Lib.
Require Import OV.Gen.C11_Netutils OV.Model.C11 OV.Model.C11_Spec OV.Proofs.C11_Split.
Open Scope N_scope.

Ltac Zify.zify_post_hook ::= Z.div_mod_to_equations.

(* ---------- finite sweeps over 0..k-1 ---------- *)
Lemma forall_below (P : N -> bool) (k : nat) :
  forallb P (map N.of_nat (seq 0 k)) = true -> forall n, n < N.of_nat k -> P n = true.
Proof.
  intros H n Hn. rewrite forallb_forall in H. apply H.
  replace n with (N.of_nat (N.to_nat n)) by lia. apply in_map. apply in_seq. lia.
Qed.

Definition small_dec (n : N) : str :=
  if n <? 10 then [48 + n]
  else if n <? 100 then [48 + n / 10; 48 + n mod 10]
  else [48 + n / 100; 48 + (n / 10) mod 10; 48 + n mod 10].

(* the three facts about the decimal text of an octet, from one sweep that prints each number once *)
Lemma dec_octet n : n < 256 ->
  dec_of_N n = small_dec n /\ octetb (dec_of_N n) = true /\ leading_zero_part (dec_of_N n) = false.
Proof.
  intros H.
  pose proof (forall_below (fun n => let d := dec_of_N n in
                                     beq d (small_dec n) && octetb d && negb (leading_zero_part d)) 256) as S.
  specialize (S ltac:(vm_compute; reflexivity) n H). cbv zeta in S.
  apply andb_true_iff in S. destruct S as [S L]. apply andb_true_iff in S. destruct S as [E O].
  split; [apply beq_eq, E|]. split; [exact O|apply negb_true_iff, L].
Qed.

Lemma dec_small n : n < 256 -> dec_of_N n = small_dec n.
Proof. apply dec_octet. Qed.

Lemma octetb_dec n : n <= 255 -> octetb (dec_of_N n) = true.
Proof. intros H. apply dec_octet. lia. Qed.

Lemma no_leading_zero_dec n : n <= 255 -> leading_zero_part (dec_of_N n) = false.
Proof. intros H. apply dec_octet. lia. Qed.

Lemma ascii_digit_range c : ascii_digit c = true -> 48 <= c <= 57.
Proof. unfold ascii_digit. lia. Qed.

Lemma octetb_inv f : octetb f = true -> exists n, n <= 255 /\ f = dec_of_N n.
Proof.
  destruct f as [|a [|b [|c [|d t]]]]; cbn [octetb]; intros H; try discriminate.
  - apply ascii_digit_range in H.
    exists (a - 48). split; [lia|]. rewrite dec_small by lia. unfold small_dec.
    replace (a - 48 <? 10) with true by lia. f_equal. lia.
  - apply andb_true_iff in H. destruct H as [H Hz]. apply andb_true_iff in H. destruct H as [Ha Hb].
    apply ascii_digit_range in Ha, Hb. apply negb_true_iff, N.eqb_neq in Hz.
    exists ((a - 48) * 10 + (b - 48)). split; [lia|]. rewrite dec_small by lia. unfold small_dec.
    replace ((a - 48) * 10 + (b - 48) <? 10) with false by lia.
    replace ((a - 48) * 10 + (b - 48) <? 100) with true by lia.
    f_equal; [|f_equal]; lia.
  - apply andb_true_iff in H. destruct H as [H Hv]. apply andb_true_iff in H. destruct H as [H Hz].
    apply andb_true_iff in H. destruct H as [H Hc]. apply andb_true_iff in H. destruct H as [Ha Hb].
    apply ascii_digit_range in Ha, Hb, Hc. apply negb_true_iff, N.eqb_neq in Hz. apply N.leb_le in Hv.
    exists ((a - 48) * 100 + (b - 48) * 10 + (c - 48)). split; [lia|]. rewrite dec_small by lia. unfold small_dec.
    replace ((a - 48) * 100 + (b - 48) * 10 + (c - 48) <? 10) with false by lia.
    replace ((a - 48) * 100 + (b - 48) * 10 + (c - 48) <? 100) with false by lia.
    f_equal; [|f_equal; [|f_equal]]; lia.
Qed.

Lemma octetb_iff f : octetb f = true <-> exists n, n <= 255 /\ f = dec_of_N n.
Proof.
  split; [apply octetb_inv|]. intros [n [Hn ->]]. apply octetb_dec. exact Hn.
Qed.

(* characters of a canonical decimal *)
Lemma digits_notin c f : all_ascii_digits f = true -> ascii_digit c = false -> ~ In c f.
Proof.
  unfold all_ascii_digits. intros H Hc Hin. rewrite forallb_forall in H. rewrite (H _ Hin) in Hc. discriminate.
Qed.

Lemma dec_notin c n : ascii_digit c = false -> ~ In c (dec_of_N n).
Proof. apply digits_notin, dec_of_N_digits. Qed.

Lemma pton4_value_b s : pton4b s = match pton4_value s with Some _ => true | None => false end.
Proof.
  unfold pton4b, pton4_value. destruct (split_char 46 s) as [|a [|b [|c [|d [|e t]]]]]; try reflexivity.
  destruct (octetb a && octetb b && octetb c && octetb d); reflexivity.
Qed.

Theorem pton4_value_iff s m : pton4_value s = Some m <-> quad_value s m.
Proof.
  unfold pton4_value, quad_value, octet_val. split.
  - pose proof (join_split 46 s) as J.
    destruct (split_char 46 s) as [|a [|b [|c [|d [|e t]]]]]; try discriminate.
    destruct (octetb a && octetb b && octetb c && octetb d) eqn:E; [|discriminate]. intros [= <-].
    apply andb_true_iff in E. destruct E as [E Hd]. apply andb_true_iff in E. destruct E as [E Hc].
    apply andb_true_iff in E. destruct E as [Ha Hb].
    apply octetb_inv in Ha, Hb, Hc, Hd.
    destruct Ha as [na [? ->]], Hb as [nb [? ->]], Hc as [nc [? ->]], Hd as [nd [? ->]].
    exists na, nb, nc, nd. rewrite !dval_dec_of_N. repeat split; try assumption. symmetry. exact J.
  - intros [a [b [c [d [Ha [Hb [Hc [Hd [-> ->]]]]]]]]].
    unfold dots. rewrite split_join; [|discriminate|repeat constructor; apply dec_notin; reflexivity].
    rewrite !octetb_dec by assumption. cbn [andb]. rewrite !dval_dec_of_N. reflexivity.
Qed.

Lemma quad_value_quad s m : quad_value s m -> dotted_quad s.
Proof. intros [a [b [c [d [Ha [Hb [Hc [Hd [-> _]]]]]]]]]. exists a, b, c, d. repeat split; assumption. Qed.

Lemma quad_has_value s : dotted_quad s -> exists m, quad_value s m.
Proof. intros [a [b [c [d [Ha [Hb [Hc [Hd ->]]]]]]]]. eexists. exists a, b, c, d. repeat split; try assumption; reflexivity. Qed.

Lemma quad_value_bound s m : quad_value s m -> m < 2 ^ 32.
Proof. intros [a [b [c [d [Ha [Hb [Hc [Hd [_ ->]]]]]]]]]. change (2 ^ 32) with 4294967296. lia. Qed.

Lemma pton4b_iff s : pton4b s = true <-> dotted_quad s.
Proof.
  rewrite pton4_value_b. split.
  - destruct (pton4_value s) as [m|] eqn:E; [|discriminate]. intros _. apply pton4_value_iff in E. exact (quad_value_quad s m E).
  - intros Q. destruct (quad_has_value s Q) as [m V]. apply pton4_value_iff in V. rewrite V. reflexivity.
Qed.

(* text of a dotted quad: digits and dots only *)
Definition quad_char (c : N) : bool := ascii_digit c || (c =? 46).

Lemma join_forallb (P : N -> bool) sep fs :
  forallb P sep = true -> Forall (fun f => forallb P f = true) fs -> forallb P (join sep fs) = true.
Proof.
  intros Hs. induction fs as [|x t IH]; intros H; [reflexivity|].
  inversion H as [|? ? Hx Ht]; subst. destruct t as [|y t'].
  - exact Hx.
  - rewrite join_cons_ne by discriminate. rewrite !forallb_app, Hx, Hs. cbn [andb]. apply IH, Ht.
Qed.

Lemma dec_quad_chars n : forallb quad_char (dec_of_N n) = true.
Proof.
  pose proof (dec_of_N_digits n) as H. unfold all_ascii_digits in H.
  rewrite forallb_forall in *. intros c Hc. unfold quad_char. rewrite (H c Hc). reflexivity.
Qed.

Lemma quad_chars s : dotted_quad s -> forallb quad_char s = true.
Proof.
  intros [a [b [c [d [_ [_ [_ [_ ->]]]]]]]]. apply join_forallb; [reflexivity|].
  repeat constructor; apply dec_quad_chars.
Qed.

Lemma quad_nonempty s : dotted_quad s -> s <> [].
Proof.
  intros [a [b [c [d [_ [_ [_ [_ ->]]]]]]]]. unfold dots. cbn [join].
  pose proof (dec_of_N_nonnil a). destruct (dec_of_N a); [congruence|discriminate].
Qed.

Lemma existsb_false_forallb {A} (P : A -> bool) l : existsb P l = false <-> forallb (fun x => negb (P x)) l = true.
Proof.
  induction l as [|x t IH]; cbn; [tauto|].
  rewrite orb_false_iff, andb_true_iff, negb_true_iff, IH. tauto.
Qed.

Lemma existsb_eqb_In c s : existsb (N.eqb c) s = true <-> In c s.
Proof.
  rewrite existsb_exists. split.
  - intros [x [Hin E]]. apply N.eqb_eq in E. subst. exact Hin.
  - intros H. exists c. split; [exact H|apply N.eqb_refl].
Qed.

Lemma existsb_eqb_notin c s : existsb (N.eqb c) s = false <-> ~ In c s.
Proof. rewrite <- existsb_eqb_In. destruct (existsb (N.eqb c) s); split; congruence. Qed.

(* the three pre-checks of netaddr pass on a dotted quad *)
Lemma quad_checks s : dotted_quad s ->
  existsb (N.eqb 58) s = false /\ existsb leading_zero_part (split_char 46 s) = false /\ cstr_ok s = true.
Proof.
  intros Q. pose proof (quad_chars s Q) as Hc. repeat split.
  - apply existsb_false_forallb. revert Hc. apply forallb_impl. intros c. unfold quad_char, ascii_digit. lia.
  - destruct Q as [a [b [c [d [Ha [Hb [Hc' [Hd ->]]]]]]]].
    unfold dots. rewrite split_join; [|discriminate|repeat constructor; apply dec_notin; reflexivity].
    cbn [existsb]. rewrite !no_leading_zero_dec by assumption. reflexivity.
  - unfold cstr_ok. revert Hc. apply forallb_impl. intros c. unfold quad_char, ascii_digit, cstr_char_ok. lia.
Qed.

(* netaddr.valid_ipv4(s, INET_PTON) *)
Lemma netaddr_v4_true_iff s : netaddr_valid_ipv4_pton s = AOk true <-> dotted_quad s.
Proof.
  unfold netaddr_valid_ipv4_pton, inet_pton. split.
  - destruct (existsb (N.eqb 58) s); [discriminate|].
    destruct (existsb leading_zero_part (split_char 46 s)); [discriminate|].
    destruct (cstr_ok s); cbn [negb]; [|discriminate].
    destruct (pton4b s) eqn:E; [|discriminate]. intros _. apply pton4b_iff. exact E.
  - intros Q. destruct (quad_checks s Q) as [-> [-> ->]]. cbn [negb]. apply pton4b_iff in Q. rewrite Q. reflexivity.
Qed.

Lemma guard_true tuple r : guard tuple r = AOk true <-> r = AOk true.
Proof.
  unfold guard. destruct r as [b|e].
  - tauto.
  - destruct (caught tuple e); split; intros H; discriminate.
Qed.

