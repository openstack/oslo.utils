(* Proofs/Insp_FmtOk.v — what the hooks of the ten inspectors do to the inspector object, said once per hook
   ([acts]: post_process only creates, deletes and trims regions and registers checks; region_complete only sets
   the format's own attributes), and from that: every inspector satisfies the obligations of the engine
   invariant ([fmt_ok]). *)
Require Import OV.Base.Bytes OV.Base.Py OV.Base.Insp_Struct OV.Gen.Insp_Consts OV.Model.Insp_Engine.
Require Import OV.Model.Insp_Raw OV.Model.Insp_Qcow2 OV.Model.Insp_Qed OV.Model.Insp_Vhd OV.Model.Insp_Vdi
               OV.Model.Insp_Iso OV.Model.Insp_Gpt OV.Model.Insp_Luks OV.Model.Insp_Vhdx OV.Model.Insp_Vmdk.
Require Import OV.Proofs.Insp_Engine OV.Proofs.Insp_StaticQcow.
Open Scope N_scope.

(* which kinds of region a format may hold: [K name e] with [e] = "is an EndCaptureRegion" *)
Definition K_any : rname -> bool -> Prop := fun _ _ => True.
Definition K_fixed : rname -> bool -> Prop := fun _ e => e = false.

Section Acts.
Context {X : Type}.
(* [Q name spec]: the regions the hook may create; [D name state]: the regions it may delete, and in which state;
   [T name]: the regions it may trim (`region.length = len(region.data)`) *)
Variable Q : rname -> rspec -> Prop.
Variable D : rname -> ist X -> Prop.
Variable T : rname -> Prop.

Inductive acts : ist X -> ist X -> Prop :=
| acts_refl s : acts s s
| acts_new n sp s s1 e s' : Q n sp -> new_region n sp s = (s1, e) -> acts s1 s' -> acts s s'
| acts_del n s s1 e s' : D n s -> delete_region n s = (s1, e) -> acts s1 s' -> acts s s'
| acts_check c s s1 e s' : add_check c s = (s1, e) -> acts s1 s' -> acts s s'
| acts_trim n m s s' : T n -> rget n (i_regs s) = Some m ->
    acts (set_regs s (rset n (set_len m (flen (r_data m))) (i_regs s))) s' -> acts s s'.

Lemma acts_same s s' (e e' : option exn) : (s, e) = (s', e') -> acts s s'.
Proof. intros H. inversion H. apply acts_refl. Qed.
Lemma acts_trans a b c : acts a b -> acts b c -> acts a c.
Proof. intros H1 H2. induction H1; [exact H2 | eapply acts_new | eapply acts_del | eapply acts_check | eapply acts_trim]; eauto. Qed.

(* what each of the four operations keeps, the hook keeps *)
Lemma acts_pres (P : ist X -> Prop) :
  (forall n sp s s1 e, Q n sp -> P s -> new_region n sp s = (s1, e) -> P s1) ->
  (forall n s s1 e, D n s -> P s -> delete_region n s = (s1, e) -> P s1) ->
  (forall c s s1 e, P s -> add_check c s = (s1, e) -> P s1) ->
  (forall n m s, T n -> P s -> rget n (i_regs s) = Some m ->
                 P (set_regs s (rset n (set_len m (flen (r_data m))) (i_regs s)))) ->
  forall s s', acts s s' -> P s -> P s'.
Proof.
  intros Hn Hd Hc Ht s s' H.
  induction H as [s|n sp s s1 e s' Hq He _ IH|n s s1 e s' Hdn He _ IH|c s s1 e s' He _ IH|n m s s' Htn Hg _ IH]; intros HP.
  - exact HP.
  - exact (IH (Hn n sp s s1 e Hq HP He)).
  - exact (IH (Hd n s s1 e Hdn HP He)).
  - exact (IH (Hc c s s1 e HP He)).
  - exact (IH (Ht n m s Htn HP Hg)).
Qed.
End Acts.
Arguments acts_same {X Q D T s s' e e'}.

Lemma no_post_acts {X} (F : fmt X) (Q : rname -> rspec -> Prop) D (T : rname -> Prop) s s' e :
  f_post F = no_post -> f_post F s = (s', e) -> acts Q D T s s'.
Proof. intros HF H. rewrite HF in H. exact (acts_same H). Qed.

(* region_complete that only sets the format's own attributes *)
Definition ext_only {X} (F : fmt X) : Prop :=
  forall n s s' e, f_rcomplete F n s = (s', e) -> exists x, s' = set_ext s x.

Lemma no_rcomplete_ext {X} (F : fmt X) : f_rcomplete F = no_rcomplete -> ext_only F.
Proof. intros HF n s s' e H. rewrite HF in H. inversion H; subst. exists (i_ext s'). symmetry. apply ist_eta. Qed.

Lemma callbacks_ext_only {X} (F : fmt X) : ext_only F ->
  forall names s s' e, run_callbacks F names s = (s', e) -> exists x, s' = set_ext s x.
Proof.
  intros HF. induction names as [|n t IH]; intros s s' e H; cbn [run_callbacks] in H.
  - inversion H; subst. exists (i_ext s'). symmetry. apply ist_eta.
  - destruct (f_rcomplete F n s) as [s1 [e1|]] eqn:Hc.
    + inversion H; subst. eapply HF; eauto.
    + destruct (HF _ _ _ _ Hc) as (x1 & ->). destruct (IH _ _ _ H) as (x2 & ->). exists x2. destruct s; reflexivity.
Qed.

Section Step.
Context {X : Type}.
Variable K : rname -> bool -> Prop.
Variable st : bytes.

(* one hook action: the invariant holds afterwards, regions are old or empty, _finished untouched *)
Definition Step (s s' : ist X) : Prop :=
  Inv K st s' /\ old_or_empty (i_regs s) (i_regs s') /\ i_fin s' = i_fin s.
Lemma Step_refl s : Inv K st s -> Step s s.
Proof. intros H. split; [exact H|]. split; [apply ooe_refl | reflexivity]. Qed.
Lemma Step_trans s s1 s2 : Step s s1 -> Step s1 s2 -> Step s s2.
Proof.
  intros (_ & Ho1 & Hf1) (HI & Ho2 & Hf2). split; [exact HI|]. split; [eapply ooe_trans; eassumption | congruence].
Qed.

(* created EndCaptureRegions have a positive length, created and trimmed regions are of the kind [K] prescribes *)
Lemma Step_acts (Q : rname -> rspec -> Prop) D (T : rname -> Prop) s s' :
  (forall n sp, Q n sp -> (rs_end sp = true -> 0 < rs_len sp) /\ K n (rs_end sp)) ->
  (forall n e, T n -> K n e -> e = false) ->
  acts Q D T s s' -> Inv K st s -> Step s s'.
Proof.
  intros HQ HT H HI. apply (acts_pres Q D T (Step s)) with (s := s); [| | | |exact H|apply Step_refl; exact HI].
  - intros n sp s0 s1 e Hq HS Hn. destruct (HQ n sp Hq) as [Hl Hk].
    exact (Step_trans _ _ _ HS (Inv_new_region K st s0 s1 n sp e (proj1 HS) Hl Hk Hn)).
  - intros n s0 s1 e _ HS Hd. exact (Step_trans _ _ _ HS (Inv_delete_region K st s0 s1 n e (proj1 HS) Hd)).
  - intros c s0 s1 e HS Hc. exact (Step_trans _ _ _ HS (Inv_add_check K st s0 s1 c e (proj1 HS) Hc)).
  - intros n m s0 Ht HS Hg. apply (Step_trans _ _ _ HS). apply Inv_trim; [exact (proj1 HS) | exact Hg|].
    exact (HT n _ Ht (proj2 (Inv_region_RI K st s0 n m (proj1 HS) Hg))).
Qed.
End Step.

Lemma post_ok_acts {X} K (F : fmt X) (Q : rname -> rspec -> Prop) D (T : rname -> Prop) :
  (forall n sp, Q n sp -> (rs_end sp = true -> 0 < rs_len sp) /\ K n (rs_end sp)) ->
  (forall n e, T n -> K n e -> e = false) ->
  (forall s s' e, f_post F s = (s', e) -> acts Q D T s s') -> post_ok K F.
Proof.
  intros HQ HT HF st s s' e HI Hp. destruct (Step_acts K st Q D T s s' HQ HT (HF s s' e Hp) HI) as (HI' & Ho & Hf).
  split; [exact HI'|]. split; [apply ooe_fresh; exact Ho | exact Hf].
Qed.
Lemma post_ok_no_post {X} K (F : fmt X) : f_post F = no_post -> post_ok K F.
Proof.
  intros HF. apply (post_ok_acts K F (fun _ _ => False) (fun _ _ => False) (fun _ => False)); [intros n sp [] | intros n e [] |].
  intros s s' e. apply no_post_acts. exact HF.
Qed.
Lemma rc_ok_ext {X} K (F : fmt X) : ext_only F -> rc_ok K F.
Proof. intros HF n st s s' e HI Hc. destruct (HF n s s' e Hc) as [x ->]. apply Inv_set_ext. exact HI. Qed.

(* the regions _initialize creates: distinct names, all of them CaptureRegions *)
Lemma init_regions_ok f :
  NoDup (map fst (init_regions f)) /\
  Forall (fun p => (rs_end (snd p) = true -> 0 < rs_len (snd p)) /\ K_fixed (fst p) (rs_end (snd p))) (init_regions f).
Proof. destruct f; cbn; split; repeat constructor; cbn; try discriminate; intuition discriminate. Qed.

Lemma static_fmt_ok (F : fmt unit) : f_post F = no_post -> f_rcomplete F = no_rcomplete -> fmt_ok K_fixed F.
Proof.
  intros H1 H2. split; [apply post_ok_no_post; exact H1|].
  split; [apply rc_ok_ext, no_rcomplete_ext; exact H2 | apply init_regions_ok].
Qed.


Lemma qcow_rc_ext : ext_only qcow_fmt.
Proof. intros n s s' e H. exists (i_ext s'). exact (qrc_shape n s s' e H). Qed.

Lemma qcow_fmt_ok : fmt_ok K_fixed qcow_fmt.
Proof.
  split; [apply post_ok_no_post; reflexivity|]. split; [apply rc_ok_ext; exact qcow_rc_ext | apply init_regions_ok].
Qed.

Lemma vhdx_rt_loop_spec k rest sp :
  vhdx_rt_loop k rest = Ok (Some sp) -> rs_end sp = false /\ rs_len sp = VHDX_META_A * VHDX_META_B.
Proof.
  revert rest. induction k as [|k IH]; intros rest H; cbn [vhdx_rt_loop] in H; [discriminate|].
  destruct (vhdx_guid_is _ _) as [[|]|]; cbn [bind] in H; try discriminate.
  - destruct (unpack sf_vhdx_rt_rest _); cbn [bind] in H; [|discriminate]. inversion H; subst. split; reflexivity.
  - apply (IH _ H).
Qed.

Lemma vhdx_find_meta_entry_spec g (s s' : ist unit) r :
  vhdx_find_meta_entry g s = (s', r) ->
  (s' = s \/ exists m, rget R_metadata (i_regs s) = Some m /\
                       s' = set_regs s (rset R_metadata (set_len m (flen (r_data m))) (i_regs s)))
  /\ (forall sp, r = Ok (Some sp) -> rs_end sp = false).
Proof.
  unfold vhdx_find_meta_entry, get_region. intros H.
  (* every exit but one returns the state as it is, and no spec *)
  assert (Hsame : forall x, (forall sp, x <> Ok (Some sp)) -> (s, x) = (s', r) ->
            (s' = s \/ exists m, rget R_metadata (i_regs s) = Some m /\
                                 s' = set_regs s (rset R_metadata (set_len m (flen (r_data m))) (i_regs s)))
            /\ (forall sp, r = Ok (Some sp) -> rs_end sp = false)).
  { intros x Hx E. inversion E; subst. split; [left; reflexivity|]. intros sp Hsp. destruct (Hx sp Hsp). }
  destruct (rget R_metadata (i_regs s)) as [m|] eqn:Hg; [|refine (Hsame _ _ H); discriminate].
  destruct (flen (r_data m) <? VHDX_MT_MIN); [refine (Hsame _ _ H); discriminate|].
  destruct (unpack sf_vhdx_mt_hdr _); [|refine (Hsame _ _ H); discriminate].
  destruct (negb (beq _ _)); [refine (Hsame _ _ H); discriminate|].
  destruct (flen (r_data m) <? _); [refine (Hsame _ _ H); discriminate|].
  destruct (VHDX_MT_LIMIT <=? _); [refine (Hsame _ _ H); discriminate|].
  destruct (vhdx_mt_loop _ _ _) as [[[io il]|]|]; try (refine (Hsame _ _ H); discriminate).
  inversion H; subst. split; [right; exists m; split; reflexivity|].
  intros sp Hs. inversion Hs; subst. reflexivity.
Qed.

(* post_process creates 'metadata' (2048*32 bytes, where the region table says) once the header is complete, then
   'vds' (where the metadata table says), trimming 'metadata' to what it holds *)
Definition vhdx_creates (n : rname) (sp : rspec) : Prop :=
  rs_end sp = false /\ ((n = R_metadata /\ rs_len sp = VHDX_META_A * VHDX_META_B) \/ n = R_vds).

Lemma vhdx_post_acts s s' e : vhdx_post s = (s', e) -> acts vhdx_creates (fun _ _ => False) (eq R_metadata) s s'.
Proof.
  unfold vhdx_post. intros Hp.
  destruct (get_region R_header s) as [h|]; [|exact (acts_same Hp)].
  destruct (rcomplete h && negb (has_region R_metadata s)).
  - unfold vhdx_find_meta_region in Hp. destruct (get_region R_header s) as [h'|]; cbn [bind] in Hp; [|exact (acts_same Hp)].
    destruct (unpack sf_vhdx_rt_hdr _); cbn [bind] in Hp; [|exact (acts_same Hp)].
    destruct (negb (_ =? VHDX_REGI)); [exact (acts_same Hp)|].
    destruct (VHDX_RT_LIMIT <=? _); [exact (acts_same Hp)|].
    destruct (vhdx_rt_loop _ _) as [[sp|]|] eqn:Hl; try exact (acts_same Hp).
    apply vhdx_rt_loop_spec in Hl. eapply acts_new; [|exact Hp|apply acts_refl].
    split; [apply Hl | left; split; [reflexivity | apply Hl]].
  - destruct (has_region R_metadata s && negb (has_region R_vds s)); [|exact (acts_same Hp)].
    destruct (vhdx_find_meta_entry VHDX_GUID_VIRTUAL_DISK_SIZE s) as [s1 r] eqn:Hf.
    apply vhdx_find_meta_entry_spec in Hf. destruct Hf as [Hs1 Hk].
    apply (acts_trans _ _ _ s s1).
    + destruct Hs1 as [->|(m & Hg & ->)]; [apply acts_refl|]. eapply acts_trim; [reflexivity | exact Hg | apply acts_refl].
    + destruct r as [[sp|]|]; try exact (acts_same Hp).
      eapply acts_new; [|exact Hp|apply acts_refl]. split; [exact (Hk sp eq_refl) | right; reflexivity].
Qed.

Lemma vhdx_post_ok : post_ok K_fixed vhdx_fmt.
Proof.
  apply (post_ok_acts K_fixed vhdx_fmt vhdx_creates (fun _ _ => False) (eq R_metadata)); [| |exact vhdx_post_acts].
  - intros n sp [He _]. rewrite He. split; [discriminate | reflexivity].
  - intros n e _ He. exact He.
Qed.

Lemma vhdx_fmt_ok : fmt_ok K_fixed vhdx_fmt.
Proof.
  split; [exact vhdx_post_ok|]. split; [apply rc_ok_ext, no_rcomplete_ext; reflexivity | apply init_regions_ok].
Qed.

(* post_process creates the footer, EndCaptureRegion(1536), and re-creates the descriptor with at most
   DESC_MAX_SIZE bytes, whatever the header announces *)
Definition vmdk_creates (n : rname) (sp : rspec) : Prop :=
  (n = R_footer /\ sp = mkRspec true VMDK_FOOTER_LEN VMDK_FOOTER_LEN None) \/
  (n = R_descriptor /\ rs_end sp = false /\ rs_len sp <= VMDK_DESC_MAX_SIZE).

(* the header region is complete and carries the KDMV signature: it is never deleted again *)
Definition kd (d : bytes) : bool :=
  match unpack sf_vmdk_sparse (nsub 0 (0 + VMDK_MIN_SPARSE_HEADER) d) with
  | Ok b => beq (sraw sf_vmdk_sparse 0 b) VMDK_MAGIC_PP
  | Exn _ => false
  end.
Definition hdr_kdmv (s : ist vx) : Prop :=
  exists h, rget R_header (i_regs s) = Some h /\ rcomplete h = true /\ kd (r_data h) = true.

Lemma hdr_kdmv_regs (s s' : ist vx) : rget R_header (i_regs s') = rget R_header (i_regs s) -> hdr_kdmv s -> hdr_kdmv s'.
Proof. intros H (h & Hh & Hr). exists h. rewrite H. auto. Qed.
Lemma hdr_kdmv_new_region (s s' : ist vx) n sp e : hdr_kdmv s -> new_region n sp s = (s', e) -> hdr_kdmv s'.
Proof.
  intros (h & Hh & Hr) Hnr. unfold new_region in Hnr. destruct (has_region n s); inversion Hnr; subst; [exists h; auto|].
  exists h. cbn [i_regs]. rewrite (rget_app_some _ _ _ _ Hh). auto.
Qed.
Lemma hdr_kdmv_delete (s s' : ist vx) n e : n <> R_header -> hdr_kdmv s -> delete_region n s = (s', e) -> hdr_kdmv s'.
Proof.
  intros Hn H Hd. unfold delete_region in Hd. destruct (has_region n s); inversion Hd; subst; [|exact H].
  eapply hdr_kdmv_regs; [|exact H]. cbn [set_regs i_regs]. apply rget_rdel_other. congruence.
Qed.
Lemma hdr_kdmv_add_check (s s' : ist vx) k e : hdr_kdmv s -> add_check k s = (s', e) -> hdr_kdmv s'.
Proof. intros H Ha. unfold add_check in Ha. destruct (mem_cname k (i_checks s)); inversion Ha; subst; exact H. Qed.

(* post_process deletes the header when it is complete, not KDMV and all text; and the descriptor when the
   header is complete KDMV (to re-create it where the header says) *)
Definition vmdk_deletes (n : rname) (s : ist vx) : Prop :=
  (n = R_header /\ exists h, rget R_header (i_regs s) = Some h /\ rcomplete h = true /\ kd (r_data h) = false /\
                              forallb ascii_text (r_data h) = true) \/
  (n = R_descriptor /\ hdr_kdmv s).

Lemma vmdk_post_acts s s' e : vmdk_post s = (s', e) -> acts vmdk_creates vmdk_deletes (fun _ => False) s s'.
Proof.
  unfold vmdk_post. intros Hp.
  destruct (rget R_header (i_regs s)) as [h|] eqn:Hh; [|exact (acts_same Hp)].
  destruct (rcomplete h) eqn:Hc; cbn [negb] in Hp; [|exact (acts_same Hp)].
  destruct (vmdk_parse_sparse s R_header 0) as [[[[[sig ver] dsec] dnum] gd]|ex] eqn:Hps; [|exact (acts_same Hp)].
  assert (Hkd : kd (r_data h) = beq sig VMDK_MAGIC_PP).
  { unfold vmdk_parse_sparse, get_region in Hps. rewrite Hh in Hps. cbn [bind] in Hps. unfold kd.
    destruct (unpack sf_vmdk_sparse _); cbn [bind] in Hps; inversion Hps; reflexivity. }
  destruct (beq sig VMDK_MAGIC_PP); cbn [negb] in Hp.
  2:{ destruct (forallb ascii_text (r_data h)) eqn:Ht; [|exact (acts_same Hp)].
      eapply acts_del; [left; split; [reflexivity | exists h; auto] | exact Hp | apply acts_refl]. }
  assert (K : hdr_kdmv s) by (exists h; auto).
  destruct (negb _); [exact (acts_same Hp)|].
  (* the footer region and its check; the header stays what it is *)
  match type of Hp with (match ?m with _ => _ end) = _ => destruct m as [s1 e1] eqn:Hm end.
  assert (H1 : acts vmdk_creates vmdk_deletes (fun _ => False) s s1 /\ hdr_kdmv s1).
  { destruct ((gd =? VMDK_GD_AT_END) && negb (has_region R_footer s)); [|inversion Hm; subst; split; [apply acts_refl | exact K]].
    destruct (new_region R_footer _ s) as [sa ea] eqn:Hn. pose proof (hdr_kdmv_new_region _ _ _ _ _ K Hn) as Ka.
    destruct ea; [inversion Hm; subst; split; [|exact Ka]; eapply acts_new; [left; split; reflexivity | exact Hn | apply acts_refl]|].
    split; [|exact (hdr_kdmv_add_check _ _ _ _ Ka Hm)].
    eapply acts_new; [left; split; reflexivity | exact Hn |]. eapply acts_check; [exact Hm | apply acts_refl]. }
  destruct H1 as [H1 K1]. apply (acts_trans _ _ _ s s1); [exact H1|].
  destruct e1; [exact (acts_same Hp)|].
  destruct (negb (_ =? VMDK_DESC_OFFSET)); [exact (acts_same Hp)|].
  destruct (get_region R_descriptor s1) as [d|]; [|exact (acts_same Hp)].
  destruct (r_off d =? 0); [|exact (acts_same Hp)].
  destruct (delete_region R_descriptor s1) as [s2 e2] eqn:Hd. eapply acts_del; [right; split; [reflexivity | exact K1] | exact Hd|].
  destruct e2; [exact (acts_same Hp)|].
  eapply acts_new; [|exact Hp|apply acts_refl]. right. split; [reflexivity | split; [reflexivity | apply N.le_min_r]].
Qed.

Lemma vmdk_post_ok : post_ok K_any vmdk_fmt.
Proof.
  apply (post_ok_acts K_any vmdk_fmt vmdk_creates vmdk_deletes (fun _ => False)); [| |exact vmdk_post_acts].
  - intros n sp [[_ ->]|(_ & He & _)]; (split; [|exact I]); [reflexivity | rewrite He; discriminate].
  - intros n e [].
Qed.

Lemma vmdk_rc_ext : ext_only vmdk_fmt.
Proof.
  intros n s s' e. cbn [f_rcomplete vmdk_fmt]. unfold vmdk_rcomplete, vmdk_parse_descriptor. intros Hc.
  assert (Hid : forall e', (s, e') = (s', e) -> exists x, s' = set_ext s x).
  { intros e' H. inversion H; subst. exists (i_ext s'). symmetry. apply ist_eta. }
  destruct n; try exact (Hid _ Hc).
  destruct (get_region R_descriptor s); [|exact (Hid _ Hc)].
  destruct (negb _); [exact (Hid _ Hc)|]. inversion Hc; subst. eexists. reflexivity.
Qed.

Lemma vmdk_fmt_ok : fmt_ok K_any vmdk_fmt.
Proof.
  split; [exact vmdk_post_ok|]. split; [apply rc_ok_ext; exact vmdk_rc_ext|].
  destruct (init_regions_ok F_vmdk) as [Hn Hs]. split; [exact Hn|].
  eapply Forall_impl; [|exact Hs]. intros p [Hl _]. split; [exact Hl | exact I].
Qed.

(* region_complete callbacks: Python iterates a SET of newly complete regions (order unspecified), the
   model uses dictionary order.  The order is immaterial: only qcow2 (one region in its life) and vmdk
   (only the name 'descriptor' does anything) have a non-trivial callback. *)
Lemma vmdk_callback_only_descriptor n (s : ist vx) : n <> R_descriptor -> vmdk_rcomplete n s = (s, None).
Proof. intros H. destruct n; try reflexivity. contradiction. Qed.
Lemma unit_formats_no_callback (F : fmt unit) n s :
  In F [raw_fmt; qed_fmt; vhd_fmt; vdi_fmt; iso_fmt; gpt_fmt; luks_fmt; vhdx_fmt] -> f_rcomplete F n s = (s, None).
Proof. cbn [In]. intros H. repeat (destruct H as [<-|H]; [reflexivity|]). contradiction. Qed.
