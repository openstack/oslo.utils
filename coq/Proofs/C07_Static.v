(* Proofs/C07_Static.v — C07 for the static inspectors (qcow2, VHD, VDI, ISO, LUKS, raw, GPT):
   the inspector object is a function of the bytes consumed so far (Proofs/Insp_Static.v), so virtual_size is:
   [vsize_static], with the closed formula [size_of f] of each format.  What a well-formed image makes of the
   formula is a fact about bytes alone (the [*_size_wf] lemmas). *)
From Coq Require Import String.
Require Import OV.Proofs.Insp_Static OV.Proofs.Insp_StaticQcow OV.Proofs.Insp_All.
Require Import OV.Base.Bytes OV.Base.Py OV.Base.Str OV.Base.Insp_Struct OV.Gen.Insp_Consts
               OV.Model.Insp_Engine OV.Model.Insp_All OV.Model.C07.
Require Import OV.Model.Insp_Raw OV.Model.Insp_Qcow2 OV.Model.Insp_Vhd OV.Model.Insp_Vdi
               OV.Model.Insp_Iso OV.Model.Insp_Gpt OV.Model.Insp_Luks.
Open Scope N_scope.

(* the inspector after the bytes [b], before ([fin] = false) and after finish() *)
Definition state_of (f : fmt_id) (b : bytes) (fin : bool) : istate :=
  match f with
  | F_qcow2 => I_qcow (ideal qcow_fmt b fin (qext b))
  | _ => I_unit f (ideal (ufmt f) b fin tt)
  end.

Lemma feed_unit f cs : is_static_unit f = true -> feed f cs = (state_of f (concat cs) false, None).
Proof.
  intros Hs. destruct (static_unit_facts f Hs) as (Hp & Hc & Hi & Hsp & _). rewrite <- Hi in Hsp.
  assert (Hinit : init f = I_unit f (init_ist (ufmt f))) by (destruct f; try discriminate Hs; reflexivity).
  unfold feed. rewrite Hinit, eat_list_unit, (ideal_init (ufmt f) Hsp), (ideal_eat_all (ufmt f) Hp Hc).
  destruct (f_ext0 (ufmt f)). destruct f; try discriminate Hs; reflexivity.
Qed.

Lemma feed_qcow cs : feed F_qcow2 cs = (state_of F_qcow2 (concat cs) false, None).
Proof.
  unfold feed. change (init F_qcow2) with (I_qcow (init_ist qcow_fmt)).
  rewrite eat_list_qcow, (ideal_init qcow_fmt qcow_specs). change (f_ext0 qcow_fmt) with (@None qhdr).
  rewrite <- qext_nil, qcow_eat_all. reflexivity.
Qed.

Lemma feed_static f cs : is_static f = true -> feed f cs = (state_of f (concat cs) false, None).
Proof. intros H. destruct f; try discriminate H; try (apply feed_unit; reflexivity). apply feed_qcow. Qed.

Lemma run_static f cs : is_static f = true -> run f cs = (state_of f (concat cs) true, None).
Proof. intros H. rewrite (static_inspector_refines_spec_state f cs H). destruct f; reflexivity. Qed.

(* the first-sector region of qcow2 / VHD / VDI after consuming [b] *)
Definition hdr512 (b : bytes) : region := mkRegion 0 false 0 512 None (bslice 0 512 b) false.

Lemma rcomplete_hdr512 b : rcomplete (hdr512 b) = (512 <=? blen b).
Proof.
  unfold rcomplete, base_complete, hdr512. cbn [r_end r_min r_len r_data].
  rewrite flen_blen, blen_bslice. destruct (512 <=? blen b) eqn:E; lia.
Qed.

(* reading one integer field out of the captured first sector *)
Lemma hdr512_field (sf : sfmt) lo hi w b :
  512 <= blen b -> hi <= 512 -> hi - lo = w -> lo <= hi -> sf_size sf = w -> sf_fields sf = [(0, w)] ->
  unpack sf (nsub lo hi (r_data (hdr512 b))) = Ok (bslice lo w b) /\
  sint sf 0 (bslice lo w b) = if sf_big sf then be_val (bslice lo w b) else le_val (bslice lo w b).
Proof.
  intros Hb Hhi Hw Hlo Hsz Hf. cbn [hdr512 r_data]. rewrite nsub_bslice, Hw.
  rewrite bslice_bslice by lia. rewrite N.add_0_l. split.
  - apply unpack_ok. rewrite blen_bslice. lia.
  - unfold sint, sraw. rewrite Hf. cbn [nth]. rewrite bslice_0_all by (rewrite blen_bslice; lia). reflexivity.
Qed.


Definition vhd_size_of (b : bytes) : res Z :=
  if blen b <? 512 then Ok 0%Z
  else if prefixb SPEC_VHD_COOKIE b then Ok (Z.of_N (be_val (bslice 40 8 b))) else Ok 0%Z.

Lemma vhd_vsize_fill (s : ist unit) b :
  i_regs s = [(R_header, hdr512 b)] -> vhd_vsize s = vhd_size_of b.
Proof.
  intros Hr. unfold vhd_vsize, vhd_match, get_region, vhd_size_of. rewrite Hr.
  cbn [rget]. change (rname_beq R_header R_header) with true. cbv iota. cbn [bind].
  rewrite rcomplete_hdr512.
  destruct (blen b <? 512) eqn:E.
  - replace (512 <=? blen b) with false by lia. reflexivity.
  - replace (512 <=? blen b) with true by lia. cbn [negb].
    cbn [hdr512 r_data]. change (bslice 0 512 b) with (btake 512 b).
    rewrite prefixb_btake_le by (vm_compute; discriminate).
    change VHD_MAGIC with SPEC_VHD_COOKIE.
    destruct (prefixb SPEC_VHD_COOKIE b); cbn [negb]; [|reflexivity].
    change (btake 512 b) with (r_data (hdr512 b)).
    destruct (hdr512_field sf_vhd_size VHD_SIZE_LO VHD_SIZE_HI 8 b) as [U S]; try reflexivity; try (vm_compute; discriminate); [lia|].
    rewrite U. cbn [bind]. rewrite S. reflexivity.
Qed.

Lemma vhd_size_wf size b : size < 2 ^ 64 -> wf_vhd size b = true -> vhd_size_of b = Ok (Z.of_N size).
Proof.
  intros Hs Hwf. unfold wf_vhd in Hwf. apply andb_true_iff in Hwf. destruct Hwf as [Hwf H3].
  apply andb_true_iff in Hwf. destruct Hwf as [H1 H2].
  unfold vhd_size_of. unfold SPEC_HDR_512 in H1. replace (blen b <? 512) with false by lia.
  rewrite H2. apply beq_eq in H3. rewrite H3. rewrite be_val_enc by exact Hs. reflexivity.
Qed.

Definition vdi_size_of (b : bytes) : res Z :=
  if blen b <? 512 then Ok 0%Z
  else if le_val (bslice 64 4 b) =? SPEC_VDI_SIGNATURE then Ok (Z.of_N (le_val (bslice 368 8 b))) else Ok 0%Z.

Lemma vdi_vsize_fill (s : ist unit) b :
  i_regs s = [(R_header, hdr512 b)] -> vdi_vsize s = vdi_size_of b.
Proof.
  intros Hr. unfold vdi_vsize, vdi_match, get_region, vdi_size_of. rewrite Hr.
  cbn [rget]. change (rname_beq R_header R_header) with true. cbv iota. cbn [bind].
  rewrite rcomplete_hdr512.
  destruct (blen b <? 512) eqn:E.
  - replace (512 <=? blen b) with false by lia. reflexivity.
  - replace (512 <=? blen b) with true by lia. cbn [negb].
    destruct (hdr512_field sf_vdi_sig VDI_SIG_LO VDI_SIG_HI 4 b) as [U1 S1]; try reflexivity; try (vm_compute; discriminate); [lia|].
    destruct (hdr512_field sf_vdi_size VDI_SIZE_LO VDI_SIZE_HI 8 b) as [U2 S2]; try reflexivity; try (vm_compute; discriminate); [lia|].
    rewrite U1. cbn [bind]. rewrite S1. cbn [sf_vdi_sig sf_big].
    change VDI_SIG_LO with 64. change VDI_SIG with SPEC_VDI_SIGNATURE.
    destruct (le_val (bslice 64 4 b) =? SPEC_VDI_SIGNATURE); cbn [negb]; [|reflexivity].
    rewrite U2. cbn [bind]. rewrite S2. reflexivity.
Qed.


Lemma vdi_size_wf size b : size < 2 ^ 64 -> wf_vdi size b = true -> vdi_size_of b = Ok (Z.of_N size).
Proof.
  intros Hs Hwf. unfold wf_vdi in Hwf. apply andb_true_iff in Hwf. destruct Hwf as [Hwf H3].
  apply andb_true_iff in Hwf. destruct Hwf as [H1 H2].
  unfold vdi_size_of. unfold SPEC_HDR_512 in H1. replace (blen b <? 512) with false by lia.
  apply beq_eq in H2. apply beq_eq in H3. rewrite H2, H3.
  rewrite le_val_enc by (vm_compute; reflexivity). rewrite N.eqb_refl.
  rewrite le_val_enc by exact Hs. reflexivity.
Qed.

Definition luks_hdr (b : bytes) : region := mkRegion 0 false 0 592 None (bslice 0 592 b) false.

(* struct.error while fewer than 108 bytes have been seen; afterwards position - payload_offset*512 *)
Definition luks_size_of (b : bytes) : res Z :=
  if blen b <? 108 then Exn StructError
  else Ok (Z.of_N (blen b) - Z.of_N (be_val (bslice 104 4 b)) * 512)%Z.

Lemma luks_vsize_fill (s : ist unit) b :
  i_regs s = [(R_header, luks_hdr b)] -> i_pos s = blen b -> luks_vsize s = luks_size_of b.
Proof.
  intros Hr Hp. unfold luks_vsize, luks_header_items, get_region, luks_size_of. rewrite Hr, Hp.
  cbn [rget]. change (rname_beq R_header R_header) with true. cbv iota. cbn [bind luks_hdr r_data].
  rewrite ntake_bslice. rewrite bslice_bslice by (vm_compute; discriminate). rewrite N.add_0_l.
  change LUKS_HDR_SLICE with 108.
  destruct (blen b <? 108) eqn:E.
  - rewrite unpack_bad; [reflexivity|]. rewrite blen_bslice. change (sf_size sf_luks_hdr) with 108. lia.
  - rewrite unpack_ok by (rewrite blen_bslice; change (sf_size sf_luks_hdr) with 108; lia).
    cbn [bind]. unfold sint, sraw. cbn [sf_luks_hdr sf_big sf_fields nth].
    rewrite bslice_bslice by (vm_compute; discriminate). rewrite N.add_0_l. reflexivity.
Qed.


(* the value is the (possibly negative) integer |b| - payload*512 *)
Lemma luks_size_wf payload b :
  payload < 2 ^ 32 -> wf_luks payload b = true -> luks_size_of b = Ok (Z.of_N (blen b) - Z.of_N payload * 512)%Z.
Proof.
  intros Hs Hwf. unfold wf_luks in Hwf. apply andb_true_iff in Hwf. destruct Hwf as [Hwf H3].
  apply andb_true_iff in Hwf. destruct Hwf as [H1 H2].
  unfold luks_size_of. unfold SPEC_LUKS_NEED in H1. replace (blen b <? 108) with false by lia.
  apply beq_eq in H3. rewrite H3. rewrite be_val_enc by exact Hs. reflexivity.
Qed.

Definition iso_sys (b : bytes) : region := mkRegion 0 false 0 32768 None (bslice 0 32768 b) false.
Definition iso_hdr (b : bytes) : region := mkRegion 1 false 32768 2048 None (bslice 32768 2048 b) false.

Definition iso_size_of (b : bytes) : res Z :=
  if blen b <? 34816 then Ok 0%Z
  else if mem_str (bslice 32769 5 b) SPEC_ISO_IDENTS then
         if bnth 32768 b =? 1 then Ok (Z.of_N (le_val (bslice 32848 4 b) * le_val (bslice 32896 2 b))) else Ok 0%Z
       else Ok 0%Z.

Lemma iso_complete (s : ist unit) b :
  i_regs s = [(R_system_area, iso_sys b); (R_header, iso_hdr b)] -> Insp_Engine.complete s = (34816 <=? blen b).
Proof.
  intros Hr. unfold Insp_Engine.complete. rewrite Hr. cbn [forallb snd].
  unfold rcomplete, base_complete, iso_sys, iso_hdr. cbn [r_end r_min r_len r_data].
  rewrite !flen_blen, !blen_bslice. destruct (34816 <=? blen b) eqn:E.
  - replace (32768 =? N.min 32768 (blen b - 0)) with true by lia.
    replace (2048 =? N.min 2048 (blen b - 32768)) with true by lia. reflexivity.
  - destruct (32768 =? N.min 32768 (blen b - 0)) eqn:E1; [|reflexivity].
    replace (2048 =? N.min 2048 (blen b - 32768)) with false by lia. reflexivity.
Qed.


Lemma iso_vsize_fill (s : ist unit) b :
  i_regs s = [(R_system_area, iso_sys b); (R_header, iso_hdr b)] -> iso_vsize s = iso_size_of b.
Proof.
  intros Hr. unfold iso_vsize, iso_match, iso_size_of. rewrite (iso_complete s b Hr).
  destruct (blen b <? 34816) eqn:E.
  - replace (34816 <=? blen b) with false by lia. reflexivity.
  - replace (34816 <=? blen b) with true by lia. cbn [negb]. unfold get_region. rewrite Hr.
    cbn [rget]. change (rname_beq R_system_area R_header) with false. change (rname_beq R_header R_header) with true.
    cbv iota. cbn [bind iso_hdr r_data].
    rewrite nsub_bslice. rewrite bslice_bslice by (vm_compute; discriminate).
    change (ISO_SIG_HI - ISO_SIG_LO) with 5. change (32768 + ISO_SIG_LO) with 32769.
    change [ISO_SIG_A; ISO_SIG_B; ISO_SIG_C] with SPEC_ISO_IDENTS.
    destruct (mem_str (bslice 32769 5 b) SPEC_ISO_IDENTS); cbn [negb]; [|reflexivity].
    unfold bidx. rewrite flen_blen, blen_bslice. change ISO_TYPE_IDX with 0.
    replace (0 <? N.min 2048 (blen b - 32768)) with true by lia. cbn [bind].
    rewrite bnth_bslice by lia. rewrite N.add_0_r. change ISO_TYPE_PVD with 1.
    destruct (bnth 32768 b =? 1); cbn [negb]; [|reflexivity].
    rewrite !nsub_bslice, !ntake_bslice.
    change (ISO_LBS_HI - ISO_LBS_LO) with 4. change (ISO_VSS_HI - ISO_VSS_LO) with 8.
    rewrite (bslice_bslice ISO_LBS_LO 4 0 ISO_LBS_TAKE) by (vm_compute; discriminate).
    rewrite (bslice_bslice ISO_VSS_LO 8 0 ISO_VSS_TAKE) by (vm_compute; discriminate).
    rewrite !bslice_bslice by (vm_compute; discriminate).
    change (32768 + (ISO_LBS_LO + 0)) with 32896. change (32768 + (ISO_VSS_LO + 0)) with 32848.
    change ISO_LBS_TAKE with 2. change ISO_VSS_TAKE with 4.
    rewrite unpack_ok by (rewrite blen_bslice; change (sf_size sf_iso_lbs) with 2; lia). cbn [bind].
    rewrite unpack_ok by (rewrite blen_bslice; change (sf_size sf_iso_vss) with 4; lia). cbn [bind].
    unfold sint, sraw. cbn [sf_iso_vss sf_iso_lbs sf_big sf_fields nth].
    rewrite !bslice_0_all by (rewrite blen_bslice; lia). reflexivity.
Qed.


Lemma iso_size_wf blocks bsize b :
  blocks < 2 ^ 32 -> bsize < 2 ^ 16 -> wf_iso blocks bsize b = true -> iso_size_of b = Ok (Z.of_N (blocks * bsize)).
Proof.
  intros Hb Hs Hwf. unfold wf_iso in Hwf.
  apply andb_true_iff in Hwf. destruct Hwf as [Hwf H5]. apply andb_true_iff in Hwf. destruct Hwf as [Hwf H4].
  apply andb_true_iff in Hwf. destruct Hwf as [Hwf H3]. apply andb_true_iff in Hwf. destruct Hwf as [H1 H2].
  unfold iso_size_of. unfold SPEC_ISO_END in H1. replace (blen b <? 34816) with false by lia.
  unfold SPEC_ISO_PVD in *. change (32768 + 1) with 32769 in H3. rewrite H3, H2.
  change (32768 + 80) with 32848 in H4. change (32768 + 128) with 32896 in H5.
  apply beq_eq in H4. apply beq_eq in H5. rewrite H4, H5.
  rewrite !le_val_enc by assumption. reflexivity.
Qed.

(* qemu_header_info as computed from the captured sector [d] *)
Definition qcow_hdr_of (d : bytes) : qx :=
  match unpack sf_qcow_hdr (ntake QCOW_HDR_SLICE d) with
  | Exn _ => None
  | Ok h => if beq (sraw sf_qcow_hdr 0 h) QCOW_MAGIC
            then Some (mkQhdr (sraw sf_qcow_hdr 0 h) (sint sf_qcow_hdr 1 h) (sint sf_qcow_hdr 2 h)
                              (sint sf_qcow_hdr 3 h) (sint sf_qcow_hdr 4 h) (sint sf_qcow_hdr 5 h))
            else None
  end.
Definition qcow_ext (b : bytes) : qx := if blen b <? 512 then None else qcow_hdr_of (bslice 0 512 b).

Lemma set_ext_set_ext {X} (s : ist X) x y : set_ext (set_ext s x) y = set_ext s y.
Proof. reflexivity. Qed.

Lemma qcow_rcomplete_spec n (s : ist qx) r :
  rget R_header (i_regs s) = Some r -> rcomplete r = true -> blen (r_data r) = 512 ->
  qcow_rcomplete n s = (set_ext s (qcow_hdr_of (r_data r)), None).
Proof.
  intros Hg Hc Hl. unfold qcow_rcomplete, qcow_hdr_of, get_region. rewrite Hg.
  rewrite ntake_bslice.
  rewrite unpack_ok by (rewrite blen_bslice, Hl; vm_compute; reflexivity).
  unfold qcow_match, get_region. cbn [set_ext i_regs i_ext bind]. rewrite Hg. cbn [bind]. rewrite Hc. cbn [negb q_magic].
  destruct (beq (sraw sf_qcow_hdr 0 (bslice 0 QCOW_HDR_SLICE (r_data r))) QCOW_MAGIC); reflexivity.
Qed.


(* the attributes the engine library computes ([qext]: run region_complete on the state once it is complete)
   in closed form *)
Lemma qext_closed b : qext b = qcow_ext b.
Proof.
  unfold qext, qcow_ext. rewrite complete_ideal. change (qR b) with (hdr512 b). rewrite rcomplete_hdr512.
  destruct (blen b <? 512) eqn:E.
  - replace (512 <=? blen b) with false by lia. reflexivity.
  - replace (512 <=? blen b) with true by lia.
    rewrite (qcow_rcomplete_spec R_header _ (hdr512 b)); [reflexivity|reflexivity|..].
    + rewrite rcomplete_hdr512. lia.
    + cbn [hdr512 r_data]. rewrite blen_bslice. lia.
Qed.

Definition qcow_size_of (b : bytes) : res Z :=
  if blen b <? 512 then Ok 0%Z
  else if prefixb SPEC_QCOW2_MAGIC b then Ok (Z.of_N (be_val (bslice 24 8 b))) else Ok 0%Z.

Lemma qcow_vsize_ext (s : ist qx) b : i_ext s = qcow_ext b -> qcow_vsize s = qcow_size_of b.
Proof.
  intros He. unfold qcow_vsize, qcow_size_of. rewrite He. unfold qcow_ext.
  destruct (blen b <? 512) eqn:E; [reflexivity|].
  unfold qcow_hdr_of. rewrite ntake_bslice. rewrite bslice_bslice by (vm_compute; discriminate). rewrite N.add_0_l.
  change QCOW_HDR_SLICE with 32.
  rewrite unpack_ok by (rewrite blen_bslice; change (sf_size sf_qcow_hdr) with 32; lia).
  unfold sraw at 1. cbn [sf_qcow_hdr sf_fields nth].
  rewrite (bslice_bslice 0 32 0 4 b) by (vm_compute; discriminate). rewrite N.add_0_l.
  rewrite (prefixb_btake SPEC_QCOW2_MAGIC b). change (btake (blen SPEC_QCOW2_MAGIC) b) with (bslice 0 4 b). change QCOW_MAGIC with SPEC_QCOW2_MAGIC.
  destruct (beq (bslice 0 4 b) SPEC_QCOW2_MAGIC); [|reflexivity].
  cbn [q_size]. unfold sint, sraw. cbn [sf_qcow_hdr sf_big sf_fields nth].
  rewrite (bslice_bslice 0 32 24 8 b) by (vm_compute; discriminate). rewrite N.add_0_l. reflexivity.
Qed.


Lemma qcow_size_wf size b : size < 2 ^ 64 -> wf_qcow2 size b = true -> qcow_size_of b = Ok (Z.of_N size).
Proof.
  intros Hs Hwf. unfold wf_qcow2 in Hwf. apply andb_true_iff in Hwf. destruct Hwf as [Hwf H3].
  apply andb_true_iff in Hwf. destruct Hwf as [H1 H2].
  unfold qcow_size_of. unfold SPEC_HDR_512 in H1. replace (blen b <? 512) with false by lia.
  rewrite H2. apply beq_eq in H3. rewrite H3. rewrite be_val_enc by exact Hs. reflexivity.
Qed.

(* virtual_size as a function of the consumed bytes; raw, GPT (and QED) report the stream length *)
Definition size_of (f : fmt_id) (b : bytes) : res Z :=
  match f with
  | F_qcow2 => qcow_size_of b | F_vhd => vhd_size_of b | F_vdi => vdi_size_of b
  | F_iso => iso_size_of b | F_luks => luks_size_of b
  | _ => Ok (Z.of_N (blen b))
  end.

Lemma vsize_state_of f b fin : is_static f = true -> virtual_size (state_of f b fin) = size_of f b.
Proof.
  intros H. destruct f; try discriminate H; cbn [state_of virtual_size ufmt f_vsize size_of]; try reflexivity.
  - apply qcow_vsize_ext. cbn [qcow_fmt ideal i_ext]. apply qext_closed.
  - apply vhd_vsize_fill. reflexivity.
  - apply vdi_vsize_fill. reflexivity.
  - apply iso_vsize_fill. reflexivity.
  - apply luks_vsize_fill; reflexivity.
Qed.

(* no eat_chunk raises, and virtual_size is [size_of] of the bytes consumed — whatever the chunking, before and
   after finish() *)
Theorem vsize_static f cs :
  is_static f = true ->
  quiet f cs /\ vsize_now f cs = size_of f (concat cs) /\ vsize_end f cs = size_of f (concat cs).
Proof.
  intros H. unfold quiet, vsize_now, vsize_end. rewrite (feed_static f cs H), (run_static f cs H). cbn [fst snd].
  rewrite !vsize_state_of by exact H. auto.
Qed.

Lemma luks_vsize_now cs : vsize_now F_luks cs = luks_size_of (concat cs).
Proof. exact (proj1 (proj2 (vsize_static F_luks cs eq_refl))). Qed.
