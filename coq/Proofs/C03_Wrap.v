(* Proofs/C03_Wrap.v — the concrete wrapper after a stream was read through (and closed): every slot
   is the run of its inspector on the delivered chunks, so the wrapper is a function of the chunk list;
   without expected format every read-through delivers every chunk. *)
Require Import OV.Base.Bytes OV.Base.Py OV.Base.C06_WrapShape OV.Base.Insp_Struct.
Require Import OV.Gen.Insp_Consts OV.Gen.C06_Wrapper OV.Model.Insp_Engine.
Require Import OV.Model.Insp_Vhdx OV.Model.Insp_Vmdk OV.Model.Insp_Qcow2 OV.Model.Insp_All.
Require Import OV.Model.Wrap OV.Model.C03.
Require Import OV.Proofs.Wrap OV.Proofs.C06.
Open Scope N_scope.

Lemma Forall2_map_eq {A B} (R : B -> B -> Prop) (g h : A -> B) l l' :
  (forall a y, R (g a) y -> y = h a) -> Forall2 R (map g l) l' -> l' = map h l.
Proof.
  intros H. revert l'. induction l as [|a t IH]; intros l' HF; inversion HF; subst; [reflexivity|].
  cbn [map]. f_equal; auto.
Qed.

Lemma filter_two {A} (f : A -> bool) (l : list A) a b :
  In a l -> In b l -> a <> b -> f a = true -> f b = true -> (1 < length (filter f l))%nat.
Proof.
  induction l as [|x t IH]; intros Ha Hb Hne Hfa Hfb; [destruct Ha|].
  cbn [filter]. destruct Ha as [<-|Ha], Hb as [<-|Hb].
  - contradiction.
  - rewrite Hfa. cbn [length]. assert (In b (filter f t)) by (apply filter_In; auto).
    destruct (filter f t); [contradiction | cbn; lia].
  - rewrite Hfb. cbn [length]. assert (In a (filter f t)) by (apply filter_In; auto).
    destruct (filter f t); [contradiction | cbn; lia].
  - specialize (IH Ha Hb Hne Hfa Hfb). destruct (f x); cbn [length]; lia.
Qed.

Lemma fmt_name_inj f g : fmt_name f = fmt_name g -> f = g.
Proof. destruct f, g; intros H; try reflexivity; vm_compute in H; discriminate H. Qed.

Lemma all_formats_complete f : In f Insp_Consts.all_formats.
Proof. destruct f; cbn; tauto. Qed.

Lemma raw_name : fmt_name F_raw = raw_lit_raw.
Proof. reflexivity. Qed.

Lemma factory_names : map fst factory = map fst C06_Wrapper.all_formats.
Proof. reflexivity. Qed.

(* ------------------------------------------------------------------ feed = eat_list *)
Lemma feed_eat_list : forall cs i,
  Wrap.feed istate eat i cs = (fst (eat_list i cs), match snd (eat_list i cs) with Some _ => true | None => false end).
Proof.
  induction cs as [|c t IH]; intros i; cbn [Wrap.feed eat_list]; [reflexivity|].
  destruct (eat i c) as [i' [e|]]; [reflexivity | apply IH].
Qed.

Definition allowed_fmts (allowed : list str) : list fmt_id :=
  filter (fun f => allowed_key allowed (fmt_name f)) Insp_Consts.all_formats.

Lemma new_slots expected allowed :
  w_slots (cw_new expected allowed) =
  map (fun f => {| s_name := fmt_name f; s_insp := init f; s_err := false |}) (allowed_fmts allowed).
Proof.
  unfold cw_new, mk_wrapper, mk_slots, factory, allowed_fmts. cbn [w_slots].
  induction Insp_Consts.all_formats as [|f t IH]; [reflexivity|]. cbn [map filter fst].
  destruct (allowed_key allowed (fmt_name f)); cbn [map fst snd]; rewrite IH; reflexivity.
Qed.

Lemma w_run_stop_names : forall inps (w w' : cwrapper) tr cs stop unused,
  cw_run_stop w inps = (w', tr, cs, stop, unused) ->
  map (@s_name istate) (w_slots w') = map (@s_name istate) (w_slots w) /\ w_expected w' = w_expected w.
Proof.
  assert (Hstep : forall (w w1 : cwrapper) inp tr1 o, w_step istate eat finish complete cmatch gen_shape w inp = (w1, tr1, o) ->
            map (@s_name istate) (w_slots w1) = map (@s_name istate) (w_slots w) /\ w_expected w1 = w_expected w).
  { intros w w1 inp tr1 o Hs. split.
    - exact (w_step_names istate eat finish complete cmatch gen_shape gen_shape_ok _ _ _ _ _ Hs).
    - exact (w_step_expected istate eat finish complete cmatch gen_shape gen_shape_ok _ _ _ _ _ Hs). }
  unfold cw_run_stop. apply w_run_stop_ind'.
  - auto.
  - intros w inp rest w1 tr1 e Hs. exact (Hstep _ _ _ _ _ Hs).
  - intros w inp rest w1 tr1 o w2 tr2 cs stop unused Hs _ [H1 H2]. rewrite H1, H2. exact (Hstep _ _ _ _ _ Hs).
Qed.

Lemma w_run_stop_finished : forall cs (w w' : cwrapper) tr unused,
  cw_run_stop w (map InChunk cs) = (w', tr, cs, None, unused) -> w_finished w' = w_finished w.
Proof.
  unfold cw_run_stop. apply w_run_stop_delivered_ind; [reflexivity|].
  intros w c cs w1 tr1 w2 Hs ->. cbn [w_step] in Hs. unfold process_chunk in Hs.
  destruct (pc_loop istate eat complete cmatch gen_shape (w_expected w) 0 (w_slots w) c) as [[ss t0] r0].
  injection Hs as <- _ _. reflexivity.
Qed.

(* the slot of format f after the reads cs *)
Definition slot_after (cs : list bytes) (f : fmt_id) : cslot :=
  {| s_name := fmt_name f; s_insp := fst (eat_list (init f) cs);
     s_err := match snd (eat_list (init f) cs) with Some _ => true | None => false end |}.
(* ... and after close() *)
Definition slot_closed (cs : list bytes) (f : fmt_id) : cslot :=
  {| s_name := fmt_name f; s_insp := fst (run f cs);
     s_err := match snd (run f cs) with Some _ => true | None => false end |}.

Lemma run_fst_snd f cs : fst (run f cs) = finish (fst (eat_list (init f) cs)) /\ snd (run f cs) = snd (eat_list (init f) cs).
Proof. unfold run. destruct (eat_list (init f) cs); auto. Qed.

(* every chunk delivered: each inspector of the collection has been fed the chunks up to its first exception *)
Theorem read_so_far_slots expected allowed cs w :
  read_so_far expected allowed cs w ->
  w_slots w = map (slot_after cs) (allowed_fmts allowed) /\ w_finished w = false /\ w_expected w = expected.
Proof.
  intros (tr & unused & H).
  split; [|split; [exact (w_run_stop_finished _ _ _ _ _ H) | exact (proj2 (w_run_stop_names _ _ _ _ _ _ _ H))]].
  pose proof (wrapper_slots_fed istate eat finish complete cmatch gen_shape gen_shape_ok _ _ _ _ _ H) as HF.
  rewrite new_slots in HF. revert HF. apply Forall2_map_eq.
  intros f [nm ins er] [Hn Hf]. cbn [s_name s_insp s_err] in Hn, Hf. rewrite feed_eat_list in Hf.
  unfold slot_after. congruence.
Qed.

Theorem read_and_closed_slots expected allowed cs w :
  read_and_closed expected allowed cs w ->
  w_slots w = map (slot_closed cs) (allowed_fmts allowed) /\ w_finished w = true /\ w_expected w = expected.
Proof.
  intros (w1 & tr & unused & H & ->).
  destruct (read_so_far_slots expected allowed cs w1 (ex_intro _ tr (ex_intro _ unused H))) as (Hs & _ & He).
  unfold cw_close, finish_all. cbn [w_slots w_finished w_expected]. split; [|split; [reflexivity | exact He]].
  rewrite Hs, map_map. apply map_ext. intros f. unfold finish_slot, slot_after, slot_closed. cbn [s_name s_insp s_err].
  destruct (run_fst_snd f cs) as [H1 H2]. rewrite H1, H2. reflexivity.
Qed.

(* the wrapper after read-through and close is a function of the chunk list *)
Definition closed_wrapper (expected : option str) (allowed : list str) (cs : list bytes) : cwrapper :=
  {| w_slots := map (slot_closed cs) (allowed_fmts allowed); w_expected := expected; w_finished := true |}.

Corollary read_and_closed_is expected allowed cs w :
  read_and_closed expected allowed cs w -> w = closed_wrapper expected allowed cs.
Proof.
  intros H. destruct (read_and_closed_slots _ _ _ _ H) as (H1 & H2 & H3).
  destruct w as [ss ex fi]. cbn [w_slots w_finished w_expected] in *. subst. reflexivity.
Qed.

(* without an expected format every chunk of every chunk list is delivered: the hypothesis of the
   theorems above is met by every read-through *)
Theorem no_expectation_reads_through allowed cs :
  exists w, read_so_far None allowed cs w.
Proof.
  unfold read_so_far, cw_run_stop.
  assert (G : forall cs (w : cwrapper), w_expected w = None ->
            exists w' tr unused, w_run_stop istate eat finish complete cmatch gen_shape w (map InChunk cs) = (w', tr, cs, None, unused)).
  { intros cs0. induction cs0 as [|c t IH]; intros w He; cbn [map].
    - exists w, [], []. reflexivity.
    - rewrite w_run_stop_cons.
      destruct (w_step istate eat finish complete cmatch gen_shape w (InChunk c)) as [[w1 tr1] o] eqn:Hs.
      assert (Ho : o = OutChunk c).
      { apply (w_step_no_expected istate eat finish complete cmatch gen_shape gen_shape_ok w c w1 tr1 o); [|exact Hs].
        intros x _. rewrite He. reflexivity. }
      pose proof (w_step_expected istate eat finish complete cmatch gen_shape gen_shape_ok _ _ _ _ _ Hs) as He1. rewrite He in He1.
      subst o. destruct (IH w1 He1) as (w' & tr & un & Hr). rewrite Hr. eauto. }
  destruct (G cs (cw_new None allowed) eq_refl) as (w' & tr & un & H). eauto.
Qed.

Lemma in_closed_slots allowed cs m :
  In m (map (slot_closed cs) (allowed_fmts allowed)) ->
  exists f, m = slot_closed cs f /\ allowed_key allowed (fmt_name f) = true.
Proof.
  intros H. apply in_map_iff in H. destruct H as (f & <- & Hf). exists f. split; [reflexivity|].
  apply filter_In in Hf. tauto.
Qed.

Lemma is_raw_name (m : cslot) f : s_name m = fmt_name f -> cw_is_raw m = true -> f = F_raw.
Proof.
  intros Hn Hr. unfold cw_is_raw, is_raw in Hr. apply beq_eq in Hr. rewrite Hn in Hr.
  apply fmt_name_inj. rewrite Hr. reflexivity.
Qed.
