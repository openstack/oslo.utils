(* Proofs/C17_Str.v — convert_version_to_int on STRINGS: the generated suffix regex, split, int(), reduce *)
From Coq Require Import String.
Require Import OV.Base.Bytes OV.Base.Py OV.Base.PyInt OV.Base.Str OV.Base.Regex.
Require Import OV.Gen.Versionutils OV.Model.C17 OV.Model.C17_Spec.
Require Import OV.Proofs.C04_Regex OV.Proofs.C11_Split.
Require Import OV.Proofs.C17_Regex OV.Proofs.C17_Suffix OV.Proofs.C17_Int.
Open Scope N_scope.

Lemma map_opt_app {A B} (f : A -> option B) l1 l2 :
  map_opt f (l1 ++ l2) = match map_opt f l1, map_opt f l2 with Some a, Some b => Some (a ++ b) | _, _ => None end.
Proof.
  induction l1 as [|x l1 IH]; cbn [app map_opt].
  - destruct (map_opt f l2); reflexivity.
  - rewrite IH. destruct (f x); [|reflexivity]. destruct (map_opt f l1); [|reflexivity]. destruct (map_opt f l2); reflexivity.
Qed.

Lemma map_opt_none {A B} (f : A -> option B) l : map_opt f l = None <-> exists x, In x l /\ f x = None.
Proof.
  induction l as [|x l IH]; cbn [map_opt].
  - split; [discriminate|intros [x [[] _]]].
  - destruct (f x) as [y|] eqn:E.
    + destruct (map_opt f l) as [r|].
      * split; [discriminate|]. intros [z [[<-|Hz] Hn]]; [congruence|]. exfalso.
        assert (Some r = None) by (apply IH; exists z; auto). discriminate.
      * split; [|reflexivity]. intros _. destruct (proj1 IH eq_refl) as [z [Hz Hn]]. exists z. split; [right; exact Hz|exact Hn].
    + split; [|reflexivity]. intros _. exists x. split; [left; reflexivity|exact E].
Qed.

Lemma map_opt_length {A B} (f : A -> option B) l r : map_opt f l = Some r -> length r = length l.
Proof.
  revert r. induction l as [|x l IH]; intros r H; cbn [map_opt] in H.
  - injection H as <-. reflexivity.
  - destruct (f x); [|discriminate]. destruct (map_opt f l) as [r'|]; [|discriminate]. injection H as <-. cbn. f_equal. apply IH. reflexivity.
Qed.

(* ---------- the parts of the generated suffix regex ---------- *)
Definition sparts : cset * list str * cset :=
  match suffix_parts suffix_re with Some x => x | None => ([], [], []) end.
Definition suffix_d1 : cset := fst (fst sparts).
Definition suffix_alts : list str := snd (fst sparts).
Definition suffix_d2 : cset := snd sparts.

(* the generated regex has the shape, with these parts *)
Definition suffix_a : re := suffix_alt suffix_re.
Lemma suffix_re_shape : suffix_re = suffix_shape suffix_d1 suffix_a suffix_d2.
Proof. reflexivity. Qed.
Lemma suffix_a_alts : alts_of suffix_a = Some suffix_alts.
Proof. reflexivity. Qed.
Lemma suffix_ok : parts_ok suffix_d1 suffix_alts suffix_d2 = true.
Proof. vm_compute. reflexivity. Qed.
Lemma suffix_repl_g1 : repl_is_g1 suffix_repl = true.
Proof. vm_compute. reflexivity. Qed.

(* facts about the ten ASCII digits are read off the generated tables once, for the list of them *)
Definition digit_chars : list N := [48; 49; 50; 51; 52; 53; 54; 55; 56; 57].
Lemma ascii_digit_in c : ascii_digit c = true -> In c digit_chars.
Proof. unfold ascii_digit, digit_chars. intros H. cbn [In]. lia. Qed.
Lemma digits_in_cset cs c : forallb (fun d => cmem d cs) digit_chars = true -> ascii_digit c = true -> cmem c cs = true.
Proof. intros P H. rewrite forallb_forall in P. apply P, ascii_digit_in, H. Qed.

(* characters of a dotted decimal string: '-', the separator, ASCII digits *)
Definition vchar (c : N) : bool := (c =? 45) || (c =? version_sep) || ascii_digit c.
Definition vchars : list N := 45 :: version_sep :: digit_chars.
Lemma vchar_in c : vchar c = true -> In c vchars.
Proof.
  unfold vchar, vchars. intros H.
  destruct (c =? 45) eqn:E1; [apply N.eqb_eq in E1; subst; left; reflexivity|].
  destruct (c =? version_sep) eqn:E2; [apply N.eqb_eq in E2; subst; right; left; reflexivity|].
  right. right. apply ascii_digit_in, H.
Qed.
Lemma vchars_plain : forallb (fun c => negb (alt_head suffix_alts c)) vchars = true.
Proof. vm_compute. reflexivity. Qed.
Lemma vchar_plain c : vchar c = true -> alt_head suffix_alts c = false.
Proof.
  intros H. pose proof vchars_plain as P. rewrite forallb_forall in P.
  specialize (P c (vchar_in c H)). apply negb_true_iff in P. exact P.
Qed.
Lemma ascii_digit_d1 c : ascii_digit c = true -> cmem c suffix_d1 = true.
Proof. apply digits_in_cset. vm_compute. reflexivity. Qed.
Lemma sep_not_d1 : cmem version_sep suffix_d1 = false. Proof. vm_compute. reflexivity. Qed.
Lemma minus_not_d1 : cmem 45 suffix_d1 = false. Proof. vm_compute. reflexivity. Qed.
Lemma sep_not_digit : ascii_digit version_sep = false. Proof. vm_compute. reflexivity. Qed.
Lemma sep_not_minus : (version_sep =? 45) = false. Proof. vm_compute. reflexivity. Qed.
Lemma sep_not_nl : (version_sep =? 10) = false. Proof. vm_compute. reflexivity. Qed.

Definition dotted (v : list Z) : str := join [version_sep] (map dec_of_Z v).

Lemma dec_split z : exists sg dg, dec_of_Z z = sg ++ dg /\ (sg = [] \/ sg = [45]) /\ all_ascii_digits dg = true /\ dg <> [].
Proof.
  destruct z as [|p|p]; unfold dec_of_Z.
  - exists [], [48]. repeat split; auto. discriminate.
  - exists [], (dec_of_N (N.pos p)). repeat split; auto using dec_of_N_digits, dec_of_N_nonnil.
  - exists [45], (dec_of_N (N.pos p)). repeat split; auto using dec_of_N_digits, dec_of_N_nonnil.
Qed.

Lemma digits_vchar dg : all_ascii_digits dg = true -> forall c, In c dg -> vchar c = true.
Proof.
  unfold all_ascii_digits. rewrite forallb_forall. intros H c Hc. unfold vchar. rewrite (H c Hc). apply orb_true_r.
Qed.

Lemma dec_vchar z c : In c (dec_of_Z z) -> vchar c = true.
Proof.
  destruct (dec_split z) as (sg & dg & -> & Hsg & Hd & _). intros H. apply in_app_or in H. destruct H as [H|H].
  - destruct Hsg as [->| ->]; [destruct H|]. destruct H as [<-|[]]. reflexivity.
  - eapply digits_vchar; eassumption.
Qed.

Lemma dec_no_sep z : ~ In version_sep (dec_of_Z z).
Proof.
  intros H. destruct (dec_split z) as (sg & dg & E & Hsg & Hd & _). rewrite E in H. apply in_app_or in H. destruct H as [H|H].
  - destruct Hsg as [->| ->]; [destruct H|]. destruct H as [H|[]]. pose proof sep_not_minus. lia.
  - unfold all_ascii_digits in Hd. rewrite forallb_forall in Hd. specialize (Hd _ H). rewrite sep_not_digit in Hd. discriminate.
Qed.

Lemma join_chars sep l c : In c (join sep l) -> In c sep \/ exists x, In x l /\ In c x.
Proof.
  induction l as [|x l IH]; [intros []|]. destruct l as [|y l].
  - cbn [join]. intros H. right. exists x. split; [left; reflexivity|exact H].
  - rewrite join_cons. intros H. apply in_app_or in H. destruct H as [H|H]; [right; exists x; split; [left; reflexivity|exact H]|].
    apply in_app_or in H. destruct H as [H|H]; [left; exact H|].
    destruct (IH H) as [I|[z [Hz Hc]]]; [left; exact I|right; exists z; split; [right; exact Hz|exact Hc]].
Qed.

Lemma dotted_vchar v c : In c (dotted v) -> vchar c = true.
Proof.
  intros H. apply join_chars in H. destruct H as [[<-|[]]|[x [Hx Hc]]].
  - unfold vchar. rewrite N.eqb_refl, orb_true_r. reflexivity.
  - apply in_map_iff in Hx. destruct Hx as [z [<- _]]. eapply dec_vchar. exact Hc.
Qed.

Lemma dotted_plain v : plain suffix_alts (dotted v).
Proof. intros c H. apply vchar_plain. eapply dotted_vchar. exact H. Qed.

Lemma join_snoc sep l x : l <> [] -> join sep (l ++ [x]) = join sep l ++ sep ++ x.
Proof. intros H. apply (join_app sep l [x] H). discriminate. Qed.

Lemma join_snoc_app sep l x t : join sep (l ++ [x]) ++ t = join sep (l ++ [x ++ t]).
Proof.
  destruct l as [|y l]; [reflexivity|].
  rewrite !join_snoc by discriminate. rewrite <- !app_assoc. reflexivity.
Qed.

(* dotted (init ++ [z]) = pre ++ D1: D1 the digits of the last component *)
Lemma dotted_last init z : exists pre D1,
  dotted (init ++ [z]) = pre ++ D1 /\ plain suffix_alts pre /\ ends_outside suffix_d1 pre /\
  all_in suffix_d1 D1 = true /\ D1 <> [].
Proof.
  destruct (dec_split z) as (sg & dg & E & Hsg & Hd & Hne).
  assert (HD : all_in suffix_d1 dg = true).
  { unfold all_in. apply forallb_forall. intros c Hc. apply ascii_digit_d1.
    unfold all_ascii_digits in Hd. rewrite forallb_forall in Hd. auto. }
  assert (Hpl : forall pre, pre ++ dg = dotted (init ++ [z]) -> plain suffix_alts pre).
  { intros pre Hp c Hc. apply vchar_plain. apply (dotted_vchar (init ++ [z])). rewrite <- Hp. apply in_or_app. left. exact Hc. }
  unfold dotted in *. rewrite map_app. cbn [map]. rewrite E.
  destruct init as [|y init].
  - cbn [map app join]. exists sg, dg. split; [reflexivity|]. split; [|split; [|split; [exact HD|exact Hne]]].
    + apply Hpl. rewrite map_app. cbn [map app join]. rewrite E. reflexivity.
    + destruct Hsg as [->| ->]; [left; reflexivity|right]. exists [], 45. split; [reflexivity|apply minus_not_d1].
  - rewrite join_snoc by discriminate.
    exists (join [version_sep] (map dec_of_Z (y :: init)) ++ [version_sep] ++ sg), dg.
    split; [|split; [|split; [|split; [exact HD|exact Hne]]]].
    + rewrite <- !app_assoc. reflexivity.
    + apply Hpl. rewrite map_app. cbn [map]. rewrite E. rewrite join_snoc by discriminate. rewrite <- !app_assoc. reflexivity.
    + right. destruct Hsg as [->| ->].
      * exists (join [version_sep] (map dec_of_Z (y :: init))), version_sep. split; [rewrite app_nil_r; reflexivity|apply sep_not_d1].
      * exists (join [version_sep] (map dec_of_Z (y :: init)) ++ [version_sep]), 45. split; [rewrite <- !app_assoc; reflexivity|apply minus_not_d1].
Qed.

Lemma strip_suffix_dotted v tail : tail_ok tail -> strip_suffix (dotted v ++ tail) = dotted v ++ tail.
Proof.
  unfold strip_suffix. rewrite suffix_re_shape. intros [->| ->].
  - rewrite app_nil_r. apply (re_sub_plain _ _ _ _ suffix_a_alts suffix_ok), dotted_plain.
  - apply (re_sub_plain_nl _ _ _ _ suffix_a_alts suffix_ok), dotted_plain.
Qed.

Lemma strip_suffix_marker v sfx D2 tail :
  v <> [] -> In sfx suffix_alts -> all_in suffix_d2 D2 = true -> D2 <> [] -> tail_ok tail ->
  strip_suffix (dotted v ++ sfx ++ D2 ++ tail) = dotted v ++ tail.
Proof.
  intros Hv Hs H2 N2 Ht. destruct (exists_last Hv) as [init [z ->]].
  destruct (dotted_last init z) as (pre & D1 & -> & Hpl & He & H1 & N1).
  unfold strip_suffix. rewrite suffix_re_shape, <- !app_assoc.
  apply (re_sub_suffix _ _ _ _ suffix_a_alts suffix_ok); auto using suffix_repl_g1.
Qed.

(* ---------- split and int() ---------- *)
Lemma map_opt_map_dec v : map_opt py_int (map dec_of_Z v) = Some v.
Proof. induction v as [|z v IH]; [reflexivity|]. cbn [map map_opt]. rewrite py_int_dec_of_Z, IH. reflexivity. Qed.

Lemma split_dotted_tail init z tail : ~ In version_sep tail ->
  split_char version_sep (dotted (init ++ [z]) ++ tail) = map dec_of_Z init ++ [dec_of_Z z ++ tail].
Proof.
  intros Ht. unfold dotted. rewrite map_app. cbn [map]. rewrite join_snoc_app. apply split_join.
  - destruct (map dec_of_Z init); discriminate.
  - apply Forall_app. split.
    + apply Forall_forall. intros x Hx. apply in_map_iff in Hx. destruct Hx as [y [<- _]]. apply dec_no_sep.
    + constructor; [|constructor]. intros H. apply in_app_or in H. destruct H as [H|H]; [exact (dec_no_sep z H)|exact (Ht H)].
Qed.

Lemma tuple_of_dotted_tail v tail : v <> [] -> tail_ok tail ->
  map_opt py_int (split_char version_sep (dotted v ++ tail)) = Some v.
Proof.
  intros Hv Ht. destruct (exists_last Hv) as [init [z ->]].
  rewrite split_dotted_tail.
  2:{ destruct Ht as [->| ->]; [intros []|]. intros [H|[]]. pose proof sep_not_nl. lia. }
  rewrite map_opt_app, map_opt_map_dec. cbn [map_opt].
  destruct Ht as [->| ->]; [rewrite app_nil_r|rewrite py_int_trailing_nl]; rewrite py_int_dec_of_Z; reflexivity.
Qed.

(* `$` also lets one trailing newline through *)
Theorem to_int_dotted_tail v tail : v <> [] -> tail_ok tail -> convert_version_to_int_str (dotted v ++ tail) = tuple_to_int v.
Proof.
  intros Hv Ht. unfold convert_version_to_int_str, version_to_tuple.
  rewrite strip_suffix_dotted, tuple_of_dotted_tail by assumption. reflexivity.
Qed.

Theorem to_int_dotted v : v <> [] -> convert_version_to_int_str (dotted v) = tuple_to_int v.
Proof. intros Hv. rewrite <- (app_nil_r (dotted v)). apply to_int_dotted_tail; [exact Hv|left; reflexivity]. Qed.

Theorem suffix_ignored v sfx D2 tail :
  v <> [] -> In sfx suffix_alts -> all_in suffix_d2 D2 = true -> D2 <> [] -> tail_ok tail ->
  convert_version_to_int_str (dotted v ++ sfx ++ D2 ++ tail) = convert_version_to_int_str (dotted v).
Proof.
  intros Hv Hs H2 N2 Ht. rewrite to_int_dotted by exact Hv.
  unfold convert_version_to_int_str, version_to_tuple. rewrite strip_suffix_marker by assumption.
  rewrite tuple_of_dotted_tail by assumption. reflexivity.
Qed.

Lemma ascii_digits_d2 D : all_ascii_digits D = true -> all_in suffix_d2 D = true.
Proof.
  intros H. unfold all_in. apply forallb_forall. intros c Hc.
  unfold all_ascii_digits in H. rewrite forallb_forall in H.
  apply digits_in_cset; [vm_compute; reflexivity|exact (H c Hc)].
Qed.

Definition version_parts (s : str) : list str := split_char version_sep (strip_suffix s).

(* split never returns the empty list, so neither does the tuple *)
Lemma version_tuple_nonnil s v : map_opt py_int (version_parts s) = Some v -> v <> [].
Proof.
  intros E ->. apply map_opt_length in E. pose proof (split_nonnil version_sep (strip_suffix s)) as Hne.
  unfold version_parts in E. destruct (split_char version_sep (strip_suffix s)); [congruence|discriminate].
Qed.

(* non-vacuity *)
Open Scope Z_scope.
Example suffix_ignored_example :
  convert_version_to_int_str (lit "1.2rc1") = Ok 1002 /\ convert_version_to_int_str (lit "1.2") = Ok 1002 /\
  convert_version_to_int_str (lit " 1.+2") = Ok 1002 /\ convert_version_to_int_str (lit "1.2RC1") = Exn ValueError /\
  convert_version_to_int_str (lit "1.2rc") = Exn ValueError.
Proof. vm_compute. repeat split. Qed.
