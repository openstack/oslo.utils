(* Proofs/Insp_HookEquiv.v — the format hooks translated statement by statement from the source
   (Gen/Insp_HookCode.v) equal the hand-written hooks of Model/Insp_Qcow2.v, Insp_Vhdx.v, Insp_Vmdk.v. *)
Require Import OV.Base.Bytes OV.Base.Py OV.Base.PyInt OV.Base.Str OV.Base.Insp_Struct OV.Gen.Insp_Consts OV.Model.Insp_Engine OV.Model.Insp_PyPrims.
Require Import OV.Model.Insp_Qcow2 OV.Model.Insp_Vhdx OV.Model.Insp_Vmdk OV.Model.Insp_HookPrims.
Require Import OV.Gen.Insp_EngineCode OV.Gen.Insp_FormatCode OV.Gen.Insp_HookCode.
Require Import OV.Proofs.Insp_Engine OV.Proofs.Insp_EngineEquiv OV.Proofs.Insp_FormatMatchEquiv.
Open Scope N_scope.

(* slicing with computed bounds vs walking the buffer *)
Lemma nskip_nskip a b d : nskip a (nskip b d) = nskip (b + a) d.
Proof. rewrite !nskip_bskip. apply bskip_bskip. Qed.
Lemma nsub_window a l d : nsub a (a + l) d = ntake l (nskip a d).
Proof. unfold nsub. replace (a + l - a) with l by lia. reflexivity. Qed.
Lemma nsub_window2 a lo hi d : lo <= hi -> nsub (a + lo) (a + hi) d = nsub lo hi (nskip a d).
Proof. intros H. unfold nsub. rewrite nskip_nskip. replace (a + hi - (a + lo)) with (hi - lo) by lia. reflexivity. Qed.

Lemma gen_qcow_region_complete_equiv s n : gen_qcow_region_complete s n = qcow_rcomplete n s.
Proof.
  unfold gen_qcow_region_complete, qcow_rcomplete. rewrite gen_region_equiv.
  change (mkSfmt true 32 [(0, 4); (4, 4); (8, 8); (16, 4); (20, 4); (24, 8)]) with sf_qcow_hdr.
  change (ntake 32) with (ntake QCOW_HDR_SLICE).
  destruct (get_region R_header s) as [r|]; [|reflexivity].
  destruct (unpack sf_qcow_hdr (ntake QCOW_HDR_SLICE (r_data r))) as [b|]; [|reflexivity].
  rewrite gen_qcow2_format_match_equiv. cbn [f_match qcow_fmt].
  destruct (qcow_match _) as [[|]|]; reflexivity.
Qed.

Lemma gen_vhdx_guid_equiv buf g : (do b <- gen_vhdx_guid buf; Ok (beq b g)) = vhdx_guid_is buf g.
Proof. reflexivity. Qed.

Lemma gen_vhdx_rt_loop_equiv (s : ist unit) r : get_region R_header s = Ok r ->
  forall k i first regi cksum count reserved mo,
  gen_vhdx_find_meta_region_loop1 k i s first regi cksum count reserved mo
  = (s, vhdx_rt_loop k (nskip (first + i * 32) (r_data r))).
Proof.
  intros Hr. induction k as [|k IH]; intros i first regi cksum count reserved mo; cbn [gen_vhdx_find_meta_region_loop1 vhdx_rt_loop]; [reflexivity|].
  rewrite gen_region_equiv, Hr.
  rewrite (nsub_window (first + i * 32) 32 (r_data r)).
  set (rest := nskip (first + i * 32) (r_data r)).
  change VHDX_RT_ENTRY with 32. change VHDX_RT_GUID with 16. change VHDX_RT_REST with 16. change VHDX_RT_STRIDE with 32.
  unfold vhdx_guid_is, gen_vhdx_guid.
  change (mkSfmt false 16 [(0, 4); (4, 2); (6, 2); (8, 1); (9, 1); (10, 1); (11, 1); (12, 1); (13, 1); (14, 1); (15, 1)]) with sf_vhdx_guid.
  destruct (unpack sf_vhdx_guid (ntake 16 (ntake 32 rest))) as [g|]; cbn [bind]; [|reflexivity].
  destruct (beq g VHDX_GUID_METAREGION).
  - change (mkSfmt false 16 [(0, 8); (8, 4); (12, 4)]) with sf_vhdx_rt_rest.
    destruct (unpack sf_vhdx_rt_rest (nskip 16 (ntake 32 rest))); reflexivity.
  - rewrite IH. subst rest. rewrite nskip_nskip. do 3 f_equal. lia.
Qed.

Lemma gen_vhdx_find_meta_region_equiv (s : ist unit) : gen_vhdx_find_meta_region s = (s, vhdx_find_meta_region s).
Proof.
  unfold gen_vhdx_find_meta_region, vhdx_find_meta_region. rewrite gen_region_equiv.
  destruct (get_region R_header s) as [r|] eqn:Hr; cbn [bind]; [|reflexivity].
  change (mkSfmt false 16 [(0, 4); (4, 4); (8, 4); (12, 4)]) with sf_vhdx_rt_hdr. change VHDX_RT_HDR with 16.
  destruct (unpack sf_vhdx_rt_hdr (ntake 16 (r_data r))) as [b|]; cbn [bind]; [|reflexivity].
  change VHDX_REGI with 1768383858. change VHDX_RT_LIMIT with 2048.
  destruct (negb (sint sf_vhdx_rt_hdr 0 b =? 1768383858)); [reflexivity|].
  destruct (2048 <=? sint sf_vhdx_rt_hdr 2 b); [reflexivity|].
  rewrite (gen_vhdx_rt_loop_equiv s r Hr). change VHDX_RT_FIRST with 16. rewrite N.mul_0_l, N.add_0_r. reflexivity.
Qed.

Lemma gen_vhdx_mt_loop_equiv (s : ist unit) m : rget R_metadata (i_regs s) = Some m ->
  forall k i guid buf sig reserved count es,
  gen_vhdx_find_meta_entry_loop1 k i s guid buf sig reserved count es
  = match vhdx_mt_loop k guid (nskip (32 + i * 32) buf) with
    | Exn e => (s, Exn e)
    | Ok None => (s, Ok None)
    | Ok (Some (io, il)) =>
      (set_regs s (rset R_metadata (set_len m (flen buf)) (i_regs s)), Ok (Some (mkRspec false (r_off m + io) il None)))
    end.
Proof.
  intros Hm. induction k as [|k IH]; intros i guid buf sig reserved count es; cbn [gen_vhdx_find_meta_entry_loop1 vhdx_mt_loop]; [reflexivity|].
  rewrite (nsub_window (32 + i * 32) 16 buf).
  rewrite (nsub_window2 (32 + i * 32) 16 28 buf) by lia.
  set (rest := nskip (32 + i * 32) buf).
  change VHDX_MT_GUID with 16. change VHDX_MT_F_LO with 16. change VHDX_MT_F_HI with 28. change VHDX_MT_STRIDE2 with 32.
  unfold vhdx_guid_is, gen_vhdx_guid.
  change (mkSfmt false 16 [(0, 4); (4, 2); (6, 2); (8, 1); (9, 1); (10, 1); (11, 1); (12, 1); (13, 1); (14, 1); (15, 1)]) with sf_vhdx_guid.
  destruct (unpack sf_vhdx_guid (ntake 16 rest)) as [g|]; cbn [bind]; [|reflexivity].
  destruct (beq g guid).
  - change (mkSfmt false 12 [(0, 4); (4, 4); (8, 4)]) with sf_vhdx_mt_item.
    destruct (unpack sf_vhdx_mt_item (nsub 16 28 rest)) as [b|]; cbn [bind]; [|reflexivity].
    unfold py_set_region_length. rewrite Hm. rewrite gen_region_equiv. unfold get_region. cbn [set_regs i_regs].
    rewrite (rget_rset_same _ _ _ _ Hm). cbn [set_len r_off]. reflexivity.
  - rewrite IH. subst rest. rewrite nskip_nskip. replace (32 + (i + 1) * 32) with (32 + i * 32 + 32) by lia. reflexivity.
Qed.

Lemma gen_vhdx_find_meta_entry_equiv (s : ist unit) g : gen_vhdx_find_meta_entry s g = vhdx_find_meta_entry g s.
Proof.
  unfold gen_vhdx_find_meta_entry, vhdx_find_meta_entry. rewrite gen_region_equiv. unfold get_region.
  destruct (rget R_metadata (i_regs s)) as [m|] eqn:Hm; [|reflexivity].
  change VHDX_MT_MIN with 32. destruct (flen (r_data m) <? 32); [reflexivity|].
  change (mkSfmt false 12 [(0, 8); (8, 2); (10, 2)]) with sf_vhdx_mt_hdr. change VHDX_MT_HDR with 12.
  destruct (unpack sf_vhdx_mt_hdr (ntake 12 (r_data m))) as [b|]; [|reflexivity].
  change ([109; 101; 116; 97; 100; 97; 116; 97] : bytes) with VHDX_META_SIG.
  destruct (negb (beq (sraw sf_vhdx_mt_hdr 0 b) VHDX_META_SIG)); [reflexivity|].
  change VHDX_MT_BASE with 32. change VHDX_MT_STRIDE with 32. change VHDX_MT_LIMIT with 2048.
  destruct (flen (r_data m) <? 32 + sint sf_vhdx_mt_hdr 2 b * 32); [reflexivity|].
  destruct (2048 <=? sint sf_vhdx_mt_hdr 2 b); [reflexivity|].
  rewrite (gen_vhdx_mt_loop_equiv s m Hm). rewrite N.mul_0_l, N.add_0_r. change VHDX_MT_BASE2 with 32.
  destruct (vhdx_mt_loop _ g (nskip 32 (r_data m))) as [[[io il]|]|]; reflexivity.
Qed.

Lemma gen_vhdx_post_process_equiv (s : ist unit) : gen_vhdx_post_process s = vhdx_post s.
Proof.
  unfold gen_vhdx_post_process, vhdx_post. rewrite gen_region_equiv, !gen_has_region_equiv.
  destruct (get_region R_header s) as [h|]; [|reflexivity].
  unfold py_region_complete.
  rewrite gen_vhdx_find_meta_region_equiv, gen_vhdx_find_meta_entry_equiv.
  destruct (rcomplete h), (has_region R_metadata s), (has_region R_vds s); cbn [andb negb];
    try reflexivity;
    try (destruct (vhdx_find_meta_entry VHDX_GUID_VIRTUAL_DISK_SIZE s) as [s' [[sp|]|]]; try reflexivity;
         destruct (new_region R_vds sp s') as [s2 [e|]]; reflexivity);
    try (destruct (vhdx_find_meta_region s) as [[sp|]|]; try reflexivity;
         destruct (new_region R_metadata sp s) as [s2 [e|]]; reflexivity).
Qed.

(* what _parse_descriptor does with the descriptor text once it is cut at the first NUL; the translation
   carries this part twice (a NUL found / not found) *)
Lemma vmdk_parse_tail (s : ist vx) (data : bytes) :
  match py_decode_ascii data with
  | Exn _ => (s, None)
  | Ok t =>
    let text := lower_ascii t in
    let store vmdktype := (set_ext s (mkVx (Some text) vmdktype), @None exn) in
    match py_index VMDK_CREATETYPE text with
    | Exn _ => store VMDK_NOTFOUND
    | Ok i =>
      let type_idx := i + flen VMDK_CREATETYPE in
      let type_end := py_find_from VMDK_QUOTE text type_idx in
      if (type_end - Z.of_N type_idx <? Z.of_N VMDK_TYPE_CAP)%Z
      then store (zslice (Some (Z.of_N type_idx)) (Some type_end) text)
      else store VMDK_NOTFOUND
    end
  end
  = if negb (forallb is_ascii data) then (s, None)
    else (set_ext s (mkVx (Some (lower_ascii data)) (vmdk_type_of (lower_ascii data))), None).
Proof.
  unfold py_decode_ascii, py_index, py_find_from, vmdk_type_of, is_ascii. cbv zeta.
  destruct (forallb (fun c : N => c <? 128) data); cbn [negb]; [|reflexivity].
  destruct (find VMDK_CREATETYPE (lower_ascii data)) as [j|]; [|reflexivity].
  destruct (_ <? _)%Z; reflexivity.
Qed.

Lemma gen_vmdk_parse_descriptor_equiv (s : ist vx) : gen_vmdk_parse_descriptor s = vmdk_parse_descriptor s.
Proof.
  unfold gen_vmdk_parse_descriptor, vmdk_parse_descriptor. rewrite gen_region_equiv.
  destruct (get_region R_descriptor s) as [d|]; [|reflexivity].
  unfold py_index at 1. cbv delta [VMDK_NUL]. cbv zeta.
  destruct (find [0] (r_data d)) as [i|]; apply vmdk_parse_tail.
Qed.

Lemma gen_vmdk_region_complete_equiv (s : ist vx) n : gen_vmdk_region_complete s n = vmdk_rcomplete n s.
Proof.
  unfold gen_vmdk_region_complete, vmdk_rcomplete. rewrite gen_vmdk_parse_descriptor_equiv.
  destruct n; cbn [rname_beq]; try reflexivity. destruct (vmdk_parse_descriptor s) as [s' [e|]]; reflexivity.
Qed.

Lemma is_text_char c :
  (c <? 128) && negb (negb (cmem c ASCII_PRINT_RANGES) && negb (cmem c ASCII_SPACE_RANGES)) = ascii_text c.
Proof. unfold ascii_text, ASCII_TEXT_RANGES, ASCII_PRINT_RANGES, ASCII_SPACE_RANGES. cbn [cmem]. lia. Qed.

Lemma is_text_equiv b :
  py_all_ascii (fun char => negb (negb (cmem char ASCII_PRINT_RANGES) && negb (cmem char ASCII_SPACE_RANGES))) b = forallb ascii_text b.
Proof. unfold py_all_ascii. induction b as [|c t IH]; cbn [forallb]; [reflexivity|]. rewrite is_text_char, IH. reflexivity. Qed.

(* the last part of post_process (re-create the descriptor region where the header says), which the
   translation carries three times: with the footer present, just created, or not wanted *)
Lemma vmdk_post_tail (s : ist vx) dsec dnum :
  (let desc_offset := dsec * 512 in
   let desc_size := N.min (dnum * 512) 1048575 in
   if negb (desc_offset =? 512) then (s, Some ImageFormatError) else
   match gen_region s R_descriptor with
   | Exn e => (s, Some e)
   | Ok d =>
     if r_off d =? 0 then
       match delete_region R_descriptor s with
       | (s1, Some e) => (s1, Some e)
       | (s1, None) =>
         match new_region R_descriptor (mkRspec false desc_offset desc_size None) s1 with
         | (s2, Some e) => (s2, Some e)
         | (s2, None) => (s2, None)
         end
       end
     else (s, None)
   end)
  = (let desc_offset := dsec * VMDK_SECTOR_A in
     let desc_size := N.min (dnum * VMDK_SECTOR_B) VMDK_DESC_MAX_SIZE in
     if negb (desc_offset =? VMDK_DESC_OFFSET) then (s, Some ImageFormatError) else
     match get_region R_descriptor s with
     | Exn e => (s, Some e)
     | Ok d =>
       if r_off d =? 0 then
         step s2 <- delete_region R_descriptor s;
         new_region R_descriptor (mkRspec false desc_offset desc_size None) s2
       else (s, None)
     end).
Proof.
  cbv zeta delta [VMDK_SECTOR_A VMDK_SECTOR_B VMDK_DESC_MAX_SIZE VMDK_DESC_OFFSET]. rewrite gen_region_equiv.
  destruct (negb (dsec * 512 =? 512)); [reflexivity|].
  destruct (get_region R_descriptor s) as [d|]; [|reflexivity]. destruct (r_off d =? 0); [|reflexivity].
  destruct (delete_region R_descriptor s) as [s1 [e|]]; [reflexivity|].
  destruct (new_region R_descriptor _ s1) as [s2 [e|]]; reflexivity.
Qed.

Lemma gen_vmdk_post_process_equiv (s : ist vx) : gen_vmdk_post_process s = vmdk_post s.
Proof.
  unfold gen_vmdk_post_process, vmdk_post. rewrite !gen_has_region_equiv, gen_region_equiv.
  unfold has_region, rhas, get_region at 1 2, py_region_complete.
  cbv delta [VMDK_MAGIC_PP VMDK_VER_A VMDK_VER_B VMDK_VER_C VMDK_GD_AT_END VMDK_FOOTER_LEN].
  destruct (rget R_header (i_regs s)) as [h|]; [|reflexivity].
  destruct (rcomplete h); cbn [negb]; [|reflexivity].
  destruct (vmdk_parse_sparse s R_header 0) as [[[[[sig ver] ds] dn] gd]|]; [|reflexivity].
  rewrite is_text_equiv.
  destruct (negb (beq sig [75; 68; 77; 86])).
  { destruct (forallb ascii_text (r_data h)); [|reflexivity]. destruct (delete_region R_header s) as [s' [e|]]; reflexivity. }
  destruct (negb ((ver =? 1) || (ver =? 2) || (ver =? 3))); [reflexivity|].
  destruct (gd =? 18446744073709551615); cbn [andb].
  - destruct (rget R_footer (i_regs s)); cbn [negb].
    + apply vmdk_post_tail.
    + destruct (new_region R_footer _ s) as [sa [e|]]; [reflexivity|].
      destruct (add_check K_footer sa) as [sb [e|]]; [reflexivity|]. apply vmdk_post_tail.
  - apply vmdk_post_tail.
Qed.

(* The guard literals of the hooks as they were when the hand-written hooks were transcribed.  The model follows the
   regenerated constants (so the lemmas above survive a changed literal); this lemma does not: a changed limit, cap or
   window size is reported as a broken obligation even when model and code still agree. *)
Lemma hook_literals_equiv :
  (VMDK_TYPE_CAP, VMDK_FOOTER_LEN, VMDK_DESC_OFFSET, VMDK_DESC_MAX_SIZE, VMDK_MIN_SPARSE_HEADER) = (64, 1536, 512, 1048575, 64) /\
  (VHDX_RT_LIMIT, VHDX_MT_LIMIT, VHDX_META_A * VHDX_META_B, VHDX_VHDX_METADATA_TABLE_MAX_SIZE, VHDX_MT_MIN) = (2048, 2048, 65536, 65536, 32) /\
  QCOW_HDR_SLICE = 32.
Proof. repeat split. Qed.
