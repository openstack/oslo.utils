(* Proofs/C11_Split.v — str.split(c) / c.join(...) are mutually inverse (Base/Str.v definitions). *)
Require Import OV.Base.Bytes OV.Base.PyInt OV.Base.Str.
Open Scope N_scope.

Lemma split_aux_nonnil c s cur : split_char_aux c s cur <> [].
Proof.
  revert cur. induction s as [|x t IH]; intros cur; cbn [split_char_aux]; [discriminate|].
  destruct (x =? c); [discriminate|apply IH].
Qed.

Lemma split_nonnil c s : split_char c s <> [].
Proof. apply split_aux_nonnil. Qed.

Lemma join_cons_ne sep x l : l <> [] -> join sep (x :: l) = x ++ sep ++ join sep l.
Proof. destruct l; [congruence|reflexivity]. Qed.

Lemma join_app sep a b : a <> [] -> b <> [] -> join sep (a ++ b) = join sep a ++ sep ++ join sep b.
Proof.
  intros Ha Hb. induction a as [|x t IH]; [congruence|].
  destruct t as [|y t'].
  - cbn [app]. rewrite join_cons_ne by exact Hb. reflexivity.
  - change ((x :: y :: t') ++ b) with (x :: ((y :: t') ++ b)).
    rewrite join_cons_ne by (cbn [app]; discriminate). rewrite IH by discriminate.
    rewrite (join_cons_ne sep x (y :: t')) by discriminate. rewrite <- !app_assoc. reflexivity.
Qed.

(* join . split = id *)
Lemma join_split_aux c s cur : join [c] (split_char_aux c s cur) = rev cur ++ s.
Proof.
  revert cur. induction s as [|x t IH]; intros cur; cbn [split_char_aux].
  - cbn. rewrite app_nil_r. reflexivity.
  - destruct (x =? c) eqn:E.
    + apply N.eqb_eq in E. subst x.
      rewrite join_cons_ne by apply split_aux_nonnil. rewrite IH. reflexivity.
    + rewrite IH. cbn [rev]. rewrite <- app_assoc. reflexivity.
Qed.

Lemma join_split c s : join [c] (split_char c s) = s.
Proof. unfold split_char. rewrite join_split_aux. reflexivity. Qed.

(* split of a text without the separator *)
Lemma split_aux_notin c a cur : ~ In c a -> split_char_aux c a cur = [rev cur ++ a].
Proof.
  revert cur. induction a as [|x t IH]; intros cur H; cbn [split_char_aux].
  - rewrite app_nil_r. reflexivity.
  - destruct (x =? c) eqn:E.
    + apply N.eqb_eq in E. subst. exfalso. apply H. left. reflexivity.
    + rewrite IH by (intros Hin; apply H; right; exact Hin).
      cbn [rev]. rewrite <- app_assoc. reflexivity.
Qed.

Lemma split_notin c a : ~ In c a -> split_char c a = [a].
Proof. intros H. unfold split_char. rewrite split_aux_notin by exact H. reflexivity. Qed.

(* split distributes over a separator *)
Lemma split_aux_app c a b cur :
  split_char_aux c (a ++ c :: b) cur = split_char_aux c a cur ++ split_char c b.
Proof.
  revert cur. induction a as [|x t IH]; intros cur; cbn [split_char_aux app].
  - rewrite N.eqb_refl. reflexivity.
  - destruct (x =? c); [|apply IH].
    rewrite IH. reflexivity.
Qed.

Lemma split_app c a b : split_char c (a ++ c :: b) = split_char c a ++ split_char c b.
Proof. apply split_aux_app. Qed.

Lemma split_cons_sep c b : split_char c (c :: b) = [] :: split_char c b.
Proof. unfold split_char. cbn [split_char_aux]. rewrite N.eqb_refl. reflexivity. Qed.

Lemma split_nil c : split_char c [] = [[]].
Proof. reflexivity. Qed.

(* split . join = id on non-empty lists of separator-free fields *)
Lemma split_join c fs : fs <> [] -> Forall (fun f => ~ In c f) fs -> split_char c (join [c] fs) = fs.
Proof.
  induction fs as [|x t IH]; intros Hne Hall; [congruence|].
  inversion Hall as [|? ? Hx Ht]; subst.
  destruct t as [|y t'].
  - cbn [join]. apply split_notin. exact Hx.
  - rewrite join_cons_ne by discriminate. cbn [app].
    rewrite split_app, split_notin by exact Hx. rewrite IH; [reflexivity|discriminate|exact Ht].
Qed.

(* the fields produced by split contain no separator *)
Lemma split_aux_fields c s cur : ~ In c cur -> Forall (fun f => ~ In c f) (split_char_aux c s cur).
Proof.
  revert cur. induction s as [|x t IH]; intros cur H; cbn [split_char_aux].
  - constructor; [|constructor]. rewrite <- in_rev. exact H.
  - destruct (x =? c) eqn:E.
    + constructor; [rewrite <- in_rev; exact H|]. apply IH. intros [].
    + apply IH. intros [Hx|Hin]; [apply N.eqb_neq in E; congruence|exact (H Hin)].
Qed.

Lemma split_fields c s : Forall (fun f => ~ In c f) (split_char c s).
Proof. apply split_aux_fields. intros []. Qed.

(* exactly one field <-> no separator *)
Lemma split_single c s f : split_char c s = [f] -> f = s /\ ~ In c s.
Proof.
  intros H. pose proof (join_split c s) as J. rewrite H in J. cbn in J. subst f.
  split; [reflexivity|]. pose proof (split_fields c s) as F. rewrite H in F. inversion F; assumption.
Qed.

Lemma In_split_length c s : In c s -> (2 <= length (split_char c s))%nat.
Proof.
  intros H. apply in_split in H. destruct H as [a [b ->]].
  rewrite split_app, app_length.
  pose proof (split_nonnil c a). pose proof (split_nonnil c b).
  destruct (split_char c a); [congruence|]. destruct (split_char c b); [congruence|]. cbn. lia.
Qed.
