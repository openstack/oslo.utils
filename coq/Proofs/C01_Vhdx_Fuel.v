(* Proofs/C01_Vhdx_Fuel.v — the `while new_regions` loop of eat_chunk ([settle], with fuel, in
   the model) never runs out of fuel for VHDXInspector: from ANY inspector state and for ANY
   chunk, eat_chunk does not end in the model's OtherError.  Reason: an iteration of the loop needs a
   region object that the preceding post_process created; post_process creates 'metadata' only when
   it is absent and 'vds' only when it is absent, and never deletes: at most two creations. *)
Require Import OV.Base.Bytes OV.Base.Py OV.Base.Insp_Struct OV.Gen.Insp_Consts OV.Model.Insp_Engine.
Require Import OV.Model.Insp_Vhdx.
Require Import OV.Proofs.Insp_Engine OV.Proofs.C01_Vhdx_Step.
Open Scope N_scope.

(* regions post_process may still create *)
Definition todo (l : regions) : nat :=
  ((if rhas R_metadata l then 0 else 1) + (if rhas R_vds l then 0 else 1))%nat.

Lemma todo_le l : (todo l <= 2)%nat.
Proof. unfold todo. destruct (rhas R_metadata l), (rhas R_vds l); cbn; lia. Qed.

Lemma rhas_capture n only c pos l : rhas n (capture_regs only c pos l) = rhas n l.
Proof.
  unfold rhas. induction l as [|[k r] t IH]; [reflexivity|].
  rewrite capture_regs_map. cbn [map]. rewrite <- capture_regs_map.
  pose proof (cap1_fst only c pos (k, r)) as Hf. destruct (cap1 only c pos (k, r)) as [k' r']. cbn [fst] in Hf. subst k'.
  cbn [rget]. destruct (rname_beq k n); [reflexivity | exact IH].
Qed.

Lemma rhas_rset n m r' l : rhas n (rset m r' l) = rhas n l.
Proof.
  unfold rhas. induction l as [|[k r] t IH]; [reflexivity|]. cbn [rset].
  destruct (rname_beq k m); cbn [rget]; destruct (rname_beq k n); try reflexivity. exact IH.
Qed.

Lemma rhas_snoc n k r l : rhas n (l ++ [(k, r)]) = rhas n l || rname_beq k n.
Proof.
  unfold rhas. induction l as [|[k' r'] t IH]; cbn [app rget].
  - destruct (rname_beq k n); reflexivity.
  - destruct (rname_beq k' n); [reflexivity | exact IH].
Qed.

Lemma todo_capture only c pos l : todo (capture_regs only c pos l) = todo l.
Proof. unfold todo. rewrite !rhas_capture. reflexivity. Qed.

(* the table walks fail only with struct.error *)
Lemma rt_loop_exn k rest e : vhdx_rt_loop k rest = Exn e -> e = StructError.
Proof.
  revert rest. induction k as [|k IH]; intros rest H; cbn [vhdx_rt_loop] in H; [discriminate|].
  unfold vhdx_guid_is, unpack in H.
  destruct (flen _ =? _); cbn [bind] in H; [|inversion H; reflexivity].
  destruct (beq _ _).
  - destruct (flen _ =? _); cbn [bind] in H; [discriminate | inversion H; reflexivity].
  - apply (IH _ H).
Qed.
Lemma mt_loop_exn k g rest e : vhdx_mt_loop k g rest = Exn e -> e = StructError.
Proof.
  revert rest. induction k as [|k IH]; intros rest H; cbn [vhdx_mt_loop] in H; [discriminate|].
  unfold vhdx_guid_is, unpack in H.
  destruct (flen _ =? _); cbn [bind] in H; [|inversion H; reflexivity].
  destruct (beq _ _).
  - destruct (flen _ =? _); cbn [bind] in H; [discriminate | inversion H; reflexivity].
  - apply (IH _ H).
Qed.

(* one post_process: either no region object is new, or one of the two possible creations happened *)
Lemma post_shape (s s' : ist unit) e :
  vhdx_post s = (s', e) ->
  e <> Some OtherError /\
  (ids (i_regs s') = ids (i_regs s) \/ (todo (i_regs s') < todo (i_regs s))%nat).
Proof.
  unfold vhdx_post, get_region. intros H.
  destruct (rget R_header (i_regs s)) as [h|]; [|inversion H; subst; split; [discriminate | left; reflexivity]].
  destruct (rcomplete h && negb (has_region R_metadata s)) eqn:Hb1.
  - apply andb_true_iff in Hb1. destruct Hb1 as [_ Hnm]. apply negb_true_iff in Hnm.
    unfold vhdx_find_meta_region, get_region in H.
    destruct (rget R_header (i_regs s)) as [h'|]; cbn [bind] in H; [|inversion H; subst; split; [discriminate | left; reflexivity]].
    unfold unpack in H.
    destruct (flen _ =? _); cbn [bind] in H; [|inversion H; subst; split; [discriminate | left; reflexivity]].
    destruct (negb (_ =? VHDX_REGI)); [inversion H; subst; split; [discriminate | left; reflexivity]|].
    destruct (VHDX_RT_LIMIT <=? _); [inversion H; subst; split; [discriminate | left; reflexivity]|].
    destruct (vhdx_rt_loop _ _) as [[sp|]|ex] eqn:Hl.
    + unfold new_region in H. rewrite Hnm in H. inversion H; subst. split; [discriminate|]. right.
      cbn [i_regs]. unfold todo. rewrite !rhas_snoc. unfold has_region in Hnm. rewrite Hnm.
      rewrite rname_beq_refl. change (rname_beq R_metadata R_vds) with false. rewrite orb_false_r.
      destruct (rhas R_vds (i_regs s)); cbn; lia.
    + inversion H; subst. split; [discriminate | left; reflexivity].
    + inversion H; subst. apply rt_loop_exn in Hl. subst. split; [discriminate | left; reflexivity].
  - destruct (has_region R_metadata s && negb (has_region R_vds s)) eqn:Hb2;
      [|inversion H; subst; split; [discriminate | left; reflexivity]].
    apply andb_true_iff in Hb2. destruct Hb2 as [Hm Hnv]. apply negb_true_iff in Hnv.
    destruct (vhdx_find_meta_entry VHDX_GUID_VIRTUAL_DISK_SIZE s) as [s1 r] eqn:Hf.
    (* the state after _find_meta_entry has the same region objects and names *)
    assert (Hs1 : ids (i_regs s1) = ids (i_regs s) /\ (forall n, rhas n (i_regs s1) = rhas n (i_regs s))
                  /\ (forall ex, r = Exn ex -> ex <> OtherError)).
    { unfold vhdx_find_meta_entry, get_region in Hf.
      destruct (rget R_metadata (i_regs s)) as [m|] eqn:Hg; [|inversion Hf; subst; repeat split; intros; congruence].
      destruct (flen (r_data m) <? VHDX_MT_MIN); [inversion Hf; subst; repeat split; intros; congruence|].
      unfold unpack in Hf.
      destruct (flen _ =? _); [|inversion Hf; subst; repeat split; intros; congruence].
      destruct (negb (beq _ _)); [inversion Hf; subst; repeat split; intros; congruence|].
      destruct (flen (r_data m) <? _); [inversion Hf; subst; repeat split; intros; congruence|].
      destruct (VHDX_MT_LIMIT <=? _); [inversion Hf; subst; repeat split; intros; congruence|].
      destruct (vhdx_mt_loop _ _ _) as [[[io il]|]|ex] eqn:Hl; inversion Hf; subst.
      - split; [|split].
        + cbn [set_regs i_regs]. eapply rset_ids; [exact Hg | reflexivity].
        + intros n. cbn [set_regs i_regs]. apply rhas_rset.
        + intros; congruence.
      - repeat split; intros; congruence.
      - apply mt_loop_exn in Hl. subst. repeat split. intros ex Hx. inversion Hx. discriminate. }
    destruct Hs1 as (Hids & Hhas & Hex).
    destruct r as [[sp|]|ex].
    + unfold new_region, has_region in H. rewrite (Hhas R_vds) in H. unfold has_region in Hnv. rewrite Hnv in H.
      inversion H; subst. split; [discriminate|]. right.
      cbn [i_regs]. unfold todo. rewrite !rhas_snoc, !Hhas. rewrite Hnv. unfold has_region in Hm. rewrite Hm.
      rewrite rname_beq_refl. cbn. lia.
    + inversion H; subst. split; [discriminate | left; exact Hids].
    + inversion H; subst. split; [|left; exact Hids]. intros Hx. inversion Hx. exact (Hex ex eq_refl H1).
Qed.

(* the loop: fine as long as the fuel exceeds the number of creations still possible *)
Lemma settle_no_other c : forall fuel known (s : ist unit),
  (new_names known (i_regs s) = [] \/ (todo (i_regs s) < fuel)%nat) ->
  snd (settle fuel vhdx_fmt c known s) <> Some OtherError.
Proof.
  induction fuel as [|fuel IH]; intros known s Hc; cbn [settle].
  - destruct (new_names known (i_regs s)); [cbn; discriminate|]. destruct Hc as [Hc|Hc]; [discriminate | lia].
  - destruct (new_names known (i_regs s)) as [|n0 new] eqn:Hn; [cbn; discriminate|].
    destruct Hc as [Hc|Hc]; [discriminate|].
    unfold do_capture. destruct (i_fin s); [cbn; discriminate|].
    set (s1 := set_regs s (capture_regs (n0 :: new) c (i_pos s) (i_regs s))).
    cbn [f_post vhdx_fmt].
    destruct (vhdx_post s1) as [s2 [e|]] eqn:Hp.
    + destruct (post_shape _ _ _ Hp) as [He _]. cbn. exact He.
    + destruct (post_shape _ _ _ Hp) as [_ Hsh]. apply IH.
      destruct Hsh as [Hids|Hlt].
      * left. rewrite <- Hids. apply new_names_same_ids; reflexivity.
      * right. subst s1. cbn [set_regs i_regs] in Hlt. rewrite todo_capture in Hlt. lia.
Qed.

(* OtherError excluded: for every inspector state and every chunk *)
Theorem vhdx_fuel_never_exhausted (s : ist unit) c :
  snd (eat_chunk vhdx_fmt s c) <> Some OtherError.
Proof.
  unfold eat_chunk, do_capture. cbn [set_pos i_fin i_regs i_pos].
  destruct (i_fin s); [cbn; discriminate|].
  set (s1 := set_regs (set_pos s (i_pos s + flen c)) (capture_regs [] c (i_pos s + flen c) (i_regs s))).
  cbn [f_post vhdx_fmt].
  destruct (vhdx_post s1) as [s2 [e|]] eqn:Hp.
  - destruct (post_shape _ _ _ Hp) as [He _]. cbn. exact He.
  - destruct (post_shape _ _ _ Hp) as [_ Hsh].
    pose proof (settle_no_other c eat_fuel (ids (i_regs s)) s2) as Hs.
    destruct (settle eat_fuel vhdx_fmt c (ids (i_regs s)) s2) as [s3 [e|]] eqn:Hst.
    + cbn [snd] in *. apply Hs.
      destruct Hsh as [Hids|Hlt].
      * left. subst s1. cbn [set_regs i_regs] in Hids. rewrite capture_regs_ids in Hids. rewrite <- Hids. apply new_names_same_ids; reflexivity.
      * right. pose proof (todo_le (i_regs s1)). unfold eat_fuel. lia.
    + rewrite vhdx_no_callbacks. cbn. discriminate.
Qed.
