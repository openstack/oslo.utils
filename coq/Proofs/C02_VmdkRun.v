(* Proofs/C02_VmdkRun.v — the VMDK inspector on a stream with a valid sparse header (signature KDMV, version 1..3),
   for EVERY chunk list: the run is the one analysed in Proofs/C01_Vmdk_Run.v (vmdk_eat_all_sparse, which has no zone hypothesis);
   here its final state is read in the terms of Model/C02.v: what a Pass of safety_check() says about the bytes,
   and which bytes are accepted. *)
Require Import OV.Proofs.Insp_Engine OV.Proofs.Insp_All OV.Model.C01_Vmdk OV.Proofs.C01_Vmdk_Base OV.Proofs.C01_Vmdk_Step OV.Proofs.C01_Vmdk_Run.
Require Import OV.Base.Bytes OV.Base.Py OV.Base.PyInt OV.Base.Str OV.Base.Insp_Struct OV.Gen.Insp_Consts OV.Model.Insp_Engine.
Require Import OV.Model.Insp_Vmdk OV.Model.Insp_All.
Require Import OV.Model.C02 OV.Proofs.C02_Engine OV.Proofs.C02_Vmdk.
Open Scope N_scope.

Lemma btake_app_prefix a c : btake (blen a) (a ++ c) = a.
Proof. rewrite btake_app_le by lia. apply btake_all. lia. Qed.

Lemma hdr_pre_valid b : 64 <= blen b -> hdr_pre b -> hdr_sig_ok (vh b) = true /\ hdr_ver_ok (vh b) = true.
Proof.
  intros Hl [Hsig Hver]. apply andb_true_iff. rewrite <- (valid_vh b Hl).
  unfold valid_magic_ver, ver_ok, VMDK_VER_A, VMDK_VER_B, VMDK_VER_C.
  change (btake 4 b) with (vmdk_sig b). change (le_val (bslice 4 4 b)) with (vmdk_ver b).
  rewrite Hsig, beq_refl. cbn [andb]. lia.
Qed.

Lemma vh_fields b : 64 <= blen b ->
  hdr_loc_ok (vh b) = (vmdk_desc_sec b * 512 =? 512) /\ hdr_dsz (vh b) = dsize b /\ hdr_foot (vh b) = (vmdk_gd b =? gd_at_end).
Proof.
  intros Hl. unfold hdr_loc_ok, hdr_dsz, hdr_foot.
  rewrite (int_vh b 5 28 8 eq_refl ltac:(lia) Hl), (int_vh b 6 36 8 eq_refl ltac:(lia) Hl), (int_vh b 9 56 8 eq_refl ltac:(lia) Hl).
  repeat split.
Qed.

Lemma parse_desc_text D :
  parse_desc D = if is_ascii_text D then Some (text_of D, vmdk_type_of (text_of D)) else None.
Proof.
  assert (Hu : upto_nul D = up_to_nul D).
  { unfold upto_nul, up_to_nul. change VMDK_NUL with [0]. destruct (find [0] D); [apply ntake_btake | reflexivity]. }
  unfold parse_desc, is_ascii_text, text_of. rewrite Hu. reflexivity.
Qed.

(* the descriptor at sector 1: no exception, and safety_check() from the final state of the run *)
Lemma vmdk_sparse_safety cs :
  let b := concat cs in let D := bslice 512 (dsize b) b in
  64 <= blen b -> hdr_pre b -> vmdk_desc_sec b * 512 = 512 ->
  exists foot x,
    snd (Insp_All.run F_vmdk cs) = None /\
    safety (fst (Insp_All.run F_vmdk cs)) =
      spec_safety (match foot with Some (_, fd) => 1536 =? blen fd | None => true end && (dsize b =? blen D)) true
        ((K_descriptor, check_descriptor_of (v_desc_text x) (v_vmdktype x)) ::
         match foot with Some (_, fd) => [(K_footer, check_footer_of (vh b) fd)] | None => [] end) /\
    (vmdk_gd b =? gd_at_end) = has_foot foot /\ foot_inv b foot /\ ext_inv (dsize b) D x.
Proof.
  intros b D Hl Hpre Hsec. destruct (hdr_pre_valid b Hl Hpre) as [Hs Hv].
  destruct (vh_fields b Hl) as (Floc & Fdsz & Ffoot).
  destruct (vmdk_eat_all_sparse b cs eq_refl Hl Hs Hv) as (s & e & He & Hend).
  rewrite run_vmdk_fmt. unfold run_fmt. rewrite He. cbn [fst snd].
  destruct Hend as [d x Hl' _ | st h d x _ _ _ _ Hbad | st h d x _ _ _ _ _ _ Ho | foot h x Hp Hlh _ _ _ Hf Hfi Hxi].
  - lia.
  - rewrite Hs, Hv in Hbad. discriminate.
  - rewrite Floc in Ho. lia.
  - rewrite Fdsz in *. fold D in Hxi |- *. exists foot, x.
    split; [reflexivity|]. split; [|rewrite <- Ffoot; auto].
    change (safety (I_vmdk (Insp_Engine.finish (S1 foot (dsize b) b h D x)))) with (v_safety (vverdict (S1 foot (dsize b) b h D x) None)).
    rewrite (final_S1 foot (dsize b) b h D x Hlh). cbv zeta. cbn [v_safety].
    replace (btake 64 h) with (vh b) by (symmetry; apply btake_prefix; assumption).
    replace (prefixb VMDK_MAGIC h) with true; [reflexivity|].
    rewrite (prefixb_magic_prefix h b Hp Hlh), prefixb_btake. symmetry. rewrite <- sig_vh. exact Hs.
Qed.

(* a misplaced descriptor: ImageFormatError on the chunk that completes the header, and never a Pass *)
Lemma vmdk_misplaced_never_passes cs :
  let b := concat cs in
  64 <= blen b -> hdr_pre b -> vmdk_desc_sec b * 512 <> 512 -> safety (fst (Insp_All.run F_vmdk cs)) <> Pass.
Proof.
  intros b Hl Hpre Hsec. destruct (hdr_pre_valid b Hl Hpre) as [Hs Hv].
  destruct (vh_fields b Hl) as (Floc & _).
  destruct (vmdk_eat_all_sparse b cs eq_refl Hl Hs Hv) as (s & e & He & Hend).
  rewrite run_vmdk_fmt. unfold run_fmt. rewrite He. cbn [fst].
  destruct Hend as [d x Hl' _ | st h d x _ _ _ _ Hbad | st h d x _ Hlh Hd Hx _ _ _ | foot h x _ _ _ _ Ho _ _ _].
  - lia.
  - rewrite Hs, Hv in Hbad. discriminate.
  - destruct (hdr_foot (vh b)).
    + change (safety (I_vmdk (Insp_Engine.finish (T0f st h d x)))) with (v_safety (vverdict (T0f st h d x) (Some ImageFormatError))).
      rewrite (final_T0f st h d x Hx). discriminate.
    + change (safety (I_vmdk (Insp_Engine.finish (T0 st h d x)))) with (v_safety (vverdict (T0 st h d x) (Some ImageFormatError))).
      rewrite (final_T0 st h d x Hlh Hd Hx). apply spec_safety_violation.
  - rewrite Floc in Ho. lia.
Qed.

(* the descriptor region is full: it is the whole area b[512 : 512+size], or the area is empty *)
Lemma dcomplete_iff size b : (size =? blen (bslice 512 size b)) = true <-> size = 0 \/ 512 + size <= blen b.
Proof. rewrite blen_bslice. lia. Qed.

(* the attributes once the descriptor region is full *)
Lemma ext_inv_full size D x :
  size = blen D -> ext_inv size D x ->
  (is_ascii_text D = true /\ x = mkVx (Some (text_of D)) (vmdk_type_of (text_of D))) \/ (is_ascii_text D = false /\ early x).
Proof.
  intros Hc. unfold ext_inv. rewrite Hc, N.eqb_refl. intros (xe & He & ->).
  unfold parse_ext. rewrite parse_desc_text. destruct (is_ascii_text D); auto.
Qed.

Theorem vmdk_sparse_pass_implies cs :
  let b := concat cs in
  64 <= blen b -> hdr_pre b ->
  safety (fst (Insp_All.run F_vmdk cs)) = Pass ->
  vmdk_desc_sec b * 512 = 512 /\
  512 + dsize b <= blen b /\
  is_ascii_text (bslice 512 (dsize b) b) = true /\
  descriptor_ok (mkVx (Some (text_of (bslice 512 (dsize b) b))) (vmdk_type_of (text_of (bslice 512 (dsize b) b)))) /\
  (vmdk_gd b = gd_at_end -> 1536 <= blen b /\ footer_ok b (bslice (blen b - 1536) 1536 b)).
Proof.
  intros b Hl Hpre Hpass.
  destruct (N.eq_dec (vmdk_desc_sec b * 512) 512) as [Hsec|Hsec]; [|destruct (vmdk_misplaced_never_passes cs Hl Hpre Hsec Hpass)].
  split; [exact Hsec|].
  destruct (vmdk_sparse_safety cs Hl Hpre Hsec) as (foot & x & _ & Hsafe & Hf & Hfi & Hxi). fold b in Hsafe, Hf, Hfi, Hxi.
  set (D := bslice 512 (dsize b) b) in *.
  rewrite Hsafe in Hpass. apply spec_safety_pass_iff in Hpass. destruct Hpass as (Hc & _ & Hk).
  apply andb_true_iff in Hc. destruct Hc as [Hfc Hdc].
  (* the descriptor check passed, so the descriptor was decoded *)
  cbn [filter snd] in Hk. destruct (is_exn (check_descriptor_of (v_desc_text x) (v_vmdktype x))) eqn:Hcd; [discriminate|].
  apply is_exn_unit in Hcd.
  destruct (ext_inv_full (dsize b) D x) as [[Hascii ->] | [_ Hx]]; [lia | exact Hxi | | rewrite (check_desc_early _ _ Hx) in Hcd; discriminate].
  apply check_descriptor_of_iff in Hcd.
  assert (Hfull : 512 + dsize b <= blen b).
  { apply dcomplete_iff in Hdc. destruct Hdc as [H0|H]; [exfalso|exact H].
    destruct Hcd as (t & Ht & Hne & _). injection Ht as <-. apply Hne. unfold D. rewrite H0. reflexivity. }
  split; [exact Hfull|]. split; [exact Hascii|]. split; [exact Hcd|].
  (* the footer check *)
  intros Hgd. rewrite Hgd, N.eqb_refl in Hf. destruct foot as [[off fd]|]; [|discriminate Hf].
  apply N.eqb_eq in Hfc. destruct (foot_inv_tail b off fd Hfi (or_intror (eq_sym Hfc))) as (Hflen & Hb & ->).
  split; [exact Hb|]. cbn [filter snd] in Hk.
  destruct (is_exn (check_footer_of (vh b) (btail 1536 b))) eqn:Hcf; [discriminate|]. apply is_exn_unit in Hcf.
  apply check_footer_of_iff in Hcf; [|apply blen_vh; exact Hl | exact Hflen]. apply (proj1 (footer_ok_btake b _)) in Hcf.
  replace (bslice (blen b - 1536) 1536 b) with (btail 1536 b); [exact Hcf|].
  unfold btail, bslice. symmetry. apply btake_all. rewrite blen_bskip. lia.
Qed.

(* ---------- the converse: a well-formed sparse VMDK is accepted, under every chunking ---------- *)
Theorem clean_vmdk_accepted cs :
  let b := concat cs in
  64 <= blen b -> hdr_pre b -> vmdk_desc_sec b * 512 = 512 ->
  512 + dsize b <= blen b ->
  is_ascii_text (bslice 512 (dsize b) b) = true ->
  descriptor_ok (mkVx (Some (text_of (bslice 512 (dsize b) b))) (vmdk_type_of (text_of (bslice 512 (dsize b) b)))) ->
  (vmdk_gd b = gd_at_end -> 1599 <= blen b /\ footer_ok b (bslice (blen b - 1536) 1536 b)) ->
  accepted (Insp_All.run F_vmdk cs) = true.
Proof.
  intros b Hl Hpre Hsec Hfull Hascii Hdesc Hfoot.
  destruct (vmdk_sparse_safety cs Hl Hpre Hsec) as (foot & x & Hquiet & Hsafe & Hf & Hfi & Hxi). fold b in Hsafe, Hf, Hfi, Hxi.
  set (D := bslice 512 (dsize b) b) in *.
  assert (Hdc : (dsize b =? blen D) = true) by (apply dcomplete_iff; right; exact Hfull).
  unfold accepted. rewrite Hquiet, Hsafe.
  replace (spec_safety _ _ _) with Pass; [reflexivity|]. symmetry. apply spec_safety_pass_iff.
  destruct (ext_inv_full (dsize b) D x) as [[_ ->] | [Hn _]]; [lia | exact Hxi | | congruence].
  apply check_descriptor_of_iff in Hdesc. rewrite Hdc, andb_true_r. cbn [filter snd]. rewrite Hdesc. cbn [is_exn].
  destruct foot as [[off fd]|]; [|auto].
  assert (Hgd : vmdk_gd b = gd_at_end) by (cbn [has_foot] in Hf; lia).
  destruct (Hfoot Hgd) as [H1599 Hfok].
  destruct (foot_inv_tail b off fd Hfi (or_introl H1599)) as (Hflen & _ & ->).
  replace (bslice (blen b - 1536) 1536 b) with (btail 1536 b) in Hfok
    by (unfold btail, bslice; symmetry; apply btake_all; rewrite blen_bskip; lia).
  apply (proj2 (footer_ok_btake b _)), check_footer_of_iff in Hfok; [|apply blen_vh; exact Hl | exact Hflen].
  cbn [filter snd]. change (vh b) with (btake 64 b). rewrite Hfok. cbn [is_exn]. split; [lia | auto].
Qed.

(* fewer than 64 bytes: refused, whatever the bytes *)
Theorem vmdk_short_refused cs : blen (concat cs) < 64 -> safety (fst (Insp_All.run F_vmdk cs)) = Refused.
Proof.
  intros Hl. rewrite run_vmdk_fmt. unfold run_fmt. rewrite init_S0.
  destruct (eat_all_short cs [] [] x0 Hl (fun _ => eq_refl)) as (d & x & He). rewrite He. cbn [fst safety app].
  apply safety_incomplete_refused. apply complete_S0. exact Hl.
Qed.
