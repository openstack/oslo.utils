(* Proofs/C10.v — string_to_bytes: the lemmas behind Properties/C10.v (those on
   QemuImgInfo._extract_bytes are in C10_Qemu.v).
   Everything about the source's tables and regexes is obtained by evaluating
   boolean checkers on the regenerated Gen/C10_Units.v values. *)
From Coq Require Import String.
From Coq Require Import ZArith SpecFloat.
Require Import OV.Base.Bytes OV.Base.Py OV.Base.PyInt OV.Base.Str OV.Base.Regex OV.Base.PyFloat.
Require Import OV.Model.C10_Regex OV.Gen.C10_Units OV.Model.C10.
Require Import OV.Proofs.C10_Form OV.Proofs.C10_Float.
Open Scope Z_scope.

(* ---------- the specification's tables (SI / IEC) ---------- *)

(* K M G T P E Z Y R Q *)
Definition letters : list N := [75; 77; 71; 84; 80; 69; 90; 89; 82; 81]%N.
Definition with_i (l : list N) : list str := flat_map (fun c => [[c]; [c; 105%N]]) l.
Definition iec_prefixes : list str := with_i letters.
Definition si_prefixes : list str := map (fun c => [c]) (107%N :: tl letters).
Definition mixed_prefixes : list str := with_i (107%N :: letters).
Definition spec_systems : list (str * list str) :=
  [(lit "IEC", iec_prefixes); (lit "SI", si_prefixes); (lit "mixed", mixed_prefixes)].

(* kilo 1, mega 2, giga 3, tera 4, peta 5, exa 6, zetta 7, yotta 8, ronna 9, quetta 10 *)
Fixpoint index_of (c : N) (l : list N) (i : Z) : Z :=
  match l with [] => 0 | x :: t => if (x =? c)%N then i else index_of c t (i + 1) end.
Definition spec_exp (p : str) : Z :=
  match p with
  | c :: _ => if (c =? 107)%N then 1 else index_of c letters 1
  | [] => 0
  end.
Definition ends_with_i (p : str) : bool := match rev p with c :: _ => (c =? 105)%N | [] => false end.
Definition spec_base (u p : str) : Z :=
  if beq u (lit "IEC") then 1024
  else if beq u (lit "SI") then 1000
  else if ends_with_i p then 1024 else 1000.

(* each check is [forallb] of a named test over a table: [forallb_In] turns the evaluated fact into the test
   of any one entry *)

Definition system_ok (sp : str * list str) : bool :=
  match lookup (fst sp) unit_system_info with
  | Some (_, rx) => unit_ok rx (snd sp) && uniq_ok (snd sp)
  | None => false
  end.
Lemma systems_ok_true : forallb system_ok spec_systems = true.
Proof. vm_compute. reflexivity. Qed.

Definition key_ok {A} (e : str * A) : bool := str_mem (fst e) (map fst spec_systems).
Lemma keys_ok_true : forallb key_ok unit_system_info = true.
Proof. vm_compute. reflexivity. Qed.

(* every prefix of every system: exponent found and equal to the SI/IEC one, the base in effect
   is the specified one, and base^exponent converts to a finite float *)
Definition is_some_finite (o : option float64) : bool :=
  match o with Some x => f_is_finite x | None => false end.
Definition prefix_ok (u : str) (base : option Z) (p : str) : bool :=
  match lookup p unit_prefix_exponent with
  | Some e => (e =? spec_exp p) && (0 <=? e) &&
              match effective_base u base (Some p) with
              | Some b => (b =? spec_base u p) && is_some_finite (float_of_Z (b ^ e)) && (0 <? b ^ e)
              | None => false
              end
  | None => false
  end.
Definition table_ok (sp : str * list str) : bool :=
  match lookup (fst sp) unit_system_info with
  | Some (base, _) => forallb (prefix_ok (fst sp) base) (snd sp)
  | None => false
  end.
Lemma tables_ok_true : forallb table_ok spec_systems = true.
Proof. vm_compute. reflexivity. Qed.

Definition eight : float64 := S754_finite false 4503599627370496 (-49).
Lemma float_of_8 : float_of_Z 8 = Some eight.
Proof. vm_compute. reflexivity. Qed.

Lemma lookup_in {A} k (d : list (str * A)) v : lookup k d = Some v -> In (k, v) d.
Proof.
  induction d as [|[k' v'] t IH]; cbn [lookup]; [discriminate|].
  destruct (beq k k') eqn:E.
  - apply beq_eq in E. subst. intros H. injection H as ->. left. reflexivity.
  - intros H. right. apply IH. exact H.
Qed.

Lemma known_system u base rx : lookup u unit_system_info = Some (base, rx) ->
  exists prefixes, In (u, prefixes) spec_systems.
Proof.
  intros H. apply lookup_in in H. pose proof (forallb_In _ _ _ keys_ok_true H) as K.
  apply str_mem_In, in_map_iff in K. destruct K as [[u' prefixes] [E I]]. cbn [fst] in E. subst. eauto.
Qed.

Lemma system_facts u prefixes : In (u, prefixes) spec_systems ->
  exists base rx, lookup u unit_system_info = Some (base, rx) /\
    unit_ok rx prefixes = true /\ uniq_ok prefixes = true.
Proof.
  intros H. pose proof (forallb_In _ _ _ systems_ok_true H) as S. unfold system_ok in S. cbn [fst snd] in S.
  destruct (lookup u unit_system_info) as [[base rx]|]; [|discriminate].
  apply andb_true_iff in S. exists base, rx. tauto.
Qed.

Lemma table_facts u prefixes base rx p :
  In (u, prefixes) spec_systems -> lookup u unit_system_info = Some (base, rx) -> In p prefixes ->
  lookup p unit_prefix_exponent = Some (spec_exp p) /\ 0 <= spec_exp p /\
  effective_base u base (Some p) = Some (spec_base u p) /\
  (exists x, float_of_Z (spec_base u p ^ spec_exp p) = Some x /\ f_is_finite x = true) /\
  0 < spec_base u p ^ spec_exp p.
Proof.
  intros H L Hp. pose proof (forallb_In _ _ _ tables_ok_true H) as T. unfold table_ok in T. cbn [fst snd] in T.
  rewrite L in T. apply (forallb_In _ _ _ T) in Hp. unfold prefix_ok in Hp.
  destruct (lookup p unit_prefix_exponent) as [e|]; [|discriminate].
  destruct (effective_base u base (Some p)) as [b|]; [|rewrite andb_false_r in Hp; discriminate].
  rewrite !andb_true_iff in Hp. destruct Hp as [[Ee He] [[Eb Fin] Pos]].
  apply Z.eqb_eq in Ee, Eb. subst e b. unfold is_some_finite in Fin.
  destruct (float_of_Z (spec_base u p ^ spec_exp p)) as [x|]; [|discriminate].
  repeat split; try reflexivity; try lia. exists x. auto.
Qed.

Definition is_bit (un : str) : bool := beq un (lit "b") || beq un (lit "bit").

Definition spec_eval (u nm pre un : str) (ri : bool) : res num :=
  match py_float_of_str nm with
  | None => Exn ValueError
  | Some m =>
      do m' <- (if is_bit un then f_div_int m 8 else Ok m);
      do r <- (match pre with [] => Ok m' | _ => f_mul_int m' (spec_base u pre ^ spec_exp pre) end);
      finish ri r
  end.

Theorem string_to_bytes_eval u prefixes : In (u, prefixes) spec_systems ->
  forall num pre un ri,
  numform num -> (pre = [] \/ In pre prefixes) -> In un units3 ->
  string_to_bytes (num ++ pre ++ un) u ri = spec_eval u num pre un ri.
Proof.
  intros HS num pre un ri Hn Hp Hu.
  destruct (system_facts u prefixes HS) as [base [[rx eos] [L [OKr UQ]]]].
  destruct (unit_match_groups rx eos prefixes OKr UQ num pre un Hn Hp Hu) as [e [g [M [G1 [G2 G3]]]]].
  unfold string_to_bytes, spec_eval. rewrite L, M, G1, G3.
  destruct (py_float_of_str num) as [m|]; [|reflexivity].
  change (is_bit_unit (Some un)) with (is_bit un).
  destruct (if is_bit un then f_div_int m 8 else Ok m) as [m'|ex]; cbn [bind]; [|reflexivity].
  destruct pre as [|c p'].
  - rewrite G2. reflexivity.
  - rewrite G2. destruct Hp as [Hp|Hp]; [discriminate|].
    destruct (table_facts u prefixes base (rx, eos) (c :: p') HS L Hp) as [T1 [T2 [T3 _]]].
    cbv zeta. unfold str, bytes in *. rewrite T1, T3. unfold py_pow. replace (spec_exp (c :: p') <? 0) with false by lia.
    cbn [bind]. reflexivity.
Qed.

(* a well-formed text always yields a float when return_int is off *)
Theorem admitted_returns_float u prefixes : In (u, prefixes) spec_systems ->
  forall num pre un,
  numform num -> (pre = [] \/ In pre prefixes) -> In un units3 ->
  exists r, string_to_bytes (num ++ pre ++ un) u false = Ok (NFloat r).
Proof.
  intros HS num pre un Hn Hp Hu.
  rewrite (string_to_bytes_eval u prefixes HS num pre un false Hn Hp Hu).
  unfold spec_eval.
  destruct (py_float_of_str num) as [m|] eqn:E; [|exfalso; exact (float_of_numform_total num Hn E)].
  assert (D : exists m', (if is_bit un then f_div_int m 8 else Ok m) = Ok m').
  { destruct (is_bit un); [|eauto]. unfold f_div_int. rewrite float_of_8. cbn. eauto. }
  destruct D as [m' ->]. cbn [bind].
  destruct pre as [|c p']; [cbn; eauto|].
  destruct Hp as [Hp|Hp]; [discriminate|].
  destruct (system_facts u prefixes HS) as [base [rx [L _]]].
  destruct (table_facts u prefixes base rx (c :: p') HS L Hp) as [_ [_ [_ [[x [Fx _]] _]]]].
  unfold f_mul_int. rewrite Fx. cbn. eauto.
Qed.

(* ---------- return_int is the ceiling of the float result ---------- *)

(* int(math.ceil(r)), an OverflowError (r infinite) turned into ValueError *)
Definition ceil_or_ValueError (r : float64) : res num :=
  match ceil_to_Z r with
  | Ok z => Ok (NInt z)
  | Exn OverflowError => Exn ValueError
  | Exn e => Exn e
  end.

(* return_int enters only at the last step *)
Lemma string_to_bytes_finish t u : exists x : res float64, forall ri, string_to_bytes t u ri = bind x (finish ri).
Proof.
  unfold string_to_bytes.
  destruct (lookup u unit_system_info) as [[base rx]|]; [|exists (Exn ValueError); reflexivity].
  destruct (rz_match rx t) as [[e g]|]; [|exists (Exn ValueError); reflexivity].
  destruct (group_text t g 1) as [g1|]; [|exists (Exn TypeError); reflexivity].
  destruct (py_float_of_str g1) as [m|]; [|exists (Exn ValueError); reflexivity].
  destruct (if is_bit_unit (group_text t g 3) then f_div_int m 8 else Ok m) as [m'|ex]; cbn [bind]; [|exists (Exn ex); reflexivity].
  destruct (group_text t g 2) as [[|c p']|]; try (exists (Ok m'); reflexivity).
  destruct (lookup (c :: p') unit_prefix_exponent) as [ex|]; [|exists (Exn KeyError); reflexivity].
  destruct (py_pow _ ex) as [pw|er]; cbn [bind]; [|exists (Exn er); reflexivity].
  exists (f_mul_int m' pw). reflexivity.
Qed.

Theorem return_int_is_ceil t u :
  string_to_bytes t u true =
  match string_to_bytes t u false with
  | Ok (NFloat r) => ceil_or_ValueError r
  | other => other
  end.
Proof. destruct (string_to_bytes_finish t u) as [[r|e] H]; rewrite !H; reflexivity. Qed.

Lemma ceil_or_ValueError_exn r e : ceil_or_ValueError r = Exn e -> e = ValueError.
Proof.
  unfold ceil_or_ValueError. destruct r as [s|s| |s m ex]; cbn; intros H; try discriminate; injection H as <-; reflexivity.
Qed.

Theorem admitted_iff_form u prefixes base rx :
  In (u, prefixes) spec_systems -> lookup u unit_system_info = Some (base, rx) ->
  forall t, rz_matchb rx t = true <-> form prefixes t.
Proof.
  intros HS L t. destruct (system_facts u prefixes HS) as [base' [rx' [L' [OKr _]]]].
  rewrite L in L'. injection L' as <- <-. destruct rx as [rx eos]. apply unit_match_iff_form. exact OKr.
Qed.

Theorem only_ValueError t u ri e : string_to_bytes t u ri = Exn e -> e = ValueError.
Proof.
  intros H.
  destruct (lookup u unit_system_info) as [[base rx]|] eqn:L.
  2:{ unfold string_to_bytes in H. rewrite L in H. injection H as <-. reflexivity. }
  destruct (known_system u base rx L) as [prefixes HS].
  destruct (rz_matchb rx t) eqn:M.
  2:{ unfold string_to_bytes in H. rewrite L in H. unfold rz_matchb in M.
      destruct (rz_match rx t) as [[? ?]|]; [discriminate|]. injection H as <-. reflexivity. }
  apply (admitted_iff_form u prefixes base rx HS L) in M.
  destruct M as [num [pre [un [-> [Hn [Hp Hu]]]]]].
  destruct (admitted_returns_float u prefixes HS num pre un Hn Hp Hu) as [r Hr].
  destruct ri.
  - rewrite return_int_is_ceil, Hr in H. apply (ceil_or_ValueError_exn r e H).
  - rewrite Hr in H. discriminate.
Qed.

(* a quantity beyond binary64: the float evaluation is inf (the IEEE evaluation); with return_int the
   OverflowError of math.ceil(inf) is turned into ValueError *)
Definition overflow_witness : str := repeatN 57%N 400 ++ lit "B".
Example overflow_witness_float :
  string_to_bytes overflow_witness (lit "IEC") false = Ok (NFloat (S754_infinity false)).
Proof. vm_compute. reflexivity. Qed.
Example overflow_witness_int :
  string_to_bytes overflow_witness (lit "IEC") true = Exn ValueError.
Proof. rewrite return_int_is_ceil, overflow_witness_float. reflexivity. Qed.

(* ---------- every capturable prefix is a key of the exponent table ---------- *)

Theorem prefix_table_total u base rx t e g p :
  lookup u unit_system_info = Some (base, rx) ->
  rz_match rx t = Some (e, g) -> group_text t g 2 = Some p -> p <> [] ->
  lookup p unit_prefix_exponent = Some (spec_exp p) /\
  effective_base u base (Some p) = Some (spec_base u p) /\
  exists x, float_of_Z (spec_base u p ^ spec_exp p) = Some x /\ f_is_finite x = true.
Proof.
  intros L M G Hne.
  destruct (known_system u base rx L) as [prefixes HS].
  destruct (system_facts u prefixes HS) as [base' [rx' [L' [OKr UQ]]]].
  rewrite L in L'. injection L' as <- <-.
  assert (F : form prefixes t).
  { destruct rx as [rx eos]. apply (unit_match_iff_form rx eos prefixes OKr). unfold rz_matchb. rewrite M. reflexivity. }
  destruct F as [num [pre [un [-> [Hn [Hp Hu]]]]]].
  destruct rx as [rx eos].
  destruct (unit_match_groups rx eos prefixes OKr UQ num pre un Hn Hp Hu) as [e' [g' [M' [_ [G2 _]]]]].
  rewrite M in M'. injection M' as <- <-. rewrite G in G2.
  destruct pre as [|c p']; [discriminate|]. injection G2 as ->.
  destruct Hp as [Hp|Hp]; [discriminate|].
  destruct (table_facts u prefixes base (rx, eos) (c :: p') HS L Hp) as [T1 [_ [T3 [T4 _]]]]. auto.
Qed.

(* the binary64 whose value is exactly the integer (-1)^neg * a, for a < 2^53 *)
Definition float_of_small_int (neg : bool) (a : positive) : float64 := normal neg a 0.

(* n * F = a * 8 or a, with a below 2^53: float(n), the optional division by 8.0 and the multiplication by
   float(F) are all exact, so the product is the float of a (and so is the quotient alone when F = 1) *)
Lemma exact_product neg (b : bool) n F a :
  Zpos n * Zpos F = Zpos a * (if b then 8 else 1) -> Zpos a < 2 ^ 53 ->
  exists m', (if b then f_div_int (f_round neg n 0) 8 else Ok (f_round neg n 0)) = Ok m' /\
             f_mul_int m' (Zpos F) = Ok (float_of_small_int neg a) /\
             (F = 1%positive -> m' = float_of_small_int neg a).
Proof.
  intros P Ha. set (k := if b then 3 else 0).
  assert (Hk : 0 <= k <= 3) by (destruct b; cbv; intuition discriminate).
  assert (P' : (Zpos n * Zpos F = Zpos a * 2 ^ k)) by (destruct b; exact P). clear P.
  assert (Da : dig a <= 53) by (apply dig_le_of_lt; lia). clear Ha.
  pose proof (odd_part_spec n) as Sn. destruct (odd_part n) as [qn jn]. destruct Sn as [Hjn [Hn On]].
  pose proof (odd_part_spec F) as Sf. destruct (odd_part F) as [qf jf] eqn:Ef. destruct Sf as [Hjf [Hf Of]].
  rewrite Hn, Hf in P'.
  destruct (odd_product qn jn qf jf a k On Of Hjn Hjf (proj1 Hk) Da P') as [Kle [Ea [Dsum [Dqn Dqf]]]]. clear P'.
  pose proof (dig_mul_lower qn qf). pose proof (dig_pos qn). pose proof (dig_pos qf).
  rewrite (round_exact neg n qn jn Hjn Hn Dqn) by lia.
  exists (normal neg qn (jn - k)). split; [|split].
  - unfold k. destruct b.
    + unfold f_div_int. rewrite float_of_8. unfold eight. rewrite div8_normal by lia. reflexivity.
    + rewrite Z.sub_0_r. reflexivity.
  - unfold f_mul_int. rewrite (float_of_Z_exact false F qf jf Hjf Hf Dqf) by lia. f_equal.
    rewrite mul_normal by lia. rewrite Bool.xorb_false_r.
    replace (jn - k + jf) with (0 + (jn + jf - k)) by lia.
    symmetry. apply normal_scale; [lia|exact Ea|exact Da].
  - intros ->. cbn in Ef. injection Ef as <- <-. rewrite Pos.mul_1_r in Ea.
    replace (jn - k) with (0 + (jn + 0 - k)) by lia.
    symmetry. apply normal_scale; [lia|exact Ea|exact Da].
Qed.

Definition exact_hyps (u : str) (prefixes : list str) (sg ds pre un : str) (n F a : positive) : Prop :=
  In (u, prefixes) spec_systems /\
  (sg = [] \/ sg = [43%N] \/ sg = [45%N]) /\
  digits ds = true /\ ds <> [] /\
  (pre = [] \/ In pre prefixes) /\ In un units3 /\
  dvalN (map asc ds) 0 = Npos n /\
  Zpos F = match pre with [] => 1 | _ => spec_base u pre ^ spec_exp pre end /\
  repr53b F = true /\
  Zpos n * Zpos F = Zpos a * (if is_bit un then 8 else 1) /\
  Zpos a < 2 ^ 53.

Theorem exact_when_representable u prefixes sg ds pre un n F a :
  exact_hyps u prefixes sg ds pre un n F a ->
  string_to_bytes (sg ++ ds ++ pre ++ un) u false = Ok (NFloat (float_of_small_int (beq sg [45%N]) a)) /\
  string_to_bytes (sg ++ ds ++ pre ++ un) u true = Ok (NInt (if beq sg [45%N] then Zneg a else Zpos a)).
Proof.
  intros [HS [Hsg [Hds [Hne [Hpre [Hun [Hn [HF [_ [Hprod Ha]]]]]]]]]].
  assert (NF : numform (sg ++ ds)).
  { exists sg, [], [], ds. repeat split; auto. }
  assert (E1 : string_to_bytes (sg ++ ds ++ pre ++ un) u false = Ok (NFloat (float_of_small_int (beq sg [45%N]) a))).
  { rewrite app_assoc. rewrite (string_to_bytes_eval u prefixes HS (sg ++ ds) pre un false NF Hpre Hun).
    unfold spec_eval. rewrite (float_of_signed_digits sg ds Hsg Hds Hne), Hn, f_of_decimal_int by lia.
    destruct (exact_product (beq sg [45%N]) (is_bit un) n F a Hprod Ha) as [m' [-> [Hmul H1]]]. cbn [bind].
    destruct pre as [|c p'].
    - rewrite H1 by (apply Pos2Z.inj; exact HF). reflexivity.
    - rewrite <- HF, Hmul. reflexivity. }
  split; [exact E1|].
  rewrite return_int_is_ceil, E1. unfold float_of_small_int, ceil_or_ValueError.
  assert (Da : dig a <= 53) by (apply dig_le_of_lt; lia).
  rewrite ceil_normal by lia. f_equal. f_equal.
  change (2 ^ 0) with 1. destruct (beq sg [45%N]); lia.
Qed.

(* instances of the hypotheses (non-vacuity) *)
Example exact_3KiB : exact_hyps (lit "IEC") iec_prefixes [] (lit "3") (lit "Ki") (lit "B") 3 1024 3072.
Proof. unfold exact_hyps. repeat split; try reflexivity; try (vm_compute; tauto); try (vm_compute; congruence). Qed.
Example exact_minus_16Mbit_SI : exact_hyps (lit "SI") si_prefixes (lit "-") (lit "16") (lit "M") (lit "bit") 16 1000000 2000000.
Proof. unfold exact_hyps. repeat split; try reflexivity; try (vm_compute; tauto); try (vm_compute; congruence). Qed.
Example exact_big_bits : exact_hyps (lit "mixed") mixed_prefixes [] (lit "72057594037927928") [] (lit "b") 72057594037927928 1 9007199254740991.
Proof. unfold exact_hyps. repeat split; try reflexivity; try (vm_compute; tauto); try (vm_compute; congruence). Qed.
Example exact_arabic_indic : exact_hyps (lit "mixed") mixed_prefixes (lit "+") [1635%N; 1634%N] (lit "ki") (lit "bit") 32 1024 4096.
Proof. unfold exact_hyps. repeat split; try reflexivity; try (vm_compute; tauto); try (vm_compute; congruence). Qed.
Example exact_3KiB_value :
  string_to_bytes (lit "3KiB") (lit "IEC") true = Ok (NInt 3072).
Proof. exact (proj2 (exact_when_representable _ _ _ _ _ _ _ _ _ exact_3KiB)). Qed.

(* ---------- oslo_utils.units: the SI / IEC constants agree with base ^ exponent ---------- *)

(* every constant of units.py whose name is a key of the exponent table is base^exponent with base 1024
   when the name ends in i and 1000 otherwise; and the 20 SI / IEC names are all there *)
Definition const_ok (nv : str * Z) : bool :=
  match lookup (fst nv) unit_prefix_exponent with
  | Some e => snd nv =? (if ends_with_i (fst nv) then 1024 else 1000) ^ e
  | None => true
  end.
Definition si_const_ok (p : str) : bool :=
  match lookup p units_constants with Some v => v =? 1000 ^ spec_exp p | None => false end.
Definition iec_const_ok (p : str) : bool :=
  negb (ends_with_i p) || match lookup p units_constants with Some v => v =? 1024 ^ spec_exp p | None => false end.
Lemma units_ok_true :
  forallb const_ok units_constants && forallb si_const_ok si_prefixes && forallb iec_const_ok iec_prefixes = true.
Proof. vm_compute. reflexivity. Qed.

(* magnitude zero (any number of zero digits, any sign): the result is a zero, return_int gives 0 *)
Theorem exact_zero u prefixes sg ds pre un :
  In (u, prefixes) spec_systems -> (sg = [] \/ sg = [43%N] \/ sg = [45%N]) ->
  digits ds = true -> ds <> [] -> dvalN (map asc ds) 0 = 0%N ->
  (pre = [] \/ In pre prefixes) -> In un units3 ->
  string_to_bytes (sg ++ ds ++ pre ++ un) u false = Ok (NFloat (S754_zero (beq sg [45%N]))) /\
  string_to_bytes (sg ++ ds ++ pre ++ un) u true = Ok (NInt 0).
Proof.
  intros HS Hsg Hds Hne Hz Hpre Hun.
  assert (NF : numform (sg ++ ds)) by (exists sg, [], [], ds; repeat split; auto).
  assert (E1 : string_to_bytes (sg ++ ds ++ pre ++ un) u false = Ok (NFloat (S754_zero (beq sg [45%N])))).
  { rewrite app_assoc. rewrite (string_to_bytes_eval u prefixes HS (sg ++ ds) pre un false NF Hpre Hun).
    unfold spec_eval. rewrite (float_of_signed_digits sg ds Hsg Hds Hne), Hz. cbn [f_of_decimal].
    set (neg := beq sg [45%N]).
    match goal with |- bind ?X _ = _ => assert (D : X = Ok (S754_zero neg)) end.
    { destruct (is_bit un); [|reflexivity]. unfold f_div_int. rewrite float_of_8. unfold eight, f_div. cbn.
      rewrite Bool.xorb_false_r. reflexivity. }
    rewrite D. cbn [bind].
    destruct pre as [|c p']; [reflexivity|].
    destruct Hpre as [Hq|Hq]; [discriminate|].
    destruct (system_facts u prefixes HS) as [base [rx [L _]]].
    destruct (table_facts u prefixes base rx (c :: p') HS L Hq) as [_ [_ [_ [[x [Fx Ffin]] F8]]]].
    unfold f_mul_int. rewrite Fx. cbn [bind finish].
    destruct (spec_base u (c :: p') ^ spec_exp (c :: p')) as [|pF|pF] eqn:EF; try lia.
    pose proof (float_of_pos_sign pF x Fx) as Sx.
    destruct x as [s|s| |s m e]; try discriminate; try contradiction; subst s; unfold f_mul; cbn; rewrite Bool.xorb_false_r; reflexivity. }
  split; [exact E1|]. rewrite return_int_is_ceil, E1. reflexivity.
Qed.

Example exact_zero_example :
  string_to_bytes (lit "-000QiB") (lit "IEC") true = Ok (NInt 0).
Proof.
  apply (proj2 (exact_zero (lit "IEC") iec_prefixes (lit "-") (lit "000") (lit "Qi") (lit "B")
                  ltac:(vm_compute; tauto) ltac:(auto) eq_refl ltac:(discriminate) eq_refl ltac:(right; vm_compute; tauto) ltac:(vm_compute; tauto))).
Qed.
