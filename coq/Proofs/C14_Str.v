(* Proofs/C14_Str.v — facts about str.strip() and str.lower() (Base/PyInt.v, Base/Str.v)
   and about the generated Unicode tables, as far as C14 needs them. *)
Require Import OV.Base.Bytes OV.Base.PyInt OV.Base.Str OV.Gen.Unicode.
Open Scope N_scope.

Definition all_space (s : str) : bool := forallb is_space s.

Lemma all_space_app a b : all_space (a ++ b) = all_space a && all_space b.
Proof. apply forallb_app. Qed.

Lemma lstrip_all_space s : all_space s = true -> lstrip s = [].
Proof. intros H. rewrite lstrip_is_by, <- (app_nil_r s), (lstrip_by_app is_space s [] H). reflexivity. Qed.

(* strip s is s without a whitespace prefix and a whitespace suffix *)
Lemma strip_padded s : exists pre post,
  s = pre ++ strip s ++ post /\ all_space pre = true /\ all_space post = true.
Proof. rewrite strip_is_by. apply strip_by_split. Qed.

(* first and last characters are not whitespace *)
Definition ends_nonspace (x : str) : bool :=
  match x with [] => false | c :: _ => negb (is_space c) && negb (is_space (last x 0)) end.

Lemma last_rev_cons (c : N) t d : last (rev (c :: t)) d = c.
Proof. cbn [rev]. apply last_last. Qed.

Lemma strip_unique pre x post :
  all_space pre = true -> all_space post = true -> ends_nonspace x = true ->
  strip (pre ++ x ++ post) = x.
Proof.
  intros Hpre Hpost Hx. destruct x as [|c t]; [discriminate|]. cbn [ends_nonspace] in Hx.
  apply andb_true_iff in Hx. destruct Hx as [Hc Hl]. apply negb_true_iff in Hc, Hl.
  rewrite strip_is_by. apply (strip_by_unique is_space pre _ post 0); [exact Hpre|exact Hpost|discriminate|exact Hc|exact Hl].
Qed.

Lemma strip_all_space s : all_space s = true -> strip s = [].
Proof. intros H. unfold strip. rewrite lstrip_all_space by exact H. reflexivity. Qed.

(* no range of cs meets lo..hi *)
Fixpoint cset_disjoint (lo hi : N) (cs : cset) : bool :=
  match cs with [] => true | (a, b) :: t => ((b <? lo) || (hi <? a)) && cset_disjoint lo hi t end.

Lemma cset_disjoint_spec lo hi cs c :
  cset_disjoint lo hi cs = true -> lo <= c <= hi -> cmem c cs = false.
Proof.
  induction cs as [|[a b] t IH]; intros H Hc; [reflexivity|].
  cbn [cset_disjoint] in H. apply andb_true_iff in H. destruct H as [H1 H2].
  cbn [cmem]. rewrite (IH H2 Hc). replace ((a <=? c) && (c <=? b)) with false by lia. reflexivity.
Qed.

(* no whitespace character is an ASCII capital letter (computed on the generated table) *)
Lemma space_not_capital : cset_disjoint 65 90 py_space = true.
Proof. vm_compute. reflexivity. Qed.

Lemma is_space_lower_ascii1 c : is_space (lower_ascii1 c) = false -> is_space c = false.
Proof.
  unfold lower_ascii1. destruct ((65 <=? c) && (c <=? 90)) eqn:E; [|auto].
  intros _. unfold is_space. apply (cset_disjoint_spec 65 90); [exact space_not_capital|lia].
Qed.

Lemma last_map (f : N -> N) (x : str) d : x <> [] -> last (map f x) d = f (last x d).
Proof.
  intros H. destruct x as [|c t] using rev_ind; [congruence|].
  rewrite map_app. cbn [map]. rewrite !last_last. reflexivity.
Qed.

Lemma ends_nonspace_lower_ascii x : ends_nonspace (lower_ascii x) = true -> ends_nonspace x = true.
Proof.
  destruct x as [|c t]; [auto|]. unfold lower_ascii. cbn [map ends_nonspace].
  change (lower_ascii1 c :: map lower_ascii1 t) with (map lower_ascii1 (c :: t)).
  rewrite last_map by discriminate. intros H.
  apply andb_true_iff in H. destruct H as [H1 H2]. apply negb_true_iff in H1, H2.
  rewrite (is_space_lower_ascii1 _ H1), (is_space_lower_ascii1 _ H2). reflexivity.
Qed.

(* which non-ASCII code points lower into a given set of ASCII characters: a check of
   the generated tables that is parametric in the set *)
Definition run_bad (x : N) (r : N * N * N) : bool :=
  let '(lo, hi, tgt) := r in (tgt <=? x) && (128 <=? x - tgt + lo) && (x - tgt + lo <=? hi).
Definition lower_avoids (cs : list N) : bool :=
  forallb (fun x => x <? 128) cs &&
  forallb (fun r => forallb (fun x => negb (run_bad x r)) cs) lower_runs &&
  forallb (fun kv => (fst kv <? 128) || negb (existsb (fun y => memN y cs) (snd kv))) lower_multi.
(* a run whose target is 128 or more produces no ASCII character: the check over the few
   remaining runs is enough, and is what gets evaluated *)
Definition lower_avoids_low (cs : list N) : bool :=
  forallb (fun x => x <? 128) cs &&
  forallb (fun r => forallb (fun x => negb (run_bad x r)) cs) (filter (fun r => snd r <? 128) lower_runs) &&
  forallb (fun kv => (fst kv <? 128) || negb (existsb (fun y => memN y cs) (snd kv))) lower_multi.

Lemma lower_avoids_low_ok cs : lower_avoids_low cs = true -> lower_avoids cs = true.
Proof.
  unfold lower_avoids_low, lower_avoids. intros H.
  apply andb_true_iff in H. destruct H as [H Hm]. apply andb_true_iff in H. destruct H as [Ha Hr].
  rewrite Ha, Hm, andb_true_r. cbn [andb]. rewrite forallb_forall in *. intros [[lo hi] tgt] Hin.
  destruct (tgt <? 128) eqn:E; [apply Hr, filter_In; split; [exact Hin|exact E]|].
  apply forallb_forall. intros x Hx. specialize (Ha x Hx). unfold run_bad. replace (tgt <=? x) with false by lia. reflexivity.
Qed.

Lemma py_lower1_avoid cs : lower_avoids cs = true ->
  forall c x, 128 <= c -> In x (py_lower1 c) -> In x cs -> False.
Proof.
  unfold lower_avoids. intros H c x Hc Hx Hcs.
  apply andb_true_iff in H. destruct H as [H Hm]. apply andb_true_iff in H. destruct H as [Ha Hr].
  rewrite forallb_forall in Ha, Hr, Hm.
  unfold py_lower1 in Hx. destruct (lower_run c lower_runs) as [l|] eqn:El.
  - destruct Hx as [<-|[]].
    destruct (lower_run_some _ _ _ El) as (lo & hi & tgt & Hin & Hrange & ->).
    specialize (Hr _ Hin). rewrite forallb_forall in Hr. specialize (Hr _ Hcs).
    unfold run_bad in Hr. apply negb_true_iff in Hr.
    replace (c - lo + tgt - tgt + lo) with c in Hr by lia. lia.
  - destruct (lower_multi_find c lower_multi) as [v|] eqn:Em.
    + apply lower_multi_some in Em. specialize (Hm _ Em). cbn [fst snd] in Hm.
      apply orb_true_iff in Hm. destruct Hm as [Hm|Hm]; [lia|].
      apply negb_true_iff in Hm. assert (Ht : existsb (fun y => memN y cs) v = true).
      { apply existsb_exists. exists x. split; [exact Hx|]. apply memN_In. exact Hcs. }
      congruence.
    + destruct Hx as [<-|[]]. specialize (Ha _ Hcs). lia.
Qed.

Lemma lower_ascii1_ge c : 128 <= c -> lower_ascii1 c = c.
Proof. intros H. unfold lower_ascii1. replace ((65 <=? c) && (c <=? 90)) with false by lia. reflexivity. Qed.

Lemma lower_ascii1_lt c : c < 128 -> lower_ascii1 c < 128.
Proof. apply lower_ascii1_ascii. Qed.

(* every character of x.lower() lies in cs  ->  x is ASCII and lower() is the ASCII rule *)
Lemma py_lower_all_in cs : lower_avoids cs = true ->
  forall x, (forall a, In a (py_lower x) -> In a cs) ->
  py_lower x = lower_ascii x /\ Forall (fun c => c < 128) x.
Proof.
  intros Hav x. induction x as [|c t IH]; intros H.
  - split; [reflexivity|constructor].
  - unfold py_lower, lower_ascii in *. cbn [flat_map map] in *.
    destruct (N.lt_ge_cases c 128) as [Hc|Hc].
    + rewrite (py_lower1_ascii c Hc) in *. cbn [app] in *.
      destruct IH as [I1 I2]; [intros a Ha; apply H; right; exact Ha|].
      split; [f_equal; exact I1|constructor; assumption].
    + exfalso. destruct (py_lower1 c) as [|y ys] eqn:Ey; [exact (py_lower1_nonempty c Ey)|].
      apply (py_lower1_avoid cs Hav c y Hc); [rewrite Ey; left; reflexivity|].
      apply H. cbn [app]. left. reflexivity.
Qed.

Lemma lower_avoids_lt cs a : lower_avoids cs = true -> In a cs -> a < 128.
Proof.
  unfold lower_avoids. intros H Ha. apply andb_true_iff in H. destruct H as [H _]. apply andb_true_iff in H. destruct H as [H _].
  rewrite forallb_forall in H. specialize (H a Ha). lia.
Qed.

(* For a word w over a character set that no non-ASCII code point lowers into:
   x.lower() = w exactly when x is w up to ASCII case. *)
Lemma py_lower_eq_word cs w : lower_avoids cs = true -> (forall a, In a w -> In a cs) ->
  forall x, py_lower x = w <-> lower_ascii x = w.
Proof.
  intros Hav Hw x. split; intros H.
  - destruct (py_lower_all_in cs Hav x) as [E _]; [rewrite H; exact Hw|]. rewrite <- E. exact H.
  - rewrite py_lower_ascii; [exact H|]. apply forallb_forall. intros c Hc. apply N.ltb_lt.
    (* a character of x at or above 128 would be a character of w *)
    destruct (N.lt_ge_cases c 128) as [L|G]; [exact L|]. exfalso.
    assert (Hin : In (lower_ascii1 c) w) by (rewrite <- H; apply in_map, Hc).
    rewrite (lower_ascii1_ge c G) in Hin. pose proof (lower_avoids_lt cs c Hav (Hw c Hin)). lia.
Qed.

(* the two code points that DO lower onto ASCII letters (stated so that the truth is on record) *)
Example kelvin_sign_lowers_to_k : py_lower1 8490 = [107].
Proof. vm_compute. reflexivity. Qed.
Example capital_i_with_dot_lowers_to_i_and_combining_dot : py_lower1 304 = [105; 775].
Proof. vm_compute. reflexivity. Qed.
