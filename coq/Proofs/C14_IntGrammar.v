(* Proofs/C14_IntGrammar.v — int(s) (base 10) accepts EXACTLY the declarative literal grammar

     whitespace*  [+-]?  digits ( _ digits )*  whitespace*

   over Unicode: whitespace as int() sees it (Base.PyInt.int_space: str.isspace minus
   U+001C..U+001F), digits = ASCII digits or non-ASCII decimal digits of the generated
   table, at most [lim] digits when the limit is on; the value is the base-10 value of the
   digits with the sign.  Both directions, all strings. *)
From Coq Require Import String.
Require Import OV.Base.Bytes OV.Base.Py OV.Base.PyInt OV.Base.Str OV.Gen.Unicode OV.Model.C14_Py.
Require Import OV.Proofs.C14_Int.
Open Scope N_scope.

(* a decimal digit and its value *)
Definition udigit (c : N) : option N :=
  if c <? 127 then (if ascii_digit c then Some (c - 48) else None)
  else if is_space c then None else digit_val c.
Definition is_udigit (c : N) : bool := match udigit c with Some _ => true | None => false end.
Fixpoint uval (s : str) (acc : N) : N :=
  match s with [] => acc | c :: t => uval t (acc * 10 + match udigit c with Some d => d | None => 0 end) end.
Definition ugroup (g : str) : bool := match g with [] => false | _ => forallb is_udigit g end.
Definition ugroups (ds : list str) : bool := match ds with [] => false | _ => forallb ugroup ds end.

Definition int_literal (lim : N) (s : str) (z : Z) : Prop :=
  exists pre sg ds post,
    s = pre ++ sign_text sg ++ join [95] ds ++ post /\
    forallb int_space pre = true /\ forallb int_space post = true /\
    ugroups ds = true /\
    over_limit lim (blen (concat ds)) = false /\
    z = signed sg (uval (concat ds) 0).

Definition stops (rest : str) : Prop :=
  match rest with [] => True | c :: _ => c <> 95 /\ digit_of 10 c = None end.

Lemma digit_of_10_inv c d : digit_of 10 c = Some d -> ascii_digit c = true /\ d = c - 48.
Proof.
  unfold digit_of, ascii_digit. destruct ((48 <=? c) && (c <=? 57)) eqn:E1.
  - destruct (c - 48 <? 10); [|discriminate]. intros H. injection H as <-. split; reflexivity.
  - destruct ((97 <=? c) && (c <=? 122)) eqn:E2.
    + replace (c - 87 <? 10) with false by lia. discriminate.
    + destruct ((65 <=? c) && (c <=? 90)) eqn:E3.
      * replace (c - 55 <? 10) with false by lia. discriminate.
      * discriminate.
Qed.

Lemma join_cons_all (g : str) tl : join [95] (g :: tl) = g ++ concat (map (cons 95) tl).
Proof.
  revert g. induction tl as [|g2 t IH]; intros g.
  - cbn [join map concat]. rewrite app_nil_r. reflexivity.
  - rewrite join_cons, IH. cbn [map concat app]. reflexivity.
Qed.

(* what a successful digit scan has read *)
Lemma scan_inv s : forall acc nd b v nd' rest,
  scan 10 s acc nd b = Some (v, nd', rest) ->
  exists g tl, all_ascii_digits g = true /\ forallb digit_group tl = true /\
    s = g ++ concat (map (cons 95) tl) ++ rest /\ (b = true -> g <> []) /\
    v = dval (g ++ concat tl) acc /\ nd' = nd + blen (g ++ concat tl) /\ stops rest.
Proof.
  induction s as [|c t IH]; intros acc nd b v nd' rest H.
  - cbn [scan] in H. destruct b; [discriminate|]. injection H as <- <- <-.
    exists [], []. cbn. repeat split; try reflexivity; try discriminate. lia.
  - cbn [scan] in H. destruct (c =? 95) eqn:E95.
    + apply N.eqb_eq in E95. subst c. destruct b; [discriminate|].
      destruct (IH _ _ _ _ _ _ H) as (g & tl & Hg & Htl & Hs & Hne & Hv & Hn & Hst).
      specialize (Hne eq_refl).
      exists [], (g :: tl). split; [reflexivity|]. split.
      { cbn [forallb]. rewrite Htl, andb_true_r. destruct g; [congruence|exact Hg]. }
      split; [cbn [map concat app]; rewrite Hs, <- app_assoc; reflexivity|].
      split; [discriminate|]. cbn [app concat]. repeat split; assumption.
    + destruct (digit_of 10 c) as [d|] eqn:Ed.
      * destruct (digit_of_10_inv c d Ed) as [Hc ->].
        destruct (IH _ _ _ _ _ _ H) as (g & tl & Hg & Htl & Hs & _ & Hv & Hn & Hst).
        exists (c :: g), tl. split; [unfold all_ascii_digits in *; cbn [forallb]; rewrite Hc, Hg; reflexivity|].
        split; [exact Htl|]. split; [cbn [app]; rewrite Hs; reflexivity|]. split; [discriminate|].
        cbn [app dval]. rewrite blen_cons. repeat split; [exact Hv|lia|exact Hst].
      * destruct b; [discriminate|]. injection H as <- <- <-.
        exists [], []. cbn [app map concat]. split; [reflexivity|]. split; [reflexivity|]. split; [reflexivity|].
        split; [discriminate|]. split; [reflexivity|]. split; [rewrite blen_nil; lia|].
        cbn [stops]. split; [apply N.eqb_neq, E95|exact Ed].
Qed.

Lemma lstrip_c_split s : exists pre, s = pre ++ lstrip_c s /\ forallb c_isspace pre = true /\
  match lstrip_c s with [] => True | c :: _ => c_isspace c = false end.
Proof. rewrite lstrip_c_is_by. apply lstrip_by_split. Qed.

(* ASCII text: int_ascii succeeds exactly on the ASCII literal grammar *)
Definition ascii_literal (lim : N) (a : str) (z : Z) : Prop :=
  exists pre sg ds post,
    a = pre ++ sign_text sg ++ join [95] ds ++ post /\
    forallb c_isspace pre = true /\ forallb c_isspace post = true /\ digit_groups ds = true /\
    over_limit lim (blen (concat ds)) = false /\ z = signed sg (dval (concat ds) 0).

Lemma int_ascii_inv lim a z : int_ascii lim 10 a = Some z -> ascii_literal lim a z.
Proof.
  unfold int_ascii. destruct (lstrip_c_split a) as (pre & Ha & Hpre & _).
  destruct (split_sign (lstrip_c a)) as [neg s2] eqn:Es. rewrite skip_prefix_10.
  destruct (starts_with_underscore s2) eqn:Eu; [discriminate|].
  destruct (scan 10 s2 0 0 false) as [[[v nd] rest]|] eqn:Esc; [|discriminate].
  destruct (nd =? 0) eqn:End; [discriminate|].
  destruct (forallb c_isspace rest) eqn:Erest; [|discriminate]. cbn [negb].
  change (10 =? 10) with true. cbn [andb]. destruct (over_limit lim nd) eqn:Elim; [discriminate|].
  intros H. injection H as <-.
  destruct (scan_inv _ _ _ _ _ _ _ Esc) as (g & tl & Hg & Htl & Hs & _ & Hv & Hn & _).
  assert (Hgne : g <> []).
  { intros ->. destruct tl as [|g2 tl'].
    - rewrite Hn in End. discriminate End.
    - rewrite Hs in Eu. cbn in Eu. discriminate. }
  assert (Hds : digit_groups (g :: tl) = true).
  { cbn [digit_groups forallb]. rewrite Htl, andb_true_r. destruct g; [congruence|exact Hg]. }
  assert (Hbody : s2 = join [95] (g :: tl) ++ rest) by (rewrite join_cons_all, <- app_assoc; exact Hs).
  (* the sign *)
  assert (Hsign : exists sg, lstrip_c a = sign_text sg ++ s2 /\ neg = match sg with Some true => true | _ => false end).
  { unfold split_sign in Es. destruct (lstrip_c a) as [|c t].
    - injection Es as <- <-. exists None. split; reflexivity.
    - destruct (c =? 43) eqn:E1; [apply N.eqb_eq in E1; subst; injection Es as <- <-; exists (Some false); split; reflexivity|].
      destruct (c =? 45) eqn:E2; [apply N.eqb_eq in E2; subst; injection Es as <- <-; exists (Some true); split; reflexivity|].
      injection Es as <- <-. exists None. split; reflexivity. }
  destruct Hsign as (sg & Hl & Hneg).
  exists pre, sg, (g :: tl), rest. split; [rewrite Ha at 1; rewrite Hl, Hbody; reflexivity|].
  split; [exact Hpre|]. split; [exact Erest|]. split; [exact Hds|].
  change (concat (g :: tl)) with (g ++ concat tl). rewrite N.add_0_l in Hn. rewrite <- Hn. split; [exact Elim|].
  subst neg. unfold signed. rewrite <- Hv. destruct sg as [[|]|]; reflexivity.
Qed.

Lemma int_ascii_iff lim a z : int_ascii lim 10 a = Some z <-> ascii_literal lim a z.
Proof.
  split; [apply int_ascii_inv|].
  intros (pre & sg & ds & post & -> & Hpre & Hpost & Hds & Hlim & ->).
  pose proof (int_literal_ascii lim pre sg ds post Hpre Hpost Hds Hlim) as H.
  unfold int_parse in H. rewrite transform_ascii in H by (apply ascii_lt_127; assumption). exact H.
Qed.

Definition trel (c x : N) : Prop := tr_char c = Some x.

Lemma transform_Forall2 s a : transform s = Some a <-> Forall2 trel s a.
Proof.
  revert a. induction s as [|c t IH]; intros a.
  - cbn [transform]. split; [intros H; injection H as <-; constructor|intros H; inversion H; reflexivity].
  - cbn [transform]. split.
    + destruct (tr_char c) as [x|] eqn:Ec; [|discriminate]. destruct (transform t) as [r|] eqn:Et; [|discriminate].
      intros H. injection H as <-. constructor; [exact Ec|apply IH; reflexivity].
    + intros H. inversion H as [|c' x t' r Hc Ht]; subst. unfold trel in Hc. rewrite Hc.
      apply IH in Ht. rewrite Ht. reflexivity.
Qed.

(* ASCII whitespace of int() on the generated table: str.isspace below 127 is 9..13, 28..32 *)
Lemma int_space_ascii_table :
  forallb (fun c => Bool.eqb (int_space c) (c_isspace c)) ascii_range = true.
Proof. vm_compute. reflexivity. Qed.

Lemma int_space_spec c : int_space c = if c <? 127 then c_isspace c else is_space c.
Proof.
  destruct (c <? 127) eqn:E.
  - pose proof int_space_ascii_table as T. rewrite forallb_forall in T.
    assert (Hc : c < 128) by lia. specialize (T c (in_ascii_range c Hc)). apply Bool.eqb_prop in T. exact T.
  - unfold int_space. replace ((28 <=? c) && (c <=? 31)) with false by lia. cbn [negb]. apply andb_true_r.
Qed.

(* characters that int() turns into whitespace / into the ASCII digit 48+d / keeps *)
Lemma tr_space c x : tr_char c = Some x -> c_isspace x = true -> int_space c = true.
Proof.
  rewrite int_space_spec. unfold tr_char. destruct (c <? 127); [intros H; injection H as <-; auto|].
  destruct (is_space c); [reflexivity|]. destruct (digit_val c) as [d|] eqn:Ed; [|discriminate].
  intros H. assert (Hx0 : x = 48 + d) by congruence. subst x. clear H. apply digit_val_props in Ed. destruct Ed as [Ed _].
  intros Hx. exfalso. unfold c_isspace in Hx. lia.
Qed.

Lemma space_tr c : int_space c = true -> exists x, tr_char c = Some x /\ c_isspace x = true.
Proof.
  rewrite int_space_spec. unfold tr_char. destruct (c <? 127); [intros H; exists c; auto|].
  intros ->. exists 32. split; reflexivity.
Qed.

(* a transformed character is an ASCII digit exactly when the original is a decimal digit, of that value *)
Lemma trel_digit c x : trel c x -> is_udigit c = ascii_digit x /\ (ascii_digit x = true -> udigit c = Some (x - 48)).
Proof.
  intros H. assert (U : udigit c = if ascii_digit x then Some (x - 48) else None).
  { unfold trel, tr_char in H. unfold udigit. destruct (c <? 127); [injection H as <-; reflexivity|].
    destruct (is_space c); [injection H as <-; reflexivity|].
    destruct (digit_val c) as [d|] eqn:Ed; [|discriminate]. assert (x = 48 + d) by congruence. subst x. apply digit_val_props in Ed. destruct Ed as [Ed _].
    assert (E : ascii_digit (48 + d) = true) by (unfold ascii_digit; lia). rewrite E. f_equal. lia. }
  unfold is_udigit. rewrite U. destruct (ascii_digit x); split; congruence.
Qed.

Lemma udigit_tr c : is_udigit c = true -> exists x, trel c x.
Proof.
  unfold trel, tr_char, is_udigit, udigit. destruct (c <? 127); [eauto|].
  destruct (is_space c); [discriminate|]. destruct (digit_val c); [eauto|discriminate].
Qed.

Lemma tr_keeps c x : tr_char c = Some x -> x = 43 \/ x = 45 \/ x = 95 -> c = x.
Proof.
  unfold tr_char. destruct (c <? 127); [intros H; injection H; auto|].
  destruct (is_space c); [intros H; injection H as <-; lia|].
  destruct (digit_val c) as [d|] eqn:Ed; [|discriminate]. intros H. assert (Hx0 : x = 48 + d) by congruence.
  apply digit_val_props in Ed. destruct Ed as [Ed _]. lia.
Qed.

Lemma keeps_tr x : x = 43 \/ x = 45 \/ x = 95 -> tr_char x = Some x.
Proof. intros H. unfold tr_char. replace (x <? 127) with true by lia. reflexivity. Qed.

(* pieces *)
Lemma F2_space s a : Forall2 trel s a -> forallb c_isspace a = true -> forallb int_space s = true.
Proof.
  induction 1 as [|c x s a Hc Ht IH]; [reflexivity|]. cbn [forallb]. intros H. apply andb_true_iff in H.
  destruct H as [Hx Ha]. rewrite (tr_space c x Hc Hx), (IH Ha). reflexivity.
Qed.

Lemma space_F2 s : forallb int_space s = true -> exists a, Forall2 trel s a /\ forallb c_isspace a = true.
Proof.
  induction s as [|c t IH]; [exists []; split; [constructor|reflexivity]|].
  cbn [forallb]. intros H. apply andb_true_iff in H. destruct H as [Hc Ht].
  destruct (space_tr c Hc) as (x & Hx1 & Hx2). destruct (IH Ht) as (a & Ha1 & Ha2).
  exists (x :: a). split; [constructor; assumption|]. cbn [forallb]. rewrite Hx2, Ha2. reflexivity.
Qed.

Lemma F2_sign s sg : Forall2 trel s (sign_text sg) -> s = sign_text sg.
Proof.
  destruct sg as [[|]|]; cbn [sign_text]; intros H; inversion H as [|c x t r Hc Ht]; subst; try reflexivity;
    inversion Ht; subst; f_equal; apply (tr_keeps _ _ Hc); auto.
Qed.

Lemma sign_F2 sg : Forall2 trel (sign_text sg) (sign_text sg).
Proof. destruct sg as [[|]|]; cbn [sign_text]; repeat constructor; apply keeps_tr; auto. Qed.

(* a group of digits *)
Lemma F2_digits g g' : Forall2 trel g g' ->
  forallb is_udigit g = all_ascii_digits g' /\ (all_ascii_digits g' = true -> forall acc, uval g acc = dval g' acc) /\
  blen g = blen g'.
Proof.
  induction 1 as [|c x g g' Hc _ (I1 & I2 & I3)]; [repeat split|]. destruct (trel_digit c x Hc) as [D1 D2].
  unfold all_ascii_digits in *. cbn [forallb]. rewrite D1, I1, !blen_cons, I3. repeat split.
  intros H acc. apply andb_true_iff in H. destruct H as [Hx Hg]. cbn [uval dval]. rewrite (D2 Hx). apply I2, Hg.
Qed.

Lemma uval_app a b acc : uval (a ++ b) acc = uval b (uval a acc).
Proof. revert acc. induction a as [|c a IH]; intros acc; cbn [app uval]; auto. Qed.

(* the body: lists of groups that correspond group by group *)
Definition grel (ds ds' : list str) : Prop := Forall2 (Forall2 trel) ds ds'.

Lemma grel_groups ds ds' : grel ds ds' ->
  ugroups ds = digit_groups ds' /\
  (digit_groups ds' = true -> forall acc, uval (concat ds) acc = dval (concat ds') acc) /\
  blen (concat ds) = blen (concat ds').
Proof.
  intros G.
  assert (P : forallb ugroup ds = forallb digit_group ds' /\
              (forallb digit_group ds' = true -> forall acc, uval (concat ds) acc = dval (concat ds') acc) /\
              blen (concat ds) = blen (concat ds')).
  { induction G as [|g g' ds ds' Hg _ (I1 & I2 & I3)]; [repeat split|]. destruct (F2_digits g g' Hg) as (D1 & D2 & D3).
    cbn [forallb concat]. rewrite !blen_app, D3, I3, I1.
    assert (E : ugroup g = digit_group g') by (destruct Hg; [reflexivity|exact D1]). rewrite E. repeat split.
    intros H acc. apply andb_true_iff in H. destruct H as [Hg' Hr]. rewrite uval_app, dval_app, D2; [apply I2, Hr|].
    destruct g'; [discriminate|exact Hg']. }
  destruct G; [repeat split|exact P].
Qed.

Lemma grel_join ds ds' : grel ds ds' -> Forall2 trel (join [95] ds) (join [95] ds').
Proof.
  induction 1 as [|g g' ds ds' Hg G IH]; [constructor|]. destruct G as [|g2 g2' ds ds' Hg2 G]; [exact Hg|].
  rewrite !join_cons. apply Forall2_app; [exact Hg|]. apply Forall2_app; [|exact IH]. constructor; [apply keeps_tr; auto|constructor].
Qed.

Lemma join_grel ds' : forall body, ds' <> [] -> Forall2 trel body (join [95] ds') -> exists ds, body = join [95] ds /\ grel ds ds'.
Proof.
  induction ds' as [|g' ds' IH]; intros body Hne HF; [congruence|]. destruct ds' as [|g2' ds'].
  - exists [body]. split; [reflexivity|]. repeat constructor. exact HF.
  - rewrite join_cons in HF. apply Forall2_app_inv_r in HF. destruct HF as (g & rest & Fg & F2 & ->).
    apply Forall2_app_inv_r in F2. destruct F2 as (u & b2 & Fu & F2 & ->).
    assert (u = [95]).
    { inversion Fu as [|c x t r Hc Ht]; subst. inversion Ht; subst. f_equal. apply (tr_keeps _ _ Hc). auto. }
    subst u. destruct (IH b2 ltac:(discriminate) F2) as (ds2 & -> & G). exists (g :: ds2). split; [|constructor; assumption].
    inversion G; subst. rewrite join_cons. reflexivity.
Qed.

Lemma ugroups_grel ds : ugroups ds = true -> exists ds', grel ds ds'.
Proof.
  intros H. assert (F : forallb ugroup ds = true) by (destruct ds; [discriminate|exact H]). clear H.
  induction ds as [|g ds IH]; [exists []; constructor|]. cbn [forallb] in F. apply andb_true_iff in F. destruct F as [Hg Hr].
  destruct (IH Hr) as (ds' & G).
  assert (Eg : exists g', Forall2 trel g g').
  { assert (Hd : forallb is_udigit g = true) by (destruct g; [discriminate|exact Hg]). clear Hg.
    induction g as [|c g IHg]; [exists []; constructor|]. cbn [forallb] in Hd. apply andb_true_iff in Hd. destruct Hd as [Hc Hd].
    destruct (udigit_tr c Hc) as (x & Hx). destruct (IHg Hd) as (g' & Fg). exists (x :: g'). constructor; assumption. }
  destruct Eg as (g' & Fg). exists (g' :: ds'). constructor; assumption.
Qed.

Theorem int_parse_iff_literal lim s z : int_parse lim 10 s = Some z <-> int_literal lim s z.
Proof.
  unfold int_parse. split.
  - destruct (transform s) as [a|] eqn:Et; [|discriminate]. intros H.
    apply transform_Forall2 in Et. apply int_ascii_iff in H.
    destruct H as (pre' & sg & ds' & post' & -> & Hpre & Hpost & Hds & Hlim & ->).
    apply Forall2_app_inv_r in Et. destruct Et as (pre & r1 & Fpre & F1 & ->).
    apply Forall2_app_inv_r in F1. destruct F1 as (sgs & r2 & Fsg & F2 & ->).
    apply Forall2_app_inv_r in F2. destruct F2 as (body & post & Fb & Fpost & ->).
    apply F2_sign in Fsg. subst sgs.
    destruct (join_grel ds' body ltac:(intros ->; discriminate) Fb) as (ds & -> & G).
    destruct (grel_groups ds ds' G) as (Hu & Hv & Hl).
    exists pre, sg, ds, post. split; [reflexivity|].
    split; [apply (F2_space _ _ Fpre Hpre)|]. split; [apply (F2_space _ _ Fpost Hpost)|].
    split; [rewrite Hu; exact Hds|]. split; [rewrite Hl; exact Hlim|]. rewrite (Hv Hds). reflexivity.
  - intros (pre & sg & ds & post & -> & Hpre & Hpost & Hu & Hlim & ->).
    destruct (space_F2 pre Hpre) as (pre' & Fpre & Hpre').
    destruct (space_F2 post Hpost) as (post' & Fpost & Hpost').
    destruct (ugroups_grel ds Hu) as (ds' & G). destruct (grel_groups ds ds' G) as (Hds & Hv & Hl).
    rewrite Hu in Hds. symmetry in Hds. pose proof (grel_join ds ds' G) as Fb.
    assert (Et : transform (pre ++ sign_text sg ++ join [95] ds ++ post) = Some (pre' ++ sign_text sg ++ join [95] ds' ++ post')).
    { apply transform_Forall2. repeat apply Forall2_app; try assumption. apply sign_F2. }
    rewrite Et. apply int_ascii_iff. exists pre', sg, ds', post'. split; [reflexivity|].
    split; [exact Hpre'|]. split; [exact Hpost'|]. split; [exact Hds|]. split; [rewrite <- Hl; exact Hlim|].
    rewrite (Hv Hds). reflexivity.
Qed.

Example int_literal_instance :
  int_literal 4300 ([160; 9] ++ sign_text (Some true) ++ join [95] [[1633; 50]; [65299]] ++ [12288]) (-123)%Z.
Proof.
  exists [160; 9], (Some true), [[1633; 50]; [65299]], [12288]. repeat split; vm_compute; reflexivity.
Qed.
