(* Proofs/C12_Iso.v — the model of iso8601.parse_date inverts the model of
   datetime.isoformat() for every representable datetime whose UTC offset is a whole
   number of minutes (or that is naive: read as UTC), and rejects every other offset. *)
From Coq Require Import String.
Require Import OV.Base.Bytes OV.Base.Py.
Require Import OV.Model.C12_Calendar OV.Model.C12_Prim OV.Model.C12 OV.Model.C12_Iso.
Require Import OV.Proofs.C12_Calendar OV.Proofs.C12.
Open Scope Z_scope.

Lemma dval_digit k : dval (digit k) = Some (k mod 10).
Proof.
  unfold dval, digit. assert (H : 0 <= k mod 10 < 10) by (apply Z.mod_pos_bound; lia).
  destruct ((48 <=? Z.to_N (48 + k mod 10)) && (Z.to_N (48 + k mod 10) <=? 57))%N eqn:E; [f_equal; lia|lia].
Qed.

Lemma num_fmt2 n : 0 <= n < 100 -> num (fmt2 n) = Some n.
Proof.
  intros H. unfold num, fmt2. cbn [num_acc]. rewrite !dval_digit. f_equal. zdm. lia.
Qed.
Lemma num_fmt4 n : 0 <= n < 10000 -> num (fmt4 n) = Some n.
Proof.
  intros H. unfold num, fmt4. cbn [num_acc]. rewrite !dval_digit. f_equal. zdm. lia.
Qed.
Lemma num_fmt6 n : 0 <= n < 1000000 -> num (fmt6 n) = Some n.
Proof.
  intros H. unfold num, fmt6. cbn [num_acc]. rewrite !dval_digit. f_equal. zdm. lia.
Qed.

(* what follows the seconds in isoformat() output: nothing, or a sign *)
Definition tail_ok (t : str) : Prop := t = [] \/ exists sg r, t = sg :: r /\ dval sg = None /\ sg <> 46%N /\ sg <> 44%N.

Lemma span_digits_fmt6 n t : tail_ok t -> span_digits (fmt6 n ++ t) = (fmt6 n, t).
Proof.
  intros Ht. unfold fmt6. cbn [app span_digits]. rewrite !dval_digit.
  assert (E : span_digits t = ([], t)).
  { destruct Ht as [->|(sg & r & -> & Hd & _)]; [reflexivity|]. cbn [span_digits]. rewrite Hd. reflexivity. }
  rewrite E. reflexivity.
Qed.

Lemma parse_frac_iso us t : 0 <= us <= 999999 -> tail_ok t ->
  parse_frac ((if us =? 0 then [] else [c_dot] ++ fmt6 us) ++ t) = Some (us, t).
Proof.
  intros Hu Ht. destruct (us =? 0) eqn:E.
  - apply Z.eqb_eq in E. subst us. cbn [app].
    destruct Ht as [->|(sg & r & -> & Hd & H1 & H2)]; [reflexivity|].
    unfold parse_frac. destruct ((sg =? 46) || (sg =? 44))%N eqn:Es; [lia|reflexivity].
  - cbn [app]. unfold parse_frac, c_dot. cbn [N.eqb Pos.eqb orb].
    rewrite (span_digits_fmt6 us t Ht).
    change (length (fmt6 us)) with 6%nat. cbn [Nat.leb andb].
    change (firstn 6 (fmt6 us ++ [48; 48; 48; 48; 48]%N)) with (fmt6 us).
    rewrite num_fmt6 by lia. reflexivity.
Qed.

Lemma iso_parse_shape_eq y mo d h mi s rest :
  0 <= y < 10000 -> 0 <= mo < 100 -> 0 <= d < 100 -> 0 <= h < 100 -> 0 <= mi < 100 -> 0 <= s < 100 ->
  iso_parse_shape (fmt4 y ++ [c_dash] ++ fmt2 mo ++ [c_dash] ++ fmt2 d ++ [c_T] ++ fmt2 h ++ [c_colon] ++ fmt2 mi ++ [c_colon] ++ fmt2 s ++ rest) =
  match parse_frac rest with
  | Some (us, rest') =>
      match parse_tz rest' with
      | Some (Ok z) => match mk_datetime (mkF y mo d h mi s us) with Ok n => Ok (mkDt (wall n) (Some z)) | Exn e => Exn e end
      | Some (Exn e) => Exn e
      | None => unmodelled
      end
  | None => unmodelled
  end.
Proof.
  intros Hy Hmo Hd Hh Hmi Hs.
  pose proof (num_fmt4 y Hy) as E1. pose proof (num_fmt2 mo Hmo) as E2. pose proof (num_fmt2 d Hd) as E3.
  pose proof (num_fmt2 h Hh) as E4. pose proof (num_fmt2 mi Hmi) as E5. pose proof (num_fmt2 s Hs) as E6.
  unfold fmt4, fmt2 in *. unfold iso_parse_shape, c_dash, c_T, c_colon. cbn [app].
  cbn [N.eqb Pos.eqb orb]. rewrite E1, E2, E3, E4, E5, E6. reflexivity.
Qed.

(* offsets isoformat() prints as +HH:MM / -HH:MM *)
Definition whole_minutes (o : Z) : bool := (o mod US_PER_MIN =? 0) && (Z.abs o <? 1440 * US_PER_MIN).
Definition iso_offset_ok (d : dt) : bool := match tz d with None => true | Some z => whole_minutes (tz_off z) end.

(* a magnitude of whole minutes below a day: hours, minutes, and no seconds part *)
Lemma minutes_split a : 0 <= a < 1440 * US_PER_MIN -> a mod US_PER_MIN = 0 ->
  0 <= a / US_PER_HOUR < 24 /\ 0 <= (a / US_PER_MIN) mod 60 < 60 /\
  (a / US_PER_HOUR * 60 + (a / US_PER_MIN) mod 60) * US_PER_MIN = a /\
  (a / US_PER_SEC) mod 60 = 0 /\ a mod US_PER_SEC = 0.
Proof. intros H0 Ha. unfold US_PER_HOUR, US_PER_MIN, US_PER_SEC in *. zdm. lia. Qed.

Lemma whole_minutes_abs o : whole_minutes o = true -> 0 <= Z.abs o < 1440 * US_PER_MIN /\ Z.abs o mod US_PER_MIN = 0.
Proof.
  unfold whole_minutes. intros H. apply andb_prop in H. destruct H as [H1 H2].
  split; [split; [apply Z.abs_nonneg|apply Z.ltb_lt, H2]|].
  apply Z.mod_divide; [discriminate|]. apply Z.divide_abs_r. apply Z.mod_divide; [discriminate|]. apply Z.eqb_eq, H1.
Qed.

Lemma fmt_offset_whole o : whole_minutes o = true ->
  fmt_offset o = [if o <? 0 then c_dash else c_plus] ++ fmt2 (Z.abs o / US_PER_HOUR) ++ [c_colon] ++ fmt2 ((Z.abs o / US_PER_MIN) mod 60).
Proof.
  intros H. destruct (whole_minutes_abs o H) as [Hr Hm]. destruct (minutes_split _ Hr Hm) as (_ & _ & _ & E1 & E2).
  unfold fmt_offset. rewrite E1, E2. cbn [Z.eqb andb]. rewrite !app_nil_r. reflexivity.
Qed.

Lemma parse_tz_whole o : whole_minutes o = true ->
  exists nm, parse_tz (fmt_offset o) = Some (Ok (mkTz o (Some nm))).
Proof.
  intros H. rewrite (fmt_offset_whole o H).
  destruct (whole_minutes_abs o H) as [Hr Hm]. destruct (minutes_split _ Hr Hm) as (Hh & Hmm & Hval & _).
  generalize dependent (Z.abs o / US_PER_HOUR). generalize dependent ((Z.abs o / US_PER_MIN) mod 60).
  intros mm Hmm hh Hh Hval.
  pose proof (num_fmt2 hh ltac:(lia)) as E1. pose proof (num_fmt2 mm ltac:(lia)) as E2.
  assert (Hsgn : (if o <? 0 then -1 else 1) * (hh * 60 + mm) * US_PER_MIN = o) by (destruct (Z.ltb_spec o 0); lia).
  unfold fmt2 in *. cbn [app]. unfold parse_tz.
  destruct (o <? 0) eqn:Eo; unfold c_dash, c_plus, c_colon; cbn [N.eqb Pos.eqb orb]; rewrite E1, E2;
    (destruct (hh * 60 + mm <? 1440) eqn:El; [|lia]); eexists; do 3 f_equal; exact Hsgn.
Qed.

Lemma tail_ok_offset o : tail_ok (fmt_offset o).
Proof.
  right. unfold fmt_offset. cbn [app]. eexists. eexists. split; [reflexivity|].
  destruct (o <? 0); unfold c_dash, c_plus; repeat split; try reflexivity; discriminate.
Qed.

(* the round trip *)
Theorem iso_roundtrip d : in_range (wall d) = true -> iso_offset_ok d = true ->
  exists z, iso_parse (iso_format d) = Ok (mkDt (wall d) (Some z)) /\
            tz_off z = match tz d with None => 0 | Some t => tz_off t end.
Proof.
  intros R Ho. unfold iso_parse. destruct (dt_fields_valid d R) as [V E].
  pose proof V as V'. apply valid_fields_spec in V'. destruct V' as (Vd & Vy & VH & VM & VS & Vu).
  apply valid_ymd_spec in Vd. destruct Vd as (Vy1 & Vm & Vdd). unfold month_ok in Vm.
  pose proof (days_in_month_pos (is_leap (f_year (dt_fields d))) (f_month (dt_fields d))) as Vd31.
  unfold MAXYEAR in Vy.
  unfold iso_format. cbv zeta.
  rewrite iso_parse_shape_eq by lia.
  unfold iso_offset_ok in Ho. destruct (tz d) as [t|].
  - rewrite (parse_frac_iso _ _ Vu (tail_ok_offset (tz_off t))).
    rewrite fields_eta.
    unfold mk_datetime. rewrite V, E. cbn [naive wall].
    destruct (parse_tz_whole (tz_off t) Ho) as [nm Ep]. rewrite Ep. eexists. split; reflexivity.
  - rewrite (parse_frac_iso _ [] Vu (or_introl eq_refl)).
    rewrite fields_eta.
    unfold mk_datetime. rewrite V, E. cbn [naive wall parse_tz]. eexists. split; reflexivity.
Qed.

(* read back through normalize_time, the parsed text denotes the instant of the original
   (a naive original is read as UTC) *)
Corollary iso_roundtrip_instant d : in_range (wall d) = true -> iso_offset_ok d = true ->
  exists d', iso_parse (iso_format d) = Ok d' /\ wall d' = wall d /\ instant d' = instant d.
Proof.
  intros R Ho. destruct (iso_roundtrip d R Ho) as (z & E & Ez). eexists. split; [exact E|].
  split; [reflexivity|]. unfold instant. cbn [tz wall]. rewrite Ez. destruct (tz d); lia.
Qed.

(* ...and an offset with a seconds part is printed by isoformat() but rejected by the parser
   (finding iso-submin): the statement for all offsets is false *)
Definition iso_full_statement : Prop :=
  forall d, in_range (wall d) = true ->
            match tz d with None => True | Some t => Z.abs (tz_off t) < 1440 * US_PER_MIN end ->
            exists d', iso_parse (iso_format d) = Ok d' /\ wall d' = wall d /\ instant d' = instant d.

Definition iso_witness : dt := mkDt 63713433600000000 (Some (mkTz 30000000 None)).   (* 2020-01-01T00:00:00+00:00:30 *)

Theorem iso_submin_refuted : ~ iso_full_statement.
Proof.
  intros H. specialize (H iso_witness eq_refl). cbn [tz iso_witness tz_off] in H.
  destruct (H ltac:(unfold US_PER_MIN, US_PER_SEC; lia)) as (d' & E & _).
  assert (X : iso_parse (iso_format iso_witness) = Exn ValueError) by (vm_compute; reflexivity).
  rewrite X in E. clear -E. discriminate E.
Qed.

Example iso_roundtrip_ex :
  iso_parse (iso_format (mkDt 63713433600000001 (Some (mkTz (-19800000000) None))))
  = Ok (mkDt 63713433600000001 (Some (mkTz (-19800000000) (Some (lit "-05:30"))))).
Proof. vm_compute. reflexivity. Qed.
Example iso_offset_ok_ex : iso_offset_ok (mkDt 63713433600000001 (Some (mkTz (-19800000000) None))) = true /\
                           iso_offset_ok iso_witness = false /\ in_range 63713433600000001 = true.
Proof. repeat split; vm_compute; reflexivity. Qed.
