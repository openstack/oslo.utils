(* Proofs/C01_Vmdk_Run.v — the run of the VMDK inspector over a chunk list, and VMDK refinement.
   vmdk_eat_all: whatever the chunks, eat_all leaves one of the four kinds of state of [vmdk_end b], described by the
   bytes b alone.  Only text-descriptor mode (zone F1) is excluded, by [noct b] and "a non-KDMV header is not printable
   text"; nothing is assumed about the footer zone F3, and [vmdk_eat_all_sparse] (valid sparse header) has no hypothesis
   at all.  C02 and C07 read their facts off these states too.
   vmdk_refines_spec: outside the two known-finding zones the verdict on such a state is vmdk_spec b. *)
Require Import OV.Base.Bytes OV.Base.Py OV.Base.PyInt OV.Base.Str OV.Base.Insp_Struct OV.Gen.Insp_Consts.
Require Import OV.Model.Insp_Engine OV.Model.Insp_Vmdk OV.Model.Insp_All OV.Model.C01_Vmdk.
Require Import OV.Proofs.Insp_Engine OV.Proofs.Insp_All OV.Proofs.C02_Engine OV.Proofs.C01_Vmdk_Base OV.Proofs.C01_Vmdk_Step.
Open Scope N_scope.

Lemma mem_notfound : mem_str VMDK_NOTFOUND VMDK_SUBFORMATS = false.
Proof. reflexivity. Qed.

Lemma vsize_early (s : ist vx) : early (i_ext s) -> vmdk_vsize s = Ok 0%Z.
Proof.
  unfold early, vmdk_vsize. intros H. destruct (desc_text_truthy (i_ext s)); [|reflexivity]. cbn [negb].
  rewrite H, mem_notfound. reflexivity.
Qed.

Lemma check_desc_eq (s : ist vx) : vmdk_check_descriptor s = check_descriptor_of (v_desc_text (i_ext s)) (v_vmdktype (i_ext s)).
Proof. reflexivity. Qed.

Lemma check_desc_early t ty : ty = VMDK_NOTFOUND -> check_descriptor_of t ty = violation.
Proof. intros ->. unfold check_descriptor_of. rewrite mem_notfound. destruct t as [[|? ?]|]; reflexivity. Qed.

Definition vverdict (s : ist vx) (e : option exn) : verdict := verdict_of (I_vmdk (Insp_Engine.finish s), e).

Lemma vverdict_eq s e :
  vverdict s e = mkVerdict e (vmdk_match (Insp_Engine.finish s)) (Insp_Engine.complete (Insp_Engine.finish s))
                           (vmdk_vsize (Insp_Engine.finish s)) (safety_check vmdk_fmt (Insp_Engine.finish s)).
Proof. reflexivity. Qed.

(* fewer than 64 bytes in total *)
Lemma complete_S0 st d x : blen st < 64 -> Insp_Engine.complete (Insp_Engine.finish (S0 st d x)) = false.
Proof.
  intros Hst. unfold Insp_Engine.complete, Insp_Engine.finish, S0. cbn [i_regs map fst snd forallb hreg r_end].
  fold (hreg st). rewrite rcomplete_hreg. replace (64 <=? blen st) with false by lia. reflexivity.
Qed.

Lemma final_S0 st d x : blen st < 64 -> early x ->
  vverdict (S0 st d x) None = mkVerdict None (Ok (prefixb VMDK_MAGIC st)) false (Ok 0%Z) Refused.
Proof.
  intros Hst Hx. rewrite vverdict_eq, (safety_check_spec vmdk_fmt _ (prefixb VMDK_MAGIC st)), (complete_S0 st d x Hst) by reflexivity.
  rewrite vsize_early by exact Hx. reflexivity.
Qed.

(* ImageFormatError on signature / version: header and the offset-0 descriptor region are complete *)
Lemma final_T0 st h d x : 64 <= blen h -> 4 <= blen d -> early x ->
  vverdict (T0 st h d x) (Some ImageFormatError) =
  mkVerdict (Some ImageFormatError) (Ok (prefixb VMDK_MAGIC h)) true (Ok 0%Z)
            (spec_safety true (prefixb VMDK_MAGIC h) [(K_descriptor, violation)]).
Proof.
  intros Hl Hd Hx. rewrite vverdict_eq, (safety_check_spec vmdk_fmt _ (prefixb VMDK_MAGIC h)) by reflexivity.
  assert (Hc : Insp_Engine.complete (Insp_Engine.finish (T0 st h d x)) = true).
  { unfold Insp_Engine.complete, Insp_Engine.finish, T0. cbn [i_regs map fst snd forallb hreg d0reg r_end].
    fold (hreg h). fold (d0reg d). rewrite rcomplete_hreg, rcomplete_d0reg.
    replace (64 <=? blen h) with true by lia. replace (4 <=? blen d) with true by lia. reflexivity. }
  rewrite Hc, vsize_early by exact Hx.
  cbn [Insp_Engine.finish T0 i_checks map f_check vmdk_fmt vmdk_check]. rewrite check_desc_eq, check_desc_early by exact Hx. reflexivity.
Qed.

(* "Wrong descriptor location" after the footer region was created: it stays empty *)
Lemma final_T0f st h d x : early x ->
  vverdict (T0f st h d x) (Some ImageFormatError) =
  mkVerdict (Some ImageFormatError) (Ok (prefixb VMDK_MAGIC h)) false (Ok 0%Z) Refused.
Proof.
  intros Hx. rewrite vverdict_eq, (safety_check_spec vmdk_fmt _ (prefixb VMDK_MAGIC h)) by reflexivity.
  assert (Hc : Insp_Engine.complete (Insp_Engine.finish (T0f st h d x)) = false).
  { unfold Insp_Engine.complete, Insp_Engine.finish, T0f. cbn [i_regs map fst snd forallb hreg d0reg freg r_end].
    unfold rcomplete at 3. cbn [set_fin r_end base_complete r_min r_len r_data flen flen_acc N.eqb andb]. rewrite !andb_false_r. reflexivity. }
  rewrite Hc, vsize_early by exact Hx. reflexivity.
Qed.

(* valid sparse header: the verdict from the parts of the final state *)
Definition vsize_of (x : vx) (h : bytes) : res Z :=
  if negb (desc_text_truthy x) then Ok 0%Z else
  if negb (mem_str (v_vmdktype x) VMDK_SUBFORMATS) then Ok 0%Z else
  do b <- unpack sf_vmdk_vs (ntake VMDK_VS_SLICE h);
  Ok (Z.of_N (sint sf_vmdk_vs 3 b * VMDK_VS_SECTOR)).

Lemma vsize_S1 foot dsz st h dd x :
  vmdk_vsize (S1 foot dsz st h dd x) = vsize_of x h /\ vmdk_vsize (Insp_Engine.finish (S1 foot dsz st h dd x)) = vsize_of x h.
Proof. destruct foot as [[off fd]|]; split; reflexivity. Qed.

Lemma complete_S1 foot dsz st h dd x : 64 <= blen h ->
  Insp_Engine.complete (Insp_Engine.finish (S1 foot dsz st h dd x))
  = (match foot with Some (_, fd) => 1536 =? blen fd | None => true end) && (dsz =? blen dd).
Proof.
  intros Hl. destruct foot as [[off fd]|]; unfold Insp_Engine.complete, Insp_Engine.finish, S1;
    cbn [i_regs map fst snd forallb hreg freg dreg r_end]; fold (hreg h); fold (dreg 2 dsz dd); fold (dreg 3 dsz dd);
    rewrite rcomplete_hreg, rcomplete_dreg; replace (64 <=? blen h) with true by lia; cbn [andb]; rewrite andb_true_r; [|reflexivity].
  f_equal. unfold rcomplete, base_complete, set_fin. cbn [r_end r_min r_len r_data r_fin]. rewrite flen_blen, andb_true_r. reflexivity.
Qed.

Lemma check_footer_eq (s : ist vx) h f :
  rget R_header (i_regs s) = Some h -> rget R_footer (i_regs s) = Some f -> 64 <= blen (r_data h) ->
  vmdk_check_footer s = check_footer_of (btake 64 (r_data h)) (r_data f).
Proof.
  intros Hh Hf Hl. unfold vmdk_check_footer, check_footer_of.
  rewrite (parse_sparse_at s R_header h 0 Hh). unfold bslice at 1. rewrite bskip_0.
  unfold vmdk_parse_sparse at 1, get_region. rewrite Hf. cbn [bind]. fold (parse64 (nsub VMDK_FT_HDR_OFF (VMDK_FT_HDR_OFF + VMDK_MIN_SPARSE_HEADER) (r_data f))).
  reflexivity.
Qed.

Lemma final_S1 foot dsz st h dd x :
  64 <= blen h ->
  vverdict (S1 foot dsz st h dd x) None =
  let fm := prefixb VMDK_MAGIC h in
  let dc := dsz =? blen dd in
  let fc := match foot with Some (_, fd) => 1536 =? blen fd | None => true end in
  let cdesc := (K_descriptor, check_descriptor_of (v_desc_text x) (v_vmdktype x)) in
  mkVerdict None (Ok fm) (fc && dc) (vsize_of x h)
            (spec_safety (fc && dc) fm
               (cdesc :: match foot with Some (_, fd) => [(K_footer, check_footer_of (btake 64 h) fd)] | None => [] end)).
Proof.
  intros Hl. cbv zeta.
  rewrite vverdict_eq, (safety_check_spec vmdk_fmt _ (prefixb VMDK_MAGIC h)) by (destruct foot as [[? ?]|]; reflexivity).
  rewrite (complete_S1 foot dsz st h dd x Hl), (proj2 (vsize_S1 foot dsz st h dd x)).
  destruct foot as [[off fd]|]; cbn [Insp_Engine.finish S1 i_checks map f_check vmdk_fmt vmdk_check]; rewrite check_desc_eq; [|reflexivity].
  rewrite (check_footer_eq _ (hreg h) (set_fin (freg off fd) true)) by (try reflexivity; exact Hl). reflexivity.
Qed.

(* ---------------------------------------------------------------- phase 1 over a chunk list *)
(* the footer region has been fed every byte from a position below 64 on *)
Definition foot_inv (st : bytes) (foot : option (N * bytes)) : Prop :=
  match foot with
  | Some (_, fd) => exists pre A, st = pre ++ A /\ blen pre < 64 /\ fd = btail 1536 A
  | None => True
  end.
(* the attributes: parsed from the complete descriptor, "nothing found" before *)
Definition ext_inv (dsz : N) (dd : bytes) (x : vx) : Prop :=
  if dsz =? blen dd then exists xe, early xe /\ x = parse_ext dd xe else early x.

Lemma ext_inv_next dsz st c x :
  ext_inv dsz (bslice 512 dsz st) x ->
  ext_inv dsz (bslice 512 dsz (st ++ c)) (x1_next dsz (bslice 512 dsz st) (bslice 512 dsz (st ++ c)) x).
Proof.
  unfold ext_inv, x1_next. destruct (dsz =? blen (bslice 512 dsz st)) eqn:Hd; cbn [negb andb].
  - apply N.eqb_eq in Hd. rewrite (bslice_full_ext 512 dsz st c (eq_sym Hd)).
    rewrite <- Hd at 1. rewrite N.eqb_refl. tauto.
  - intros Hx. destruct (dsz =? blen (bslice 512 dsz (st ++ c))); [|exact Hx]. exists x. split; [exact Hx | reflexivity].
Qed.

Lemma foot_inv_next st c foot : foot_inv st foot -> foot_inv (st ++ c) (foot_next foot st c).
Proof.
  destruct foot as [[off fd]|]; cbn [foot_inv foot_next]; [|tauto].
  intros (pre & A & -> & Hp & ->). exists pre, (A ++ c). split; [rewrite app_assoc; reflexivity|]. split; [exact Hp|].
  apply btail_app.
Qed.

(* once 1536 bytes have been fed, the region holds the last 1536 bytes of the stream *)
Lemma foot_inv_tail b off fd :
  foot_inv b (Some (off, fd)) -> 1599 <= blen b \/ blen fd = 1536 ->
  blen fd = 1536 /\ 1536 <= blen b /\ fd = btail 1536 b.
Proof.
  intros (pre & A & -> & Hpre & ->). rewrite blen_btail, blen_app. intros H.
  assert (HA : 1536 <= blen A) by lia.
  split; [lia|]. split; [lia|]. symmetry. apply btail_app_ge. exact HA.
Qed.

Lemma eat_all_S1 h dsz u :
  64 <= blen h -> btake 64 h = u ->
  hdr_sig_ok u = true -> hdr_ver_ok u = true -> hdr_loc_ok u = true ->
  forall cs foot st x,
  hdr_foot u = has_foot foot -> foot_inv st foot -> ext_inv dsz (bslice 512 dsz st) x ->
  exists foot' x',
    eat_all vmdk_fmt (S1 foot dsz st h (bslice 512 dsz st) x) cs
    = (S1 foot' dsz (st ++ concat cs) h (bslice 512 dsz (st ++ concat cs)) x', None)
    /\ has_foot foot' = has_foot foot /\ foot_inv (st ++ concat cs) foot'
    /\ ext_inv dsz (bslice 512 dsz (st ++ concat cs)) x'.
Proof.
  intros Hl <- Hs Hv Ho. induction cs as [|c t IH]; intros foot st x Hf Hfi Hxi.
  - exists foot, x. cbn [eat_all concat]. rewrite app_nil_r. auto.
  - cbn [eat_all concat]. rewrite (step1 foot dsz st h x c Hl Hs Hv Ho Hf).
    assert (Hf' : has_foot (foot_next foot st c) = has_foot foot) by (destruct foot as [[? ?]|]; reflexivity).
    destruct (IH (foot_next foot st c) (st ++ c) _ (eq_trans Hf (eq_sym Hf')) (foot_inv_next st c foot Hfi) (ext_inv_next dsz st c x Hxi))
      as (foot' & x' & He & H1 & H2 & H3).
    exists foot', x'. rewrite He. rewrite <- !app_assoc in *. split; [reflexivity|]. split; [congruence|]. split; assumption.
Qed.

(* ---------------------------------------------------------------- header fields of b and the zones *)
Lemma blen_vh b : 64 <= blen b -> blen (vh b) = 64.
Proof. intros H. unfold vh. rewrite blen_btake. unfold VMDK_MIN_SPARSE_HEADER. lia. Qed.

Lemma prefixb_magic_prefix h b : is_prefix h b -> 64 <= blen h -> prefixb VMDK_MAGIC h = prefixb VMDK_MAGIC b.
Proof. intros Hp Hl. apply prefixb_prefix; [exact Hp|]. change (blen VMDK_MAGIC) with 4. lia. Qed.

Lemma sig_vh b : sraw sf_vmdk_sparse 0 (vh b) = btake 4 b.
Proof.
  unfold sraw. cbn [sf_vmdk_sparse sf_fields nth]. unfold bslice, vh. rewrite bskip_0, btake_btake. reflexivity.
Qed.
Lemma int_vh b i off len :
  nth i (sf_fields sf_vmdk_sparse) (0, 0) = (off, len) -> off + len <= 64 -> 64 <= blen b ->
  sint sf_vmdk_sparse i (vh b) = le_val (bslice off len b).
Proof.
  intros Hn Hb Hl. unfold sint, sraw. rewrite Hn. cbn [sf_vmdk_sparse sf_big].
  rewrite (bslice_prefix off len (vh b) b (is_prefix_btake _ b)); [reflexivity|]. rewrite blen_vh by exact Hl. exact Hb.
Qed.

Lemma valid_vh b : 64 <= blen b -> valid_magic_ver b = hdr_sig_ok (vh b) && hdr_ver_ok (vh b).
Proof.
  intros Hl. unfold valid_magic_ver, hdr_sig_ok, hdr_ver_ok. rewrite sig_vh.
  rewrite (int_vh b 1 4 4 eq_refl ltac:(lia) Hl). reflexivity.
Qed.

Lemma zone_noct b : zone_vmdk_text b = false -> noct b.
Proof.
  unfold zone_vmdk_text. destruct (valid_magic_ver b) eqn:Hv; [intros _; apply valid_noct; exact Hv|].
  cbn [negb andb]. intros H. apply orb_false_iff in H. exact (proj1 H).
Qed.

Lemma zone_not_text b :
  zone_vmdk_text b = false -> 64 <= blen b -> hdr_sig_ok (vh b) = false -> forallb ascii_text (vh b) = false.
Proof.
  intros Hz Hl Hs. unfold zone_vmdk_text in Hz. rewrite (valid_vh b Hl), Hs in Hz. cbn [andb negb] in Hz.
  apply orb_false_iff in Hz. destruct Hz as [_ Hz].
  unfold hdr_sig_ok in Hs. rewrite sig_vh in Hs. rewrite Hs in Hz. cbn [negb] in Hz. rewrite andb_true_r in Hz.
  replace (VMDK_MIN_SPARSE_HEADER <=? blen b) with true in Hz by (unfold VMDK_MIN_SPARSE_HEADER; lia).
  exact Hz.
Qed.

Lemma zone_foot_len b :
  zone_vmdk_shortfoot b = false -> 64 <= blen b ->
  hdr_sig_ok (vh b) = true -> hdr_ver_ok (vh b) = true -> hdr_foot (vh b) = true -> 1599 <= blen b.
Proof.
  intros Hz Hl Hs Hv Hf. unfold zone_vmdk_shortfoot in Hz. rewrite (valid_vh b Hl), Hs, Hv in Hz. cbn [andb] in Hz.
  unfold hdr_foot in Hf. rewrite (int_vh b 9 56 8 eq_refl ltac:(lia) Hl) in Hf. rewrite Hf in Hz. cbn [andb] in Hz.
  unfold VMDK_FOOTER_LEN in Hz. lia.
Qed.

(* ---------------------------------------------------------------- the final state of a valid image against the spec *)
Lemma ext_inv_cases dsz dd x :
  ext_inv dsz dd x ->
  match (if blen dd =? dsz then parse_desc dd else None) with
  | Some (t, ty) => x = mkVx (Some t) ty
  | None => early x
  end.
Proof.
  unfold ext_inv. rewrite (N.eqb_sym (blen dd) dsz). destruct (dsz =? blen dd); [|tauto].
  intros (xe & He & ->). unfold parse_ext. destruct (parse_desc dd) as [[t ty]|]; [reflexivity | exact He].
Qed.

Lemma vsize_of_early x h : early x -> vsize_of x h = Ok 0%Z.
Proof.
  unfold early, vsize_of. intros H. destruct (desc_text_truthy x); [|reflexivity]. cbn [negb]. rewrite H, mem_notfound. reflexivity.
Qed.

(* virtual_size unpacks the first 44 bytes of the header region: field 3 of b[0:44] *)
Lemma vsize_of_parsed b h t ty : is_prefix h b -> 64 <= blen h ->
  vsize_of (mkVx (Some t) ty) h =
  Ok match t with
     | _ :: _ => if mem_str ty VMDK_SUBFORMATS then Z.of_N (vh_sectors b * VMDK_VS_SECTOR) else 0%Z
     | [] => 0%Z
     end.
Proof.
  intros Hp Hl. unfold vsize_of, desc_text_truthy. cbn [v_desc_text v_vmdktype]. destruct t as [|a t]; [reflexivity|]. cbn [negb].
  destruct (mem_str ty VMDK_SUBFORMATS); [|reflexivity]. cbn [negb].
  unfold unpack. rewrite flen_blen, ntake_btake, blen_btake.
  replace (N.min VMDK_VS_SLICE (blen h) =? sf_size sf_vmdk_vs) with true by (unfold VMDK_VS_SLICE; cbn [sf_vmdk_vs sf_size]; lia).
  cbn [bind]. unfold vh_sectors. rewrite (btake_prefix VMDK_VS_SLICE h b Hp) by (unfold VMDK_VS_SLICE; lia). reflexivity.
Qed.

Lemma final_valid b h foot x :
  64 <= blen b -> is_prefix h b -> 64 <= blen h ->
  hdr_sig_ok (vh b) = true -> hdr_ver_ok (vh b) = true -> hdr_loc_ok (vh b) = true ->
  hdr_foot (vh b) = has_foot foot -> foot_inv b foot -> (hdr_foot (vh b) = true -> 1599 <= blen b) ->
  ext_inv (hdr_dsz (vh b)) (bslice 512 (hdr_dsz (vh b)) b) x ->
  vverdict (S1 foot (hdr_dsz (vh b)) b h (bslice 512 (hdr_dsz (vh b)) b) x) None = vmdk_spec b.
Proof.
  intros Hb Hp Hl Hs Hv Ho Hf Hfi Hlen Hxi. rewrite (final_S1 _ _ _ _ _ _ Hl). cbv zeta.
  unfold vmdk_spec.
  replace (blen b <? VMDK_MIN_SPARSE_HEADER) with false by (unfold VMDK_MIN_SPARSE_HEADER; lia).
  change (beq (vh_sig b) VMDK_MAGIC_PP) with (hdr_sig_ok (vh b)). change (ver_ok (vh_ver b)) with (hdr_ver_ok (vh b)).
  change (vh_desc_sec b * VMDK_SECTOR_A =? VMDK_DESC_OFFSET) with (hdr_loc_ok (vh b)).
  rewrite Hs, Hv, Ho. cbn [negb orb]. cbv zeta.
  change (vh_gd b =? VMDK_GD_AT_END) with (hdr_foot (vh b)).
  change (N.min (vh_desc_num b * VMDK_SECTOR_B) VMDK_DESC_MAX_SIZE) with (hdr_dsz (vh b)).
  change VMDK_DESC_OFFSET with 512.
  set (dsz := hdr_dsz (vh b)) in *. set (dd := bslice 512 dsz b) in *.
  rewrite (prefixb_magic_prefix h b Hp Hl). rewrite (N.eqb_sym dsz (blen dd)).
  (* the footer *)
  assert (Hfoot : match foot with
                  | Some (_, fd) => hdr_foot (vh b) = true /\ 1536 =? blen fd = true /\ fd = last_bytes VMDK_FOOTER_LEN b /\ (VMDK_FOOTER_LEN <=? blen b) = true
                  | None => hdr_foot (vh b) = false end).
  { destruct foot as [[off fd]|]; [|exact Hf]. cbn [has_foot] in Hf.
    destruct (foot_inv_tail b off fd Hfi (or_introl (Hlen Hf))) as (H1 & H2 & H3).
    split; [exact Hf|]. split; [lia|]. split; [exact H3 | unfold VMDK_FOOTER_LEN; lia]. }
  (* the attributes *)
  pose proof (ext_inv_cases dsz dd x Hxi) as Hx.
  assert (Hvs : vsize_of x h =
                Ok match (if blen dd =? dsz then parse_desc dd else None) with
                   | Some (_ :: _, ty) => if mem_str ty VMDK_SUBFORMATS then Z.of_N (vh_sectors b * VMDK_VS_SECTOR) else 0%Z
                   | _ => 0%Z
                   end).
  { destruct (if blen dd =? dsz then parse_desc dd else None) as [[t ty]|]; [|apply vsize_of_early; exact Hx].
    subst x. apply (vsize_of_parsed b h t ty Hp Hl). }
  assert (Hcd : check_descriptor_of (v_desc_text x) (v_vmdktype x) =
                match (if blen dd =? dsz then parse_desc dd else None) with
                | Some (text, ty) => check_descriptor_of (Some text) ty
                | None => violation
                end).
  { destruct (if blen dd =? dsz then parse_desc dd else None) as [[t ty]|]; [subst x; reflexivity|].
    apply check_desc_early. exact Hx. }
  rewrite Hvs, Hcd.
  assert (Hu : btake 64 h = vh b) by (unfold vh; apply btake_prefix; [exact Hp | exact Hl]).
  rewrite Hu.
  destruct foot as [[off fd]|].
  - destruct Hfoot as (H1 & H2 & H3 & H4). rewrite H1, H2, H4, <- H3. cbn [andb]. rewrite andb_true_r. reflexivity.
  - rewrite Hfoot. cbn [andb]. rewrite andb_true_r. reflexivity.
Qed.

Lemma eat_all_short cs : forall st d x,
  blen (st ++ concat cs) < 64 -> (blen d < 4 -> d = st) ->
  exists d' x', eat_all vmdk_fmt (S0 st d x) cs = (S0 (st ++ concat cs) d' x', None).
Proof.
  induction cs as [|c t IH]; intros st d x Hl Hd; cbn [eat_all concat] in *.
  - rewrite app_nil_r. exists d, x. reflexivity.
  - rewrite app_assoc in *. assert (Hc : blen st + blen c < 64) by (rewrite !blen_app in Hl; lia).
    rewrite (step0 st d x c ltac:(lia) Hd Hc). apply IH; [exact Hl|].
    unfold d0_next. destruct (4 <=? blen d) eqn:H4; [lia|]. intros _. apply btake_all. rewrite blen_app. lia.
Qed.


(* What eat_all leaves behind after the bytes b, however they were cut: the header phase (fewer than 64 bytes), one of
   the three ImageFormatErrors of post_process on the chunk that completed the header, or the descriptor/footer phase. *)
Inductive vmdk_end (b : bytes) : ist vx -> option exn -> Prop :=
| End_short d x : blen b < 64 -> early x -> vmdk_end b (S0 b d x) None
| End_bad st h d x :
    is_prefix h b -> 64 <= blen h -> 4 <= blen d -> early x ->
    hdr_sig_ok (vh b) && hdr_ver_ok (vh b) = false ->
    vmdk_end b (T0 st h d x) (Some ImageFormatError)
| End_wrongloc st h d x :
    is_prefix h b -> 64 <= blen h -> 4 <= blen d -> early x ->
    hdr_sig_ok (vh b) = true -> hdr_ver_ok (vh b) = true -> hdr_loc_ok (vh b) = false ->
    vmdk_end b (if hdr_foot (vh b) then T0f st h d x else T0 st h d x) (Some ImageFormatError)
| End_valid foot h x :
    is_prefix h b -> 64 <= blen h ->
    hdr_sig_ok (vh b) = true -> hdr_ver_ok (vh b) = true -> hdr_loc_ok (vh b) = true ->
    hdr_foot (vh b) = has_foot foot -> foot_inv b foot ->
    ext_inv (hdr_dsz (vh b)) (bslice 512 (hdr_dsz (vh b)) b) x ->
    vmdk_end b (S1 foot (hdr_dsz (vh b)) b h (bslice 512 (hdr_dsz (vh b)) b) x) None.

(* The two hypotheses keep the inspector out of text-descriptor mode: no createType in what the offset-0 descriptor
   region may hold, and a header without KDMV is not printable text. *)
Lemma eat_all_S0 b :
  noct b -> (64 <= blen b -> hdr_sig_ok (vh b) = false -> forallb ascii_text (vh b) = false) ->
  forall cs st d x,
  b = st ++ concat cs -> blen st < 64 -> (blen d < 4 -> d = st) -> is_prefix d st -> early x ->
  exists s e, eat_all vmdk_fmt (S0 st d x) cs = (s, e) /\ vmdk_end b s e.
Proof.
  intros Hnoct Htext. induction cs as [|c t IH]; intros st d x Hb Hst Hd Hpd Hx.
  - cbn [concat] in Hb. rewrite app_nil_r in Hb. subst st.
    exists (S0 b d x), None. split; [reflexivity | apply End_short; assumption].
  - cbn [concat] in Hb. rewrite app_assoc in Hb. cbn [eat_all].
    assert (Hpb : is_prefix (st ++ c) b) by (exists (concat t); exact Hb).
    assert (Hd'p : is_prefix (d0_next st d c) (st ++ c)).
    { unfold d0_next. destruct (4 <=? blen d); [apply is_prefix_app; exact Hpd | apply is_prefix_btake]. }
    destruct (N.lt_ge_cases (blen st + blen c) 64) as [Hc|Hc].
    + (* still below 64 bytes *)
      rewrite (step0 st d x c Hst Hd Hc).
      apply IH; [exact Hb | rewrite blen_app; exact Hc | | exact Hd'p |].
      * unfold d0_next. destruct (4 <=? blen d) eqn:H4; [lia|]. intros _. apply btake_all. rewrite blen_app. lia.
      * unfold x_next. destruct (negb (4 <=? blen d) && (4 <=? blen (d0_next st d c))); [|exact Hx].
        apply parse_ext_early; [|exact Hx]. apply (noct_prefix _ b); [|exact Hnoct]. eapply is_prefix_trans; eassumption.
    + (* this chunk completes the header *)
      set (h := btake 512 (st ++ c)).
      assert (Hlb : 64 <= blen b) by (apply is_prefix_len in Hpb; rewrite blen_app in Hpb; lia).
      assert (Hl : 64 <= blen h) by (subst h; rewrite blen_btake, blen_app; lia).
      assert (Hph : is_prefix h b) by (eapply is_prefix_trans; [apply is_prefix_btake | exact Hpb]).
      assert (Hu : btake 64 h = vh b) by (unfold vh; apply btake_prefix; [exact Hph | exact Hl]).
      assert (Hd4 : 4 <= blen (d0_next st d c)).
      { unfold d0_next. destruct (4 <=? blen d) eqn:H4; [lia|]. rewrite blen_btake, blen_app. lia. }
      destruct (hdr_sig_ok (vh b)) eqn:Hs.
      2:{ (* Signature KDMV not found *)
        assert (Ht : forallb ascii_text h = false).
        { destruct (forallb ascii_text h) eqn:Ht; [|reflexivity].
          rewrite <- (Htext Hlb eq_refl), <- Hu. symmetry. apply (forallb_prefix _ _ h (is_prefix_btake 64 h) Ht). }
        rewrite (stepT_bad st d x c (vh b) Hst Hd Hc Hu (or_introl (conj Hs Ht))).
        eexists _, _. split; [reflexivity|]. apply End_bad; try assumption. rewrite Hs. reflexivity. }
      destruct (hdr_ver_ok (vh b)) eqn:Hv.
      2:{ (* Unsupported format version *)
        rewrite (stepT_bad st d x c (vh b) Hst Hd Hc Hu (or_intror (conj Hs Hv))).
        eexists _, _. split; [reflexivity|]. apply End_bad; try assumption. rewrite Hs, Hv. reflexivity. }
      destruct (hdr_loc_ok (vh b)) eqn:Ho.
      2:{ (* Wrong descriptor location *)
        rewrite (stepT_wrongloc st d x c (vh b) Hst Hd Hc Hu Hs Hv Ho).
        eexists _, _. split; [reflexivity|]. apply End_wrongloc; assumption. }
      (* valid sparse header: the rest of the chunks in the descriptor/footer phase *)
      rewrite (stepT_valid st d x c (vh b) Hst Hd Hc Hu Hs Hv Ho). fold h.
      set (dsz := hdr_dsz (vh b)).
      set (foot1 := if hdr_foot (vh b) then Some (blen (st ++ c) - blen (btail 1536 c), btail 1536 c) else None).
      set (x1 := if dsz =? blen (bslice 512 dsz (st ++ c)) then parse_ext (bslice 512 dsz (st ++ c)) x else x).
      assert (Hf1 : hdr_foot (vh b) = has_foot foot1) by (subst foot1; destruct (hdr_foot (vh b)); reflexivity).
      assert (Hfi1 : foot_inv (st ++ c) foot1).
      { subst foot1. destruct (hdr_foot (vh b)); cbn [foot_inv]; [|exact I]. exists st, c. auto. }
      assert (Hxi1 : ext_inv dsz (bslice 512 dsz (st ++ c)) x1).
      { unfold ext_inv. subst x1. destruct (dsz =? blen (bslice 512 dsz (st ++ c))); [|exact Hx]. exists x. auto. }
      destruct (eat_all_S1 h dsz (vh b) Hl Hu Hs Hv Ho t foot1 (st ++ c) x1 Hf1 Hfi1 Hxi1) as (foot' & x' & He & Hf' & Hfi' & Hxi').
      rewrite He, <- Hb in *. eexists _, _. split; [reflexivity|].
      apply End_valid; try assumption. rewrite Hf'. exact Hf1.
Qed.

Theorem vmdk_eat_all b cs :
  concat cs = b -> noct b -> (64 <= blen b -> hdr_sig_ok (vh b) = false -> forallb ascii_text (vh b) = false) ->
  exists s e, eat_all vmdk_fmt (init_ist vmdk_fmt) cs = (s, e) /\ vmdk_end b s e.
Proof.
  intros Hb Hn Ht. rewrite init_S0.
  apply (eat_all_S0 b Hn Ht cs [] [] x0); [symmetry; exact Hb | reflexivity | reflexivity | apply is_prefix_refl | reflexivity].
Qed.

(* a stream with a valid sparse header never enters text-descriptor mode *)
Corollary vmdk_eat_all_sparse b cs :
  concat cs = b -> 64 <= blen b -> hdr_sig_ok (vh b) = true -> hdr_ver_ok (vh b) = true ->
  exists s e, eat_all vmdk_fmt (init_ist vmdk_fmt) cs = (s, e) /\ vmdk_end b s e.
Proof.
  intros Hb Hl Hs Hv. apply (vmdk_eat_all b cs Hb).
  - apply valid_noct. rewrite (valid_vh b Hl), Hs, Hv. reflexivity.
  - intros _ H. congruence.
Qed.

Lemma vmdk_spec_short b : blen b < 64 -> vmdk_spec b = mkVerdict None (Ok (prefixb VMDK_MAGIC b)) false (Ok 0%Z) Refused.
Proof. intros H. unfold vmdk_spec. replace (blen b <? VMDK_MIN_SPARSE_HEADER) with true by (unfold VMDK_MIN_SPARSE_HEADER; lia). reflexivity. Qed.

Lemma vmdk_spec_error b : 64 <= blen b ->
  let fm := prefixb VMDK_MAGIC b in
  (hdr_sig_ok (vh b) && hdr_ver_ok (vh b) = false ->
   vmdk_spec b = mkVerdict (Some ImageFormatError) (Ok fm) true (Ok 0%Z) (spec_safety true fm [(K_descriptor, violation)])) /\
  (hdr_sig_ok (vh b) = true -> hdr_ver_ok (vh b) = true -> hdr_loc_ok (vh b) = false ->
   vmdk_spec b = mkVerdict (Some ImageFormatError) (Ok fm) (negb (hdr_foot (vh b))) (Ok 0%Z)
                           (spec_safety (negb (hdr_foot (vh b))) fm [(K_descriptor, violation)])).
Proof.
  intros H. unfold vmdk_spec.
  replace (blen b <? VMDK_MIN_SPARSE_HEADER) with false by (unfold VMDK_MIN_SPARSE_HEADER; lia).
  change (beq (vh_sig b) VMDK_MAGIC_PP) with (hdr_sig_ok (vh b)). change (ver_ok (vh_ver b)) with (hdr_ver_ok (vh b)).
  change (vh_desc_sec b * VMDK_SECTOR_A =? VMDK_DESC_OFFSET) with (hdr_loc_ok (vh b)).
  change (vh_gd b =? VMDK_GD_AT_END) with (hdr_foot (vh b)).
  split.
  - intros Hbad. apply andb_false_iff in Hbad. destruct Hbad as [-> | ->]; [reflexivity | rewrite orb_true_r; reflexivity].
  - intros -> -> ->. reflexivity.
Qed.

(* the footer hypothesis is all that zone F3 contributes *)
Lemma vmdk_end_verdict b s e :
  vmdk_end b s e ->
  (64 <= blen b -> hdr_sig_ok (vh b) = true -> hdr_ver_ok (vh b) = true -> hdr_foot (vh b) = true -> 1599 <= blen b) ->
  vverdict s e = vmdk_spec b.
Proof.
  intros [d x Hl Hx | st h d x Hp Hl Hd Hx Hbad | st h d x Hp Hl Hd Hx Hs Hv Ho | foot h x Hp Hl Hs Hv Ho Hf Hfi Hxi] Hlen.
  - rewrite (final_S0 b d x Hl Hx), vmdk_spec_short by exact Hl. reflexivity.
  - assert (Hlb : 64 <= blen b) by (apply is_prefix_len in Hp; lia).
    rewrite (final_T0 _ _ _ _ Hl Hd Hx), (prefixb_magic_prefix h b Hp Hl). symmetry.
    apply (vmdk_spec_error b Hlb). exact Hbad.
  - assert (Hlb : 64 <= blen b) by (apply is_prefix_len in Hp; lia).
    rewrite (proj2 (vmdk_spec_error b Hlb) Hs Hv Ho).
    destruct (hdr_foot (vh b)); cbn [negb].
    + rewrite (final_T0f _ _ _ _ Hx), (prefixb_magic_prefix h b Hp Hl). reflexivity.
    + rewrite (final_T0 _ _ _ _ Hl Hd Hx), (prefixb_magic_prefix h b Hp Hl). reflexivity.
  - assert (Hlb : 64 <= blen b) by (apply is_prefix_len in Hp; lia).
    apply (final_valid b h foot x Hlb Hp Hl Hs Hv Ho Hf Hfi); [|exact Hxi]. exact (Hlen Hlb Hs Hv).
Qed.

Theorem vmdk_refines_spec b cs :
  concat cs = b -> zone_vmdk_text b = false /\ zone_vmdk_shortfoot b = false ->
  verdict_of (run F_vmdk cs) = vmdk_spec b.
Proof.
  intros Hb [Hz1 Hz3].
  destruct (vmdk_eat_all b cs Hb (zone_noct b Hz1) (zone_not_text b Hz1)) as (s & e & He & Hend).
  rewrite run_vmdk_fmt. unfold run_fmt. rewrite He. apply (vmdk_end_verdict b s e Hend (zone_foot_len b Hz3)).
Qed.
