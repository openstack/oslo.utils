(* Proofs/C16.v — (1) the statement-level translations of Gen/C16_Code.v compute the
   hand-written model ([*_equiv]); (2) the theorems about safe_decode / safe_encode /
   to_utf8 over an arbitrary runtime world with explicit contracts. *)
Require Import OV.Base.Bytes OV.Base.PyInt OV.Base.Str OV.Base.Regex OV.Base.C16_Py.
Require Import OV.Gen.C16_Slug OV.Gen.C16_Code OV.Model.C16.
Open Scope N_scope.

Theorem gen_safe_decode_equiv w text incoming errors :
  gen_safe_decode w text incoming errors = safe_decode w text incoming errors.
Proof.
  unfold gen_safe_decode, safe_decode, decode_with_fallback, resolve_incoming, fallback_encoding.
  destruct text as [s|b|tag]; cbn [isinstance existsb has_type orb negb as_str pval_decode]; try reflexivity.
  destruct (truthy_opt incoming) as [i|]; cbv zeta;
    destruct (bytes_decode w b _ errors) as [r|[]]; reflexivity.
Qed.

Theorem gen_safe_encode_equiv w text incoming encoding errors :
  gen_safe_encode w text incoming encoding errors = safe_encode w text incoming encoding errors.
Proof.
  unfold gen_safe_encode, safe_encode, resolve_incoming.
  destruct text as [s|b|tag]; cbn [isinstance existsb has_type orb negb as_str truthy_pval];
    destruct (truthy_opt incoming) as [i|]; cbv zeta; try reflexivity;
    rewrite !gen_safe_decode_equiv;
    match goal with |- context [truthy_str b && negb (beq ?a ?c)] => destruct (truthy_str b && negb (beq a c)) end;
    try reflexivity;
    match goal with |- context [safe_decode ?a ?b ?c ?d] => destruct (safe_decode a b c d) end; reflexivity.
Qed.

Theorem gen_to_utf8_equiv w text : gen_to_utf8 w text = to_utf8 w text.
Proof. unfold gen_to_utf8, to_utf8, to_utf8_encoding. destruct text; reflexivity. Qed.

Theorem gen_to_slug_equiv w value incoming errors :
  gen_to_slug w value incoming errors = to_slug w value incoming errors.
Proof.
  unfold gen_to_slug, to_slug, slugify. rewrite gen_safe_decode_equiv.
  destruct (safe_decode w value incoming errors); reflexivity.
Qed.

Theorem safe_decode_str_id w s incoming errors : safe_decode w (PStr s) incoming errors = COk s.
Proof. reflexivity. Qed.

(* bytes: the result of bytes.decode(incoming or default, errors) unless that is a
   UnicodeDecodeError, in which case the result — whatever it is — of decoding with the
   fallback codec *)
Theorem safe_decode_bytes w b incoming errors :
  let first := bytes_decode w b (resolve_incoming w incoming) errors in
  (first <> CExn EUnicodeDecodeError -> safe_decode w (PBytes b) incoming errors = first) /\
  (first = CExn EUnicodeDecodeError ->
     safe_decode w (PBytes b) incoming errors = bytes_decode w b fallback_encoding errors).
Proof.
  cbv zeta. unfold safe_decode, decode_with_fallback.
  destruct (bytes_decode w b (resolve_incoming w incoming) errors) as [r|[]]; split; intros H;
    try reflexivity; try discriminate; exfalso; apply H; reflexivity.
Qed.

Theorem safe_decode_type_error w tag incoming errors :
  safe_decode w (POther tag) incoming errors = CExn ETypeError.
Proof. reflexivity. Qed.

Lemma resolve_some w e : e <> [] -> resolve_incoming w (Some e) = e.
Proof. destruct e; [intros H; exfalso; apply H; reflexivity|reflexivity]. Qed.

Theorem safe_encode_str w s incoming encoding errors :
  safe_encode w (PStr s) incoming encoding errors = cmap PBytes (str_encode w s (py_lower encoding) errors).
Proof. reflexivity. Qed.

Theorem safe_encode_type_error w tag incoming encoding errors :
  safe_encode w (POther tag) incoming encoding errors = CExn ETypeError.
Proof. reflexivity. Qed.

(* bytes, the two names agree up to letter case: untouched (no codec is even looked up) *)
Theorem safe_encode_bytes_same_codec_id w b incoming encoding errors :
  py_lower encoding = py_lower (resolve_incoming w incoming) ->
  safe_encode w (PBytes b) incoming encoding errors = COk (PBytes b).
Proof.
  intros H. unfold safe_encode. rewrite <- H. rewrite beq_refl. rewrite andb_false_r. reflexivity.
Qed.

(* empty bytes: untouched whatever the names *)
Theorem safe_encode_empty_id w incoming encoding errors :
  safe_encode w (PBytes []) incoming encoding errors = COk (PBytes []).
Proof. reflexivity. Qed.

(* bytes, names differ: decode with the (lower-cased) incoming name — with the UTF-8
   fallback of safe_decode — then encode with the (lower-cased) encoding name *)
Theorem safe_encode_transcodes w b incoming encoding errors :
  b <> [] ->
  py_lower encoding <> py_lower (resolve_incoming w incoming) ->
  safe_encode w (PBytes b) incoming encoding errors =
  cbind (safe_decode w (PBytes b) (Some (py_lower (resolve_incoming w incoming))) errors)
        (fun t => cmap PBytes (str_encode w t (py_lower encoding) errors)).
Proof.
  intros Hb Hne. unfold safe_encode.
  replace (truthy_str b) with true by (destruct b; [exfalso; apply Hb; reflexivity|reflexivity]).
  replace (beq (py_lower encoding) (py_lower (resolve_incoming w incoming))) with false.
  - reflexivity.
  - symmetry. apply not_true_is_false. intros H. apply Hne. apply beq_eq. exact H.
Qed.

Lemma representsb_spec w c t : representsb w c t = true ->
  exists b, enc w c t strict_name = COk b /\ dec w c b strict_name = COk t.
Proof.
  unfold representsb. destruct (enc w c t strict_name) as [b|] eqn:E; [|discriminate].
  destruct (dec w c b strict_name) as [t'|] eqn:D; [|discriminate].
  intros H. apply beq_eq in H. subst t'. exists b. split; [reflexivity|exact D].
Qed.

(* the bytes in the middle are the strict encoding b of t, whenever strict decoding gives t back *)
Lemma encode_decode_roundtrip_bytes w e c t incoming0 errors b :
  e <> [] ->
  lookup w e = Some c -> lookup_lower_ok w e ->
  enc_policy_irrelevant w c -> dec_policy_irrelevant w c ->
  dec w c [] strict_name = COk [] ->
  enc w c t strict_name = COk b -> dec w c b strict_name = COk t ->
  safe_encode w (PStr t) incoming0 e errors = COk (PBytes b) /\
  safe_decode w (PBytes b) (Some e) errors = COk t.
Proof.
  intros He Hl Hlow Hpe Hpd Hempty Henc Hdec. split.
  - rewrite safe_encode_str. unfold str_encode. unfold lookup_lower_ok in Hlow. rewrite Hlow, Hl.
    rewrite (Hpe _ errors _ Henc). reflexivity.
  - unfold safe_decode, decode_with_fallback. rewrite resolve_some by exact He.
    unfold bytes_decode. destruct b as [|x b'].
    + rewrite Hempty in Hdec. injection Hdec as <-. reflexivity.
    + rewrite Hl. rewrite (Hpd _ errors _ Hdec). reflexivity.
Qed.

(* safe_decode(safe_encode(t, encoding=e, errors), incoming=e, errors) = t for every text the
   codec named e can represent, in any letter case of e and under any error policy *)
Theorem encode_decode_roundtrip w e c t incoming0 errors :
  e <> [] ->
  lookup w e = Some c -> lookup_lower_ok w e ->
  enc_policy_irrelevant w c -> dec_policy_irrelevant w c ->
  dec w c [] strict_name = COk [] ->
  representsb w c t = true ->
  exists b, safe_encode w (PStr t) incoming0 e errors = COk (PBytes b) /\
            safe_decode w (PBytes b) (Some e) errors = COk t.
Proof.
  intros He Hl Hlow Hpe Hpd Hempty Hrep.
  destruct (representsb_spec _ _ _ Hrep) as (b & Henc & Hdec).
  exists b. apply (encode_decode_roundtrip_bytes w e c); assumption.
Qed.

(* ---------- to_utf8 ---------- *)
Theorem to_utf8_spec w :
  (forall b, to_utf8 w (PBytes b) = COk (PBytes b)) /\
  (forall s, to_utf8 w (PStr s) = cmap PBytes (str_encode w s to_utf8_encoding strict_name)) /\
  (forall tag, to_utf8 w (POther tag) = CExn ETypeError).
Proof. repeat split. Qed.

(* ---------- TypeError for every other type, for each function ---------- *)
Theorem type_errors w tag incoming encoding errors :
  safe_decode w (POther tag) incoming errors = CExn ETypeError /\
  safe_encode w (POther tag) incoming encoding errors = CExn ETypeError /\
  to_utf8 w (POther tag) = CExn ETypeError /\
  to_slug w (POther tag) incoming errors = CExn ETypeError.
Proof. repeat split. Qed.
