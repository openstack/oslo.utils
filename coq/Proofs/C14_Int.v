(* Proofs/C14_Int.v — int(str, 10|16) of Model/C14_Py.v: the ASCII literal grammar int(s) accepts,
   parse-after-print for decimal renderings as an instance of it, and the value / rendering of
   32-hex-digit strings. *)
Require Import OV.Base.Bytes OV.Base.Py OV.Base.PyInt OV.Base.Str OV.Gen.Unicode OV.Model.C14_Py.
Open Scope N_scope.

Definition lt127 (c : N) : bool := c <? 127.

Lemma transform_ascii s : forallb lt127 s = true -> transform s = Some s.
Proof.
  induction s as [|c t IH]; [reflexivity|]. cbn [forallb transform]. intros H. apply andb_true_iff in H. destruct H as [Hc Ht].
  unfold tr_char. unfold lt127 in Hc. rewrite Hc, (IH Ht). reflexivity.
Qed.

Lemma digits_lt_127 s : all_ascii_digits s = true -> forallb lt127 s = true.
Proof. apply forallb_impl. intros c. unfold ascii_digit, lt127. lia. Qed.

(* str(z): the digit count is checked, then the rendering is returned *)
Lemma str_of_int_eq lim z :
  str_of_int lim z = if over_limit lim (ndigits_Z z) then Exn ValueError else Ok (dec_of_Z z).
Proof. unfold str_of_int, ndigits_Z. destruct z; reflexivity. Qed.

(* ---------------------------------------------------------------- base 10 *)
Lemma digit_of_10 c : ascii_digit c = true -> digit_of 10 c = Some (c - 48).
Proof.
  unfold ascii_digit, digit_of. intros H.
  replace ((48 <=? c) && (c <=? 57)) with true by lia.
  replace (c - 48 <? 10) with true by lia. reflexivity.
Qed.

Lemma c_isspace_digit c : ascii_digit c = true -> c_isspace c = false.
Proof. unfold ascii_digit, c_isspace. lia. Qed.

Lemma ndigits_abs_pos p : ndigits_Z (Zpos p) = blen (dec_of_N (Npos p)).
Proof. reflexivity. Qed.
(* ---------------------------------------------------------------- the ASCII literal grammar of int(s) *)
(* whitespace* [+-]? digits (_ digits)* whitespace*   (whitespace = C isspace) *)
Definition digit_group (g : str) : bool := match g with [] => false | _ => all_ascii_digits g end.
Definition digit_groups (ds : list str) : bool := match ds with [] => false | _ => forallb digit_group ds end.
Definition sign_text (sg : option bool) : str :=
  match sg with None => [] | Some false => [43] | Some true => [45] end.
Definition signed (sg : option bool) (n : N) : Z :=
  match sg with Some true => (- Z.of_N n)%Z | _ => Z.of_N n end.

Lemma lstrip_c_is_by s : lstrip_c s = lstrip_by c_isspace s.
Proof. induction s as [|c t IH]; [reflexivity|]. cbn [lstrip_c lstrip_by]. rewrite IH. reflexivity. Qed.

Lemma lstrip_c_app pre r : forallb c_isspace pre = true -> lstrip_c (pre ++ r) = lstrip_c r.
Proof. rewrite !lstrip_c_is_by. apply lstrip_by_app. Qed.

(* a run of digits is read whole; an underscore may precede it only if it is not empty *)
Lemma scan_run g r acc nd b : all_ascii_digits g = true -> g <> [] \/ b = false ->
  scan 10 (g ++ r) acc nd b = scan 10 r (dval g acc) (nd + blen g) false.
Proof.
  revert acc nd b. induction g as [|c t IH]; intros acc nd b H Hb.
  - destruct Hb as [Hb| ->]; [congruence|]. cbn [app dval]. rewrite blen_nil, N.add_0_r. reflexivity.
  - unfold all_ascii_digits in H. cbn [forallb] in H. apply andb_true_iff in H. destruct H as [Hc Ht].
    cbn [app scan dval]. destruct (ascii_digit_not_sign c Hc) as (_ & _ & ->). rewrite (digit_of_10 c Hc).
    rewrite (IH _ _ false Ht (or_intror eq_refl)), blen_cons. f_equal. lia.
Qed.

Lemma scan_group g r acc nd b : digit_group g = true ->
  scan 10 (g ++ r) acc nd b = scan 10 r (dval g acc) (nd + blen g) false.
Proof. intros H. destruct g; [discriminate|]. apply scan_run; [exact H|left; discriminate]. Qed.

Lemma scan_stop post acc nd : forallb c_isspace post = true -> scan 10 post acc nd false = Some (acc, nd, post).
Proof.
  destruct post as [|c t]; [reflexivity|]. cbn [forallb]. intros H. apply andb_true_iff in H. destruct H as [Hc _].
  cbn [scan]. unfold c_isspace in Hc. replace (c =? 95) with false by lia.
  unfold digit_of. replace ((48 <=? c) && (c <=? 57)) with false by lia.
  replace ((97 <=? c) && (c <=? 122)) with false by lia. replace ((65 <=? c) && (c <=? 90)) with false by lia.
  reflexivity.
Qed.

Lemma scan_groups ds post acc nd b : digit_groups ds = true -> forallb c_isspace post = true ->
  scan 10 (join [95] ds ++ post) acc nd b = Some (dval (concat ds) acc, nd + blen (concat ds), post).
Proof.
  destruct ds as [|g ds]; [discriminate|]. cbn [digit_groups]. intros H Hp.
  revert g acc nd b H. induction ds as [|g2 t IH]; intros g acc nd b H.
  - cbn [forallb] in H. rewrite andb_true_r in H. cbn [join concat]. rewrite app_nil_r.
    rewrite (scan_group g post acc nd b H). apply scan_stop, Hp.
  - cbn [forallb] in H. apply andb_true_iff in H. destruct H as [Hg Hr].
    rewrite join_cons. rewrite <- !app_assoc. rewrite (scan_group g _ acc nd b Hg).
    cbn [app scan]. cbn [N.eqb Pos.eqb].
    rewrite (IH g2 _ _ true Hr). change (concat (g :: g2 :: t)) with (g ++ concat (g2 :: t)).
    rewrite dval_app, blen_app. rewrite N.add_assoc. reflexivity.
Qed.

Lemma skip_prefix_10 s : skip_prefix 10 s = s.
Proof. destruct s as [|z [|x t]]; reflexivity. Qed.

Lemma groups_head ds post : digit_groups ds = true ->
  exists c t, join [95] ds ++ post = c :: t /\ ascii_digit c = true.
Proof.
  destruct ds as [|g ds]; [discriminate|]. cbn [digit_groups forallb]. intros H.
  apply andb_true_iff in H. destruct H as [Hg _]. destruct g as [|c g']; [discriminate|].
  cbn [digit_group] in Hg. unfold all_ascii_digits in Hg. cbn [forallb] in Hg. apply andb_true_iff in Hg.
  destruct ds as [|g2 ds']; [cbn [join]|rewrite join_cons]; exists c; eexists; (split; [reflexivity|tauto]).
Qed.

Lemma groups_lt_127 ds : digit_groups ds = true -> forallb lt127 (join [95] ds) = true.
Proof.
  destruct ds as [|g ds]; [discriminate|]. cbn [digit_groups]. revert g.
  induction ds as [|g2 t IH]; intros g H; cbn [forallb] in H; apply andb_true_iff in H; destruct H as [Hg Hr].
  - cbn [join]. destruct g; [discriminate|]. apply digits_lt_127, Hg.
  - rewrite join_cons, !forallb_app, (IH _ Hr). destruct g; [discriminate|]. rewrite (digits_lt_127 _ Hg). reflexivity.
Qed.

Lemma groups_nonempty ds : digit_groups ds = true -> blen (concat ds) <> 0.
Proof.
  destruct ds as [|g ds]; [discriminate|]. cbn [digit_groups forallb concat]. intros H.
  apply andb_true_iff in H. destruct H as [Hg _]. destruct g; [discriminate|]. rewrite blen_app, blen_cons. lia.
Qed.

Lemma isspace_lt_127 s : forallb c_isspace s = true -> forallb lt127 s = true.
Proof. apply forallb_impl. intros c. unfold c_isspace, lt127. lia. Qed.

Lemma ascii_lt_127 pre sg ds post : forallb c_isspace pre = true -> forallb c_isspace post = true ->
  digit_groups ds = true -> forallb lt127 (pre ++ sign_text sg ++ join [95] ds ++ post) = true.
Proof.
  intros Hpre Hpost Hds. rewrite !forallb_app, (isspace_lt_127 _ Hpre), (isspace_lt_127 _ Hpost), (groups_lt_127 _ Hds).
  destruct sg as [[|]|]; reflexivity.
Qed.

Theorem int_literal_ascii lim pre sg ds post :
  forallb c_isspace pre = true -> forallb c_isspace post = true -> digit_groups ds = true ->
  over_limit lim (blen (concat ds)) = false ->
  int_parse lim 10 (pre ++ sign_text sg ++ join [95] ds ++ post) = Some (signed sg (dval (concat ds) 0)).
Proof.
  intros Hpre Hpost Hds Hlim. unfold int_parse.
  rewrite transform_ascii by (apply ascii_lt_127; assumption).
  unfold int_ascii. rewrite lstrip_c_app by exact Hpre.
  destruct (groups_head ds post Hds) as (c & t & Ebody & Hc).
  assert (Hscan : forall b, scan 10 (c :: t) 0 0 b = Some (dval (concat ds) 0, blen (concat ds), post)).
  { intros b. rewrite <- Ebody. rewrite (scan_groups ds post 0 0 b Hds Hpost). rewrite N.add_0_l. reflexivity. }
  assert (Hfin : forall neg : bool, (if starts_with_underscore (skip_prefix 10 (c :: t)) then None
            else match scan 10 (skip_prefix 10 (c :: t)) 0 0 false with
                 | None => None
                 | Some (v, nd, rest) =>
                     if nd =? 0 then None else if negb (forallb c_isspace rest) then None
                     else if (10 =? 10) && over_limit lim nd then None
                     else Some (if neg then (- Z.of_N v)%Z else Z.of_N v)
                 end) = Some (if neg then (- Z.of_N (dval (concat ds) 0))%Z else Z.of_N (dval (concat ds) 0))).
  { intros neg. rewrite skip_prefix_10. unfold starts_with_underscore.
    destruct (ascii_digit_not_sign c Hc) as (_ & _ & ->). rewrite Hscan.
    rewrite (proj2 (N.eqb_neq _ _) (groups_nonempty ds Hds)).
    rewrite Hpost. cbn [negb]. change (10 =? 10) with true. cbn [andb]. rewrite Hlim. reflexivity. }
  destruct sg as [[|]|]; cbn [sign_text app signed].
  - cbn [lstrip_c]. change (c_isspace 45) with false. unfold split_sign. change (45 =? 43) with false. change (45 =? 45) with true.
    cbn iota. rewrite Ebody. apply (Hfin true).
  - cbn [lstrip_c]. change (c_isspace 43) with false. unfold split_sign. change (43 =? 43) with true.
    cbn iota. rewrite Ebody. apply (Hfin false).
  - rewrite Ebody. cbn [lstrip_c]. rewrite (c_isspace_digit c Hc). unfold split_sign.
    destruct (ascii_digit_not_sign c Hc) as (-> & -> & _). apply (Hfin false).
Qed.

Example int_literal_example :
  int_parse 4300 10 ([32; 9] ++ sign_text (Some true) ++ join [95] [[49; 50]; [51]] ++ [10]) = Some (-123)%Z.
Proof. vm_compute. reflexivity. Qed.

(* a sign and one group of digits: the shape of str(z) *)
Lemma int_parse_signed_digits lim sg d : d <> [] -> all_ascii_digits d = true -> over_limit lim (blen d) = false ->
  int_parse lim 10 (sign_text sg ++ d) = Some (signed sg (dval d 0)).
Proof.
  intros Hne Hd Hlim. pose proof (int_literal_ascii lim [] sg [d] [] eq_refl eq_refl) as H.
  cbn [app join concat] in H. rewrite !app_nil_r in H. apply H; [|exact Hlim].
  destruct d; [congruence|]. cbn [digit_groups forallb digit_group]. rewrite Hd. reflexivity.
Qed.

(* int(str(z)) = z, provided the rendering is within the digit limit *)
Theorem int_parse_dec lim z : over_limit lim (ndigits_Z z) = false ->
  int_parse lim 10 (dec_of_Z z) = Some z.
Proof.
  intros Hlim. destruct z as [|p|p].
  - exact (int_parse_signed_digits lim None [48] ltac:(discriminate) eq_refl Hlim).
  - pose proof (int_parse_signed_digits lim None _ (dec_of_N_nonnil (N.pos p)) (dec_of_N_digits _) Hlim) as H.
    rewrite dval_dec_of_N in H. exact H.
  - pose proof (int_parse_signed_digits lim (Some true) _ (dec_of_N_nonnil (N.pos p)) (dec_of_N_digits _) Hlim) as H.
    rewrite dval_dec_of_N in H. exact H.
Qed.

(* the number of digits of a rendering, against powers of ten *)
Lemma dec_fuel_length f n acc k : 1 <= k -> n < 10 ^ k ->
  blen (dec_fuel f n acc) <= k + blen acc.
Proof.
  revert n acc k. induction f as [|f IH]; intros n acc k Hk Hn; cbn [dec_fuel]; [lia|].
  destruct (n / 10 =? 0) eqn:E.
  - rewrite blen_cons. lia.
  - assert (Hq : n / 10 <> 0) by lia.
    assert (H10 : 10 <= n).
    { destruct (N.lt_ge_cases n 10) as [Hlt|Hge]; [|exact Hge]. rewrite (N.div_small n 10 Hlt) in Hq. congruence. }
    assert (Hk2 : 2 <= k).
    { destruct (N.eq_dec k 1) as [->|]; [|lia]. change (10 ^ 1) with 10 in Hn. lia. }
    assert (Hn' : n / 10 < 10 ^ (k - 1)).
    { apply N.div_lt_upper_bound; [lia|]. replace k with (N.succ (k - 1)) in Hn by lia.
      rewrite N.pow_succ_r' in Hn. exact Hn. }
    specialize (IH (n / 10) ((48 + n mod 10) :: acc) (k - 1)).
    rewrite blen_cons in IH. assert (1 <= k - 1) by lia. specialize (IH H Hn'). lia.
Qed.

Lemma ndigits_le z k : 1 <= k -> (Z.abs z < 10 ^ Z.of_N k)%Z -> ndigits_Z z <= k.
Proof.
  intros Hk Hz. unfold ndigits_Z, dec_of_N.
  assert (Hn : Z.abs_N z < 10 ^ k).
  { apply N2Z.inj_lt. rewrite N2Z.inj_abs_N, N2Z.inj_pow. exact Hz. }
  pose proof (dec_fuel_length (S (N.to_nat (N.log2 (Z.abs_N z)))) (Z.abs_N z) [] k Hk Hn) as H.
  rewrite blen_nil in H. lia.
Qed.

(* ---------------------------------------------------------------- base 16 *)
Definition is_hex (c : N) : bool :=
  ((48 <=? c) && (c <=? 57)) || ((97 <=? c) && (c <=? 102)) || ((65 <=? c) && (c <=? 70)).
Definition is_lhex (c : N) : bool := ((48 <=? c) && (c <=? 57)) || ((97 <=? c) && (c <=? 102)).
Definition hv (c : N) : N := match digit_of 16 c with Some d => d | None => 0 end.
Fixpoint hval (s : str) (acc : N) : N :=
  match s with [] => acc | c :: t => hval t (acc * 16 + hv c) end.

(* the 22 hexadecimal digits: their value and their lower-case rendering, by evaluation *)
Definition hex_chars : list N :=
  [48; 49; 50; 51; 52; 53; 54; 55; 56; 57; 97; 98; 99; 100; 101; 102; 65; 66; 67; 68; 69; 70].
Lemma is_hex_in c : is_hex c = true -> In c hex_chars.
Proof. unfold is_hex, hex_chars. intros H. cbn [In]. lia. Qed.

Lemma hex_digit c : is_hex c = true ->
  digit_of 16 c = Some (hv c) /\ hv c < 16 /\ hexdig (hv c) = lower_ascii1 c.
Proof.
  intros H.
  assert (T : forallb (fun c => match digit_of 16 c with
                                | Some d => (d <? 16) && (hexdig d =? lower_ascii1 c) | None => false end) hex_chars = true)
    by reflexivity.
  rewrite forallb_forall in T. specialize (T c (is_hex_in c H)). unfold hv.
  destruct (digit_of 16 c) as [d|]; [|discriminate]. apply andb_true_iff in T. destruct T as [T1 T2].
  apply N.ltb_lt in T1. apply N.eqb_eq in T2. auto.
Qed.

Lemma digit_of_16 c : is_hex c = true -> digit_of 16 c = Some (hv c) /\ hv c < 16.
Proof. intros H. destruct (hex_digit c H) as (H1 & H2 & _). auto. Qed.

Lemma hexdig_hv c : is_hex c = true -> hexdig (hv c) = lower_ascii1 c.
Proof. intros H. apply (hex_digit c H). Qed.

Lemma scan_hex s acc nd : forallb is_hex s = true ->
  scan 16 s acc nd false = Some (hval s acc, nd + blen s, []).
Proof.
  revert acc nd. induction s as [|c t IH]; intros acc nd H.
  - cbn [scan hval]. rewrite blen_nil, N.add_0_r. reflexivity.
  - cbn [forallb] in H. apply andb_true_iff in H. destruct H as [Hc Ht].
    cbn [scan hval]. replace (c =? 95) with false by (unfold is_hex in Hc; lia).
    destruct (digit_of_16 c Hc) as [-> _]. rewrite (IH _ _ Ht). rewrite blen_cons. do 2 f_equal. f_equal. lia.
Qed.

Lemma hval_app a b acc : hval (a ++ b) acc = hval b (hval a acc).
Proof. revert acc. induction a as [|c a IH]; intros acc; cbn [app hval]; auto. Qed.

Lemma hval_bound s : forallb is_hex s = true -> hval s 0 < 16 ^ blen s.
Proof.
  induction s as [|c t IH] using rev_ind; intros H.
  - cbn. lia.
  - rewrite forallb_app in H. apply andb_true_iff in H. destruct H as [Ht Hc].
    cbn [forallb] in Hc. rewrite andb_true_r in Hc.
    rewrite hval_app. cbn [hval]. rewrite blen_app. change (blen [c]) with 1.
    replace (blen t + 1) with (N.succ (blen t)) by lia. rewrite N.pow_succ_r'.
    specialize (IH Ht). destruct (digit_of_16 c Hc) as [_ Hv]. lia.
Qed.

Lemma hexle_step k v d : d < 16 -> hexle (S k) (v * 16 + d) = hexdig d :: hexle k v.
Proof.
  intros Hd. cbn [hexle].
  assert (H1 : (v * 16 + d) mod 16 = d).
  { rewrite N.add_comm, N.mod_add by lia. apply N.mod_small. exact Hd. }
  assert (H2 : (v * 16 + d) / 16 = v).
  { rewrite N.add_comm, N.div_add by lia. rewrite (N.div_small d 16 Hd). lia. }
  rewrite H1, H2. reflexivity.
Qed.

Lemma hexle_hval r : forallb is_hex r = true ->
  hexle (length r) (hval (rev r) 0) = map lower_ascii1 r.
Proof.
  induction r as [|c r IH]; intros H; [reflexivity|].
  cbn [forallb] in H. apply andb_true_iff in H. destruct H as [Hc Hr].
  cbn [rev length map]. rewrite hval_app. cbn [hval].
  destruct (digit_of_16 c Hc) as [_ Hv]. rewrite hexle_step by exact Hv.
  rewrite (IH Hr), (hexdig_hv c Hc). reflexivity.
Qed.

(* '%032x' % int(h, 16) = h.lower() for 32 hex digits *)
Lemma hex32_hval h : forallb is_hex h = true -> length h = 32%nat ->
  hex32 (hval h 0) = lower_ascii h.
Proof.
  intros Hh Hl. unfold hex32, lower_ascii.
  rewrite <- (rev_involutive h) at 1. rewrite <- Hl, <- (rev_length h).
  rewrite hexle_hval by (rewrite forallb_rev; exact Hh).
  rewrite <- map_rev, rev_involutive. reflexivity.
Qed.

Lemma hexle_lhex k n : forallb is_lhex (hexle k n) = true /\ length (hexle k n) = k.
Proof.
  revert n. induction k as [|k IH]; intros n; [split; reflexivity|].
  cbn [hexle forallb length]. destruct (IH (n / 16)) as [I1 I2]. rewrite I1, I2.
  split; [|reflexivity]. rewrite andb_true_r.
  pose proof (N.mod_upper_bound n 16). unfold hexdig, is_lhex.
  destruct (n mod 16 <? 10) eqn:E; lia.
Qed.

Lemma hex32_lhex n : forallb is_lhex (hex32 n) = true /\ length (hex32 n) = 32%nat.
Proof.
  unfold hex32. destruct (hexle_lhex 32 n) as [H1 H2].
  rewrite forallb_rev, rev_length. split; assumption.
Qed.

Lemma is_hex_lt_127 s : forallb is_hex s = true -> forallb lt127 s = true.
Proof. apply forallb_impl. intros c. unfold is_hex, lt127. lia. Qed.

(* int(h, 16) for a non-empty string of hex digits (no sign, no prefix, no underscore) *)
Lemma int_parse_hex lim h : forallb is_hex h = true -> h <> [] ->
  int_parse lim 16 h = Some (Z.of_N (hval h 0)).
Proof.
  intros Hh Hne. unfold int_parse. rewrite transform_ascii by (apply is_hex_lt_127, Hh).
  destruct h as [|c t]; [congruence|].
  pose proof Hh as Hh0. cbn [forallb] in Hh0. apply andb_true_iff in Hh0. destruct Hh0 as [Hc Ht].
  unfold int_ascii. cbn [lstrip_c].
  replace (c_isspace c) with false by (unfold c_isspace, is_hex in *; lia).
  unfold split_sign.
  replace (c =? 43) with false by (unfold is_hex in Hc; lia).
  replace (c =? 45) with false by (unfold is_hex in Hc; lia).
  assert (Hp : skip_prefix 16 (c :: t) = c :: t).
  { unfold skip_prefix. destruct t as [|x t']; [reflexivity|].
    cbn [forallb] in Ht. apply andb_true_iff in Ht. destruct Ht as [Hx _].
    replace ((x =? 120) || (x =? 88)) with false by (unfold is_hex in Hx; lia).
    rewrite andb_false_r. reflexivity. }
  rewrite Hp. unfold starts_with_underscore.
  replace (c =? 95) with false by (unfold is_hex in Hc; lia).
  rewrite (scan_hex (c :: t) 0 0 Hh).
  replace (0 + blen (c :: t) =? 0) with false by (rewrite blen_cons; lia).
  cbn [forallb negb]. change (16 =? 10) with false. cbn [andb]. reflexivity.
Qed.
