(* Proofs/C01_Vhdx_Tables.v — the two table parsers of VHDXInspector (_find_meta_region,
   _find_meta_entry as modelled in Model/Insp_Vhdx.v) are the whole-buffer table readers of the
   specification (Model/C01_Vhdx.v), and those readers are stable when the buffer grows. *)
Require Import OV.Base.Bytes OV.Base.Py OV.Base.Insp_Struct OV.Gen.Insp_Consts OV.Model.Insp_Engine.
Require Import OV.Model.Insp_Vhdx OV.Model.Insp_All OV.Model.C01_Vhdx.
Require Import OV.Proofs.Insp_Engine.
Open Scope N_scope.

Lemma nslice_bslice o l b : nslice o l b = bslice o l b.
Proof. unfold nslice, bslice. rewrite ntake_btake, nskip_bskip. reflexivity. Qed.

Lemma bslice_of_btake o l n a : bslice o l (btake n a) = btake (n - o) (bslice o l a).
Proof. unfold bslice. rewrite bskip_btake, !btake_btake. f_equal. lia. Qed.
Lemma bslice_bskip o l k a : bslice o l (bskip k a) = bslice (k + o) l a.
Proof. unfold bslice. rewrite bskip_bskip. reflexivity. Qed.
Lemma bslice_bslice o l O L a : o + l <= L -> bslice o l (bslice O L a) = bslice (O + o) l a.
Proof. apply Bytes.bslice_bslice. Qed.
Lemma btake_bslice n a : btake n a = bslice 0 n a.
Proof. reflexivity. Qed.
Lemma bslice_full_len o l a : o + l <= blen a -> blen (bslice o l a) = l.
Proof. apply blen_bslice_full. Qed.
(* re-slicing with the length actually obtained *)
Lemma bslice_relen o l a : bslice o (blen (bslice o l a)) a = bslice o l a.
Proof.
  rewrite blen_bslice. unfold bslice. rewrite <- (blen_bskip o a). symmetry. apply btake_min.
Qed.
(* a slice of a prefix is a prefix of the slice *)
Lemma bslice_app_grows o l a x : exists y, bslice o l (a ++ x) = bslice o l a ++ y.
Proof.
  unfold bslice. destruct (N.le_gt_cases o (blen a)) as [H|H].
  - rewrite bskip_app_le by exact H.
    destruct (N.le_gt_cases l (blen (bskip o a))) as [H1|H1].
    + exists []. rewrite btake_app_le by exact H1. rewrite app_nil_r. reflexivity.
    + rewrite btake_app_ge by lia. rewrite (btake_all l (bskip o a)) by lia. eexists. reflexivity.
  - rewrite (bskip_all o a) by lia. rewrite btake_nil. eexists. reflexivity.
Qed.

Lemma bslice_app_ge a x o l : bslice (blen a + o) l (a ++ x) = bslice o l x.
Proof. unfold bslice. rewrite bskip_app_ge by lia. f_equal. f_equal. lia. Qed.
Lemma bslice_seg a s x : bslice (blen a) (blen s) (a ++ s ++ x) = s.
Proof.
  rewrite <- (N.add_0_r (blen a)), bslice_app_ge. unfold bslice. rewrite bskip_0, btake_app_le by lia.
  apply btake_all. lia.
Qed.

Definition guid_test (g : bytes) (e : bytes) : bool := beq (ntake 16 e) g.

Lemma vx_entry_bslice base t i : vx_entry base t i = bslice (base + 32 * N.of_nat i) 32 t.
Proof. apply nslice_bslice. Qed.

(* entries that lie inside a prefix do not change when the buffer grows *)
Lemma entries_app base a x k i :
  base + 32 * N.of_nat (i + k) <= blen a ->
  map (vx_entry base (a ++ x)) (seq i k) = map (vx_entry base a) (seq i k).
Proof.
  intros H. apply map_ext_in. intros j Hj. apply in_seq in Hj.
  rewrite !vx_entry_bslice. apply bslice_app_le. lia.
Qed.

Lemma guid_is_16 buf g : blen buf = 16 -> vhdx_guid_is buf g = Ok (beq buf g).
Proof. intros H. unfold vhdx_guid_is. rewrite unpack_ok by exact H. reflexivity. Qed.

Definition rt_spec_of (mo : N) : rspec := mkRspec false mo VX_META_LEN None.

Lemma rt_loop_spec t : forall k i,
  16 + 32 * N.of_nat (i + k) <= blen t ->
  vhdx_rt_loop k (bskip (16 + 32 * N.of_nat i) t) =
  Ok (option_map (fun e => rt_spec_of (le_val (nslice 16 8 e)))
                 (find (guid_test VHDX_GUID_METAREGION) (map (vx_entry 16 t) (seq i k)))).
Proof.
  induction k as [|k IH]; intros i H; [reflexivity|].
  cbn [vhdx_rt_loop seq map find].
  set (rest := bskip (16 + 32 * N.of_nat i) t).
  assert (Hr : 32 <= blen rest) by (subst rest; rewrite blen_bskip; lia).
  unfold VHDX_RT_ENTRY, VHDX_RT_GUID, VHDX_RT_REST, VHDX_RT_STRIDE.
  rewrite !ntake_btake. rewrite btake_btake. change (N.min 16 32) with 16.
  rewrite guid_is_16 by (rewrite blen_btake; lia). cbn [bind].
  assert (He : vx_entry 16 t i = btake 32 rest) by (rewrite vx_entry_bslice; reflexivity).
  rewrite He. unfold guid_test at 1. rewrite ntake_btake.
  rewrite btake_btake. change (N.min 16 32) with 16.
  destruct (beq (btake 16 rest) VHDX_GUID_METAREGION) eqn:Hg.
  - rewrite nskip_bskip. rewrite unpack_ok by (rewrite blen_bskip, blen_btake; cbn [sf_size sf_vhdx_rt_rest]; lia).
    cbn [bind option_map]. f_equal. f_equal. unfold rt_spec_of, VX_META_LEN. f_equal.
    unfold sint, sraw. cbn [sf_big sf_fields sf_vhdx_rt_rest nth]. f_equal.
    rewrite nslice_bslice. subst rest.
    rewrite bslice_bskip. reflexivity.
  - rewrite nskip_bskip. subst rest. rewrite bskip_bskip.
    replace (16 + 32 * N.of_nat i + 32) with (16 + 32 * N.of_nat (S i)) by lia.
    apply IH. replace (S i + k)%nat with (i + S k)%nat by lia. exact H.
Qed.

(* _find_meta_region on a state whose header region holds all 64 KiB *)
Lemma find_meta_region_spec (s : ist unit) h :
  rget R_header (i_regs s) = Some h -> blen (r_data h) = VX_HDR_LEN ->
  vhdx_find_meta_region s =
  match vx_region_table (r_data h) with
  | Exn e => Exn e
  | Ok o => Ok (option_map rt_spec_of o)
  end.
Proof.
  intros Hg Hl. unfold vhdx_find_meta_region, get_region. rewrite Hg. cbn [bind].
  unfold VHDX_RT_HDR. rewrite ntake_btake.
  rewrite unpack_ok by (rewrite blen_btake, Hl; reflexivity). cbn [bind].
  unfold vx_region_table. unfold sint, sraw. cbn [sf_big sf_fields sf_vhdx_rt_hdr nth].
  rewrite !nslice_bslice. rewrite !bslice_btake_in by lia.
  destruct (negb (le_val (bslice 0 4 (r_data h)) =? VHDX_REGI)); [reflexivity|].
  destruct (VHDX_RT_LIMIT <=? le_val (bslice 8 4 (r_data h))) eqn:Hc; [reflexivity|].
  unfold VHDX_RT_LIMIT in Hc. unfold VHDX_RT_FIRST. rewrite nskip_bskip.
  pose proof (rt_loop_spec (r_data h) (N.to_nat (le_val (bslice 8 4 (r_data h)))) 0) as HL.
  change (16 + 32 * N.of_nat 0) with 16 in HL. rewrite HL.
  - unfold vx_first_guid. f_equal.
    destruct (find _ _); reflexivity.
  - rewrite Hl. unfold VX_HDR_LEN. lia.
Qed.

Definition mt_item (e : bytes) : N * N :=
  (le_val (nslice 16 4 e), N.min (le_val (nslice 20 4 e)) VHDX_VHDX_METADATA_TABLE_MAX_SIZE).

Lemma mt_loop_spec g t : forall k i,
  32 + 32 * N.of_nat (i + k) <= blen t ->
  vhdx_mt_loop k g (bskip (32 + 32 * N.of_nat i) t) =
  Ok (option_map mt_item (find (guid_test g) (map (vx_entry 32 t) (seq i k)))).
Proof.
  induction k as [|k IH]; intros i H; [reflexivity|].
  cbn [vhdx_mt_loop seq map find].
  set (rest := bskip (32 + 32 * N.of_nat i) t).
  assert (Hr : 32 <= blen rest) by (subst rest; rewrite blen_bskip; lia).
  unfold VHDX_MT_GUID, VHDX_MT_F_LO, VHDX_MT_F_HI, VHDX_MT_STRIDE2.
  rewrite !ntake_btake.
  rewrite guid_is_16 by (rewrite blen_btake; lia). cbn [bind].
  assert (He : vx_entry 32 t i = btake 32 rest) by (rewrite vx_entry_bslice; reflexivity).
  rewrite He. unfold guid_test at 1. rewrite ntake_btake.
  rewrite btake_btake. change (N.min 16 32) with 16.
  destruct (beq (btake 16 rest) g) eqn:Hg.
  - rewrite nsub_bsub. unfold bsub. change (28 - 16) with 12.
    rewrite unpack_ok by (rewrite blen_btake, blen_bskip; cbn [sf_size sf_vhdx_mt_item]; lia).
    cbn [bind option_map]. f_equal. f_equal. unfold mt_item.
    unfold sint, sraw. cbn [sf_big sf_fields sf_vhdx_mt_item nth].
    rewrite !nslice_bslice. subst rest.
    rewrite !(bslice_btake_in _ _ 12) by lia. rewrite !bslice_bskip.
    rewrite !(bslice_btake_in _ _ 32) by lia. rewrite !bslice_bskip. reflexivity.
  - rewrite nskip_bskip. subst rest. rewrite bskip_bskip.
    replace (32 + 32 * N.of_nat i + 32) with (32 + 32 * N.of_nat (S i)) by lia.
    apply IH. replace (S i + k)%nat with (i + S k)%nat by lia. exact H.
Qed.

(* _find_meta_entry(VIRTUAL_DISK_SIZE) on a state that has a metadata region m *)
Lemma find_meta_entry_spec (s : ist unit) m :
  rget R_metadata (i_regs s) = Some m ->
  vhdx_find_meta_entry VHDX_GUID_VIRTUAL_DISK_SIZE s =
  match vx_meta_table (r_data m) with
  | Exn e => (s, Exn e)
  | Ok None => (s, Ok None)
  | Ok (Some (io, il)) =>
    (set_regs s (rset R_metadata (set_len m (flen (r_data m))) (i_regs s)),
     Ok (Some (mkRspec false (r_off m + io) il None)))
  end.
Proof.
  intros Hg. unfold vhdx_find_meta_entry, get_region. rewrite Hg.
  unfold vx_meta_table, vx_entries_size, vx_meta_count.
  destruct (flen (r_data m) <? VHDX_MT_MIN) eqn:H32; [reflexivity|].
  rewrite flen_blen in *. unfold VHDX_MT_MIN in H32.
  unfold VHDX_MT_HDR. rewrite ntake_btake.
  rewrite unpack_ok by (rewrite blen_btake; cbn [sf_size sf_vhdx_mt_hdr]; lia).
  unfold sint, sraw. cbn [sf_big sf_fields sf_vhdx_mt_hdr nth].
  rewrite !nslice_bslice. rewrite !bslice_btake_in by lia.
  destruct (negb (beq (bslice 0 8 (r_data m)) VHDX_META_SIG)); [reflexivity|].
  set (count := le_val (bslice 10 2 (r_data m))).
  destruct (blen (r_data m) <? VHDX_MT_BASE + count * VHDX_MT_STRIDE) eqn:Hes; [reflexivity|].
  destruct (VHDX_MT_LIMIT <=? count); [reflexivity|].
  unfold VHDX_MT_BASE, VHDX_MT_STRIDE in Hes. unfold VHDX_MT_BASE2. rewrite nskip_bskip.
  pose proof (mt_loop_spec VHDX_GUID_VIRTUAL_DISK_SIZE (r_data m) (N.to_nat count) 0) as HL.
  change (32 + 32 * N.of_nat 0) with 32 in HL. rewrite HL by lia.
  unfold vx_first_guid. fold (guid_test VHDX_GUID_VIRTUAL_DISK_SIZE).
  destruct (find _ _) as [e|]; cbn [option_map]; reflexivity.
Qed.

(* the region table reader looks at the header and the entries it announces *)
Lemma region_table_app t x :
  16 + 32 * le_val (bslice 8 4 t) <= blen t -> vx_region_table (t ++ x) = vx_region_table t.
Proof.
  intros H. unfold vx_region_table. rewrite !nslice_bslice, !(bslice_app_le _ _ t x) by lia.
  destruct (negb _); [reflexivity|]. destruct (VHDX_RT_LIMIT <=? _); [reflexivity|].
  unfold vx_first_guid, VHDX_RT_FIRST. rewrite entries_app by lia. reflexivity.
Qed.

(* the metadata table reader: once it says something other than "not yet / not there", more bytes
   do not change the answer *)
Lemma meta_table_prefix m x :
  (vx_meta_table m = Ok None /\ (blen m < 32 \/ (32 <= blen m /\ blen m < vx_entries_size m)))
  \/ vx_meta_table (m ++ x) = vx_meta_table m.
Proof.
  unfold vx_meta_table, vx_entries_size, vx_meta_count. rewrite !flen_blen, !nslice_bslice.
  unfold VHDX_MT_MIN.
  destruct (blen m <? 32) eqn:H32; [left; split; [reflexivity | left; lia]|].
  rewrite !(bslice_app_le _ _ m x) by lia.
  replace (blen (m ++ x) <? 32) with false by (rewrite blen_app; lia).
  destruct (negb (beq (bslice 0 8 m) VHDX_META_SIG)); [right; reflexivity|].
  set (count := le_val (bslice 10 2 m)).
  destruct (blen m <? VHDX_MT_BASE + count * VHDX_MT_STRIDE) eqn:Hes; [left; split; [reflexivity | right; lia]|].
  unfold VHDX_MT_BASE, VHDX_MT_STRIDE in *.
  replace (blen (m ++ x) <? 32 + count * 32) with false by (rewrite blen_app; lia).
  right. destruct (VHDX_MT_LIMIT <=? count); [reflexivity|].
  unfold vx_first_guid, VHDX_MT_BASE2. rewrite entries_app by lia. reflexivity.
Qed.

Lemma entries_size_ge m : 32 <= vx_entries_size m.
Proof. unfold vx_entries_size, VHDX_MT_BASE. lia. Qed.

(* the number of entries is read from the first 12 bytes *)
Lemma entries_size_prefix m x : 32 <= blen m -> vx_entries_size (m ++ x) = vx_entries_size m.
Proof.
  intros H. unfold vx_entries_size, vx_meta_count. rewrite !nslice_bslice.
  rewrite bslice_app_le by lia. reflexivity.
Qed.

(* a table that has all its entries reads the same with more bytes behind it *)
Lemma meta_table_app m x : 32 <= blen m -> vx_entries_size m <= blen m -> vx_meta_table (m ++ x) = vx_meta_table m.
Proof. intros H1 H2. destruct (meta_table_prefix m x) as [[_ [H|[_ H]]]|H]; [lia | lia | exact H]. Qed.

(* a found item needs the whole entry table, and the table fits in 64 KiB *)
Lemma meta_table_found m io il :
  vx_meta_table m = Ok (Some (io, il)) ->
  32 <= blen m /\ vx_entries_size m <= blen m /\ il <= VX_META_LEN.
Proof.
  unfold vx_meta_table. rewrite !flen_blen.
  destruct (blen m <? VHDX_MT_MIN) eqn:H32; [discriminate|]. unfold VHDX_MT_MIN in H32.
  destruct (negb _); [discriminate|].
  destruct (blen m <? vx_entries_size m) eqn:Hes; [discriminate|].
  destruct (VHDX_MT_LIMIT <=? _); [discriminate|].
  destruct (vx_first_guid _ _ _ _); cbn [option_map]; [|discriminate].
  intros H. inversion H; subst. split; [lia|]. split; [lia|].
  unfold VX_META_LEN, VHDX_META_A, VHDX_META_B, VHDX_VHDX_METADATA_TABLE_MAX_SIZE. lia.
Qed.

Lemma meta_table_short m : blen m < 32 -> vx_meta_table m = Ok None.
Proof. intros H. unfold vx_meta_table. rewrite flen_blen. unfold VHDX_MT_MIN. replace (blen m <? 32) with true by lia. reflexivity. Qed.

(* a bad signature is reported as soon as the 32-byte header is there *)
Lemma meta_table_exn m e :
  vx_meta_table m = Exn e -> blen m <= VX_META_LEN ->
  32 <= blen m /\ beq (bslice 0 8 m) VHDX_META_SIG = false.
Proof.
  unfold vx_meta_table. rewrite !flen_blen, nslice_bslice.
  destruct (blen m <? VHDX_MT_MIN) eqn:H32; [discriminate|]. unfold VHDX_MT_MIN in H32.
  destruct (beq (bslice 0 8 m) VHDX_META_SIG) eqn:Hsig; cbn [negb]; [|intros _ _; split; [lia|reflexivity]].
  destruct (blen m <? vx_entries_size m) eqn:Hes; [discriminate|].
  destruct (VHDX_MT_LIMIT <=? vx_meta_count m) eqn:Hc; [|destruct (vx_first_guid _ _ _ _); discriminate].
  unfold vx_entries_size, VHDX_MT_LIMIT, VHDX_MT_BASE, VHDX_MT_STRIDE, VX_META_LEN, VHDX_META_A, VHDX_META_B in *. intros _ Hl. lia.
Qed.
