(* Proofs/C07_Vhdx.v — C07 for the VHDX inspector: region table -> metadata region -> metadata table ->
   virtual disk size item, for every table layout admitted by wf_vhdx and every chunking.  A well-formed image
   has forward pointers and the right signatures, so it lies outside the two zones of C01: every run over a
   prefix of it ends in one of C01's tracked states, and virtual_size is read off that state. *)
From Coq Require Import String.
Require Import OV.Base.Bytes OV.Base.Py OV.Base.Str OV.Base.Insp_Struct OV.Gen.Insp_Consts
               OV.Model.Insp_Engine OV.Model.Insp_All OV.Model.Insp_Vhdx OV.Model.C01_Vhdx OV.Model.C07.
Require Import OV.Proofs.Insp_All OV.Proofs.C07_Engine
               OV.Proofs.C01_Vhdx_Tables OV.Proofs.C01_Vhdx_Step OV.Proofs.C01_Vhdx.
Open Scope N_scope.

Lemma N_of_nat_S j : N.of_nat (S j) = N.of_nat j + 1.
Proof. lia. Qed.

Lemma find_first {A} (p : A -> bool) (f : nat -> A) j : forall k s,
  (j < k)%nat -> (forall i, (i < j)%nat -> p (f (s + i)%nat) = false) -> p (f (s + j)%nat) = true ->
  List.find p (map f (seq s k)) = Some (f (s + j)%nat).
Proof.
  induction j as [|j IH]; intros k s Hk Hb Ha; (destruct k as [|k]; [lia|]); cbn [seq map List.find].
  - rewrite Nat.add_0_r in Ha. rewrite Ha, Nat.add_0_r. reflexivity.
  - pose proof (Hb 0%nat ltac:(lia)) as H0. rewrite Nat.add_0_r in H0. rewrite H0.
    rewrite (IH k (S s)).
    + f_equal. f_equal. lia.
    + lia.
    + intros i Hi. replace (S s + i)%nat with (s + S i)%nat by lia. apply Hb. lia.
    + replace (S s + j)%nat with (s + S j)%nat by lia. exact Ha.
Qed.

(* entry i of a table that is itself the slice [B, B+L) of a stream, in terms of the stream *)
Lemma entry_of_slice B L base i a :
  base + 32 * N.of_nat i + 32 <= L -> vx_entry base (bslice B L a) i = bslice (B + (base + 32 * N.of_nat i)) 32 a.
Proof. intros H. rewrite vx_entry_bslice. apply C01_Vhdx_Tables.bslice_bslice. lia. Qed.

Lemma guid_of_entry B L base i a g :
  base + 32 * N.of_nat i + 32 <= L ->
  beq (ntake 16 (vx_entry base (bslice B L a) i)) g = beq (entry_guid (B + base) i a) g.
Proof.
  intros H. rewrite entry_of_slice by exact H. rewrite ntake_btake. unfold entry_guid, bslice. rewrite btake_btake.
  replace (B + base + 32 * N.of_nat i) with (B + (base + 32 * N.of_nat i)) by lia. reflexivity.
Qed.

Lemma field_of_entry B L base i a o n :
  base + 32 * N.of_nat i + 32 <= L -> o + n <= 32 ->
  nslice o n (vx_entry base (bslice B L a) i) = bslice (B + base + 32 * N.of_nat i + o) n a.
Proof.
  intros H Ho. rewrite nslice_bslice, entry_of_slice by exact H. rewrite C01_Vhdx_Tables.bslice_bslice by exact Ho.
  f_equal. lia.
Qed.

Lemma others_before_spec base k g b i :
  others_before base k g b = true -> (i < k)%nat -> beq (entry_guid base i b) g = false.
Proof.
  unfold others_before. intros H Hi. rewrite forallb_forall in H.
  specialize (H i). rewrite negb_true_iff in H. apply H. apply in_seq. lia.
Qed.

Section VhdxImage.
Variables (w : bytes) (size : N) (l : vhdx_layout).
Hypothesis Hsize : size < 2 ^ 64.
Hypothesis Hwf : wf_vhdx size l w = true.
Local Notation mo := (vl_meta_off l).
Local Notation io := (vl_item_off l).
Local Notation rc := (vl_rt_count l).
Local Notation ri := (vl_rt_index l).
Local Notation mc := (vl_mt_count l).
Local Notation mi := (vl_mt_index l).
Local Notation es := (32 + 32 * vl_mt_count l).          (* the metadata table: header + entries *)
Local Notation vo := (vl_meta_off l + vl_item_off l).    (* file offset of the size item *)

Record vhdx_facts : Prop := {
  F_ident : prefixb SPEC_VHDX_IDENT w = true;
  F_regi : bslice 196608 4 w = SPEC_VHDX_REGI;
  F_rc : bslice 196616 4 w = le_enc 4 rc;
  F_rc_max : rc <= 2047;
  F_ri : N.of_nat ri < rc;
  F_rt_before : forall i, (i < ri)%nat -> beq (entry_guid 196624 i w) SPEC_GUID_METAREGION = false;
  F_rt_at : entry_guid 196624 ri w = SPEC_GUID_METAREGION;
  F_rt_off : bslice (196624 + 32 * N.of_nat ri + 16) 8 w = le_enc 8 mo;
  F_mo : 262144 <= mo;
  F_mo64 : mo < 18446744073709551616;
  F_sig : bslice mo 8 w = SPEC_VHDX_META_SIG;
  F_mc : bslice (mo + 10) 2 w = le_enc 2 mc;
  F_mc_max : mc <= 2047;
  F_mi : N.of_nat mi < mc;
  F_mt_before : forall i, (i < mi)%nat -> beq (entry_guid (mo + 32) i w) SPEC_GUID_VDS = false;
  F_mt_at : entry_guid (mo + 32) mi w = SPEC_GUID_VDS;
  F_mt_off : bslice (mo + 32 + 32 * N.of_nat mi + 16) 4 w = le_enc 4 io;
  F_mt_len : bslice (mo + 32 + 32 * N.of_nat mi + 20) 4 w = le_enc 4 8;
  F_io : es <= io;
  F_io32 : io < 4294967296;
  F_item : bslice vo 8 w = le_enc 8 size;
  F_len : vo + 8 <= blen w
}.

Lemma wf_vhdx_facts : vhdx_facts.
Proof.
  pose proof Hwf as W. unfold wf_vhdx, SPEC_VHDX_RT, SPEC_VHDX_RT_END, SPEC_VHDX_MAX_ENTRIES, vhdx_known_at in W.
  change (196608 + 16) with 196624 in W. change (196608 + 8) with 196616 in W.
  repeat (apply andb_true_iff in W; destruct W as [W ?]).
  repeat match goal with H : beq _ _ = true |- _ => apply beq_eq in H end.
  constructor; try assumption; try (apply N.leb_le; assumption); try (apply N.ltb_lt; assumption).
  - intros i Hi. eapply others_before_spec; eassumption.
  - intros i Hi. eapply others_before_spec; eassumption.
Qed.

Lemma rt_w : vx_region_table (bslice VX_HDR_OFF VX_HDR_LEN w) = Ok (Some mo).
Proof.
  pose proof wf_vhdx_facts as FX. pose proof (F_rc_max FX). pose proof (F_ri FX).
  unfold vx_region_table, VX_HDR_OFF, VX_HDR_LEN. rewrite !nslice_bslice.
  rewrite !(C01_Vhdx_Tables.bslice_bslice _ _ 196608 65536 w) by lia.
  change (196608 + 0) with 196608. change (196608 + 8) with 196616.
  rewrite (F_regi FX), (F_rc FX). change (le_val SPEC_VHDX_REGI =? VHDX_REGI) with true. cbn [negb].
  rewrite (le_val_enc 4 rc) by (change (256 ^ N.of_nat 4) with 4294967296; lia).
  unfold VHDX_RT_LIMIT. replace (2048 <=? rc) with false by lia.
  unfold vx_first_guid, VHDX_RT_FIRST.
  rewrite (find_first _ _ ri (N.to_nat rc) 0%nat).
  - cbn [option_map Nat.add]. rewrite field_of_entry by lia. change (196608 + 16) with 196624.
    rewrite (F_rt_off FX), (le_val_enc 8 mo) by exact (F_mo64 FX). reflexivity.
  - lia.
  - intros i Hi. cbn [Nat.add]. rewrite guid_of_entry by lia. apply (F_rt_before FX). exact Hi.
  - cbn [Nat.add]. rewrite guid_of_entry by lia. change (196608 + 16) with 196624.
    rewrite (F_rt_at FX). apply beq_refl.
Qed.

Lemma mt_w :
  vx_meta_table (bslice mo VX_META_LEN w) = Ok (Some (io, 8)) /\ vx_entries_size (bslice mo VX_META_LEN w) = es.
Proof.
  pose proof wf_vhdx_facts as FX. pose proof (F_mc_max FX). pose proof (F_mi FX). pose proof (F_io FX). pose proof (F_len FX).
  assert (Hl : 32 + mc * 32 <= blen (bslice mo VX_META_LEN w)) by (rewrite blen_bslice, VX_META_LEN_val; lia).
  assert (Hes : vx_entries_size (bslice mo VX_META_LEN w) = es).
  { unfold vx_entries_size, vx_meta_count, VHDX_MT_BASE, VHDX_MT_STRIDE. rewrite nslice_bslice, VX_META_LEN_val.
    rewrite C01_Vhdx_Tables.bslice_bslice by lia. rewrite (F_mc FX), (le_val_enc 2 mc) by (change (256 ^ N.of_nat 2) with 65536; lia). lia. }
  split; [|exact Hes].
  unfold vx_meta_table. rewrite Hes, flen_blen. unfold vx_meta_count, VHDX_MT_MIN, VHDX_MT_LIMIT, VHDX_MT_BASE2.
  replace (blen (bslice mo VX_META_LEN w) <? 32) with false by lia.
  replace (blen (bslice mo VX_META_LEN w) <? es) with false by lia.
  rewrite !nslice_bslice, VX_META_LEN_val. rewrite !(C01_Vhdx_Tables.bslice_bslice _ _ mo 65536 w) by lia.
  rewrite N.add_0_r, (F_sig FX), (F_mc FX), (le_val_enc 2 mc) by (change (256 ^ N.of_nat 2) with 65536; lia).
  change VHDX_META_SIG with SPEC_VHDX_META_SIG. rewrite beq_refl. cbn [negb].
  replace (2048 <=? mc) with false by lia.
  unfold vx_first_guid. rewrite (find_first _ _ mi (N.to_nat mc) 0%nat).
  - cbn [option_map Nat.add]. rewrite !field_of_entry by lia.
    rewrite (F_mt_off FX), (F_mt_len FX), (le_val_enc 4 io) by (change (256 ^ N.of_nat 4) with 4294967296; exact (F_io32 FX)).
    rewrite (le_val_enc 4 8) by (vm_compute; reflexivity). reflexivity.
  - lia.
  - intros i Hi. cbn [Nat.add]. rewrite guid_of_entry by lia. apply (F_mt_before FX). exact Hi.
  - cbn [Nat.add]. rewrite guid_of_entry by lia. rewrite (F_mt_at FX). apply beq_refl.
Qed.

Lemma good_w : good w.
Proof.
  pose proof wf_vhdx_facts as FX. pose proof (F_mo FX). pose proof (F_io FX). destruct mt_w as [Hmt Hes].
  split.
  - rewrite zone_backptr_eq, rt_w, Hmt, Hes. replace (mo <? VX_HDR_END) with false by (unfold VX_HDR_END; lia).
    replace (io <? es) with false by lia. apply andb_false_r.
  - rewrite zone_metasig_eq, rt_w, VX_META_LEN_val. rewrite C01_Vhdx_Tables.bslice_bslice by lia.
    rewrite N.add_0_r, (F_sig FX). change VHDX_META_SIG with SPEC_VHDX_META_SIG. rewrite beq_refl.
    cbn [negb]. rewrite andb_false_r. apply andb_false_r.
Qed.

Definition vhdx_size_at (b : bytes) : res Z :=
  if blen b <? vo + 8 then Ok 0%Z else Ok (Z.of_N size).

Lemma vsize_tracked p x skel : w = p ++ x -> tracked p skel -> vhdx_vsize (vst skel p) = vhdx_size_at p.
Proof.
  intros Hw HT. pose proof wf_vhdx_facts as FX. pose proof (F_mo FX). pose proof (F_io FX). pose proof (F_mc_max FX).
  pose proof rt_w as Hrt. destruct mt_w as [Hmt Hes]. rewrite Hw in Hrt, Hmt, Hes. unfold vhdx_size_at.
  destruct HT as [Hl|Hl Hrt'|mo' Hl Hrt' Hmt'|mo' L io' il Hl Hrt' Hmt' HL]; try rewrite rt_of_app in Hrt by exact Hl.
  - replace (blen p <? vo + 8) with true by (unfold VX_HDR_END in Hl; lia). reflexivity.
  - congruence.
  - assert (mo' = mo) by congruence. subst mo'.
    (* the table is not decided on p but is on w: fewer than es bytes of it have arrived *)
    destruct (mt_of_app mo p x) as [[_ Hshort]|Hsame]; [|congruence].
    rewrite !blen_bslice in Hshort. pose proof VX_META_LEN_val as HML.
    assert (blen p < mo + es).
    { destruct Hshort as [Hs|[Hs1 Hs2]]; [lia|].
      rewrite <- (esz_of_app mo p x), Hes in Hs2 by (rewrite blen_bslice; lia). lia. }
    replace (blen p <? vo + 8) with true by lia. reflexivity.
  - assert (mo' = mo) by congruence. subst mo'.
    rewrite (mt_of_decided mo p x _ Hmt') in Hmt by discriminate. injection Hmt as -> ->.
    etransitivity; [apply (vsize_SK2 mo L vo 8 p false)|]. unfold rcomp. rewrite blen_bslice.
    destruct (blen p <? vo + 8) eqn:E.
    + replace (N.min 8 (blen p - vo) =? 8) with false by lia. reflexivity.
    + replace (N.min 8 (blen p - vo) =? 8) with true by lia.
      rewrite <- (bslice_app_le vo 8 p x) by lia. rewrite <- Hw, (F_item FX).
      unfold vds_size. rewrite unpack_ok by (rewrite blen_le_enc; reflexivity). cbn [bind].
      unfold sint, sraw. cbn [sf_vhdx_vds sf_big sf_fields nth].
      rewrite bslice_0_all by (rewrite blen_le_enc; vm_compute; discriminate).
      rewrite (le_val_enc 8 size) by exact Hsize. reflexivity.
Qed.

(* every run over a prefix of the image ends, without exception, in a tracked state of that prefix *)
Lemma prefix_run cs :
  is_prefix (concat cs) w = true ->
  exists skel, eat_all vhdx_fmt (vst SK0 []) cs = (vst skel (concat cs), None) /\ tracked (concat cs) skel.
Proof.
  intros Hp. apply prefixb_spec in Hp. destruct Hp as [x Hx].
  destruct (eat_all_tracked cs [] SK0 x) as [Hok|(e & st' & y & _ & Hy & Hl & Hrt)].
  - apply T_early. reflexivity.
  - cbn [app]. rewrite <- Hx. exact good_w.
  - exact Hok.
  - exfalso. cbn [app] in Hy. pose proof rt_w as Hrtw. rewrite Hx, <- Hy, <- app_assoc, rt_of_app in Hrtw by exact Hl. congruence.
Qed.
End VhdxImage.

Lemma vsize_vhdx_prefix_lemma w size l cs :
  size < 2 ^ 64 -> wf_vhdx size l w = true -> is_prefix (concat cs) w = true ->
  quiet F_vhdx cs /\
  vsize_now F_vhdx cs = (if blen (concat cs) <? vhdx_known_at l then Ok 0%Z else Ok (Z.of_N size)) /\
  vsize_end F_vhdx cs = (if blen (concat cs) <? vhdx_known_at l then Ok 0%Z else Ok (Z.of_N size)).
Proof.
  intros Hs Hwf Hp. destruct (prefix_run w size l Hs Hwf cs Hp) as (skel & E & HT).
  pose proof Hp as Hx. apply prefixb_spec in Hx. destruct Hx as [x Hx].
  pose proof (vsize_tracked w size l Hs Hwf (concat cs) x skel Hx HT) as V.
  unfold quiet, vsize_now, vsize_end, run, feed. cbn [init]. rewrite OV.Proofs.Insp_All.eat_list_unit. cbn [ufmt].
  rewrite vhdx_init, E. cbn [fst snd finish virtual_size ufmt f_vsize vhdx_fmt]. rewrite finish_vst.
  change (vhdx_vsize (vfin skel (concat cs))) with (vhdx_vsize (vst skel (concat cs))).
  repeat split; exact V.
Qed.

Lemma vsize_vhdx_wellformed_lemma size l b cs :
  size < 2 ^ 64 -> wf_vhdx size l b = true -> concat cs = b ->
  quiet F_vhdx cs /\ vsize_end F_vhdx cs = Ok (Z.of_N size).
Proof.
  intros Hs Hwf Hc.
  destruct (vsize_vhdx_prefix_lemma b size l cs Hs Hwf) as (Q & _ & V).
  { rewrite Hc. apply is_prefix_refl. }
  split; [exact Q|]. rewrite V, Hc.
  pose proof (F_len b size l (wf_vhdx_facts b size l Hwf)) as L.
  unfold vhdx_known_at. replace (blen b <? vl_meta_off l + vl_item_off l + 8) with false by lia. reflexivity.
Qed.

Lemma vsize_zero_while_unknown_vhdx_lemma w size l cs :
  size < 2 ^ 64 -> wf_vhdx size l w = true ->
  is_prefix (concat cs) w = true -> blen (concat cs) < vhdx_known_at l ->
  quiet F_vhdx cs /\ vsize_now F_vhdx cs = Ok 0%Z /\ vsize_end F_vhdx cs = Ok 0%Z.
Proof.
  intros Hs Hwf Hp Hl.
  destruct (vsize_vhdx_prefix_lemma w size l cs Hs Hwf Hp) as (Q & V1 & V2).
  rewrite V1, V2. replace (blen (concat cs) <? vhdx_known_at l) with true by lia. repeat split; assumption.
Qed.
