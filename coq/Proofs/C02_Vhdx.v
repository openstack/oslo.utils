(* Proofs/C02_Vhdx.v — VHDX at the byte level, through C01's refinement theorem vhdx_refines_spec:
   outside the zones F2/F4, for all chunkings, safety_check() passes exactly when the whole-buffer
   specification says "complete and matching" (the only check is the null check) — and what finding F7 is
   in those terms: the specification's exception field is set and the verdict is Pass all the same. *)
Require Import OV.Base.Bytes OV.Base.Py OV.Base.Insp_Struct OV.Gen.Insp_Consts OV.Model.Insp_Engine.
Require Import OV.Model.Insp_Vhdx OV.Model.Insp_All OV.Model.C01_Vhdx OV.Model.C02.
Require Import OV.Proofs.C01_Vhdx.
Open Scope N_scope.

Lemma vx_verdict_pass b e c vs :
  v_safety (vx_verdict b e c vs) = Pass <->
  v_complete (vx_verdict b e c vs) = true /\ v_match (vx_verdict b e c vs) = Ok true.
Proof.
  unfold vx_verdict. cbn [v_safety v_complete v_match].
  destruct c; destruct (prefixb VHDX_MAGIC (nslice 0 VX_IDENT_LEN b)); split; intros H; try discriminate H;
    try (split; reflexivity); try reflexivity; destruct H as [H1 H2]; try discriminate H1; discriminate H2.
Qed.

(* whatever the tables say, the specification's verdict is a vx_verdict of the stream *)
Lemma vhdx_spec_shape b : exists e c vs, vhdx_spec b = vx_verdict b e c vs.
Proof.
  unfold vhdx_spec. destruct (flen b <? VX_HDR_END); [do 3 eexists; reflexivity|].
  destruct (vx_region_table _) as [[mo|]|e]; try (do 3 eexists; reflexivity).
  destruct (vx_meta_table _) as [[[io il]|]|e]; do 3 eexists; reflexivity.
Qed.

Lemma vhdx_spec_pass b :
  v_safety (vhdx_spec b) = Pass <-> v_complete (vhdx_spec b) = true /\ v_match (vhdx_spec b) = Ok true.
Proof. destruct (vhdx_spec_shape b) as (e & c & vs & ->). apply vx_verdict_pass. Qed.

Theorem vhdx_pass_iff b cs :
  zone_vhdx_backptr b = false -> zone_vhdx_metasig b = false -> concat cs = b ->
  (safety (fst (Insp_All.run F_vhdx cs)) = Pass <->
   v_complete (vhdx_spec b) = true /\ v_match (vhdx_spec b) = Ok true).
Proof.
  intros Z1 Z2 Hb. rewrite <- vhdx_spec_pass. rewrite <- (vhdx_refines_spec b cs Z1 Z2 Hb). reflexivity.
Qed.

(* the specification's match is the 8-byte identifier, its completeness a statement about lengths *)
Lemma vhdx_spec_match b : v_match (vhdx_spec b) = Ok (prefixb VHDX_MAGIC (nslice 0 VX_IDENT_LEN b)).
Proof. destruct (vhdx_spec_shape b) as (e & c & vs & ->). reflexivity. Qed.

(* fewer than 256 KiB: never accepted *)
Theorem vhdx_short_refused b cs :
  concat cs = b -> flen b <? VX_HDR_END = true -> safety (fst (Insp_All.run F_vhdx cs)) = Refused.
Proof.
  intros Hb Hs.
  assert (Z1 : zone_vhdx_backptr b = false) by (unfold zone_vhdx_backptr; rewrite flen_blen in *; replace (VX_HDR_END <=? blen b) with false by lia; reflexivity).
  assert (Z2 : zone_vhdx_metasig b = false) by (unfold zone_vhdx_metasig; rewrite flen_blen in *; replace (VX_HDR_END <=? blen b) with false by lia; reflexivity).
  change (v_safety (verdict_of (Insp_All.run F_vhdx cs)) = Refused).
  rewrite (vhdx_refines_spec b cs Z1 Z2 Hb). unfold vhdx_spec. rewrite Hs. reflexivity.
Qed.

(* Finding F7 as a theorem: a stream with the vhdxfile identifier whose region table is invalid (bad signature
   or an entry count of 2048 or more).  For EVERY chunking the inspector raises ImageFormatError in eat_chunk
   and the frozen object nevertheless passes safety_check(). *)
Theorem vhdx_frozen_inspector_passes b cs e :
  concat cs = b -> flen b <? VX_HDR_END = false ->
  prefixb VHDX_MAGIC (nslice 0 VX_IDENT_LEN b) = true ->
  vx_region_table (nslice VX_HDR_OFF VX_HDR_LEN b) = Exn e ->
  snd (Insp_All.run F_vhdx cs) = Some e /\ safety (fst (Insp_All.run F_vhdx cs)) = Pass.
Proof.
  intros Hb Hl Hm Hrt.
  assert (Z1 : zone_vhdx_backptr b = false) by (unfold zone_vhdx_backptr; rewrite Hrt; apply andb_false_r).
  assert (Z2 : zone_vhdx_metasig b = false) by (unfold zone_vhdx_metasig; rewrite Hrt; apply andb_false_r).
  pose proof (vhdx_refines_spec b cs Z1 Z2 Hb) as H. unfold vhdx_spec in H. rewrite Hl, Hrt in H.
  unfold vx_verdict in H. rewrite Hm in H. unfold verdict_of in H. injection H as H1 _ _ _ H5.
  split; assumption.
Qed.
