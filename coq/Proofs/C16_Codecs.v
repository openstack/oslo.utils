(* Proofs/C16_Codecs.v — the concrete world of Model/C16_Codecs.v (eleven codecs; UTF-16/32 and charmap proofs are in
   Proofs/C16_Utf16.v) satisfies every
   contract the abstract theorems assume:
     * UTF-8: decode (encode t) = t for every surrogate-free text (any error policy),
       and conversely a strictly decodable byte string is the encoding of its text
       (so overlong forms, surrogates and values above U+10FFFF are rejected);
     * Latin-1, ASCII: the same for texts below 256 / 128;
     * an error policy matters only when there is an error;
     * codec-name lookup ignores ASCII letter case;
     * the NFKD fold driven by the generated table yields ASCII and fixes ASCII. *)
From Coq Require Import String.
Require Import OV.Base.Bytes OV.Base.PyInt OV.Base.Str OV.Base.C16_Py.
Require Import OV.Gen.C16_Aliases OV.Gen.C16_Fold OV.Gen.C16_Charmaps OV.Gen.C16_Code.
Require Import OV.Model.C16 OV.Model.C16_Codecs OV.Proofs.C16_Utf16.
Open Scope N_scope.

Ltac Zify.zify_post_hook ::= Z.div_mod_to_equations.

(* one unfolding step of the decoder ([cbn] on a list of known length goes on into the error branches, which decode
   the tails again) *)
Lemma utf8_dec_cons p b0 r0 : utf8_dec p (b0 :: r0) =
    if b0 <? 128 then cmap (cons b0) (utf8_dec p r0)
    else if (194 <=? b0) && (b0 <=? 223) then
      match r0 with
      | [] => on_dec_error p (COk [])
      | b1 :: r1 =>
        if is_cont b1 then cmap (cons ((b0 - 192) * 64 + (b1 - 128))) (utf8_dec p r1)
        else on_dec_error p (utf8_dec p r0)
      end
    else if (224 <=? b0) && (b0 <=? 239) then
      match r0 with
      | [] => on_dec_error p (COk [])
      | b1 :: r1 =>
        if second3 b0 b1 then
          match r1 with
          | [] => on_dec_error p (COk [])
          | b2 :: r2 =>
            if is_cont b2 then cmap (cons ((b0 - 224) * 4096 + (b1 - 128) * 64 + (b2 - 128))) (utf8_dec p r2)
            else on_dec_error p (utf8_dec p r1)
          end
        else on_dec_error p (utf8_dec p r0)
      end
    else if (240 <=? b0) && (b0 <=? 244) then
      match r0 with
      | [] => on_dec_error p (COk [])
      | b1 :: r1 =>
        if second4 b0 b1 then
          match r1 with
          | [] => on_dec_error p (COk [])
          | b2 :: r2 =>
            if is_cont b2 then
              match r2 with
              | [] => on_dec_error p (COk [])
              | b3 :: r3 =>
                if is_cont b3 then
                  cmap (cons ((b0 - 240) * 262144 + (b1 - 128) * 4096 + (b2 - 128) * 64 + (b3 - 128))) (utf8_dec p r3)
                else on_dec_error p (utf8_dec p r2)
              end
            else on_dec_error p (utf8_dec p r1)
          end
        else on_dec_error p (utf8_dec p r0)
      end
    else on_dec_error p (utf8_dec p r0).
Proof. reflexivity. Qed.

Lemma is_cont_range b : is_cont b = true <-> 128 <= b <= 191.
Proof. unfold is_cont. lia. Qed.

Lemma second3_range b0 b1 : second3 b0 b1 = true <->
  128 <= b1 <= 191 /\ (b0 = 224 -> 160 <= b1) /\ (b0 = 237 -> b1 <= 159).
Proof. unfold second3, is_cont. destruct (b0 =? 224) eqn:Ea; [lia|]. destruct (b0 =? 237) eqn:Eb; lia. Qed.

Lemma second4_range b0 b1 : second4 b0 b1 = true <->
  128 <= b1 <= 191 /\ (b0 = 240 -> 144 <= b1) /\ (b0 = 244 -> b1 <= 143).
Proof. unfold second4, is_cont. destruct (b0 =? 240) eqn:Ea; [lia|]. destruct (b0 =? 244) eqn:Eb; lia. Qed.

(* A well-formed sequence is a lead byte 192 / 224 / 240 + a0 followed by continuation bytes 128 + ai with ai < 64,
   and stands for the number with the base-64 digits a0 a1 ..; the side conditions on a0 and a1 leave exactly one
   sequence for each scalar value (no overlong form, no surrogate, nothing above U+10FFFF).  The decoder reads such a
   sequence, and the encoder writes it.  (Stated on the digits: with the bytes, every [lia] below would have to see
   through truncated subtractions as well as divisions.) *)
Lemma utf8_dec_1 p b0 r : b0 < 128 -> utf8_dec p (b0 :: r) = cmap (cons b0) (utf8_dec p r).
Proof. intros H. rewrite utf8_dec_cons. replace (b0 <? 128) with true by lia. reflexivity. Qed.

Lemma utf8_dec_2 p a0 a1 r : 2 <= a0 < 32 -> a1 < 64 ->
  utf8_dec p (192 + a0 :: 128 + a1 :: r) = cmap (cons (a0 * 64 + a1)) (utf8_dec p r).
Proof.
  intros H0 H1. rewrite utf8_dec_cons. replace (192 + a0 <? 128) with false by lia.
  replace ((194 <=? 192 + a0) && (192 + a0 <=? 223)) with true by lia.
  rewrite (proj2 (is_cont_range _)) by lia. f_equal. f_equal. lia.
Qed.

Lemma utf8_dec_3 p a0 a1 a2 r : a0 < 16 -> a1 < 64 -> a2 < 64 -> (a0 = 0 -> 32 <= a1) -> (a0 = 13 -> a1 < 32) ->
  utf8_dec p (224 + a0 :: 128 + a1 :: 128 + a2 :: r) = cmap (cons (a0 * 4096 + a1 * 64 + a2)) (utf8_dec p r).
Proof.
  intros H0 H1 H2 Ha Hb. rewrite utf8_dec_cons. replace (224 + a0 <? 128) with false by lia.
  replace ((194 <=? 224 + a0) && (224 + a0 <=? 223)) with false by lia.
  replace ((224 <=? 224 + a0) && (224 + a0 <=? 239)) with true by lia.
  rewrite (proj2 (second3_range _ _)), (proj2 (is_cont_range _)) by lia. f_equal. f_equal. lia.
Qed.

Lemma utf8_dec_4 p a0 a1 a2 a3 r : a0 < 5 -> a1 < 64 -> a2 < 64 -> a3 < 64 -> (a0 = 0 -> 16 <= a1) -> (a0 = 4 -> a1 < 16) ->
  utf8_dec p (240 + a0 :: 128 + a1 :: 128 + a2 :: 128 + a3 :: r) =
  cmap (cons (a0 * 262144 + a1 * 4096 + a2 * 64 + a3)) (utf8_dec p r).
Proof.
  intros H0 H1 H2 H3 Ha Hb. rewrite utf8_dec_cons. replace (240 + a0 <? 128) with false by lia.
  replace ((194 <=? 240 + a0) && (240 + a0 <=? 223)) with false by lia.
  replace ((224 <=? 240 + a0) && (240 + a0 <=? 239)) with false by lia.
  replace ((240 <=? 240 + a0) && (240 + a0 <=? 244)) with true by lia.
  rewrite (proj2 (second4_range _ _)), !(proj2 (is_cont_range _)) by lia. f_equal. f_equal. lia.
Qed.

Lemma utf8_enc1_2 a0 a1 : 2 <= a0 < 32 -> a1 < 64 -> utf8_enc1 (a0 * 64 + a1) = Some [192 + a0; 128 + a1].
Proof.
  intros H0 H1. unfold utf8_enc1.
  replace (a0 * 64 + a1 <? 128) with false by lia. replace (a0 * 64 + a1 <? 2048) with true by lia.
  f_equal. f_equal; [lia|f_equal; lia].
Qed.

Lemma utf8_enc1_3 a0 a1 a2 : a0 < 16 -> a1 < 64 -> a2 < 64 -> (a0 = 0 -> 32 <= a1) -> (a0 = 13 -> a1 < 32) ->
  utf8_enc1 (a0 * 4096 + a1 * 64 + a2) = Some [224 + a0; 128 + a1; 128 + a2].
Proof.
  intros H0 H1 H2 Ha Hb. unfold utf8_enc1. set (c := a0 * 4096 + a1 * 64 + a2).
  assert (Hc : 2048 <= c < 65536 /\ (c < 55296 \/ 57343 < c)) by (subst c; lia).
  replace (c <? 128) with false by lia. replace (c <? 2048) with false by lia.
  replace (c <? 65536) with true by lia. replace ((55296 <=? c) && (c <=? 57343)) with false by lia.
  subst c. f_equal. f_equal; [lia|f_equal; [lia|f_equal; lia]].
Qed.

Lemma utf8_enc1_4 a0 a1 a2 a3 : a0 < 5 -> a1 < 64 -> a2 < 64 -> a3 < 64 -> (a0 = 0 -> 16 <= a1) -> (a0 = 4 -> a1 < 16) ->
  utf8_enc1 (a0 * 262144 + a1 * 4096 + a2 * 64 + a3) = Some [240 + a0; 128 + a1; 128 + a2; 128 + a3].
Proof.
  intros H0 H1 H2 H3 Ha Hb. unfold utf8_enc1. set (c := a0 * 262144 + a1 * 4096 + a2 * 64 + a3).
  assert (Hc : 65536 <= c < 1114112) by (subst c; lia).
  replace (c <? 128) with false by lia. replace (c <? 2048) with false by lia.
  replace (c <? 65536) with false by lia. replace (c <? 1114112) with true by lia.
  subst c. f_equal. f_equal; [lia|f_equal; [lia|f_equal; [lia|f_equal; lia]]].
Qed.

Lemma utf8_dec_enc1 c bs : utf8_enc1 c = Some bs ->
  forall p rest, utf8_dec p (bs ++ rest) = cmap (cons c) (utf8_dec p rest).
Proof.
  unfold utf8_enc1. intros H p rest.
  destruct (c <? 128) eqn:E1.
  { apply some_inj in H; subst bs. apply utf8_dec_1. lia. }
  destruct (c <? 2048) eqn:E2.
  { apply some_inj in H; subst bs. cbn [app]. rewrite utf8_dec_2 by lia. f_equal. f_equal. lia. }
  destruct (c <? 65536) eqn:E3.
  { destruct ((55296 <=? c) && (c <=? 57343)) eqn:Es; [discriminate|]. apply some_inj in H; subst bs.
    cbn [app]. rewrite utf8_dec_3 by lia. f_equal. f_equal. lia. }
  destruct (c <? 1114112) eqn:E4; [|discriminate]. apply some_inj in H; subst bs.
  cbn [app]. rewrite utf8_dec_4 by lia. f_equal. f_equal. lia.
Qed.

Lemma utf8_enc1_scalar c : scalar c = match utf8_enc1 c with Some _ => true | None => false end.
Proof.
  unfold scalar, utf8_enc1. destruct (c <? 128) eqn:E1; [lia|]. destruct (c <? 2048) eqn:E2; [lia|].
  destruct (c <? 65536) eqn:E3; [destruct ((55296 <=? c) && (c <=? 57343)) eqn:Es; lia|].
  destruct (c <? 1114112) eqn:E4; lia.
Qed.

(* every surrogate-free text is encoded, whatever the policy, and decodes back to itself,
   whatever the policy *)
Theorem utf8_roundtrip t : valid_text t = true ->
  exists b, (forall p, utf8_enc p t = COk b) /\ (forall p, utf8_dec p b = COk t).
Proof.
  induction t as [|c t IH]; intros H.
  - exists []. split; reflexivity.
  - rewrite valid_text_cons, utf8_enc1_scalar in H. apply andb_true_iff in H. destruct H as [Hc Ht].
    destruct (IH Ht) as (b & He & Hd). destruct (utf8_enc1 c) as [bs|] eqn:Hbs; [|discriminate].
    exists (bs ++ b). split; intros p.
    + cbn [utf8_enc]. rewrite Hbs, He. reflexivity.
    + rewrite (utf8_dec_enc1 c bs Hbs), Hd. reflexivity.
Qed.

Lemma add_sub_back k b : k <= b -> k + (b - k) = b.
Proof. lia. Qed.

(* what strict decoding accepts starts with a well-formed sequence: the encoding of its value *)
Lemma utf8_dec_strict_inv b0 r0 t : utf8_dec Strict (b0 :: r0) = COk t ->
  exists c bs r, r0 = bs ++ r /\ utf8_enc1 c = Some (b0 :: bs) /\ cmap (cons c) (utf8_dec Strict r) = COk t.
Proof.
  rewrite utf8_dec_cons. intros H.
  destruct (b0 <? 128) eqn:E1.
  { exists b0, [], r0. unfold utf8_enc1. rewrite E1. repeat split. exact H. }
  destruct ((194 <=? b0) && (b0 <=? 223)) eqn:E2.
  { destruct r0 as [|b1 r1]; [discriminate|]. destruct (is_cont b1) eqn:C1; [|discriminate].
    apply is_cont_range in C1. eexists _, [b1], r1. split; [reflexivity|split; [|exact H]].
    rewrite utf8_enc1_2, !add_sub_back by lia. reflexivity. }
  destruct ((224 <=? b0) && (b0 <=? 239)) eqn:E3.
  { destruct r0 as [|b1 r1]; [discriminate|]. destruct (second3 b0 b1) eqn:S3; [|discriminate].
    destruct r1 as [|b2 r2]; [discriminate|]. destruct (is_cont b2) eqn:C2; [|discriminate].
    apply second3_range in S3. apply is_cont_range in C2.
    eexists _, [b1; b2], r2. split; [reflexivity|split; [|exact H]].
    rewrite utf8_enc1_3, !add_sub_back by lia. reflexivity. }
  destruct ((240 <=? b0) && (b0 <=? 244)) eqn:E4; [|discriminate].
  destruct r0 as [|b1 r1]; [discriminate|]. destruct (second4 b0 b1) eqn:S4; [|discriminate].
  destruct r1 as [|b2 r2]; [discriminate|]. destruct (is_cont b2) eqn:C2; [|discriminate].
  destruct r2 as [|b3 r3]; [discriminate|]. destruct (is_cont b3) eqn:C3; [|discriminate].
  apply second4_range in S4. apply is_cont_range in C2, C3.
  eexists _, [b1; b2; b3], r3. split; [reflexivity|split; [|exact H]].
  rewrite utf8_enc1_4, !add_sub_back by lia. reflexivity.
Qed.

Lemma utf8_enc_strict_valid t : forall b, utf8_enc Strict t = COk b -> valid_text t = true.
Proof.
  induction t as [|c t IH]; intros b H; [reflexivity|]. cbn [utf8_enc] in H.
  rewrite valid_text_cons, utf8_enc1_scalar. destruct (utf8_enc1 c) as [bs|]; [|discriminate].
  destruct (cmap_ok _ _ _ H) as (b' & E & _). exact (IH _ E).
Qed.

(* a strictly decodable byte string is exactly the UTF-8 encoding of a surrogate-free text:
   the decoder accepts no overlong form, no surrogate, nothing above U+10FFFF *)
Theorem utf8_dec_strict_canonical : forall b t,
  utf8_dec Strict b = COk t -> valid_text t = true /\ utf8_enc Strict t = COk b.
Proof.
  intros b t H. enough (He : utf8_enc Strict t = COk b) by (split; [exact (utf8_enc_strict_valid _ _ He)|exact He]).
  revert t H. induction b as [b IH] using strong_list_ind. intros t H.
  destruct b as [|b0 r0]; [injection H as <-; reflexivity|].
  destruct (utf8_dec_strict_inv _ _ _ H) as (c & bs & r & -> & E1 & H').
  destruct (cmap_ok _ _ _ H') as (t' & E & ->).
  cbn [utf8_enc]. rewrite E1, (IH r) with (t := t'); [reflexivity| |exact E].
  cbn [length]. rewrite app_length. lia.
Qed.

Lemma narrow_enc_ok lim p s : forallb (fun c => c <? lim) s = true -> narrow_enc lim p s = COk s.
Proof.
  induction s as [|c t IH]; intros H; [reflexivity|]. cbn [forallb] in H. apply andb_true_iff in H.
  destruct H as [Hc Ht]. cbn [narrow_enc]. rewrite Hc, (IH Ht). reflexivity.
Qed.

Lemma narrow_enc_strict_valid lim s : forall b, narrow_enc lim Strict s = COk b -> forallb (fun c => c <? lim) s = true.
Proof.
  induction s as [|c t IH]; intros b H; [reflexivity|].
  cbn [narrow_enc] in H. cbn [forallb]. destruct (c <? lim); [|discriminate].
  destruct (cmap_ok _ _ _ H) as (b' & E & _). exact (IH _ E).
Qed.

Lemma ascii_dec_id p s : forallb (fun c => c <? 128) s = true -> ascii_dec p s = COk s.
Proof.
  induction s as [|c t IH]; intros H; [reflexivity|]. cbn [forallb] in H. apply andb_true_iff in H.
  destruct H as [Hc Ht]. cbn [ascii_dec]. rewrite Hc, (IH Ht). reflexivity.
Qed.

Lemma ascii_dec_strict_bytes b : forall t, ascii_dec Strict b = COk t -> t = b /\ forallb (fun c => c <? 128) b = true.
Proof.
  induction b as [|x r IH]; intros t H; [injection H as <-; split; reflexivity|].
  cbn [ascii_dec] in H. destruct (x <? 128) eqn:E; [|discriminate].
  destruct (cmap_ok _ _ _ H) as (t' & E' & ->). destruct (IH _ E') as [-> Hall].
  split; [reflexivity|]. cbn [forallb]. rewrite E, Hall. reflexivity.
Qed.

(* what each codec can represent *)
Definition representable3 (c : codec_id) (t : str) : bool :=
  match c with
  | CLatin1 => forallb (fun x => x <? 256) t
  | CAscii => forallb (fun x => x <? 128) t
  | CCp1252 => charmap_repr cp1252_table t
  | CKoi8R => charmap_repr koi8r_table t
  | _ => valid_text t
  end.

Lemma roundtrip_any_errors (enc : policy -> str -> cres bytes) (dec : policy -> bytes -> cres str) t :
  (exists b, (forall p, enc p t = COk b) /\ (forall p, dec p b = COk t)) ->
  exists b, (forall e, enc (policy_of e) t = COk b) /\ (forall e, dec (policy_of e) b = COk t).
Proof. intros (b & He & Hd). exists b. split; intros e; [apply He|apply Hd]. Qed.

(* every codec: for representable text, encoding succeeds and decoding gives the text back, whatever the policies *)
Theorem enc3_dec3_roundtrip c t : representable3 c t = true ->
  exists b, (forall e, enc3 c t e = COk b) /\ (forall e, dec3 c b e = COk t).
Proof.
  intros H. unfold enc3, dec3. cbv zeta. destruct c; cbn [representable3] in H.
  - apply roundtrip_any_errors, utf8_roundtrip, H.
  - exists t. split; intros e; [apply narrow_enc_ok; exact H|reflexivity].
  - exists t. split; intros e; [apply narrow_enc_ok; exact H|apply ascii_dec_id; exact H].
  - apply roundtrip_any_errors, utf16_bom_roundtrip, H.
  - apply roundtrip_any_errors, utf16_roundtrip, H.
  - apply roundtrip_any_errors, utf16_roundtrip, H.
  - apply roundtrip_any_errors, utf32_bom_roundtrip, H.
  - apply roundtrip_any_errors, utf32_roundtrip, H.
  - apply roundtrip_any_errors, utf32_roundtrip, H.
  - apply roundtrip_any_errors, charmap_roundtrip, H.
  - apply roundtrip_any_errors, charmap_roundtrip, H.
Qed.

(* a strict encoding exists exactly for representable text *)
Lemma enc3_strict_representable c t b : enc3 c t strict_name = COk b -> representable3 c t = true.
Proof.
  unfold enc3. rewrite policy_strict. cbv zeta. destruct c; cbn [representable3]; intros H.
  - apply (utf8_enc_strict_valid _ _ H).
  - apply (narrow_enc_strict_valid _ _ _ H).
  - apply (narrow_enc_strict_valid _ _ _ H).
  - unfold utf16_bom_enc in H. destruct (cmap_ok _ _ _ H) as (b' & E & _). apply (utf16_enc_strict_valid _ _ _ E).
  - apply (utf16_enc_strict_valid _ _ _ H).
  - apply (utf16_enc_strict_valid _ _ _ H).
  - unfold utf32_bom_enc in H. destruct (cmap_ok _ _ _ H) as (b' & E & _). apply (utf32_enc_strict_valid _ _ _ E).
  - apply (utf32_enc_strict_valid _ _ _ H).
  - apply (utf32_enc_strict_valid _ _ _ H).
  - apply (charmap_enc_strict_valid _ _ _ H).
  - apply (charmap_enc_strict_valid _ _ _ H).
Qed.

(* so what encodes under 'strict' encodes to the same bytes under any policy, and decodes back *)
Theorem world3_enc_policy_irrelevant d c : enc_policy_irrelevant (world3 d) c.
Proof.
  intros t errs b. cbn [enc world3]. intros H.
  destruct (enc3_dec3_roundtrip c t (enc3_strict_representable _ _ _ H)) as (b' & He & _).
  rewrite He in H. rewrite He. exact H.
Qed.

Theorem world3_codec_roundtrip d c : codec_roundtrip (world3 d) c.
Proof.
  intros t b. cbn [enc dec world3]. intros H.
  destruct (enc3_dec3_roundtrip c t (enc3_strict_representable _ _ _ H)) as (b' & He & Hd).
  rewrite He in H. injection H as <-. apply Hd.
Qed.

Lemma utf8_dec_strict_any b t : utf8_dec Strict b = COk t -> forall p, utf8_dec p b = COk t.
Proof.
  intros H p. destruct (utf8_dec_strict_canonical b t H) as [Hv He].
  destruct (utf8_roundtrip t Hv) as (b' & He' & Hd').
  rewrite (He' Strict) in He. injection He as <-. apply Hd'.
Qed.

Theorem world3_dec_policy_irrelevant d c : dec_policy_irrelevant (world3 d) c.
Proof.
  intros b errs t. cbn [dec world3]. unfold dec3. rewrite policy_strict. cbv zeta. destruct c; intros H.
  - apply utf8_dec_strict_any. exact H.
  - exact H.
  - destruct (ascii_dec_strict_bytes _ _ H) as [-> Hall]. apply ascii_dec_id. exact Hall.
  - apply (utf16_bom_dec_strict _ _ H).
  - apply (utf16_dec_strict_canonical _ _ _ H).
  - apply (utf16_dec_strict_canonical _ _ _ H).
  - apply (utf32_bom_dec_strict _ _ H).
  - apply (utf32_dec_strict_canonical _ _ _ H).
  - apply (utf32_dec_strict_canonical _ _ _ H).
  - apply (charmap_dec_strict_canonical _ _ _ H).
  - apply (charmap_dec_strict_canonical _ _ _ H).
Qed.

Lemma world3_dec_empty d c : dec (world3 d) c [] strict_name = COk [].
Proof. destruct c; reflexivity. Qed.

Theorem world3_represents d c t : representable3 c t = true -> representsb (world3 d) c t = true.
Proof.
  intros H. unfold representsb. cbn [enc dec world3].
  destruct (enc3_dec3_roundtrip c t H) as (b & He & Hd). rewrite He, Hd. apply beq_refl.
Qed.

(* ---------- re-encoding what was decoded ----------
   The codecs without BOM are canonical: a byte string (values below 256) that decodes under 'strict'
   is exactly the strict encoding of its text.  The BOM-writing 'utf-16' / 'utf-32' are not (the decoder
   accepts either byte order and a missing BOM, the encoder always writes a native-order BOM): there
   re-encoding preserves the text, not the bytes. *)
Definition canonical3 (c : codec_id) : bool :=
  match c with CUtf16 | CUtf32 => false | _ => true end.

Lemma narrow_enc_bytes lim b : forallb (fun c => c <? lim) b = true -> narrow_enc lim Strict b = COk b.
Proof. apply narrow_enc_ok. Qed.

Theorem enc3_after_dec3 c b t : canonical3 c = true -> all_bytes b = true ->
  dec3 c b strict_name = COk t -> enc3 c t strict_name = COk b.
Proof.
  unfold enc3, dec3. rewrite policy_strict. cbv zeta. destruct c; cbn [canonical3]; intros Hc Hb H; try discriminate.
  - apply (utf8_dec_strict_canonical _ _ H).
  - injection H as <-. apply narrow_enc_ok. exact Hb.
  - destruct (ascii_dec_strict_bytes _ _ H) as [-> Hall]. apply narrow_enc_ok. exact Hall.
  - apply (proj2 (utf16_dec_strict_canonical _ _ _ H) Hb).
  - apply (proj2 (utf16_dec_strict_canonical _ _ _ H) Hb).
  - apply (proj2 (utf32_dec_strict_canonical _ _ _ H) Hb).
  - apply (proj2 (utf32_dec_strict_canonical _ _ _ H) Hb).
  - apply (proj2 (charmap_dec_strict_canonical _ _ _ H) cp1252_table_inj).
  - apply (proj2 (charmap_dec_strict_canonical _ _ _ H) koi8r_table_inj).
Qed.

(* whatever a codec strictly decodes (from bytes) is text it can represent *)
Lemma dec3_strict_representable c b t : all_bytes b = true -> dec3 c b strict_name = COk t -> representable3 c t = true.
Proof.
  intros Hb H. destruct (canonical3 c) eqn:Hc.
  - exact (enc3_strict_representable _ _ _ (enc3_after_dec3 c b t Hc Hb H)).
  - unfold dec3 in H. rewrite policy_strict in H. cbv zeta in H. destruct c; try discriminate; cbn [representable3].
    + apply (utf16_bom_dec_strict _ _ H), Hb.
    + apply (utf32_bom_dec_strict _ _ H), Hb.
Qed.

Lemma lower_ascii1_idem c : lower_ascii1 (lower_ascii1 c) = lower_ascii1 c.
Proof. unfold lower_ascii1. destruct ((65 <=? c) && (c <=? 90)) eqn:E; [|rewrite E; reflexivity].
  replace ((65 <=? c + 32) && (c + 32 <=? 90)) with false by lia. reflexivity. Qed.
Lemma is_alnum_lower c : is_alnum_ascii (lower_ascii1 c) = is_alnum_ascii c.
Proof. unfold is_alnum_ascii, lower_ascii1. destruct ((65 <=? c) && (c <=? 90)) eqn:E; lia. Qed.
Lemma dot_lower c : (lower_ascii1 c =? 46) = (c =? 46).
Proof. unfold lower_ascii1. destruct ((65 <=? c) && (c <=? 90)) eqn:E; lia. Qed.

Lemma norm_go_lower s : forall p st, norm_go (lower_ascii s) p st = norm_go s p st.
Proof.
  induction s as [|c t IH]; intros p st; [reflexivity|].
  unfold lower_ascii in *. cbn [map norm_go]. rewrite is_alnum_lower, dot_lower, lower_ascii1_idem, !IH. reflexivity.
Qed.

Theorem lookup3_lower name : forallb is_ascii name = true -> lookup3 (py_lower name) = lookup3 name.
Proof.
  intros H. rewrite (py_lower_ascii _ H). unfold lookup3, norm_name. rewrite norm_go_lower. reflexivity.
Qed.

(* lookup does not depend on WHICH separator is written between the alphanumeric parts: '-', '_', ' ' (any character
   other than [A-Za-z0-9.]) are interchangeable, e.g. utf-8 / utf_8 / "utf 8" *)
Definition is_sep (c : N) : bool := negb (is_alnum_ascii c || (c =? 46)).
Definition same_but_seps (a b : str) : Prop :=
  Forall2 (fun x y => x = y \/ (is_sep x = true /\ is_sep y = true)) a b.

Lemma norm_go_seps a b : same_but_seps a b -> forall p st, norm_go a p st = norm_go b p st.
Proof.
  induction 1 as [|x y a b Hxy _ IH]; intros p st; [reflexivity|].
  destruct Hxy as [->|[Hx Hy]].
  - cbn [norm_go]. rewrite !IH. reflexivity.
  - cbn [norm_go]. unfold is_sep in Hx, Hy. apply negb_true_iff in Hx, Hy. rewrite Hx, Hy. apply IH.
Qed.

Lemma lookup3_nonempty name c : lookup3 name = Some c -> name <> [].
Proof. intros H ->. vm_compute in H. discriminate. Qed.

Definition fentry_ascii (e : fentry) : bool :=
  match e with
  | FInc lo hi t => (lo <=? hi) && (t + (hi - lo) <? 128)
  | FConst _ _ r => forallb is_ascii r
  end.
Fixpoint ftree_all (P : fentry -> bool) (t : ftree) : bool :=
  match t with FLeaf => true | FNode l e r => ftree_all P l && P e && ftree_all P r end.

Lemma ftree_find_ascii t : ftree_all fentry_ascii t = true -> forall c, forallb is_ascii (ftree_find t c) = true.
Proof.
  induction t as [|l IHl e r IHr]; intros H c; [reflexivity|].
  cbn [ftree_all] in H. apply andb_true_iff in H. destruct H as [H Hr]. apply andb_true_iff in H. destruct H as [Hl He].
  cbn [ftree_find]. destruct (c <? fe_lo e) eqn:E1; [apply IHl; exact Hl|].
  destruct (fe_hi e <? c) eqn:E2; [apply IHr; exact Hr|].
  destruct e as [lo hi tg|lo hi res]; cbn [fe_val fe_lo fe_hi fentry_ascii] in *.
  - cbn [forallb]. unfold is_ascii. lia.
  - exact He.
Qed.

Lemma nfkd_tree_ascii : ftree_all fentry_ascii nfkd_ascii_tree = true.
Proof. vm_compute. reflexivity. Qed.

Theorem world3_fold_ascii_out d : fold_ascii_out (world3 d).
Proof.
  intros s. cbn [ascii_fold world3]. unfold nfkd_ascii. induction s as [|c t IH]; [reflexivity|].
  cbn [flat_map]. rewrite forallb_app, IH, andb_true_r. unfold fold1.
  destruct (c <? 128) eqn:E; [cbn [forallb]; unfold is_ascii; rewrite E; reflexivity|].
  apply ftree_find_ascii. exact nfkd_tree_ascii.
Qed.

Theorem world3_fold_ascii_id d : fold_ascii_id (world3 d).
Proof.
  intros s H. cbn [ascii_fold world3]. unfold nfkd_ascii. induction s as [|c t IH]; [reflexivity|].
  cbn [forallb] in H. apply andb_true_iff in H. destruct H as [Hc Ht].
  cbn [flat_map]. unfold fold1 at 1. unfold is_ascii in Hc. rewrite Hc. cbn [app]. f_equal. apply IH. exact Ht.
Qed.

(* ================= the literals of the source name the UTF-8 codec ================= *)
Lemma fallback_is_utf8 : lookup3 fallback_encoding = Some CUtf8.
Proof. vm_compute. reflexivity. Qed.
Lemma to_utf8_is_utf8 : lookup3 to_utf8_encoding = Some CUtf8.
Proof. vm_compute. reflexivity. Qed.
