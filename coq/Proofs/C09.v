(* Proofs/C09.v — the exception helpers (property C09).
   The translated helper bodies equal the hand-written versions of Model/C09.v (the *_equiv lemmas); from there on
   everything is about the hand-written versions.  [stable] (nothing that existed is replaced) and [keeps] (no traceback
   is lost) hold for every state change, every helper and, by one induction ([exec_inv]), every body; the facts about
   the single helpers (sare = save_and_reraise_exception, rpoe = remove_path_on_error, rwc = raise_with_cause) and the
   two findings K13 and K14 rest on these. *)
From Coq Require Import List Arith NArith Bool Lia.
Import ListNotations.
Require Import OV.Base.C09_HL OV.Gen.C09_Excutils OV.Model.C09.

Lemma sare_init_equiv : forall r0 lab st, sare_new r0 lab st = mksare r0 None None [] lab.
Proof. reflexivity. Qed.

Lemma force_equiv : forall h,
  run_force h = let '(s', st', i) := force_hand (hs h) (hst h) in (with_st (with_s h s') st', HRaise i).
Proof.
  intros [[rr ty va tb0 lab] st lt lv lb at_ av ab chk ini p].
  unfold run_force, force_hand, gen_force, raise_value; cbn.
  destruct va as [i|]; destruct ty as [c|]; cbn; try reflexivity.
  - destruct (tb_eqb (tb_of st i) tb0); reflexivity.
  - destruct (tb_eqb (tb_of st i) tb0); reflexivity.
  - destruct (ctor0 c); cbn; try reflexivity.
    destruct (tb_eqb _ tb0); reflexivity.
Qed.

Lemma capture_equiv : forall chk s st,
  do_capture chk s st =
  let '(s', st', r) := capture_hand chk s st in
  (s', st', match r with Some j => HRaise j | None => HRetSelf end).
Proof.
  intros chk [rr ty va tb0 lab] [hp n k l r].
  unfold do_capture, capture_hand, hrun, gen_capture.
  destruct k as [|i rest]; destruct chk; reflexivity.
Qed.

Lemma do_force_equiv : forall wf s st,
  do_force wf s st = let '(s', st', i) := force_hand s st in (s', add_frame wf i st', Raised i).
Proof.
  intros wf s st. unfold do_force. rewrite force_equiv. cbn [hs hst hinit_state].
  destruct (force_hand s st) as [[s' st'] i]. reflexivity.
Qed.

Lemma pop_push : forall i st, pop (push i st) = st.
Proof. intros i [h n k l r]. reflexivity. Qed.

Lemma exit_equiv : forall wf s st out,
  with_exit FnExit gen_exit nopred wf s st out = exit_hand wf s st out.
Proof.
  intros wf [rr ty va tb0 lab] st out.
  unfold with_exit, exit_hand, hrun, gen_exit.
  destruct out as [|i].
  - cbn -[run_force force_hand]. destruct rr; cbn -[run_force force_hand]; [|reflexivity].
    rewrite force_equiv. cbn -[force_hand].
    destruct (force_hand _ st) as [[s' st'] j]. reflexivity.
  - cbn. destruct rr; cbn.
    + destruct st; reflexivity.
    + destruct st; reflexivity.
Qed.

Lemma filt_exit_equiv : forall p wf s st out,
  with_exit FnFiltExit gen_filt_exit p wf s st out =
  let '(st', out') := filt_exit_hand p wf st out in (s, st', out').
Proof.
  intros p wf s st out.
  unfold with_exit, filt_exit_hand, hrun, gen_filt_exit, pred_exc.
  destruct out as [|i]; cbn; [reflexivity|].
  unfold call_pred; cbn.
  replace (cls_of (push i st) i) with (cls_of st i) by reflexivity.
  destruct (pv p (Some (cls_of st i))); cbn; try (destruct st; reflexivity).
Qed.

Lemma filt_call_equiv : forall p x s st, do_filt_call p x s st = filt_call_hand p x st.
Proof.
  intros p x s [hp n k l r].
  unfold do_filt_call, filt_call_hand, hrun, gen_filt_call, pred_exc, raise_value.
  destruct k as [|c rest]; destruct x as [i|]; cbn; unfold call_pred; cbn.
  all: match goal with |- context [pv ?q ?a] => destruct (pv q a) end; cbn; try reflexivity.
  all: try (match goal with |- context [Nat.eqb ?a ?b] => destruct (Nat.eqb a b); cbn; try reflexivity end).
  all: match goal with |- context [tb_eqb ?a ?b] => destruct (tb_eqb a b); reflexivity end.
Qed.

Lemma frame_eqb_refl : forall f, frame_eqb f f = true.
Proof. destruct f as [l|f k| | | | | | | | |]; cbn; try reflexivity; [apply N.eqb_refl|destruct f, k; reflexivity]. Qed.
Lemma tb_eqb_refl : forall t, tb_eqb t t = true.
Proof. induction t as [|f t IH]; cbn; [reflexivity|]. rewrite frame_eqb_refl, IH. reflexivity. Qed.
Lemma hfn_eqb_eq : forall a b, hfn_eqb a b = true -> a = b.
Proof. destruct a, b; cbn; congruence. Qed.
Lemma rkind_eqb_eq : forall a b, rkind_eqb a b = true -> a = b.
Proof. destruct a, b; cbn; congruence. Qed.
Lemma frame_eqb_eq : forall a b, frame_eqb a b = true -> a = b.
Proof.
  destruct a, b; cbn; try congruence.
  - intro H. apply N.eqb_eq in H. congruence.
  - intro H. apply andb_true_iff in H. destruct H as [H1 H2].
    apply hfn_eqb_eq in H1. apply rkind_eqb_eq in H2. congruence.
Qed.
Lemma tb_eqb_eq : forall a b, tb_eqb a b = true -> a = b.
Proof.
  induction a as [|x a IH]; destruct b as [|y b]; cbn; try congruence.
  intro H. apply andb_true_iff in H. destruct H as [H1 H2].
  apply frame_eqb_eq in H1. apply IH in H2. congruence.
Qed.

(* everything that existed keeps its class, origin and cause; objects are only added; the stack of
   handled exceptions is the same *)
Definition stable (st st' : state) : Prop :=
  next st <= next st' /\ hstack st' = hstack st /\
  forall o, o < next st ->
    ecls (heap st' o) = ecls (heap st o) /\ eorg (heap st' o) = eorg (heap st o) /\ ecause (heap st' o) = ecause (heap st o).

Lemma stable_refl : forall st, stable st st.
Proof. intro st. repeat split; auto. Qed.
Lemma stable_trans : forall a b c, stable a b -> stable b c -> stable a c.
Proof.
  intros a b c [N1 [H1 O1]] [N2 [H2 O2]]. split; [lia|]. split; [congruence|].
  intros o Ho. destruct (O1 o Ho) as [A1 [B1 C1]]. destruct (O2 o ltac:(lia)) as [A2 [B2 C2]].
  repeat split; congruence.
Qed.

(* try/except: the handler runs with the exception pushed on the stack of handled ones *)
Lemma stable_push : forall i a b, stable (push i a) b -> stable a (pop b).
Proof.
  intros i a b [N [H O]]. split; [exact N|]. split; [cbn in *; rewrite H; reflexivity|exact O].
Qed.

Lemma upd_same : forall h i o, upd h i o i = o.
Proof. intros. unfold upd. rewrite Nat.eqb_refl. reflexivity. Qed.
Lemma upd_other : forall h i o j, j <> i -> upd h i o j = h j.
Proof. intros h i o j H. unfold upd. apply Nat.eqb_neq in H. rewrite H. reflexivity. Qed.

(* Step form ([stable a b -> stable a (f b)]): a chain of primitive changes is discharged by [auto with stable],
   outermost change first. *)
Lemma stable_set_tb : forall a b i t, stable a b -> stable a (set_tb i t b).
Proof.
  intros a b i t H. apply (stable_trans _ _ _ H). split; [cbn; lia|]. split; [reflexivity|].
  intros o _. cbn. unfold upd. destruct (Nat.eqb o i) eqn:E; [apply Nat.eqb_eq in E; subst; cbn; auto|auto].
Qed.
Lemma stable_add_frame : forall a b f i, stable a b -> stable a (add_frame f i b).
Proof. intros. apply stable_set_tb. assumption. Qed.
(* the new state is written as [inversion] leaves the first component of [alloc x b] *)
Lemma stable_alloc : forall a b x,
  stable a b -> stable a (mkst (upd (heap b) (next b) x) (S (next b)) (hstack b) (logs b) (removed b)).
Proof.
  intros a b x H. apply (stable_trans _ _ _ H). split; [cbn; lia|]. split; [reflexivity|].
  intros j Hj. cbn. rewrite upd_other by lia. auto.
Qed.
Lemma stable_add_log : forall a b e, stable a b -> stable a (add_log e b).
Proof. intros a b e H. apply (stable_trans _ _ _ H). repeat split; auto. Qed.
Lemma stable_count_remove : forall a b, stable a b -> stable a (count_remove b).
Proof. intros a b H. apply (stable_trans _ _ _ H). repeat split; auto. Qed.
Lemma stable_raise_value : forall a b fn i t, stable a b -> stable a (raise_value fn i t b).
Proof. intros. unfold raise_value. destruct (tb_eqb _ _); auto using stable_add_frame, stable_set_tb. Qed.

Create HintDb stable.
#[export] Hint Resolve stable_refl stable_set_tb stable_add_frame stable_alloc stable_add_log stable_count_remove
  stable_raise_value : stable.

Lemma alloc_then : forall x st st',
  stable (fst (alloc x st)) st' ->
  stable st st' /\ ecls (heap st' (next st)) = ecls x /\ eorg (heap st' (next st)) = eorg x /\
  ecause (heap st' (next st)) = ecause x.
Proof.
  intros x st st' H. split; [eapply stable_trans; [|exact H]; apply stable_alloc, stable_refl|].
  destruct H as [_ [_ O]]. specialize (O (next st) (Nat.lt_succ_diag_r _)). cbn in O. rewrite upd_same in O. exact O.
Qed.

Lemma tb_of_set_tb : forall i t st, tb_of (set_tb i t st) i = t.
Proof. intros. unfold tb_of, set_tb. cbn. rewrite upd_same. reflexivity. Qed.
Lemma tb_of_set_tb_other : forall i t st j, j <> i -> tb_of (set_tb i t st) j = tb_of st j.
Proof. intros. unfold tb_of, set_tb. cbn. rewrite upd_other by assumption. reflexivity. Qed.
Lemma tb_of_add_frame : forall f i st, tb_of (add_frame f i st) i = f :: tb_of st i.
Proof. intros. unfold add_frame. apply tb_of_set_tb. Qed.
Lemma tb_of_add_frame_other : forall f i j st, j <> i -> tb_of (add_frame f i st) j = tb_of st j.
Proof. intros. unfold add_frame, tb_of, set_tb. cbn. rewrite upd_other by assumption. reflexivity. Qed.

Lemma cls_of_add_frame : forall f i st j, cls_of (add_frame f i st) j = cls_of st j.
Proof.
  intros. unfold cls_of, add_frame, set_tb. cbn. unfold upd.
  destruct (Nat.eqb j i) eqn:E; [apply Nat.eqb_eq in E; subst|]; reflexivity.
Qed.

Lemma raise_value_own_tb : forall fn i st, raise_value fn i (tb_of st i) st = add_frame (FHelper fn KVal) i st.
Proof. intros. unfold raise_value. rewrite tb_eqb_refl. reflexivity. Qed.
(* raising the value with the saved traceback: afterwards its traceback is the saved one plus the raising frame *)
Lemma raise_value_tb : forall fn i t st,
  exists k, (k = KVal \/ k = KWtb) /\ tb_of (raise_value fn i t st) i = FHelper fn k :: t.
Proof.
  intros. unfold raise_value. destruct (tb_eqb (tb_of st i) t) eqn:E.
  - apply tb_eqb_eq in E. exists KVal. split; [auto|]. rewrite tb_of_add_frame. congruence.
  - exists KWtb. split; [auto|]. rewrite tb_of_add_frame, tb_of_set_tb. reflexivity.
Qed.
Lemma raise_value_logs : forall fn i t st, logs (raise_value fn i t st) = logs st.
Proof. intros. unfold raise_value. destruct (tb_eqb _ _); reflexivity. Qed.
Lemma raise_value_removed : forall fn i t st, removed (raise_value fn i t st) = removed st.
Proof. intros. unfold raise_value. destruct (tb_eqb _ _); reflexivity. Qed.
Lemma raise_value_hstack : forall fn i t st, hstack (raise_value fn i t st) = hstack st.
Proof. intros. unfold raise_value. destruct (tb_eqb _ _); reflexivity. Qed.
Lemma raise_value_next : forall fn i t st, next (raise_value fn i t st) = next st.
Proof. intros. unfold raise_value. destruct (tb_eqb _ _); reflexivity. Qed.

Lemma force_hand_stable : forall s st s' st' i, force_hand s st = (s', st', i) -> stable st st'.
Proof.
  intros s st s' st' i H. unfold force_hand in H.
  destruct (value s); [|destruct (type_ s) as [c|]; [destruct (ctor0 c)|]]; inversion H; subst; auto with stable.
Qed.

Lemma capture_hand_stable : forall chk s st s' st' r, capture_hand chk s st = (s', st', r) -> stable st st'.
Proof.
  intros chk s st s' st' r H. unfold capture_hand in H.
  destruct (hstack st); [destruct chk|]; inversion H; subst; auto with stable.
Qed.

Lemma exit_hand_stable : forall wf s st out s' st' out', exit_hand wf s st out = (s', st', out') -> stable st st'.
Proof.
  intros wf s st out s' st' out' H. unfold exit_hand in H. destruct out as [|i], (reraise s).
  - destruct (force_hand s st) as [[s1 st1] j] eqn:F. apply force_hand_stable in F.
    inversion H; subst. auto with stable.
  - inversion H; subst. apply stable_refl.
  - inversion H; subst. auto with stable.
  - inversion H; subst. apply stable_refl.
Qed.

Lemma filt_exit_hand_stable : forall p wf st out st' out', filt_exit_hand p wf st out = (st', out') -> stable st st'.
Proof.
  intros p wf st out st' out' H. unfold filt_exit_hand, pred_exc in H.
  destruct out as [|i]; [|destruct (pv p _)]; inversion H; subst; auto with stable.
Qed.

Lemma filt_call_hand_stable : forall p x st st' r, filt_call_hand p x st = (st', r) -> stable st st'.
Proof.
  intros p x st st' r H. unfold filt_call_hand, pred_exc in H.
  destruct (pv p _); [destruct (opt_nat_eqb _ _); [destruct (hd_error (hstack st))|destruct x]| | |destruct x];
    inversion H; subst; auto with stable.
Qed.

Definition tb_suffix (T t : list frame) : Prop := exists pre, t = pre ++ T.
(* object o still carries T at the end of its traceback, and so does whatever context s saved for it *)
Definition keeps (o : nat) (T : list frame) (s : sare) (st : state) : Prop :=
  tb_suffix T (tb_of st o) /\ (value s = Some o -> tb_suffix T (tb s)).

Lemma tb_suffix_refl : forall T, tb_suffix T T.
Proof. intro T. exists []. reflexivity. Qed.
Lemma tb_suffix_cons : forall T t f, tb_suffix T t -> tb_suffix T (f :: t).
Proof. intros T t f [pre H]. exists (f :: pre). rewrite H. reflexivity. Qed.

Lemma suffix_add_frame : forall T f i st o, tb_suffix T (tb_of st o) -> tb_suffix T (tb_of (add_frame f i st) o).
Proof.
  intros T f i st o H. destruct (Nat.eq_dec o i) as [->|N].
  - rewrite tb_of_add_frame. apply tb_suffix_cons. exact H.
  - rewrite tb_of_add_frame_other by assumption. exact H.
Qed.
Lemma suffix_raise_value : forall T fn i t st o,
  tb_suffix T (tb_of st o) -> (i = o -> tb_suffix T t) -> tb_suffix T (tb_of (raise_value fn i t st) o).
Proof.
  intros T fn i t st o H Ht. unfold raise_value. destruct (tb_eqb _ _); apply suffix_add_frame; [exact H|].
  destruct (Nat.eq_dec o i) as [->|N].
  - rewrite tb_of_set_tb. apply Ht. reflexivity.
  - rewrite tb_of_set_tb_other by assumption. exact H.
Qed.
Lemma suffix_alloc : forall T x st o,
  o < next st -> tb_suffix T (tb_of st o) ->
  tb_suffix T (tb_of (mkst (upd (heap st) (next st) x) (S (next st)) (hstack st) (logs st) (removed st)) o).
Proof. intros T x st o Ho H. unfold tb_of. cbn. rewrite upd_other by lia. exact H. Qed.

Create HintDb suffix.
#[export] Hint Resolve suffix_add_frame suffix_alloc : suffix.

Lemma force_hand_keeps : forall o T s st s' st' i,
  o < next st -> keeps o T s st -> force_hand s st = (s', st', i) -> keeps o T s' st'.
Proof.
  intros o T s st s' st' i Ho [K1 K2] H. unfold force_hand in H.
  destruct (value s) as [v|] eqn:V; [|destruct (type_ s) as [c|]; [destruct (ctor0 c)|]]; inversion H; subst;
    (split; [|cbn; congruence]).
  - apply suffix_raise_value; [exact K1|]. intros ->. exact (K2 eq_refl).
  - apply suffix_raise_value; [auto with suffix|]. intro E. lia.
  - auto with suffix.
  - auto with suffix.
Qed.

Lemma capture_hand_keeps : forall o T chk s st s' st' r,
  o < next st -> keeps o T s st -> capture_hand chk s st = (s', st', r) -> keeps o T s' st'.
Proof.
  intros o T chk s st s' st' r Ho [K1 K2] H. unfold capture_hand in H.
  destruct (hstack st) as [|i rest]; [destruct chk|]; inversion H; subst; (split; [auto with suffix|]).
  - exact K2.
  - cbn. discriminate.
  - cbn. intro E. inversion E; subst. exact K1.
Qed.

Lemma exit_hand_keeps : forall o T wf s st out s' st' out',
  o < next st -> keeps o T s st -> exit_hand wf s st out = (s', st', out') -> keeps o T s' st'.
Proof.
  intros o T wf s st out s' st' out' Ho K H. unfold exit_hand in H. destruct out as [|i], (reraise s).
  - destruct (force_hand s st) as [[s1 st1] j] eqn:F. inversion H; subst.
    destruct (force_hand_keeps _ _ _ _ _ _ _ Ho K F) as [K1 K2]. split; [auto with suffix|exact K2].
  - inversion H; subst. exact K.
  - inversion H; subst. exact K.
  - inversion H; subst. exact K.
Qed.

Lemma keeps_state_only : forall o T s s' st, keeps o T s st -> (value s' = Some o -> tb_suffix T (tb s')) -> keeps o T s' st.
Proof. intros o T s s' st [K1 _] H. split; assumption. Qed.

(* with ctx: block, when the block has both properties (P: what the block needs for the second; [block] stands
   for the body's [exec] with its induction hypothesis) *)
Lemma with_same_inv : forall (P : Prop) wf block s st s3 st3 ob out,
  (forall s st s' st' x, block s st = (s', st', x) ->
     stable st st' /\ (P -> forall o T, o < next st -> keeps o T s st -> keeps o T s' st')) ->
  with_same wf block s st = (s3, st3, ob, out) ->
  stable st st3 /\ (P -> forall o T, o < next st -> keeps o T s st -> keeps o T s3 st3).
Proof.
  intros P wf block s st s3 st3 ob out HB H. unfold with_same, sare_enter in H. rewrite capture_equiv in H.
  destruct (capture_hand gen_enter_check s st) as [[s1 st1] r] eqn:C.
  pose proof (capture_hand_stable _ _ _ _ _ _ C) as S1.
  destruct r as [j|].
  - inversion H; subst. split; [auto with stable|]. intros _ o T Ho K.
    destruct (capture_hand_keeps _ _ _ _ _ _ _ _ Ho K C) as [A B]. split; [auto with suffix|exact B].
  - destruct (block s1 st1) as [[s2 st2] o2] eqn:B. destruct (HB _ _ _ _ _ B) as [S2 K2].
    rewrite exit_equiv in H. destruct (exit_hand wf s2 st2 o2) as [[s4 st4] o4] eqn:X. inversion H; subst.
    pose proof (exit_hand_stable _ _ _ _ _ _ _ X) as S3.
    split; [eapply stable_trans; [exact S1|eapply stable_trans; eassumption]|].
    intros HP o T Ho K. pose proof (capture_hand_keeps _ _ _ _ _ _ _ _ Ho K C) as K1.
    eapply exit_hand_keeps; [|apply (K2 HP o T); [|exact K1]|exact X]; destruct S1, S2; lia.
Qed.

(* the object a direct filter call is handed, and the state once it has been made *)
Definition fcarg_state (a : fcarg) (st : state) : state * option nat :=
  match a with
  | ACur => (st, hd_error (hstack st))
  | ANew c m => let '(st1, i) := alloc (mkobj c [] (OSite m) None) st in (st1, Some i)
  | ANone => (st, None)
  | AObj i => (st, Some i)
  | AStored c m => let '(st1, i) := alloc (mkobj c [FPre] (OSite m) None) st in (st1, Some i)
  end.

Lemma exec_filter_call : forall p a l s st,
  exec (FilterCall p a l) s st =
  let '(st1, x) := fcarg_state a st in
  match filt_call_hand p x st1 with
  | (st2, Some j) => (s, add_frame (FProg l) j st2, Raised j)
  | (st2, None) => (s, st2, Normal)
  end.
Proof. intros. cbn [exec]. destruct a; cbn [fcarg_state alloc]; rewrite filt_call_equiv; reflexivity. Qed.

Lemma fcarg_state_stable : forall a st, stable st (fst (fcarg_state a st)).
Proof. intros. destruct a; cbn; auto with stable. Qed.

(* Both facts about every body, by one induction (no bound on depth).
   The modelled interpreter never changes the class / origin of an existing object, never forgets one, and leaves
   the stack of handled exceptions as it found it.  And unless the body itself assigns to __traceback__, whatever it
   does — K13 misuse included — an existing exception object never loses the traceback it had: T stays a suffix of
   o's traceback, and of the traceback any context saved for o. *)
Lemma exec_inv : forall b s st s' st' out,
  exec b s st = (s', st', out) ->
  stable st st' /\
  (tamper_free b = true -> forall o T, o < next st -> keeps o T s st -> keeps o T s' st').
Proof.
  induction b as [|c k|c k l|v|a IHa b IHb|a IHa h IHh|r0 l b IHb|r0 b IHb|l|l|p l b IHb|p a l|l b IHb|];
    intros s st s' st' out H; cbn [exec] in H; cbn [tamper_free].
  - (* Noop *) inversion H; subst. split; [apply stable_refl|auto].
  - (* RaiseOrig *) inversion H; subst. split; [auto with stable|]. intros _ o T Ho [K1 K2]. split; [auto with suffix|exact K2].
  - (* RaiseNew *) inversion H; subst. split; [auto with stable|]. intros _ o T Ho [K1 K2]. split; [auto with suffix|exact K2].
  - (* SetReraise *) inversion H; subst. split; [apply stable_refl|auto].
  - (* Seq *) destruct (exec a s st) as [[s1 st1] o1] eqn:A. destruct (IHa _ _ _ _ _ A) as [Sa Ka]. destruct o1.
    + destruct (IHb _ _ _ _ _ H) as [Sb Kb]. split; [eapply stable_trans; eassumption|].
      intros TF o T Ho K. apply andb_true_iff in TF. destruct TF as [TFa TFb].
      apply (Kb TFb); [destruct Sa; lia|apply (Ka TFa); assumption].
    + inversion H; subst. split; [exact Sa|]. intros TF. apply andb_true_iff in TF. apply Ka, TF.
  - (* Try *) destruct (exec a s st) as [[s1 st1] o1] eqn:A. destruct (IHa _ _ _ _ _ A) as [Sa Ka]. destruct o1 as [|i].
    + inversion H; subst. split; [exact Sa|]. intros TF. apply andb_true_iff in TF. apply Ka, TF.
    + destruct (exec h s1 (push i st1)) as [[s2 st2] o2] eqn:B. destruct (IHh _ _ _ _ _ B) as [Sb Kb].
      inversion H; subst. split; [eapply stable_trans; [exact Sa|eapply stable_push; exact Sb]|].
      intros TF o T Ho K. apply andb_true_iff in TF. destruct TF as [TFa TFb].
      (* push and pop do not touch what [keeps] speaks of *)
      change (keeps o T s' st2). apply (Kb TFb); [destruct Sa; cbn; lia|apply (Ka TFa); assumption].
  - (* Nested *) destruct (with_sare r0 l (FProg l) (fun s' st' => exec b s' st') st) as [[[s3 st3] ob] o3] eqn:W.
    inversion H; subst. destruct (with_same_inv _ _ _ _ _ _ _ _ _ IHb W) as [S3 K3]. split; [exact S3|].
    intros TF o T Ho K. split; [|apply K]. apply (K3 TF o T Ho). split; [apply K|cbn; discriminate].
  - (* Direct *) destruct (exec b (sare_new r0 2 st) st) as [[s1 st1] o1] eqn:B. destruct (IHb _ _ _ _ _ B) as [Sb Kb].
    inversion H; subst. split; [exact Sb|]. intros TF o T Ho K.
    assert (K0 : keeps o T (sare_new r0 2 st) st) by (split; [apply K|cbn; discriminate]).
    split; [apply (Kb TF o T Ho K0)|apply K].
  - (* ForceReraise *) rewrite do_force_equiv in H. destruct (force_hand s st) as [[s1 st1] i] eqn:F. inversion H; subst.
    pose proof (force_hand_stable _ _ _ _ _ F) as S1. split; [auto with stable|]. intros _ o T Ho K.
    destruct (force_hand_keeps _ _ _ _ _ _ _ Ho K F) as [A B]. split; [auto with suffix|exact B].
  - (* CaptureDirect *) unfold do_capture_stmt in H. rewrite capture_equiv in H.
    destruct (capture_hand gen_capture_default_check s st) as [[s1 st1] r] eqn:C.
    pose proof (capture_hand_stable _ _ _ _ _ _ C) as S1.
    split; [destruct r; inversion H; subst; auto with stable|]. intros _ o T Ho K.
    destruct (capture_hand_keeps _ _ _ _ _ _ _ _ Ho K C) as [A B].
    destruct r; inversion H; subst; (split; [auto with suffix|exact B]).
  - (* Filter *) destruct (exec b s st) as [[s1 st1] o1] eqn:B. destruct (IHb _ _ _ _ _ B) as [Sb Kb].
    rewrite filt_exit_equiv in H.
    destruct (filt_exit_hand p (FProg l) st1 o1) as [st2 o2] eqn:X. inversion H; subst.
    split; [eapply stable_trans; [exact Sb|eapply filt_exit_hand_stable; exact X]|]. intros TF o T Ho K.
    destruct (Kb TF o T Ho K) as [A1 A2]. assert (Ho1 : o < next st1) by (destruct Sb; lia).
    unfold filt_exit_hand, pred_exc in X.
    destruct o1 as [|i]; [|destruct (pv p _)]; inversion X; subst; (split; [auto with suffix|exact A2]).
  - (* FilterCall *) fold (exec (FilterCall p a l) s st) in H. rewrite exec_filter_call in H.
    pose proof (fcarg_state_stable a st) as S1.
    assert (A : forall o T, o < next st -> tb_suffix T (tb_of st o) ->
                o < next (fst (fcarg_state a st)) /\ tb_suffix T (tb_of (fst (fcarg_state a st)) o))
      by (intros; destruct a; cbn; auto with suffix).
    destruct (fcarg_state a st) as [st1 x]. cbn [fst] in S1, A.
    destruct (filt_call_hand p x st1) as [st2 r] eqn:F.
    split; [apply filt_call_hand_stable in F; apply (stable_trans _ _ _ S1) in F;
            destruct r; inversion H; subst; auto with stable|].
    intros _ o T Ho [K1 K2]. destruct (A o T Ho K1) as [Ho1 S1']. unfold filt_call_hand, pred_exc in F.
    destruct (pv p _); [destruct (opt_nat_eqb _ _); [destruct (hd_error (hstack st1)) as [i|]|destruct x]| | |destruct x];
      inversion F; subst; inversion H; subst; (split; [|exact K2]); auto with suffix.
    apply suffix_add_frame, suffix_raise_value; [exact S1'|]. intros ->. exact S1'.
  - (* WithCtx *) destruct (with_same (FProg l) (fun s' st' => exec b s' st') s st) as [[[s3 st3] ob] o3] eqn:W.
    inversion H; subst. exact (with_same_inv _ _ _ _ _ _ _ _ _ IHb W).
  - (* Tamper *) split; [destruct (hstack st) as [|i rest]; inversion H; subst; auto with stable|discriminate].
Qed.

Lemma exec_stable : forall b s st s' st' out, exec b s st = (s', st', out) -> stable st st'.
Proof. intros b s st s' st' out H. apply (exec_inv _ _ _ _ _ _ H). Qed.

Lemma exec_keeps_traceback : forall b o T s st s' st' out,
  tamper_free b = true ->
  o < next st -> keeps o T s st -> exec b s st = (s', st', out) -> keeps o T s' st'.
Proof. intros b o T s st s' st' out TF Ho K H. exact (proj2 (exec_inv _ _ _ _ _ _ H) TF o T Ho K). Qed.

(* a body that does not call force_reraise()/capture() on its own context leaves what the context
   captured untouched (only the reraise flag can change) — induction on the body, no bound *)
Lemma exec_keeps_capture : forall b s st s' st' out,
  direct_free0 b = true -> exec b s st = (s', st', out) ->
  type_ s' = type_ s /\ value s' = value s /\ tb s' = tb s /\ slab s' = slab s.
Proof.
  induction b as [|c k|c k l|v|a IHa b IHb|a IHa h IHh|r0 l b IHb|r0 b IHb|l|l|p l b IHb|p a l|l b IHb|];
    intros s st s' st' out D H; cbn [exec] in H; cbn [direct_free0] in D; try discriminate.
  - (* Noop *) inversion H; subst. auto.
  - (* RaiseOrig *) inversion H; subst. auto.
  - (* RaiseNew *) inversion H; subst. auto.
  - (* SetReraise *) inversion H; subst. auto.
  - (* Seq *) apply andb_true_iff in D. destruct D as [Da Db].
    destruct (exec a s st) as [[s1 st1] o1] eqn:A. apply (IHa _ _ _ _ _ Da) in A. destruct o1.
    + apply (IHb _ _ _ _ _ Db) in H. intuition congruence.
    + inversion H; subst. assumption.
  - (* Try *) apply andb_true_iff in D. destruct D as [Da Dh].
    destruct (exec a s st) as [[s1 st1] o1] eqn:A. apply (IHa _ _ _ _ _ Da) in A. destruct o1 as [|i].
    + inversion H; subst. assumption.
    + destruct (exec h s1 (push i st1)) as [[s2 st2] o2] eqn:B. apply (IHh _ _ _ _ _ Dh) in B.
      inversion H; subst. intuition congruence.
  - (* Nested *) destruct (with_sare _ _ _ _ _) as [[[s3 st3] ob] o3]. inversion H; subst. auto.
  - (* Direct *) destruct (exec b _ _) as [[s1 st1] o1]. inversion H; subst. auto.
  - (* Filter *) destruct (exec b s st) as [[s1 st1] o1] eqn:B. apply (IHb _ _ _ _ _ D) in B.
    destruct (with_exit _ _ _ _ _ _ _) as [[s2 st2] o2]. inversion H; subst. assumption.
  - (* FilterCall *) fold (exec (FilterCall p a l) s st) in H. rewrite exec_filter_call in H.
    destruct (fcarg_state a st) as [st1 x]. destruct (filt_call_hand p x st1) as [st2 [j|]]; inversion H; subst; auto.
  - (* Tamper *) destruct (hstack st) as [|i rest]; inversion H; subst; auto.
Qed.

Definition same_object (st st' : state) (o : nat) : Prop :=
  ecls (heap st' o) = ecls (heap st o) /\ eorg (heap st' o) = eorg (heap st o).

Lemma stable_same_object : forall st st' o, stable st st' -> o < next st -> same_object st st' o.
Proof. intros st st' o [_ [_ O]] Ho. destruct (O o Ho) as [A [B _]]. split; assumption. Qed.

(* the context as __enter__ leaves it when exception o is being handled: whatever the object held
   before (a stale type_, an earlier capture) is overwritten; only the flag and the logger stay *)
Definition reentered (s : sare) (st : state) (o : nat) : sare :=
  mksare (reraise s) (Some (cls_of st o)) (Some o) (tb_of st o) (slab s).
Definition entered (r0 : bool) (lab : N) (st : state) (o : nat) : sare :=
  mksare r0 (Some (cls_of st o)) (Some o) (tb_of st o) lab.

Lemma sare_enter_any : forall wf s st o rest,
  hstack st = o :: rest -> sare_enter wf s st = (reentered s st o, st, Normal).
Proof.
  intros wf s st o rest H. unfold sare_enter. rewrite capture_equiv.
  unfold capture_hand. rewrite H. reflexivity.
Qed.

Lemma with_same_unfold : forall wf block s st o rest,
  hstack st = o :: rest ->
  with_same wf block s st =
  let '(s2, st2, out) := block (reentered s st o) st in
  let '(s3, st3, out') := exit_hand wf s2 st2 out in (s3, st3, out, out').
Proof.
  intros wf block s st o rest H. unfold with_same. rewrite (sare_enter_any _ _ _ _ _ H).
  destruct (block (reentered s st o) st) as [[s2 st2] out]. rewrite exit_equiv. reflexivity.
Qed.

Lemma sare_enter_active : forall wf r0 lab st o rest,
  hstack st = o :: rest ->
  sare_enter wf (sare_new r0 lab st) st = (mksare r0 (Some (cls_of st o)) (Some o) (tb_of st o) lab, st, Normal).
Proof. intros wf r0 lab st o rest H. exact (sare_enter_any wf (sare_new r0 lab st) st o rest H). Qed.

Lemma with_sare_unfold : forall r0 lab wf block st o rest,
  hstack st = o :: rest ->
  with_sare r0 lab wf block st =
  let '(s2, st2, out) := block (entered r0 lab st o) st in
  let '(s3, st3, out') := exit_hand wf s2 st2 out in (s3, st3, out, out').
Proof.
  intros r0 lab wf block st o rest H. exact (with_same_unfold wf block (sare_new r0 lab st) st o rest H).
Qed.

(* force_reraise() on a context that holds o: o is raised with the saved traceback plus the raising frame *)
Lemma force_hand_saved : forall s st o,
  value s = Some o ->
  exists st' k, force_hand s st = (sare_clear s, st', o) /\ stable st st' /\ logs st' = logs st /\
                (k = KVal \/ k = KWtb) /\ tb_of st' o = FHelper FnForce k :: tb s.
Proof.
  intros s st o V. unfold force_hand. rewrite V.
  destruct (raise_value_tb FnForce o (tb s) st) as [k [Hk Tk]].
  eexists. exists k. split; [reflexivity|]. split; [auto with stable|]. split; [apply raise_value_logs|]. auto.
Qed.

(* with ctx: body, on an EXISTING context object s (a fresh one included: [with_sare] is [with_same] on
   [sare_new]), while o is being handled.  What counts is the exception active on this, the latest, entry;
   whatever the object held from earlier use is irrelevant.
   The body completes: o is raised again — the same object, its traceback the one captured on entry plus the
   three frames of the re-raise — iff the flag is on at exit; otherwise nothing is raised and nothing changes;
   nothing is logged in either case *)
Lemma sare_reuse_normal_exit : forall wf b s st o rest s3 st3 out',
  hstack st = o :: rest -> o < next st -> direct_free0 b = true ->
  with_same wf (fun s st => exec b s st) s st = (s3, st3, Normal, out') ->
  exists s2 st2,
    exec b (reentered s st o) st = (s2, st2, Normal) /\ reraise s3 = reraise s2 /\
    (reraise s2 = true ->
       out' = Raised o /\ same_object st st3 o /\ logs st3 = logs st2 /\
       exists k, (k = KVal \/ k = KWtb) /\
                 tb_of st3 o = wf :: FHelper FnExit KCall :: FHelper FnForce k :: tb_of st o) /\
    (reraise s2 = false -> out' = Normal /\ st3 = st2).
Proof.
  intros wf b s st o rest s3 st3 out' HS Ho D W.
  rewrite (with_same_unfold _ _ _ _ _ _ HS) in W.
  destruct (exec b (reentered s st o) st) as [[s2 st2] out] eqn:E.
  destruct (exit_hand wf s2 st2 out) as [[s4 st4] o4] eqn:X. inversion W; subst. clear W.
  exists s2, st2. split; [reflexivity|].
  pose proof (exec_keeps_capture _ _ _ _ _ _ D E) as [_ [Hv [Hb _]]]. cbn in Hv, Hb.
  unfold exit_hand in X. destruct (reraise s2) eqn:R.
  - destruct (force_hand_saved s2 st2 o Hv) as [st' [k [F [S [L [Hk Tk]]]]]].
    rewrite F in X. inversion X; subst. clear X.
    split; [exact R|]. split; [|discriminate]. intros _. split; [reflexivity|]. split; [|split].
    + apply stable_same_object; [|exact Ho].
      apply (stable_trans _ _ _ (exec_stable _ _ _ _ _ _ E)). auto with stable.
    + exact L.
    + exists k. split; [exact Hk|]. rewrite !tb_of_add_frame, Tk, Hb. reflexivity.
  - inversion X; subst. split; [exact R|]. split; [discriminate|]. auto.
Qed.

(* the body raises x: x propagates (same object, nothing added to it), the context is not touched, and the
   original is logged exactly when the flag is on at that moment — for EVERY body; when the body does not
   call force_reraise()/capture() on its own context, what is logged is the original exception with the
   traceback captured on entry *)
Lemma sare_reuse_body_raises : forall wf b s st o rest s3 st3 x out',
  hstack st = o :: rest ->
  with_same wf (fun s st => exec b s st) s st = (s3, st3, Raised x, out') ->
  exists st2,
    exec b (reentered s st o) st = (s3, st2, Raised x) /\ out' = Raised x /\
    st3 = (if reraise s3 then add_log (mklog (slab s3) (type_ s3) (value s3) (tb s3)) st2 else st2) /\
    (direct_free0 b = true ->
       slab s3 = slab s /\ type_ s3 = Some (cls_of st o) /\ value s3 = Some o /\ tb s3 = tb_of st o).
Proof.
  intros wf b s st o rest s3 st3 x out' HS W.
  rewrite (with_same_unfold _ _ _ _ _ _ HS) in W.
  destruct (exec b (reentered s st o) st) as [[s2 st2] out] eqn:E.
  destruct (exit_hand wf s2 st2 out) as [[s4 st4] o4] eqn:X. inversion W; subst. clear W.
  unfold exit_hand in X. inversion X; subst. clear X.
  exists st2. split; [reflexivity|]. split; [reflexivity|]. split; [reflexivity|].
  intro D. pose proof (exec_keeps_capture _ _ _ _ _ _ D E) as [Ht [Hv [Hb Hl]]]. cbn in Ht, Hv, Hb, Hl. auto.
Qed.

(* the capture()/force_reraise() protocol without a with statement *)
Lemma sare_direct_protocol : forall r0 l1 l2 b s st o rest s' st' out,
  hstack st = o :: rest -> o < next st -> direct_free0 b = true ->
  exec (Direct r0 (Seq (CaptureDirect l1) (Seq b (ForceReraise l2)))) s st = (s', st', out) ->
  exists s2 st2 ob,
    exec b (entered r0 2 st o) st = (s2, st2, ob) /\
    match ob with
    | Raised x => out = Raised x /\ st' = st2
    | Normal => out = Raised o /\ same_object st st' o /\
                exists k, (k = KVal \/ k = KWtb) /\ tb_of st' o = FProg l2 :: FHelper FnForce k :: tb_of st o
    end.
Proof.
  intros r0 l1 l2 b s st o rest s' st' out HS Ho D H.
  cbn [exec] in H. unfold do_capture_stmt in H. rewrite capture_equiv, sare_init_equiv in H.
  unfold capture_hand in H. rewrite HS in H. cbn -[exec do_force] in H.
  change (mksare r0 (Some (cls_of st o)) (Some o) (tb_of st o) 2) with (entered r0 2 st o) in H.
  destruct (exec b (entered r0 2 st o) st) as [[s2 st2] ob] eqn:E.
  exists s2, st2, ob. split; [reflexivity|].
  destruct ob as [|x]; [|inversion H; subst; auto].
  pose proof (exec_keeps_capture _ _ _ _ _ _ D E) as [_ [Hv [Hb _]]]. cbn in Hv, Hb.
  rewrite do_force_equiv in H.
  destruct (force_hand_saved s2 st2 o Hv) as [st1 [k [F [S [_ [Hk Tk]]]]]].
  rewrite F in H. inversion H; subst. clear H.
  split; [reflexivity|]. split.
  - apply stable_same_object; [|exact Ho].
    apply (stable_trans _ _ _ (exec_stable _ _ _ _ _ _ E)). auto with stable.
  - exists k. split; [exact Hk|]. rewrite tb_of_add_frame, Tk, Hb. reflexivity.
Qed.

(* finding K13: "body completes with the flag on => the exception active on entry is what comes out", for every
   body, is false ([k13_refutes]) *)
Definition sare_full_statement : Prop :=
  forall r0 lab wf b st o rest,
    hstack st = o :: rest -> o < next st ->
    let '(s3, _, outb, out') := with_sare r0 lab wf (fun s st => exec b s st) st in
    outb = Normal -> reraise s3 = true -> out' = Raised o.

Definition plain_cls := mkcls 0 true true true.
Definition mand_cls := mkcls 1 false true true.
(* the program state after   try: raise_orig()  except BaseException:   *)
Definition handling_orig (c : cls) : state :=
  match exec (RaiseOrig c 0) (sare_blank 0) st0 with
  | (_, st, Raised i) => push i st
  | (_, st, Normal) => st
  end.
(* try: ctx.force_reraise()  except BaseException: pass *)
Definition k13_body : body := Try (ForceReraise 10) Noop.

(* __exit__ with the flag on, when the saved value is gone and only its class c is left: it raises an object
   that did not exist before — a fresh instance of c, or TypeError when c needs constructor arguments *)
Lemma exit_hand_invents : forall wf s st c,
  reraise s = true -> value s = None -> type_ s = Some c ->
  exists s' st', exit_hand wf s st Normal = (s', st', Raised (next st)) /\ reraise s' = true /\
                 eorg (heap st' (next st)) = ONew /\
                 ecls (heap st' (next st)) = (if ctor0 c then c else cls_type).
Proof.
  intros wf s st c R V Ty. unfold exit_hand, force_hand. rewrite R, V, Ty.
  destruct (ctor0 c); cbn [alloc]; eexists; eexists; (split; [reflexivity|]); (split; [exact R|]).
  - split; apply (alloc_then (mkobj c [] ONew None) st); auto with stable.
  - split; apply (alloc_then (mkobj cls_type [FHelper FnForce KCtor] ONew None) st); auto with stable.
Qed.

(* ctx.force_reraise() in a try block that swallows what it raises: the context is left cleared *)
Lemma try_force_noop : forall l s st o,
  value s = Some o ->
  exec (Try (ForceReraise l) Noop) s st =
  (sare_clear s, add_frame (FProg l) o (raise_value FnForce o (tb s) st), Normal).
Proof.
  intros l s st o V. cbn [exec]. rewrite do_force_equiv. unfold force_hand. rewrite V, pop_push. reflexivity.
Qed.

(* K13 in any state where an exception o is being handled: the with statement ends by raising the object
   numbered [next st], which did not exist on entry *)
Lemma k13_outcome : forall lab wf l st o rest,
  hstack st = o :: rest ->
  exists s3 st3,
    with_sare true lab wf (fun s st => exec (Try (ForceReraise l) Noop) s st) st
    = (s3, st3, Normal, Raised (next st)) /\
    reraise s3 = true /\ eorg (heap st3 (next st)) = ONew /\
    ecls (heap st3 (next st)) = (if ctor0 (cls_of st o) then cls_of st o else cls_type).
Proof.
  intros lab wf l st o rest HS.
  rewrite (with_sare_unfold _ _ _ _ _ _ _ HS), (try_force_noop l (entered true lab st o) st o eq_refl).
  set (st1 := add_frame _ _ _).
  assert (N1 : next st1 = next st) by apply raise_value_next.
  destruct (exit_hand_invents wf (sare_clear (entered true lab st o)) st1 (cls_of st o) eq_refl eq_refl eq_refl)
    as [s3 [st3 [X P]]].
  rewrite N1 in X, P. rewrite X. exists s3, st3. split; [reflexivity|exact P].
Qed.

Lemma k13_refutes : ~ sare_full_statement.
Proof.
  intro H. specialize (H true 2%N (FProg 2) k13_body (handling_orig plain_cls) 0 [] eq_refl (Nat.lt_0_succ 0)).
  destruct (k13_outcome 2 (FProg 2) 10 (handling_orig plain_cls) 0 [] eq_refl) as [s3 [st3 [E [R _]]]].
  unfold k13_body in H. rewrite E in H. specialize (H eq_refl R). discriminate.
Qed.

(* an object the predicate rejects: [raise] when it is the exception being handled, [raise ex] otherwise —
   either way the one frame of the raise is added to it *)
Lemma filt_call_hand_rejects : forall p st i,
  pv p (Some (cls_of st i)) = PFalsy ->
  filt_call_hand p (Some i) st = (add_frame (FHelper FnFiltCall KVal) i st, Some i).
Proof.
  intros p st i V. unfold filt_call_hand. cbn [option_map]. rewrite V.
  destruct (hd_error (hstack st)) as [c|]; cbn [opt_nat_eqb]; [|reflexivity].
  destruct (Nat.eqb c i) eqn:Q; [|reflexivity].
  apply Nat.eqb_eq in Q. subst c. rewrite raise_value_own_tb. reflexivity.
Qed.

(* the block raised an Exception and remove() returns: remove() was called once, then the ORIGINAL
   exception comes out — same object, same traceback as when it left the block, nothing logged *)
Lemma rpoe_removes_then_reraises : forall wf st i,
  isexc (cls_of st i) = true ->
  exists st', rpoe_exit None wf st (Raised i) = (st', Raised i) /\
              removed st' = N.succ (removed st) /\ tb_of st' i = tb_of st i /\
              stable st st' /\ logs st' = logs st.
Proof.
  intros wf st i E. unfold rpoe_exit, gen_rpoe_catch. rewrite cls_of_add_frame, E.
  rewrite (with_sare_unfold _ _ _ _ _ i (hstack st)) by reflexivity.
  change gen_rpoe_reraise with true.
  cbn -[raise_value add_frame set_tb tb_of pop push count_remove].
  rewrite Nat.eqb_refl.
  eexists. split; [reflexivity|]. split; [|split; [|split]].
  - cbn. rewrite raise_value_removed. reflexivity.
  - apply tb_of_set_tb.
  - apply stable_set_tb, (stable_trans _ (add_frame FRpoe i st)); [auto with stable|].
    apply (stable_push i). auto with stable.
  - cbn. rewrite raise_value_logs. reflexivity.
Qed.

(* remove() itself raises: its exception (a new object) propagates and the original is logged once *)
Lemma rpoe_remover_raises : forall wf st i c,
  i < next st -> isexc (cls_of st i) = true ->
  exists st', rpoe_exit (Some c) wf st (Raised i) = (st', Raised (next st)) /\
              removed st' = N.succ (removed st) /\ stable st st' /\
              ecls (heap st' (next st)) = c /\
              logs st' = logs st ++ [mklog 9 (Some (cls_of st i)) (Some i) (FRpoe :: tb_of st i)].
Proof.
  intros wf st i c Hi E. unfold rpoe_exit, gen_rpoe_catch. rewrite cls_of_add_frame, E.
  rewrite (with_sare_unfold _ _ _ _ _ i (hstack st)) by reflexivity.
  change gen_rpoe_reraise with true.
  cbn -[add_frame set_tb tb_of pop push count_remove add_log].
  assert (Q : Nat.eqb (next (count_remove (push i (add_frame FRpoe i st)))) i = false)
    by (apply Nat.eqb_neq; cbn; lia).
  rewrite Q.
  eexists. split; [reflexivity|]. split; [reflexivity|]. split; [|split].
  - do 2 apply stable_add_frame. apply (stable_trans _ (add_frame FRpoe i st)); [auto with stable|].
    apply (stable_push i). auto with stable.
  - cbn. unfold upd. rewrite !Nat.eqb_refl. reflexivity.
  - cbn. unfold cls_of, tb_of. cbn. rewrite !upd_same. reflexivity.
Qed.

Lemma rpoe_no_exception : forall rm wf st, rpoe_exit rm wf st Normal = (st, Normal).
Proof. reflexivity. Qed.

Lemma rwc_given_lemma : forall c g wf st,
  exists st', rwc c (Some g) wf st = (st', Raised (next st)) /\ stable st st' /\
              ecls (heap st' (next st)) = c /\ ecause (heap st' (next st)) = g /\
              rwc_dunder_cause st' (next st) = g.
Proof.
  intros c g wf st. unfold rwc, rwc_dunder_cause. change gen_rwc_raise_from_cause with true. cbn [alloc].
  eexists. split; [reflexivity|].
  destruct (alloc_then (mkobj c [wf; FRwc] ONew g) st _ (stable_refl _)) as [S [C [_ A]]]. auto.
Qed.

(* non-vacuity: the hypotheses of the lemmas above have instances *)

(* try: raise K (caught); ctx.reraise = False; with nested: pass (caught); ctx.reraise = True *)
Definition ex_body : body :=
  Seq (Try (RaiseNew mand_cls 0 10) (SetReraise false))
      (Seq (Try (Nested true 11 Noop) Noop) (SetReraise true)).

Example sare_normal_exit_example :
  hstack (handling_orig mand_cls) = [0] /\ 0 < next (handling_orig mand_cls) /\ direct_free0 ex_body = true /\
  exists s3 st3 out', with_sare false 2 (FProg 2) (fun s st => exec ex_body s st) (handling_orig mand_cls)
                      = (s3, st3, Normal, out') /\ reraise s3 = true /\ out' = Raised 0.
Proof.
  split; [reflexivity|]. split; [cbn; lia|]. split; [reflexivity|].
  eexists. eexists. eexists. split; [vm_compute; reflexivity|]. split; reflexivity.
Qed.

Example sare_body_raises_example :
  exists s3 st3 out', with_sare true 2 (FProg 2) (fun s st => exec (Seq ex_body (RaiseNew plain_cls 1 20)) s st)
                                (handling_orig mand_cls) = (s3, st3, Raised 2, out') /\ out' = Raised 2 /\
                      length (logs st3) = 1.
Proof. eexists. eexists. eexists. split; [vm_compute; reflexivity|]. split; reflexivity. Qed.

Example sare_direct_protocol_example :
  exists s' st', exec (Direct true (Seq (CaptureDirect 2) (Seq ex_body (ForceReraise 3)))) (sare_blank 0)
                      (handling_orig plain_cls) = (s', st', Raised 0).
Proof. eexists. eexists. vm_compute. reflexivity. Qed.

Definition ex_pred : predspec :=
  mkpred (fun oc => match oc with Some c => if ctor0 c then PTruthy else PFalsy | None => PRaise end) plain_cls 1002 [].
Example filter_example_suppressed :
  exists s st, exec (Filter ex_pred 2 (RaiseNew plain_cls 0 10)) (sare_blank 0) st0 = (s, st, Normal).
Proof. eexists. eexists. vm_compute. reflexivity. Qed.
Example filter_example_propagated :
  exists s st, exec (Filter ex_pred 2 (RaiseNew mand_cls 0 10)) (sare_blank 0) st0 = (s, st, Raised 0).
Proof. eexists. eexists. vm_compute. reflexivity. Qed.
Example rpoe_example :
  isexc (cls_of (handling_orig plain_cls) 0) = true /\ 0 < next (handling_orig plain_cls) /\
  isexc (cls_of (handling_orig (mkcls 2 true false true)) 0) = false.
Proof. split; [reflexivity|]. split; [cbn; lia|reflexivity]. Qed.

(* ctx.force_reraise() as a statement, on a context that still holds o — an object that existed in st0, of
   which the present state is a stable successor *)
Lemma do_force_saved : forall wf s st0 st o,
  stable st0 st -> o < next st0 -> value s = Some o ->
  exists s' st', do_force wf s st = (s', st', Raised o) /\ same_object st0 st' o /\
                 exists k, (k = KVal \/ k = KWtb) /\ tb_of st' o = wf :: FHelper FnForce k :: tb s.
Proof.
  intros wf s st0 st o S0 Ho V. rewrite do_force_equiv.
  destruct (force_hand_saved s st o V) as [st1 [k [F [S [_ [Hk Tk]]]]]]. rewrite F.
  eexists. eexists. split; [reflexivity|]. split.
  - apply stable_same_object; [|exact Ho]. apply (stable_trans _ _ _ S0). auto with stable.
  - exists k. split; [exact Hk|]. rewrite tb_of_add_frame, Tk. reflexivity.
Qed.

(* ctx.capture(); ctx.force_reraise() on ANY context (fresh, or re-used after a with block with any body and
   any outcome) while o is being handled: o is raised, the same object, its traceback just extended *)
Lemma capture_then_force : forall wfc wf s st o rest,
  hstack st = o :: rest ->
  exists s1 s' st', do_capture_stmt wfc s st = (s1, st, Normal) /\
                    do_force wf s1 st = (s', st', Raised o) /\ stable st st' /\
                    tb_of st' o = wf :: FHelper FnForce KVal :: tb_of st o.
Proof.
  intros wfc wf s st o rest HS. unfold do_capture_stmt. rewrite capture_equiv. unfold capture_hand. rewrite HS.
  eexists. eexists. eexists. split; [reflexivity|]. rewrite do_force_equiv. unfold force_hand. cbn [value tb].
  rewrite raise_value_own_tb.
  split; [reflexivity|]. split; [auto with stable|]. rewrite !tb_of_add_frame. reflexivity.
Qed.

Example sare_post_block_example :
  exists s3 st3, with_sare false 2 (FProg 2) (fun s st => exec (Try (RaiseNew mand_cls 0 10) Noop) s st)
                           (handling_orig mand_cls) = (s3, st3, Normal, Normal).
Proof. eexists. eexists. vm_compute. reflexivity. Qed.

(* the body sets the handled exception's __traceback__ to None and re-raises it elsewhere; the with statement
   still re-raises it with exactly the traceback captured on entry (this is what with_traceback(self.tb) is for) *)
Definition tamper_body : body := Seq Tamper (Try (FilterCall nopred ACur 12) Noop).
Example tamper_example :
  direct_free0 tamper_body = true /\ tamper_free tamper_body = false /\
  exists s3 st3, with_sare true 2 (FProg 2) (fun s st => exec tamper_body s st) (handling_orig plain_cls)
                 = (s3, st3, Normal, Raised 0) /\
                 tb_of st3 0 = FProg 2 :: FHelper FnExit KCall :: FHelper FnForce KWtb :: tb_of (handling_orig plain_cls) 0.
Proof.
  split; [reflexivity|]. split; [reflexivity|]. eexists. eexists. split; vm_compute; reflexivity.
Qed.

Lemma filt_init_fun_lemma : forall n p, filt_pred (filt_init (CFun n p)) = p /\ fnamed_of (filt_init (CFun n p)) = n.
Proof. intros. split; reflexivity. Qed.

Definition filter_of_filter_full_statement : Prop :=
  forall n p x, pv (filt_pred (filt_init (CFilt (filt_init (CFun n p))))) x = pv p x.
Definition accept_all : predspec := mkpred (fun _ => PTruthy) plain_cls 1002 [].
(* finding K14 (exception_filter.__init__ given an exception_filter): the accepted exception is NOT suppressed by
   the doubly wrapped filter *)
Lemma k14_not_suppressed :
  exists s st, exec (Filter (filt_pred (filt_init (CFilt (filt_init (CFun false accept_all))))) 2 (RaiseNew plain_cls 0 10))
                    (sare_blank 0) st0 = (s, st, Raised 0).
Proof. eexists. eexists. vm_compute. reflexivity. Qed.

(* truthiness of the exception object plays no role in capture(): a falsy active exception is captured like any other *)
Definition falsy_cls := mkcls 6 true true false.
Example capture_falsy_example :
  exists s st, do_capture_stmt (FProg 2) (sare_blank 0) (handling_orig falsy_cls) = (s, st, Normal) /\ value s = Some 0.
Proof. eexists. eexists. split; vm_compute; reflexivity. Qed.
