(* Proofs/C11_V6.v — the IPv6 text form: the model recogniser and the 16-bit units it reads <-> the RFC 4291
   grammar and its declarative units.  The recogniser is shown sound on its own; its completeness comes
   from the completeness of the unit reader, which agrees with it on every text. *)
Require Import OV.Base.Bytes OV.Base.Py OV.Base.PyInt OV.Base.Str OV.Base.C11_Lib.
Require Import OV.Gen.C11_Netutils OV.Model.C11 OV.Model.C11_Spec OV.Proofs.C11_Split OV.Proofs.C11_V4.
Open Scope N_scope.

Lemma is_hex_iff c : is_hex c = true <-> hex_char c.
Proof. unfold is_hex, hex_char. lia. Qed.

Lemma forallb_Forall {A} (P : A -> bool) (Q : A -> Prop) l :
  (forall x, P x = true <-> Q x) -> (forallb P l = true <-> Forall Q l).
Proof.
  intros E. induction l as [|x t IH]; cbn.
  - split; constructor.
  - rewrite andb_true_iff, IH, E. split.
    + intros [? ?]. constructor; assumption.
    + intros H. inversion H. split; assumption.
Qed.

Lemma h16b_iff f : h16b f = true <-> h16 f.
Proof.
  unfold h16b, h16. destruct f as [|c t].
  - split; [discriminate|]. cbn. lia.
  - rewrite andb_true_iff, (forallb_Forall is_hex hex_char) by apply is_hex_iff.
    rewrite Nat.leb_le. cbn [length]. split; intros [? ?]; split; try assumption; lia.
Qed.

Lemma h16_nonempty f : h16 f -> f <> [].
Proof. intros [[H _] _] ->. cbn in H. lia. Qed.

Lemma h16_nocolon f : h16 f -> ~ In 58 f.
Proof.
  intros [_ H] Hin. rewrite Forall_forall in H. specialize (H _ Hin). unfold hex_char in H. lia.
Qed.

Lemma quad_nocolon q : dotted_quad q -> ~ In 58 q.
Proof.
  intros Q Hin. apply quad_chars in Q. rewrite forallb_forall in Q. specialize (Q _ Hin). discriminate.
Qed.

Lemma quad_has_dot q : dotted_quad q -> In 46 q.
Proof.
  intros [a [b [c [d [_ [_ [_ [_ ->]]]]]]]]. unfold dots. cbn [join]. apply in_or_app. right. left. reflexivity.
Qed.

Lemma quad_not_h16 q : dotted_quad q -> h16b q = false.
Proof.
  intros Q. destruct (h16b q) eqn:E; [|reflexivity]. apply h16b_iff in E. destruct E as [_ E].
  rewrite Forall_forall in E. specialize (E _ (quad_has_dot q Q)). unfold hex_char in E. lia.
Qed.

Lemma hex_digit_val_lt c : is_hex c = true -> hex_digit_val c < 16.
Proof. unfold is_hex, hex_digit_val. intros H. destruct (c <=? 57) eqn:E1; [lia|]. destruct (c <=? 70) eqn:E2; lia. Qed.

Lemma radix16_bound f acc : forallb is_hex f = true ->
  radix_val 16 hex_digit_val f acc < (acc + 1) * 16 ^ N.of_nat (length f).
Proof.
  revert acc. induction f as [|c f IH]; intros acc H; cbn [radix_val length].
  - cbn. lia.
  - cbn [forallb] in H. apply andb_true_iff in H. destruct H as [Hc Hf].
    specialize (IH (acc * 16 + hex_digit_val c) Hf). apply hex_digit_val_lt in Hc.
    rewrite Nat2N.inj_succ, N.pow_succ_r'. nia.
Qed.

Lemma hexval_bound f : forallb is_hex f = true -> hexval f < 16 ^ N.of_nat (length f).
Proof. intros H. pose proof (radix16_bound f 0 H). unfold hexval. lia. Qed.

Definition small16 (u : N) : Prop := u < 65536.

Lemma hexval_small f : h16b f = true -> small16 (hexval f).
Proof.
  unfold h16b, small16. destruct f as [|c t]; [discriminate|]. intros H.
  apply andb_true_iff in H. destruct H as [L X]. apply Nat.leb_le in L.
  eapply N.lt_le_trans; [apply hexval_bound; exact X|]. change 65536 with (16 ^ 4). apply N.pow_le_mono_r; lia.
Qed.

Lemma units_h_inv fs n : units_h fs = Some n -> Forall h16 fs /\ n = length fs.
Proof.
  revert n. induction fs as [|f t IH]; intros n; cbn [units_h].
  - intros [= <-]. split; [constructor|reflexivity].
  - destruct (h16b f) eqn:E; [|discriminate]. destruct (units_h t) as [m|]; [|discriminate].
    intros [= <-]. destruct (IH m eq_refl) as [Ht ->]. split; [constructor; [apply h16b_iff, E|exact Ht]|reflexivity].
Qed.

(* what a '::'-free field list may be: groups, optionally ending in a dotted quad *)
Definition tail_shape (R : list str) (n : nat) : Prop :=
  (Forall h16 R /\ n = length R) \/
  (exists g q, R = g ++ [q] /\ Forall h16 g /\ dotted_quad q /\ n = (length g + 2)%nat).

Lemma units_cons f f2 t : units (f :: f2 :: t) = if h16b f then option_map S (units (f2 :: t)) else None.
Proof. reflexivity. Qed.

Lemma units_inv fs n : units fs = Some n -> tail_shape fs n.
Proof.
  revert n. induction fs as [|f t IH]; intros n; [|destruct t as [|f2 t2]].
  - intros [= <-]. left. split; [constructor|reflexivity].
  - cbn [units]. destruct (h16b f) eqn:E.
    + intros [= <-]. left. split; [constructor; [apply h16b_iff, E|constructor]|reflexivity].
    + destruct (pton4b f) eqn:P; [|discriminate]. intros [= <-].
      right. exists [], f. repeat split; [constructor|apply pton4b_iff, P].
  - rewrite units_cons. destruct (h16b f) eqn:E; [|discriminate]. apply h16b_iff in E.
    destruct (units (f2 :: t2)) as [m|]; [|discriminate]. intros [= <-].
    destruct (IH m eq_refl) as [[Ht ->]|[g [q [Hg [Hh [Q ->]]]]]].
    + left. split; [constructor; assumption|reflexivity].
    + right. exists (f :: g), q. rewrite Hg. repeat split; try assumption. constructor; assumption.
Qed.

(* fields of a tail: non-empty and colon-free *)
Definition plain (f : str) : Prop := f <> [] /\ ~ In 58 f.

Lemma h16_plain f : h16 f -> plain f.
Proof. intros H. split; [apply h16_nonempty|apply h16_nocolon]; exact H. Qed.

Lemma quad_plain q : dotted_quad q -> plain q.
Proof. intros Q. split; [apply quad_nonempty|apply quad_nocolon]; exact Q. Qed.

Lemma Forall_h16_plain l : Forall h16 l -> Forall plain l.
Proof. apply Forall_impl. exact h16_plain. Qed.

Lemma tail_shape_plain R n : tail_shape R n -> Forall plain R.
Proof.
  intros [[H _]|[g [q [-> [H [Q _]]]]]].
  - apply Forall_h16_plain, H.
  - apply Forall_app. split; [apply Forall_h16_plain, H|constructor; [apply quad_plain, Q|constructor]].
Qed.

Lemma cut_empty_none fs : Forall (fun f => f <> []) fs -> cut_empty fs = None.
Proof.
  induction fs as [|f t IH]; intros H; [reflexivity|]. inversion H as [|? ? Hf Ht]; subst.
  cbn [cut_empty]. destruct f; [congruence|]. rewrite IH by exact Ht. reflexivity.
Qed.

Lemma cut_empty_some l r : Forall (fun f => f <> []) l -> cut_empty (l ++ [] :: r) = Some (l, r).
Proof.
  induction l as [|f t IH]; intros H; [reflexivity|]. inversion H as [|? ? Hf Ht]; subst.
  cbn [cut_empty app]. destruct f; [congruence|]. rewrite IH by exact Ht. reflexivity.
Qed.

Lemma cut_empty_inv fs l r : cut_empty fs = Some (l, r) -> fs = l ++ [] :: r.
Proof.
  revert l r. induction fs as [|f t IH]; intros l r H; [discriminate|].
  cbn [cut_empty] in H. destruct f as [|c f'].
  - injection H as <- <-. reflexivity.
  - destruct (cut_empty t) as [[l' r']|] eqn:E; [|discriminate]. injection H as <- <-.
    rewrite (IH _ _ eq_refl). reflexivity.
Qed.

Lemma plain_nonempty l : Forall plain l -> Forall (fun f => f <> []) l.
Proof. apply Forall_impl. intros f [H _]. exact H. Qed.

Lemma plain_nocolon l : Forall plain l -> Forall (fun f => ~ In 58 f) l.
Proof. apply Forall_impl. intros f [_ H]. exact H. Qed.

Lemma colons_head_plain x l : plain x -> exists c t, colons (x :: l) = c :: t /\ c <> 58.
Proof.
  intros [Hne Hnc]. destruct x as [|c x']; [congruence|].
  exists c. destruct l as [|y l'].
  - exists x'. split; [reflexivity|]. intros ->. apply Hnc. left. reflexivity.
  - unfold colons. rewrite join_cons_ne by discriminate. cbn [app]. eexists. split; [reflexivity|].
    intros ->. apply Hnc. left. reflexivity.
Qed.

(* split of the text of a tail *)
Lemma split_colons_tail R : Forall plain R -> split_char 58 (colons R) = match R with [] => [[]] | _ => R end.
Proof.
  intros H. destruct R as [|x t]; [reflexivity|]. unfold colons. apply split_join; [discriminate|apply plain_nocolon, H].
Qed.

(* ---------- recogniser => grammar ---------- *)
Lemma shape_7_text l R n : Forall h16 l -> tail_shape R n -> (length l + n <= 7)%nat ->
  ipv6_text (colons l ++ [58; 58] ++ colons R).
Proof.
  intros Hl [[HR ->]|[g [q [-> [Hg [Q ->]]]]]] Hn.
  - right. right. left. exists l, R. repeat split; assumption.
  - right. right. right. exists l, g, q. repeat split; try assumption. lia.
Qed.

Lemma tail_units_inv r0 nr : tail_units r0 = Some nr ->
  r0 <> [] /\ exists R, tail_shape R nr /\ colons r0 = colons R.
Proof.
  unfold tail_units. destruct r0 as [|f t]; [discriminate|].
  intros H. split; [discriminate|].
  destruct f as [|c f'].
  - destruct t as [|f2 t2].
    + injection H as <-. exists []. split; [left; split; [constructor|reflexivity]|reflexivity].
    + cbn [units] in H. discriminate.
  - exists ((c :: f') :: t). split; [|reflexivity]. apply units_inv. destruct t; exact H.
Qed.

Lemma pton6_fields_colon_inv t : pton6_fields (58 :: t) = true -> ipv6_text (58 :: 58 :: t).
Proof.
  unfold pton6_fields. rewrite split_cons_sep. cbn [cut_empty units_h].
  destruct (tail_units (split_char 58 t)) as [nr|] eqn:T; [|discriminate].
  intros Hn. apply Nat.leb_le in Hn.
  destruct (tail_units_inv _ _ T) as [_ [R [HR E]]].
  unfold colons in E. rewrite join_split in E. rewrite E.
  apply (shape_7_text [] R nr); [constructor|exact HR|exact Hn].
Qed.

Lemma split_head_empty c s r : split_char c s = [] :: r -> s = [] \/ exists t, s = c :: t.
Proof.
  intros H. pose proof (join_split c s) as J. rewrite H in J. destruct r as [|y r'].
  - left. symmetry. exact J.
  - right. rewrite join_cons_ne in J by discriminate. cbn [app] in J. eexists. symmetry. exact J.
Qed.

Lemma pton6_fields_nocolon_inv c t : c <> 58 -> pton6_fields (c :: t) = true -> ipv6_text (c :: t).
Proof.
  intros Hc. unfold pton6_fields. set (s := c :: t).
  pose proof (join_split 58 s) as J.
  destruct (cut_empty (split_char 58 s)) as [[l0 r0]|] eqn:CE.
  - destruct (units_h l0) as [nl|] eqn:UH; [|discriminate].
    destruct (tail_units r0) as [nr|] eqn:T; [|discriminate].
    intros Hn. apply Nat.leb_le in Hn.
    apply units_h_inv in UH. destruct UH as [Hl ->].
    apply cut_empty_inv in CE.
    destruct (tail_units_inv _ _ T) as [Hr0 [R [HR E]]].
    assert (Hl0 : l0 <> []).
    { intros ->. cbn [app] in CE. apply split_head_empty in CE. destruct CE as [CE|[t' CE]]; subst s; [discriminate|].
      injection CE as -> _. congruence. }
    rewrite CE in J. rewrite join_app in J by (assumption || discriminate).
    rewrite join_cons_ne in J by exact Hr0. cbn [app] in J.
    rewrite <- J. fold (colons l0). fold (colons r0). rewrite E.
    apply (shape_7_text l0 R nr); assumption.
  - destruct (units (split_char 58 s)) as [n|] eqn:U; [|discriminate].
    intros Hn. apply Nat.eqb_eq in Hn. subst n. apply units_inv in U.
    destruct U as [[Hg Hlen]|[g [q [Hs [Hg [Q Hlen]]]]]].
    + left. exists (split_char 58 s). repeat split; [exact Hg|symmetry; exact Hlen|symmetry; exact J].
    + right. left. exists g, q. repeat split; try assumption; [lia|]. rewrite <- Hs. symmetry. exact J.
Qed.

Lemma pton6b_sound s : pton6b s = true -> ipv6_text s.
Proof.
  unfold pton6b. destruct s as [|c t]; [discriminate|].
  destruct (c =? 58) eqn:E.
  - apply N.eqb_eq in E. subst c. destruct t as [|c2 t2]; [discriminate|].
    destruct (c2 =? 58) eqn:E2; [|discriminate]. apply N.eqb_eq in E2. subst c2.
    apply pton6_fields_colon_inv.
  - apply N.eqb_neq in E. apply pton6_fields_nocolon_inv. exact E.
Qed.

(* the units as values: defined exactly where the recogniser accepts *)
Lemma units_hv_spec fs : match units_hv fs with
                         | Some us => units_h fs = Some (length us) /\ Forall small16 us
                         | None => units_h fs = None
                         end.
Proof.
  induction fs as [|f t IH]; cbn [units_hv units_h]; [split; [reflexivity|constructor]|].
  destruct (h16b f) eqn:E; [|reflexivity].
  destruct (units_hv t) as [us|]; cbn [option_map].
  - destruct IH as [-> F]. cbn [option_map length]. split; [reflexivity|constructor; [apply hexval_small, E|exact F]].
  - rewrite IH. reflexivity.
Qed.

Lemma units_v_spec fs : match units_v fs with
                        | Some us => units fs = Some (length us) /\ Forall small16 us
                        | None => units fs = None
                        end.
Proof.
  induction fs as [|f t IH]; [split; [reflexivity|constructor]|].
  destruct t as [|f2 t2].
  - cbn [units_v units]. destruct (h16b f) eqn:E.
    + split; [reflexivity|constructor; [apply hexval_small, E|constructor]].
    + rewrite pton4_value_b. destruct (pton4_value f) as [v|] eqn:V; [|reflexivity].
      apply pton4_value_iff, quad_value_bound in V. change (2 ^ 32) with 4294967296 in V.
      split; [reflexivity|]. constructor; [|constructor; [|constructor]]; unfold small16.
      * apply N.div_lt_upper_bound; lia.
      * apply N.mod_upper_bound. lia.
  - change (units_v (f :: f2 :: t2)) with (if h16b f then option_map (cons (hexval f)) (units_v (f2 :: t2)) else None).
    change (units (f :: f2 :: t2)) with (if h16b f then option_map S (units (f2 :: t2)) else None).
    destruct (h16b f) eqn:E; [|reflexivity].
    destruct (units_v (f2 :: t2)) as [us|]; cbn [option_map].
    + destruct IH as [-> F]. cbn [option_map length]. split; [reflexivity|constructor; [apply hexval_small, E|exact F]].
    + rewrite IH. reflexivity.
Qed.

Lemma tail_units_v_spec r : match tail_units_v r with
                            | Some us => tail_units r = Some (length us) /\ Forall small16 us
                            | None => tail_units r = None
                            end.
Proof.
  unfold tail_units_v, tail_units. destruct r as [|f t]; [reflexivity|].
  destruct f as [|c f'].
  - destruct t as [|f2 t2]; [split; [reflexivity|constructor]|]. apply units_v_spec.
  - apply units_v_spec.
Qed.

Lemma pton6_fields_v_spec s' : match pton6_fields_v s' with
                               | Some us => pton6_fields s' = true /\ length us = 8%nat /\ Forall small16 us
                               | None => pton6_fields s' = false
                               end.
Proof.
  unfold pton6_fields_v, pton6_fields. destruct (cut_empty (split_char 58 s')) as [[l0 r0]|].
  - pose proof (units_hv_spec l0) as HL. pose proof (tail_units_v_spec r0) as HR.
    destruct (units_hv l0) as [a|]; [|rewrite HL; reflexivity]. destruct HL as [-> Fa].
    destruct (tail_units_v r0) as [b|]; [|rewrite HR; reflexivity]. destruct HR as [-> Fb].
    destruct (length a + length b <=? 7)%nat eqn:E; [|reflexivity]. apply Nat.leb_le in E.
    split; [reflexivity|]. split.
    + rewrite !app_length, repeat_length. lia.
    + apply Forall_app. split; [exact Fa|]. apply Forall_app. split; [|exact Fb].
      apply Forall_forall. intros x Hx. apply repeat_spec in Hx. subst x. unfold small16. lia.
  - pose proof (units_v_spec (split_char 58 s')) as H.
    destruct (units_v (split_char 58 s')) as [us|]; [|rewrite H; reflexivity]. destruct H as [-> F].
    destruct (Nat.eqb (length us) 8) eqn:E; [|reflexivity]. apply Nat.eqb_eq in E.
    split; [reflexivity|]. split; assumption.
Qed.

Lemma pton6_units_spec s : match pton6_units s with
                           | Some us => pton6b s = true /\ length us = 8%nat /\ Forall small16 us
                           | None => pton6b s = false
                           end.
Proof.
  unfold pton6_units, pton6b. destruct s as [|c t]; [reflexivity|].
  destruct (c =? 58); [|apply pton6_fields_v_spec].
  destruct t as [|c2 t2]; [reflexivity|]. destruct (c2 =? 58); [apply pton6_fields_v_spec|reflexivity].
Qed.

(* the units of a '::'-free field list *)
Definition tail_vals (R : list str) (us : list N) : Prop :=
  (Forall h16 R /\ us = map hexval R) \/
  (exists g q m, R = g ++ [q] /\ Forall h16 g /\ quad_value q m /\ us = map hexval g ++ quad_units m).

Lemma tail_vals_shape R us : tail_vals R us -> tail_shape R (length us).
Proof.
  intros [[H ->]|[g [q [m [-> [H [Q ->]]]]]]].
  - left. split; [exact H|apply map_length].
  - right. exists g, q. rewrite app_length, map_length. repeat split; [exact H|exact (quad_value_quad q m Q)].
Qed.

Lemma units_hv_h16 l : Forall h16 l -> units_hv l = Some (map hexval l).
Proof.
  induction 1 as [|f t Hf _ IH]; [reflexivity|]. cbn [units_hv map]. apply h16b_iff in Hf. rewrite Hf, IH. reflexivity.
Qed.

Lemma units_v_cons f f2 t :
  units_v (f :: f2 :: t) = if h16b f then option_map (cons (hexval f)) (units_v (f2 :: t)) else None.
Proof. reflexivity. Qed.

Lemma units_v_vals R us : tail_vals R us -> units_v R = Some us.
Proof.
  intros [[H ->]|[g [q [m [-> [H [Q ->]]]]]]].
  - induction H as [|f t Hf Ht IH]; [reflexivity|]. apply h16b_iff in Hf. destruct t as [|f2 t2].
    + cbn [units_v map]. rewrite Hf. reflexivity.
    + rewrite units_v_cons, Hf, IH. reflexivity.
  - induction H as [|f t Hf Ht IH].
    + cbn [app units_v map]. rewrite (quad_not_h16 q (quad_value_quad q m Q)).
      apply pton4_value_iff in Q. rewrite Q. reflexivity.
    + apply h16b_iff in Hf. destruct t as [|f2 t2]; cbn [app map] in *; rewrite units_v_cons, Hf, IH; reflexivity.
Qed.

Lemma tail_units_v_vals R us : tail_vals R us -> tail_units_v (match R with [] => [[]] | _ => R end) = Some us.
Proof.
  intros H. pose proof (units_v_vals R us H) as U. destruct R as [|x t].
  - injection U as <-. reflexivity.
  - pose proof (tail_shape_plain _ _ (tail_vals_shape _ _ H)) as P. inversion P as [|? ? [Hx _] _]; subst.
    unfold tail_units_v. destruct x as [|c x']; [congruence|]. destruct t; exact U.
Qed.

Lemma pton6_units_nocolon c t : c <> 58 -> pton6_units (c :: t) = pton6_fields_v (c :: t).
Proof. intros H. unfold pton6_units. apply N.eqb_neq in H. rewrite H. reflexivity. Qed.

Lemma pton6_units_full R us : tail_vals R us -> length us = 8%nat -> pton6_units (colons R) = Some us.
Proof.
  intros H L. pose proof (units_v_vals R us H) as U.
  pose proof (tail_shape_plain _ _ (tail_vals_shape _ _ H)) as P.
  destruct R as [|x R']; [injection U as <-; discriminate L|].
  destruct (colons_head_plain x R' (Forall_inv P)) as [c [t [E Hc]]]. rewrite E.
  rewrite pton6_units_nocolon by exact Hc. rewrite <- E.
  unfold pton6_fields_v. rewrite (split_colons_tail _ P).
  rewrite cut_empty_none by (apply plain_nonempty, P).
  rewrite U, L. reflexivity.
Qed.

Lemma pton6_units_compressed l R us : Forall h16 l -> tail_vals R us -> (length l + length us <= 7)%nat ->
  pton6_units (colons l ++ [58; 58] ++ colons R) = Some (map hexval l ++ repeat 0 (8 - length l - length us) ++ us).
Proof.
  intros Hl HR Hn. pose proof (tail_shape_plain _ _ (tail_vals_shape _ _ HR)) as PR.
  pose proof (Forall_h16_plain _ Hl) as Pl. pose proof (tail_units_v_vals _ _ HR) as TU.
  apply Nat.leb_le in Hn. destruct l as [|x l'].
  - cbn [colons join app]. unfold pton6_units. cbn [N.eqb Pos.eqb].
    unfold pton6_fields_v. rewrite split_cons_sep. cbn [cut_empty units_hv].
    rewrite (split_colons_tail _ PR), TU. cbn [length map app] in *. rewrite Hn. reflexivity.
  - destruct (colons_head_plain x l' (Forall_inv Pl)) as [c [t [E Hc]]].
    rewrite E. cbn [app]. rewrite pton6_units_nocolon by exact Hc.
    change (c :: t ++ 58 :: 58 :: colons R) with ((c :: t) ++ 58 :: (58 :: colons R)). rewrite <- E.
    unfold pton6_fields_v. rewrite split_app, split_cons_sep.
    unfold colons at 1. rewrite split_join by (discriminate || apply plain_nocolon, Pl).
    rewrite cut_empty_some by (apply plain_nonempty, Pl).
    rewrite (units_hv_h16 _ Hl), (split_colons_tail _ PR), TU, map_length, Hn. reflexivity.
Qed.

Lemma ipv6_units_complete s us : ipv6_units s us -> pton6_units s = Some us.
Proof.
  intros [[g [Hg [L [-> ->]]]]|[[g [q [m [Hg [L [Q [-> ->]]]]]]]|[[l [r [Hl [Hr [Hn [-> ->]]]]]]|[l [r [q [m [Hl [Hr [Q [Hn [-> ->]]]]]]]]]]]].
  - apply pton6_units_full; [left; split; [exact Hg|reflexivity]|rewrite map_length; exact L].
  - apply pton6_units_full; [right; exists g, q, m; repeat split; assumption|].
    rewrite app_length, map_length, L. reflexivity.
  - rewrite (pton6_units_compressed l r (map hexval r)), map_length;
      [reflexivity|exact Hl|left; split; [exact Hr|reflexivity]|rewrite map_length; exact Hn].
  - rewrite (pton6_units_compressed l (r ++ [q]) (map hexval r ++ quad_units m)), app_length, map_length;
      [|exact Hl|right; exists r, q, m; repeat split; assumption|rewrite app_length, map_length; cbn [quad_units length]; lia].
    cbn [quad_units length]. replace (8 - length l - (length r + 2))%nat with (6 - length l - length r)%nat by lia. reflexivity.
Qed.

Lemma ipv6_text_units s : ipv6_text s -> exists us, ipv6_units s us.
Proof.
  intros [[g [Hg [L ->]]]|[[g [q [Hg [L [Q ->]]]]]|[[l [r [Hl [Hr [Hn ->]]]]]|[l [r [q [Hl [Hr [Q [Hn ->]]]]]]]]]].
  - eexists. left. exists g. repeat split; try assumption.
  - destruct (quad_has_value q Q) as [m Qm]. eexists. right. left. exists g, q, m. repeat split; try assumption.
  - eexists. right. right. left. exists l, r. repeat split; try assumption.
  - destruct (quad_has_value q Q) as [m Qm]. eexists. right. right. right. exists l, r, q, m. repeat split; try assumption.
Qed.

Lemma pton6b_complete s : ipv6_text s -> pton6b s = true.
Proof.
  intros T. destruct (ipv6_text_units s T) as [us U]. pose proof (pton6_units_spec s) as S.
  rewrite (ipv6_units_complete s us U) in S. apply S.
Qed.

Theorem pton6b_iff s : pton6b s = true <-> ipv6_text s.
Proof. split; [apply pton6b_sound|apply pton6b_complete]. Qed.

Theorem pton6_units_iff s us : pton6_units s = Some us <-> ipv6_units s us.
Proof.
  split; [|apply ipv6_units_complete].
  intros H. assert (T : ipv6_text s).
  { apply pton6b_sound. pose proof (pton6_units_spec s) as S. rewrite H in S. apply S. }
  destruct (ipv6_text_units s T) as [us' U]. pose proof (ipv6_units_complete s us' U) as C. congruence.
Qed.
