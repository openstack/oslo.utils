(* Proofs/C19_Commas.v — split_by_commas: the parser never runs out of fuel, it
   inverts the quote-and-join convention on the exact item alphabet, and it rejects
   unbalanced / misplaced quoting and empty unquoted items. *)
From Coq Require Import String.
Require Import OV.Base.Bytes OV.Base.Py OV.Base.PyInt OV.Base.Str OV.Base.C19_PyList OV.Gen.C19_Grammar OV.Model.C19 OV.Model.C19_Spec.
Open Scope N_scope.

(* ------------------------------------------------------------------ the grammar's arguments
   (regenerated from the source; the property speaks of double quotes, backslashes and commas) *)
Lemma quote_is : quote_char = 34. Proof. reflexivity. Qed.
Lemma esc_is : esc_char = 92. Proof. reflexivity. Qed.
Lemma delim_is : delim_char = 44. Proof. reflexivity. Qed.

(* what is needed of Word's alphabet, checked on the regenerated list: no double quote, no white character *)
Definition word_char_ok (c : N) : bool := negb (c =? 34) && negb (is_white c).
Lemma word_chars_ok : forallb word_char_ok word_chars = true.
Proof. vm_compute. reflexivity. Qed.
Lemma is_word_ok c : is_word c = true -> (c =? 34) = false /\ is_white c = false.
Proof.
  intros H. pose proof (forallb_In _ _ _ word_chars_ok (proj1 (memN_In _ _) H)) as Hc.
  apply andb_true_iff in Hc. destruct Hc as [H1 H2]. split; apply negb_true_iff; assumption.
Qed.

(* every printable ASCII character other than the double quote, the comma and the backslash (the
   characters that make the writer quote an item; space is below 33) is a Word character *)
Lemma printable_is_word c : 33 <= c <= 126 -> c <> 34 -> c <> 44 -> c <> 92 -> is_word c = true.
Proof.
  intros Hr H1 H2 H3.
  assert (G : forallb (fun c => negb ((33 <=? c) && (c <=? 126) && negb (c =? 34) && negb (c =? 44) && negb (c =? 92))
                                || is_word c) ascii_range = true) by (vm_compute; reflexivity).
  pose proof (forallb_In _ _ c G (in_ascii_range c ltac:(lia))) as H. cbv beta in H.
  replace (33 <=? c) with true in H by lia. replace (c <=? 126) with true in H by lia.
  replace (c =? 34) with false in H by lia. replace (c =? 44) with false in H by lia.
  replace (c =? 92) with false in H by lia. exact H.
Qed.

Lemma white_quote : is_white 34 = false. Proof. reflexivity. Qed.
Lemma white_comma : is_white 44 = false. Proof. reflexivity. Qed.
Lemma word_quote : is_word 34 = false. Proof. reflexivity. Qed.
Lemma word_comma : is_word 44 = false. Proof. reflexivity. Qed.
Lemma white_space : is_white 32 = true. Proof. reflexivity. Qed.
Lemma white_tab : is_white 9 = true. Proof. reflexivity. Qed.

Fixpoint col_after (col : N) (s : str) : N :=
  match s with
  | [] => col
  | c :: t => if c =? 9 then col_after (col + (8 - col mod 8)) t
              else col_after (if (c =? 10) || (c =? 13) then 0 else col + 1) t
  end.
Lemma expandtabs_app s : forall col b,
  expandtabs_from col (s ++ b) = expandtabs_from col s ++ expandtabs_from (col_after col s) b.
Proof. induction s as [|c t IH]; intros col b; [reflexivity|]. cbn [app expandtabs_from col_after].
  destruct (c =? 9); rewrite IH; [rewrite app_assoc|]; reflexivity. Qed.
Lemma expandtabs_notab s : ~ In 9 s -> forall col, expandtabs_from col s = s.
Proof. induction s as [|c t IH]; intros H col; [reflexivity|]. cbn [expandtabs_from].
  destruct (N.eqb_spec c 9) as [->|Hn]; [cbn in H; tauto|]. rewrite IH by (cbn in H; tauto). reflexivity. Qed.
Lemma forallb_repeatN (P : N -> bool) x n : P x = true -> forallb P (repeatN x n) = true.
Proof. intros H. induction n; cbn; [reflexivity|]. rewrite H. exact IHn. Qed.
Lemma expandtabs_blank w : forallb is_white w = true -> forall col, forallb is_white (expandtabs_from col w) = true.
Proof. induction w as [|c t IH]; intros H col; [reflexivity|]. cbn [forallb] in H.
  apply andb_true_iff in H. destruct H as [Hc Ht]. cbn [expandtabs_from].
  destruct (c =? 9).
  - rewrite forallb_app, IH by exact Ht. rewrite forallb_repeatN by exact white_space. reflexivity.
  - cbn [forallb]. rewrite Hc, IH by exact Ht. reflexivity. Qed.
Lemma expandtabs_cons_notab c t col : c <> 9 ->
  expandtabs_from col (c :: t) = c :: expandtabs_from (if (c =? 10) || (c =? 13) then 0 else col + 1) t.
Proof. intros H. cbn [expandtabs_from]. destruct (N.eqb_spec c 9); [congruence|reflexivity]. Qed.

Fixpoint nq (s : str) : nat :=
  match s with [] => O | c :: t => if c =? 34 then S (nq t) else nq t end.
Lemma nq_app a b : nq (a ++ b) = (nq a + nq b)%nat.
Proof. induction a as [|c t IH]; [reflexivity|]. cbn [app nq]. rewrite IH. destruct (c =? 34); reflexivity. Qed.
Lemma nq_repeat_space n : nq (repeatN 32 n) = O.
Proof. induction n; [reflexivity|]. cbn. exact IHn. Qed.
Lemma nq_expandtabs s : forall col, nq (expandtabs_from col s) = nq s.
Proof. induction s as [|c t IH]; intros col; [reflexivity|]. cbn [expandtabs_from nq].
  destruct (N.eqb_spec c 9) as [->|Hn].
  - rewrite nq_app, nq_repeat_space, IH. reflexivity.
  - cbn [nq]. rewrite IH. reflexivity. Qed.
Lemma nq_pos_nonnil s : (0 < nq s)%nat -> s <> [].
Proof. destruct s; [cbn; lia|discriminate]. Qed.

Lemma skip_ws_nonwhite c t : is_white c = false -> skip_ws (c :: t) = c :: t.
Proof. intros H. cbn [skip_ws]. rewrite H. reflexivity. Qed.
Lemma skip_ws_blank w r : forallb is_white w = true -> skip_ws (w ++ r) = skip_ws r.
Proof. induction w as [|c t IH]; intros H; [reflexivity|]. cbn [forallb] in H.
  apply andb_true_iff in H. destruct H as [Hc Ht]. cbn [app skip_ws]. rewrite Hc. auto. Qed.
Lemma skip_ws_length s : (length (skip_ws s) <= length s)%nat.
Proof. induction s as [|c t IH]; [cbn; lia|]. cbn [skip_ws]. destruct (is_white c); cbn [length]; lia. Qed.
Lemma skip_ws_nq s : nq (skip_ws s) = nq s.
Proof. induction s as [|c t IH]; [reflexivity|]. cbn [skip_ws]. destruct (is_white c) eqn:E; [|reflexivity].
  cbn [nq]. destruct (N.eqb_spec c 34) as [->|]; [rewrite white_quote in E; discriminate|exact IH]. Qed.
Lemma skip_ws_idem s : skip_ws (skip_ws s) = skip_ws s.
Proof. induction s as [|c t IH]; [reflexivity|]. cbn [skip_ws]. destruct (is_white c) eqn:E; [exact IH|].
  cbn [skip_ws]. rewrite E. reflexivity. Qed.

Lemma scan_quoted_props s : forall raw r, scan_quoted s = Some (raw, r) ->
  (length r < length s)%nat /\ (1 <= nq s)%nat.
Proof.
  induction s as [s IH] using strong_list_ind. intros raw r H.
  destruct s as [|c t]; [discriminate|]. cbn [scan_quoted] in H. rewrite quote_is, esc_is in H.
  destruct (N.eqb_spec c 34) as [->|Hq].
  - injection H as <- <-. cbn [length nq N.eqb]. cbn. lia.
  - destruct (N.eqb_spec c 92) as [->|He].
    + destruct t as [|d t']; [discriminate|]. destruct (d =? 10); [discriminate|].
      destruct (scan_quoted t') as [[raw' r']|] eqn:E; [|discriminate]. injection H as <- <-.
      destruct (IH t' ltac:(cbn; lia) _ _ E) as [H1 H2]. cbn [length nq]. split; [lia|].
      change (92 =? 34) with false. cbv iota. destruct (d =? 34); lia.
    + destruct ((c =? 10) || (c =? 13)); [discriminate|].
      destruct (scan_quoted t) as [[raw' r']|] eqn:E; [|discriminate]. injection H as <- <-.
      destruct (IH t ltac:(cbn; lia) _ _ E) as [H1 H2]. cbn [length nq]. split; [lia|].
      destruct (c =? 34); lia.
Qed.

Lemma scan_quoted_escape it rest : forallb (fun c => negb ((c =? 10) || (c =? 13))) it = true ->
  scan_quoted (flat_map escape1 it ++ 34 :: rest) = Some (flat_map escape1 it, rest).
Proof.
  induction it as [|c it IH]; intros H.
  - reflexivity.
  - cbn [forallb] in H. apply andb_true_iff in H. destruct H as [Hc Hit]. specialize (IH Hit).
    cbn [flat_map]. unfold escape1 at 1 3.
    destruct (N.eqb_spec c 34) as [->|Hq]; [cbn [orb app scan_quoted N.eqb]; cbn; rewrite IH; reflexivity|].
    destruct (N.eqb_spec c 92) as [->|He]; [cbn [orb app scan_quoted]; cbn; rewrite IH; reflexivity|].
    cbn [orb app scan_quoted]. rewrite quote_is, esc_is.
    replace (c =? 34) with false by lia. replace (c =? 92) with false by lia.
    apply negb_true_iff in Hc. rewrite Hc, IH. reflexivity.
Qed.

(* un-escaping inverts the writer's escaping *)
Lemma unesc_at_special d X : d = 34 \/ d = 92 -> unesc_at 92 (d :: X) = ([d], 1%nat).
Proof. intros [->| ->]; destruct X; reflexivity. Qed.
Lemma unesc_at_plain c t : c <> 92 -> unesc_at c t = ([c], 0%nat).
Proof. intros H. unfold unesc_at, group3. rewrite esc_is. replace (c =? 92) with false by lia. reflexivity. Qed.
Lemma unescape_escape it : unescape (flat_map escape1 it) = it.
Proof.
  unfold unescape. induction it as [|c it IH]; [reflexivity|].
  cbn [flat_map]. unfold escape1 at 1.
  destruct (N.eqb_spec c 34) as [->|Hq].
  - cbn [orb app unescape_go]. rewrite unesc_at_special by auto. cbn [app unescape_go]. rewrite IH. reflexivity.
  - destruct (N.eqb_spec c 92) as [->|He].
    + cbn [orb app unescape_go]. rewrite unesc_at_special by auto. cbn [app unescape_go]. rewrite IH. reflexivity.
    + cbn [orb app unescape_go]. rewrite unesc_at_plain by exact He. cbn [app]. rewrite IH. reflexivity.
Qed.

Definition stops (rest : str) : bool := match rest with [] => true | x :: _ => negb (is_word x) end.

Lemma take_word_app w rest : forallb is_word w = true -> stops rest = true -> take_word (w ++ rest) = (w, rest).
Proof.
  induction w as [|c w IH]; intros Hw Hs.
  - destruct rest as [|x r]; [reflexivity|]. cbn [app take_word]. cbn [stops] in Hs.
    apply negb_true_iff in Hs. rewrite Hs. reflexivity.
  - cbn [forallb] in Hw. apply andb_true_iff in Hw. destruct Hw as [Hc Hw].
    cbn [app take_word]. rewrite Hc, IH by assumption. reflexivity.
Qed.
Lemma take_word_split s : forall w r, take_word s = (w, r) -> s = w ++ r /\ forallb is_word w = true.
Proof.
  induction s as [|c t IH]; intros w r H.
  - injection H as <- <-. split; reflexivity.
  - cbn [take_word] in H. destruct (is_word c) eqn:E.
    + destruct (take_word t) as [w' r'] eqn:Et. injection H as <- <-.
      destruct (IH _ _ eq_refl) as [-> Hw]. split; [reflexivity|]. cbn [forallb]. rewrite E, Hw. reflexivity.
    + injection H as <- <-. split; reflexivity.
Qed.
Lemma nq_word w : forallb is_word w = true -> nq w = O.
Proof. induction w as [|c w IH]; [reflexivity|]. cbn [forallb]. intros H. apply andb_true_iff in H.
  destruct H as [Hc Hw]. cbn [nq]. destruct (N.eqb_spec c 34) as [->|]; [rewrite word_quote in Hc; discriminate|auto]. Qed.

Lemma parse_item_unquoted w rest : w <> [] -> forallb is_word w = true -> stops rest = true ->
  parse_item (w ++ rest) = Some (w, rest).
Proof.
  intros Hn Hw Hs. destruct w as [|c w']; [congruence|].
  pose proof Hw as Hw'. cbn [forallb] in Hw'. apply andb_true_iff in Hw'. destruct Hw' as [Hc _].
  destruct (is_word_ok c Hc) as [Hq Hwh].
  unfold parse_item. change ((c :: w') ++ rest) with (c :: (w' ++ rest)).
  rewrite skip_ws_nonwhite by exact Hwh.
  unfold parse_quoted. rewrite quote_is, Hq.
  unfold parse_word. change (c :: (w' ++ rest)) with ((c :: w') ++ rest). rewrite take_word_app by assumption.
  reflexivity.
Qed.

Lemma parse_item_quoted it rest : forallb (fun c => negb ((c =? 10) || (c =? 13))) it = true ->
  parse_item (quoted_field it ++ rest) = Some (it, rest).
Proof.
  intros H. unfold parse_item, quoted_field. cbn [app].
  rewrite skip_ws_nonwhite by exact white_quote.
  unfold parse_quoted. rewrite quote_is. cbn [N.eqb Pos.eqb]. change (34 =? 34) with true. cbv iota.
  rewrite <- app_assoc. cbn [app]. rewrite scan_quoted_escape by exact H. rewrite unescape_escape. reflexivity.
Qed.

Lemma no_newline_of_quotable it : forallb (fun c => negb ((c =? 9) || (c =? 10) || (c =? 13))) it = true ->
  forallb (fun c => negb ((c =? 10) || (c =? 13))) it = true.
Proof.
  apply forallb_impl. intros c Hc. apply negb_true_iff in Hc. apply negb_true_iff.
  destruct (c =? 9), (c =? 10), (c =? 13); cbn in *; congruence.
Qed.

Lemma item_ok_cases it : item_ok it = true ->
  it <> [] /\
  ((needs_quoting it = true /\ quote it = quoted_field it /\
    forallb (fun c => negb ((c =? 9) || (c =? 10) || (c =? 13))) it = true) \/
   (needs_quoting it = false /\ quote it = it /\ forallb is_word it = true)).
Proof.
  unfold item_ok, quote, quoted_field. intros H. apply andb_true_iff in H. destruct H as [Hn H].
  split; [destruct it; [discriminate|discriminate]|].
  destruct (needs_quoting it); [left|right]; auto.
Qed.

Lemma parse_item_quote it rest : item_ok it = true -> stops rest = true ->
  parse_item (quote it ++ rest) = Some (it, rest).
Proof.
  intros H Hs. destruct (item_ok_cases it H) as [Hn [(_ & -> & Hc)|(_ & -> & Hw)]].
  - apply parse_item_quoted, no_newline_of_quotable, Hc.
  - apply parse_item_unquoted; assumption.
Qed.

Lemma parse_item_shrinks s it r : parse_item s = Some (it, r) -> (length r < length s)%nat.
Proof.
  unfold parse_item. pose proof (skip_ws_length s) as Hl. set (s' := skip_ws s) in *.
  destruct (parse_quoted s') as [[it' r']|] eqn:Eq.
  - intros [= <- <-]. unfold parse_quoted in Eq. destruct s' as [|c t]; [discriminate|].
    destruct (c =? quote_char); [|discriminate].
    destruct (scan_quoted t) as [[raw r'']|] eqn:Es; [|discriminate]. injection Eq as <- <-.
    apply scan_quoted_props in Es. cbn [length] in Hl. lia.
  - unfold parse_word. destruct (take_word s') as [w r'] eqn:Et. destruct w as [|c w]; [discriminate|].
    intros [= <- <-]. apply take_word_split in Et. destruct Et as [E _]. rewrite E in Hl.
    rewrite app_length in Hl. cbn [length] in Hl. lia.
Qed.

(* with at most one double quote in the text no quoted string can match, and the
   quote is never consumed *)
Lemma parse_item_nq s it r : (nq s <= 1)%nat -> parse_item s = Some (it, r) -> nq r = nq s.
Proof.
  unfold parse_item. rewrite <- (skip_ws_nq s). generalize (skip_ws s). intros s' Hq.
  destruct (parse_quoted s') as [[it' r']|] eqn:Eq.
  - exfalso. unfold parse_quoted in Eq. destruct s' as [|c t]; [discriminate|]. rewrite quote_is in Eq.
    destruct (N.eqb_spec c 34) as [->|]; [|discriminate].
    destruct (scan_quoted t) as [[raw r'']|] eqn:Es; [|discriminate].
    apply scan_quoted_props in Es. cbn [nq] in Hq. change (34 =? 34) with true in Hq. cbv iota in Hq. lia.
  - unfold parse_word. destruct (take_word s') as [w r'] eqn:Et. destruct w as [|c w]; [discriminate|].
    intros [= <- <-]. apply take_word_split in Et. destruct Et as [E Hw]. rewrite E, nq_app, (nq_word _ Hw). reflexivity.
Qed.

Lemma parse_more_enough f : forall s, (length s < f)%nat -> parse_more f s <> None.
Proof.
  induction f as [|f IH]; intros s Hl; [lia|]. cbn [parse_more].
  pose proof (skip_ws_length s) as Hs. destruct (skip_ws s) as [|c t]; [discriminate|].
  destruct (c =? delim_char); [|discriminate].
  destruct (parse_item t) as [[it r]|] eqn:Ei; [|discriminate].
  apply parse_item_shrinks in Ei. cbn [length] in Hs.
  specialize (IH r ltac:(lia)). destruct (parse_more f r) as [[l r']|]; [discriminate|congruence].
Qed.
Lemma parse_more_comma f F : parse_more (S f) (44 :: F) =
  match parse_item F with
  | Some (it, r) => match parse_more f r with Some (l, r') => Some (it :: l, r') | None => None end
  | None => Some ([], 44 :: F)
  end.
Proof. cbn [parse_more]. rewrite skip_ws_nonwhite by exact white_comma. rewrite delim_is.
  change (44 =? 44) with true. reflexivity. Qed.

Lemma parse_more_stop f w x rest : blank w = true -> is_white x = false -> x <> 44 ->
  parse_more (S f) (w ++ x :: rest) = Some ([], w ++ x :: rest).
Proof. intros Hw Hx Hc. cbn [parse_more]. rewrite skip_ws_blank by exact Hw. rewrite skip_ws_nonwhite by exact Hx.
  rewrite delim_is. replace (x =? 44) with false by lia. reflexivity. Qed.

(* the fields after the first one, each preceded by its comma *)
Definition tail (its : list str) : str := flat_map (fun it => 44 :: quote it) its.
Lemma join_items_tail p0 ps : join_items (p0 :: ps) = quote p0 ++ tail ps.
Proof. unfold join_items. revert p0. induction ps as [|p1 ps IH]; intros p0.
  - cbn. rewrite app_nil_r. reflexivity.
  - cbn [map]. rewrite join_cons. cbn [tail flat_map app]. f_equal. f_equal. apply (IH p1). Qed.
Lemma tail_stops its Y : stops Y = true -> stops (tail its ++ Y) = true.
Proof. destruct its; [auto|]. intros _. reflexivity. Qed.
Lemma tail_length its : (length its <= length (tail its))%nat.
Proof. induction its as [|it its IH]; [cbn; lia|]. cbn [tail flat_map length]. rewrite app_length. fold (tail its). cbn [length]. lia. Qed.

(* after well-formed fields the loop has taken them all and goes on, with some fuel, at what follows *)
Lemma parse_more_tail its : forall Y fuel l0 r', Forall (fun it => item_ok it = true) its -> stops Y = true ->
  parse_more fuel (tail its ++ Y) = Some (l0, r') ->
  exists f l, parse_more f Y = Some (l, r') /\ l0 = its ++ l.
Proof.
  induction its as [|it its IH]; intros Y fuel l0 r' Hok Hs H; [exists fuel, l0; auto|].
  inversion Hok as [|? ? Hit Hits]; subst. destruct fuel as [|fuel]; [discriminate|].
  change (tail (it :: its) ++ Y) with (44 :: (quote it ++ tail its) ++ Y) in H. rewrite <- app_assoc in H.
  rewrite parse_more_comma, parse_item_quote in H by (try assumption; apply tail_stops; assumption).
  destruct (parse_more fuel (tail its ++ Y)) as [[l2 r2]|] eqn:E; [|discriminate]. injection H as <- <-.
  destruct (IH Y fuel l2 r2 Hits Hs E) as (f & l & Hf & ->). exists f, l. auto.
Qed.

(* parse_string once its first item is known: the loop does not run out of fuel *)
Lemma parse_string_after s it r : parse_item s = Some (it, r) ->
  exists l r', parse_more (S (length r)) r = Some (l, r') /\
               parse_string s = match skip_ws r' with [] => Ok (it :: l) | _ :: _ => Exn ValueError end.
Proof.
  intros Hi. unfold parse_string. rewrite Hi. pose proof (parse_more_enough (S (length r)) r ltac:(lia)) as Hn.
  destruct (parse_more (S (length r)) r) as [[l r']|]; [eauto|congruence].
Qed.

(* ------------------------------------------------------------------ totality (the fuel suffices) *)
Theorem parse_string_total s : (exists l, parse_string s = Ok l) \/ parse_string s = Exn ValueError.
Proof.
  destruct (parse_item s) as [[it r]|] eqn:Ei; [|right; unfold parse_string; rewrite Ei; reflexivity].
  destruct (parse_string_after s it r Ei) as (l & r' & _ & ->).
  destruct (skip_ws r'); [left; eexists; reflexivity|right; reflexivity].
Qed.

Lemma notab_quoted_field it : forallb (fun c => negb ((c =? 9) || (c =? 10) || (c =? 13))) it = true ->
  ~ In 9 (quoted_field it).
Proof.
  intros Hc. unfold quoted_field. intros Hin. apply in_app_or in Hin. destruct Hin as [[Hin|[]]|Hin]; [discriminate|].
  apply in_app_or in Hin. destruct Hin as [Hin|[Hin|[]]]; [|discriminate].
  apply in_flat_map in Hin. destruct Hin as (c & Hc1 & Hc2). rewrite forallb_forall in Hc. specialize (Hc c Hc1).
  unfold escape1 in Hc2. destruct ((c =? 34) || (c =? 92)).
  - destruct Hc2 as [E|[E|[]]]; [discriminate|]. subst c. discriminate.
  - destruct Hc2 as [E|[]]. subst c. discriminate.
Qed.

Lemma notab_quote it : item_ok it = true -> ~ In 9 (quote it).
Proof.
  intros H. destruct (item_ok_cases it H) as [_ [(_ & -> & Hc)|(_ & -> & Hw)]].
  - apply notab_quoted_field, Hc.
  - intros Hin. rewrite forallb_forall in Hw. specialize (Hw 9 Hin). discriminate.
Qed.

Theorem split_join_roundtrip items : items <> [] -> Forall (fun it => item_ok it = true) items ->
  split_by_commas (join_items items) = Ok items.
Proof.
  intros Hn Hok. destruct items as [|p0 ps]; [congruence|]. inversion Hok as [|? ? H0 Hps]; subst.
  unfold split_by_commas, expandtabs. rewrite expandtabs_notab.
  2:{ rewrite join_items_tail. intros Hin. apply in_app_or in Hin. destruct Hin as [Hin|Hin].
      - exact (notab_quote _ H0 Hin).
      - unfold tail in Hin. apply in_flat_map in Hin. destruct Hin as (it & Hi1 & [E|Hi2]); [discriminate|].
        rewrite Forall_forall in Hps. exact (notab_quote _ (Hps _ Hi1) Hi2). }
  rewrite join_items_tail. rewrite <- (app_nil_r (tail ps)).
  destruct (parse_string_after (quote p0 ++ tail ps ++ []) p0 (tail ps ++ [])) as (l & r' & Hm & ->);
    [apply parse_item_quote; [exact H0|apply tail_stops; reflexivity]|].
  destruct (parse_more_tail ps [] _ _ _ Hps eq_refl Hm) as ([|f] & l' & Hf & ->); [discriminate|].
  injection Hf as <- <-. rewrite app_nil_r. reflexivity.
Qed.

(* printable ASCII items (space included) are in the domain as soon as they are non-empty *)
Lemma printable_item_ok it : it <> [] -> printable it = true -> item_ok it = true.
Proof.
  intros Hn Hp. unfold item_ok. destruct it as [|c0 it0]; [congruence|]. cbn [is_nil negb andb].
  set (it := c0 :: it0) in *. unfold printable in Hp.
  destruct (needs_quoting it) eqn:Eq.
  - revert Hp. apply forallb_impl. intros c Hc. apply andb_true_iff in Hc. destruct Hc as [H1 H2].
    replace (c =? 9) with false by lia. replace (c =? 10) with false by lia. replace (c =? 13) with false by lia. reflexivity.
  - unfold needs_quoting in Eq. rewrite forallb_forall in Hp. apply forallb_forall. intros c Hc.
    specialize (Hp c Hc). apply andb_true_iff in Hp. destruct Hp as [H1 H2].
    assert (Hx : (c =? 44) || (c =? 34) || (c =? 92) || (c =? 32) = false).
    { destruct ((c =? 44) || (c =? 34) || (c =? 92) || (c =? 32)) eqn:E; [|reflexivity].
      assert (existsb (fun c => (c =? 44) || (c =? 34) || (c =? 92) || (c =? 32)) it = true)
        by (apply existsb_exists; exists c; auto). congruence. }
    apply orb_false_iff in Hx. destruct Hx as [Hx H32]. apply orb_false_iff in Hx. destruct Hx as [Hx H92].
    apply orb_false_iff in Hx. destruct Hx as [H44 H34].
    apply printable_is_word; lia.
Qed.

(* the text before the offending field: well-formed fields, each followed by its comma *)
Definition prefix_text (pre : list str) : str := flat_map (fun it => quote it ++ [44]) pre.
Definition tail_fields (fs : list str) : str := flat_map (fun f => 44 :: f) fs.

Lemma join_fields_cons f fs : join_fields (f :: fs) = f ++ tail_fields fs.
Proof. unfold join_fields. revert f. induction fs as [|g fs IH]; intros f.
  - cbn. rewrite app_nil_r. reflexivity.
  - rewrite join_cons. cbn [tail_fields flat_map app]. f_equal. f_equal. apply IH. Qed.
Lemma tail_fields_shift pre Z : tail_fields (map quote pre) ++ 44 :: Z = 44 :: prefix_text pre ++ Z.
Proof. induction pre as [|p pre IH]; [reflexivity|]. cbn [map tail_fields flat_map prefix_text].
  fold (tail_fields (map quote pre)). fold (prefix_text pre). cbn [app]. rewrite <- !app_assoc. rewrite IH.
  cbn [app]. reflexivity. Qed.
Lemma join_fields_prefix_more pre F post :
  join_fields (map quote pre ++ F :: post) = prefix_text pre ++ F ++ tail_fields post.
Proof.
  destruct pre as [|p pre]; [apply join_fields_cons|].
  cbn [map app]. rewrite join_fields_cons. unfold tail_fields at 1. rewrite flat_map_app. cbn [flat_map]. fold (tail_fields (map quote pre)) (tail_fields post).
  cbn [app]. rewrite tail_fields_shift. cbn [prefix_text flat_map]. rewrite <- !app_assoc. reflexivity.
Qed.
Lemma join_fields_prefix pre F : join_fields (map quote pre ++ [F]) = prefix_text pre ++ F.
Proof. rewrite join_fields_prefix_more. cbn [tail_fields flat_map]. rewrite app_nil_r. reflexivity. Qed.
Lemma prefix_text_tail p0 ps F : prefix_text (p0 :: ps) ++ F = quote p0 ++ tail ps ++ 44 :: F.
Proof. cbn [prefix_text flat_map]. rewrite <- !app_assoc. f_equal. cbn [app].
  induction ps as [|p ps IH]; [reflexivity|]. cbn [flat_map tail app]. rewrite <- !app_assoc. cbn [app]. f_equal. f_equal. exact IH. Qed.

Lemma notab_prefix pre : Forall (fun it => item_ok it = true) pre -> ~ In 9 (prefix_text pre).
Proof. intros Hok Hin. unfold prefix_text in Hin. apply in_flat_map in Hin. destruct Hin as (it & Hi & Hin).
  rewrite Forall_forall in Hok. apply in_app_or in Hin. destruct Hin as [Hin|[E|[]]]; [|discriminate].
  exact (notab_quote _ (Hok _ Hi) Hin). Qed.

(* what makes a field fatal: if an item can be read at it at all, the list loop then stops before the end of the text *)
Definition ends_badly (F : str) : Prop :=
  forall it r, parse_item F = Some (it, r) ->
  forall fuel l r', parse_more fuel r = Some (l, r') -> skip_ws r' <> [].

Lemma ends_badly_more F fuel l r' : ends_badly F -> parse_more fuel (44 :: F) = Some (l, r') -> skip_ws r' <> [].
Proof.
  intros Hbad H. destruct fuel as [|f]; [discriminate|]. rewrite parse_more_comma in H.
  destruct (parse_item F) as [[it r]|] eqn:Ei.
  - destruct (parse_more f r) as [[l2 r2]|] eqn:Em; [|discriminate]. injection H as _ <-. exact (Hbad _ _ Ei _ _ _ Em).
  - injection H as _ <-. rewrite skip_ws_nonwhite by exact white_comma. discriminate.
Qed.

(* an item, then (after blanks) something that is neither a comma nor the end *)
Lemma ends_badly_junk F it w x rest :
  parse_item F = Some (it, w ++ x :: rest) -> blank w = true -> is_white x = false -> x <> 44 -> ends_badly F.
Proof.
  intros Hi Hw Hx Hc it' r Hi'. rewrite Hi in Hi'. injection Hi' as _ <-. intros [|f] l r' Hm; [discriminate|].
  rewrite parse_more_stop in Hm by assumption. injection Hm as _ <-.
  rewrite skip_ws_blank, skip_ws_nonwhite by assumption. discriminate.
Qed.

(* after well-formed fields, the outcome is decided by what happens at the next field, wherever
   the tab expansion finds it *)
Lemma reject_core pre F : Forall (fun it => item_ok it = true) pre ->
  (forall col, ends_badly (expandtabs_from col F)) ->
  split_by_commas (prefix_text pre ++ F) = Exn ValueError.
Proof.
  intros Hok Hbad. unfold split_by_commas, expandtabs.
  rewrite expandtabs_app, expandtabs_notab by (apply notab_prefix; exact Hok).
  specialize (Hbad (col_after 0 (prefix_text pre))). set (F' := expandtabs_from _ F) in *.
  destruct pre as [|p0 ps].
  - cbn [prefix_text flat_map app].
    destruct (parse_item F') as [[it r]|] eqn:Ei; [|unfold parse_string; rewrite Ei; reflexivity].
    destruct (parse_string_after F' it r Ei) as (l & r' & Hm & ->).
    pose proof (Hbad _ _ Ei _ _ _ Hm). destruct (skip_ws r'); [congruence|reflexivity].
  - inversion Hok as [|? ? H0 Hps]; subst. rewrite prefix_text_tail.
    destruct (parse_string_after (quote p0 ++ tail ps ++ 44 :: F') p0 (tail ps ++ 44 :: F')) as (l & r' & Hm & ->);
      [apply parse_item_quote; [exact H0|apply tail_stops; reflexivity]|].
    destruct (parse_more_tail ps (44 :: F') _ _ _ Hps eq_refl Hm) as (f & l' & Hf & _).
    pose proof (ends_badly_more F' f l' r' Hbad Hf). destruct (skip_ws r'); [congruence|reflexivity].
Qed.

(* empty unquoted items: a field that is empty or blank, anywhere in the list *)
Lemma parse_item_blank w rest : blank w = true -> (rest = [] \/ exists r, rest = 44 :: r) ->
  parse_item (w ++ rest) = None.
Proof. intros Hw Hr. unfold parse_item. rewrite skip_ws_blank by exact Hw.
  destruct Hr as [->|[r ->]]; [reflexivity|]. rewrite skip_ws_nonwhite by exact white_comma. reflexivity. Qed.

Theorem rejects_empty_item pre w post :
  Forall (fun it => item_ok it = true) pre -> blank w = true ->
  split_by_commas (join_fields (map quote pre ++ w :: post)) = Exn ValueError.
Proof.
  intros Hok Hw. rewrite join_fields_prefix_more. apply reject_core; [exact Hok|]. intros col it r Hi. exfalso.
  rewrite expandtabs_app, parse_item_blank in Hi; [discriminate|apply expandtabs_blank; exact Hw|].
  destruct post as [|g post]; [left; reflexivity|right]. cbn [tail_fields flat_map app].
  rewrite expandtabs_cons_notab by discriminate. eauto.
Qed.

(* text after a closing quote *)
Theorem rejects_text_after_closing_quote pre it w x rest :
  Forall (fun it => item_ok it = true) pre ->
  forallb (fun c => negb ((c =? 9) || (c =? 10) || (c =? 13))) it = true ->
  blank w = true -> is_white x = false -> x <> 44 ->
  split_by_commas (join_fields (map quote pre ++ [quoted_field it ++ w ++ x :: rest])) = Exn ValueError.
Proof.
  intros Hok Hit Hw Hx Hc. rewrite join_fields_prefix. apply reject_core; [exact Hok|]. intros col.
  assert (Hx9 : x <> 9) by (intros ->; rewrite white_tab in Hx; discriminate).
  rewrite expandtabs_app, (expandtabs_notab (quoted_field it)), expandtabs_app, (expandtabs_cons_notab x)
    by (try exact Hx9; apply notab_quoted_field; exact Hit).
  eapply ends_badly_junk; [apply parse_item_quoted, no_newline_of_quotable, Hit|apply expandtabs_blank, Hw|exact Hx|exact Hc].
Qed.

(* a quote inside or at the end of an unquoted word *)
Theorem rejects_quote_in_word pre wd rest :
  Forall (fun it => item_ok it = true) pre -> wd <> [] -> forallb is_word wd = true ->
  split_by_commas (join_fields (map quote pre ++ [wd ++ 34 :: rest])) = Exn ValueError.
Proof.
  intros Hok Hn Hwd. rewrite join_fields_prefix. apply reject_core; [exact Hok|]. intros col.
  assert (Hnt : ~ In 9 wd) by (intros Hin; rewrite forallb_forall in Hwd; specialize (Hwd 9 Hin); discriminate).
  rewrite expandtabs_app, (expandtabs_notab wd), (expandtabs_cons_notab 34) by (try exact Hnt; discriminate).
  eapply (ends_badly_junk _ wd [] 34); [apply parse_item_unquoted; auto|reflexivity|exact white_quote|discriminate].
Qed.

(* unbalanced quotes: exactly one double quote in the last field (so nothing can close it) *)
Lemma parse_more_nq fuel : forall s l r', (nq s <= 1)%nat -> parse_more fuel s = Some (l, r') -> nq r' = nq s.
Proof.
  induction fuel as [|f IH]; intros s l r' Hq H; [discriminate|]. cbn [parse_more] in H.
  pose proof (skip_ws_nq s) as Hs. destruct (skip_ws s) as [|c t]; [injection H as <- <-; reflexivity|].
  rewrite delim_is in H. destruct (N.eqb_spec c 44) as [->|]; [|injection H as <- <-; reflexivity].
  cbn [nq] in Hs. change (44 =? 34) with false in Hs. cbv iota in Hs.
  destruct (parse_item t) as [[it r]|] eqn:Ei; [|injection H as <- <-; reflexivity].
  destruct (parse_more f r) as [[l2 r2]|] eqn:Em; [|discriminate]. injection H as <- <-.
  pose proof (parse_item_nq t it r ltac:(lia) Ei) as Hr.
  rewrite (IH r l2 r2 ltac:(lia) Em). lia.
Qed.

Theorem rejects_unbalanced pre f :
  Forall (fun it => item_ok it = true) pre -> nq f = 1%nat ->
  split_by_commas (join_fields (map quote pre ++ [f])) = Exn ValueError.
Proof.
  intros Hok Hq. rewrite join_fields_prefix. apply reject_core; [exact Hok|]. intros col it r Hi fuel l r' Hm.
  pose proof (nq_expandtabs f col) as Hq'.
  pose proof (parse_item_nq (expandtabs_from col f) it r ltac:(lia) Hi) as Hr.
  pose proof (parse_more_nq fuel r l r' ltac:(lia) Hm) as Hr'.
  apply nq_pos_nonnil. rewrite skip_ws_nq. lia.
Qed.

(* the statement with the empty item allowed is false: an empty item is written as an
   empty unquoted field, which split_by_commas rejects (the property's own last clause) *)
Definition roundtrip_full_statement : Prop :=
  forall items, items <> [] -> Forall (fun it => printable it = true) items ->
  split_by_commas (join_items items) = Ok items.
Lemma roundtrip_empty_item_rejected pre post : Forall (fun it => item_ok it = true) pre ->
  split_by_commas (join_items (pre ++ [] :: post)) = Exn ValueError.
Proof. intros H. unfold join_items. rewrite map_app. cbn [map]. change (quote []) with (@nil N).
  apply (rejects_empty_item pre [] (map quote post) H eq_refl). Qed.

(* each clause of item_ok is needed *)
Example roundtrip_refuted_tab : split_by_commas (join_items [[97; 9; 32; 98]]) <> Ok [[97; 9; 32; 98]].
Proof. vm_compute. discriminate. Qed.
Example roundtrip_refuted_newline : split_by_commas (join_items [[97; 10; 32; 98]]) = Exn ValueError.
Proof. vm_compute. reflexivity. Qed.
Example roundtrip_refuted_cr : split_by_commas (join_items [[97; 13; 32; 98]]) = Exn ValueError.
Proof. vm_compute. reflexivity. Qed.
Example roundtrip_refuted_nonword : split_by_commas (join_items [[233]]) = Exn ValueError.
Proof. vm_compute. reflexivity. Qed.
(* ... and quoted items may hold non-ASCII text and control characters *)
Example roundtrip_wide_item : item_ok [233; 32; 0; 128512; 11] = true /\
  split_by_commas (join_items [[233; 32; 0; 128512; 11]]) = Ok [[233; 32; 0; 128512; 11]].
Proof. vm_compute. split; reflexivity. Qed.

(* non-vacuity *)
Example roundtrip_example_run :
  let items := [lit "a b"; lit "c,d"; [101; 34; 102]; [103; 92; 104]; lit "plain"; [92; 116]; [34]; [92]; [44]; [32]] in
  forallb item_ok items = true /\ split_by_commas (join_items items) = Ok items.
Proof. vm_compute. split; reflexivity. Qed.
Example rejects_examples :
  split_by_commas ([34] ++ lit "abc") = Exn ValueError /\                      (* dquote abc *)
  split_by_commas ([34; 97; 34; 98]) = Exn ValueError /\                       (* dquote a dquote b *)
  split_by_commas ([34; 97; 34; 32; 34; 98; 34]) = Exn ValueError /\           (* two quoted strings separated by a space *)
  split_by_commas ([97; 34; 98; 34]) = Exn ValueError /\                       (* a then quoted b *)
  split_by_commas (lit "a,,b") = Exn ValueError /\ split_by_commas (lit "a,") = Exn ValueError /\
  split_by_commas (lit ",a") = Exn ValueError /\ split_by_commas [] = Exn ValueError /\
  split_by_commas (lit " a , b ") = Ok [lit "a"; lit "b"] /\
  split_by_commas ([34; 34]) = Ok [[]].                                          (* two double quotes: the empty item *)
Proof. vm_compute. repeat split; reflexivity. Qed.
(* pyparsing's own escapes in quoted strings (not used by the writer's convention) *)
Example unescape_examples :
  unescape (lit "\t") = [9] /\ unescape (lit "\n\f\r") = [10; 12; 13] /\ unescape (lit "\0") = [0] /\
  unescape (lit "\03") = lit "03" /\ unescape (lit "\73") = lit "73" /\ unescape (lit "\x12") = [18] /\
  unescape (lit "\xA2") = [162] /\ unescape (lit "\uB4") = [180] /\ unescape (lit "\x1") = lit "x1" /\
  unescape (lit "\q") = lit "q" /\ unescape [92; 92; 116] = [92; 116].
Proof. vm_compute. repeat split; reflexivity. Qed.

(* instances of the rejection theorems' hypotheses (non-vacuity): after the field [a b] ... *)
Example rejects_instances :
  let pre := [[97; 32; 98]] in
  forallb item_ok pre = true /\
  (* ... a blank field, then more fields *)
  (blank [32] = true /\ split_by_commas (join_fields (map quote pre ++ [32] :: [[99]])) = Exn ValueError) /\
  (* ... a field with one double quote *)
  (nq [34; 98; 99] = 1%nat /\ split_by_commas (join_fields (map quote pre ++ [[34; 98; 99]])) = Exn ValueError) /\
  (* ... a quoted field, a blank, then text *)
  (is_white 120 = false /\
   split_by_commas (join_fields (map quote pre ++ [quoted_field [99; 44; 100] ++ [32] ++ 120 :: [44; 121]])) = Exn ValueError) /\
  (* ... a word with a quote in it *)
  (forallb is_word [99; 100] = true /\
   split_by_commas (join_fields (map quote pre ++ [[99; 100] ++ 34 :: [101; 34]])) = Exn ValueError).
Proof. vm_compute. repeat split; reflexivity. Qed.
