(* Proofs/Insp_Engine.v — the capture engine (Model/Insp_Engine.v): the region dictionary and _capture on it;
   eat_chunk stage by stage, and a principle for predicates it keeps; what one region holds of the stream
   ([on_track], [RI]) and what every reachable inspector satisfies ([Inv], for any format whose hooks meet
   [post_ok]/[rc_ok]); the operations hooks are made of; capture_slice and end_capture_tail over chunk lists. *)
Require Import OV.Base.Bytes OV.Base.Py OV.Base.Insp_Struct OV.Gen.Insp_Consts OV.Model.Insp_Engine.
Open Scope N_scope.

Lemma rname_beq_eq a b : rname_beq a b = true <-> a = b.
Proof. split; [apply internal_rname_dec_bl | apply internal_rname_dec_lb]. Qed.
Lemma rname_beq_refl a : rname_beq a a = true.
Proof. apply rname_beq_eq. reflexivity. Qed.
Lemma cname_beq_eq a b : cname_beq a b = true <-> a = b.
Proof. split; [apply internal_cname_dec_bl | apply internal_cname_dec_lb]. Qed.

Lemma mem_rname_In n l : mem_rname n l = true <-> In n l.
Proof.
  induction l as [|k t IH]; cbn [mem_rname In]; [split; [discriminate | tauto]|].
  rewrite orb_true_iff, rname_beq_eq, IH. tauto.
Qed.
Lemma mem_nat_In n l : mem_nat n l = true <-> In n l.
Proof.
  induction l as [|k t IH]; cbn [mem_nat In]; [split; [discriminate | tauto]|].
  rewrite orb_true_iff, Nat.eqb_eq, IH. tauto.
Qed.

(* a slice of the stream stays the same slice when the stream grows *)
Lemma slice_ext d off st c : d = bslice off (blen d) st -> d = bslice off (blen d) (st ++ c).
Proof. intros H. rewrite bslice_full_ext; [exact H | rewrite <- H; reflexivity]. Qed.

Lemma rget_None_notin n l : rget n l = None -> ~ In n (map fst l).
Proof.
  induction l as [|[k r] t IH]; cbn [rget map fst In]; [tauto|].
  destruct (rname_beq k n) eqn:Hb; [discriminate|]. intros H [Hk|Hin]; [|exact (IH H Hin)].
  subst. rewrite rname_beq_refl in Hb. discriminate.
Qed.
Lemma rget_Some_In n l r : rget n l = Some r -> In (n, r) l.
Proof.
  induction l as [|[k r'] t IH]; cbn [rget In]; [discriminate|].
  destruct (rname_beq k n) eqn:Hb; [|intros H; right; exact (IH H)].
  apply rname_beq_eq in Hb. intros H. inversion H; subst. left. reflexivity.
Qed.
Lemma rdel_In n l p : In p (rdel n l) -> In p l.
Proof.
  induction l as [|[k r] t IH]; cbn [rdel In]; [tauto|].
  destruct (rname_beq k n); [intros H; right; exact H|]. cbn [In]. intros [H|H]; [left; exact H | right; exact (IH H)].
Qed.
Lemma rdel_NoDup n l : NoDup (map fst l) -> NoDup (map fst (rdel n l)).
Proof.
  induction l as [|[k r] t IH]; cbn [rdel map fst]; [intros H; exact H|].
  intros H. inversion H as [|? ? Hn Hd]; subst. destruct (rname_beq k n); [exact Hd|].
  cbn [map fst]. constructor; [|exact (IH Hd)].
  intros Hin. apply Hn. apply in_map_iff in Hin. destruct Hin as (p & Hf & Hp). apply rdel_In in Hp.
  apply in_map_iff. exists p. split; assumption.
Qed.
Lemma rset_names n r l : map fst (rset n r l) = map fst l.
Proof.
  induction l as [|[k r'] t IH]; cbn [rset map fst]; [reflexivity|].
  destruct (rname_beq k n) eqn:Hb; cbn [map fst]; [reflexivity | rewrite IH; reflexivity].
Qed.
Lemma rset_In n r l p : In p (rset n r l) -> In p l \/ (p = (n, r) /\ rget n l <> None).
Proof.
  induction l as [|[k r'] t IH]; cbn [rset rget In]; [tauto|].
  destruct (rname_beq k n) eqn:Hb.
  - apply rname_beq_eq in Hb. subst. cbn [In]. intros [H|H]; [right; split; [symmetry; exact H | discriminate] | left; right; exact H].
  - cbn [In]. intros [H|H]; [left; left; exact H|]. destruct (IH H) as [H'|H']; [left; right; exact H' | right; exact H'].
Qed.
Lemma rset_ids n r l m : rget n l = Some m -> r_id r = r_id m -> ids (rset n r l) = ids l.
Proof.
  unfold ids. induction l as [|[k r'] t IH]; cbn [rset rget map]; [reflexivity|].
  destruct (rname_beq k n); cbn [map snd]; intros H Hi.
  - inversion H; subst. rewrite Hi. reflexivity.
  - rewrite (IH H Hi). reflexivity.
Qed.

Lemma rget_app_some n l l' r : rget n l = Some r -> rget n (l ++ l') = Some r.
Proof.
  induction l as [|[k r0] t IH]; cbn [rget app]; [discriminate|].
  destruct (rname_beq k n); [intros H; exact H | exact IH].
Qed.
Lemma rget_app_none n l l' : rget n l = None -> rget n (l ++ l') = rget n l'.
Proof.
  induction l as [|[k r0] t IH]; cbn [rget app]; [reflexivity|].
  destruct (rname_beq k n); [discriminate | exact IH].
Qed.
Lemma rget_rset_other n m r' l : n <> m -> rget n (rset m r' l) = rget n l.
Proof.
  intros Hne. induction l as [|[k r0] t IH]; cbn [rget rset]; [reflexivity|].
  destruct (rname_beq k m) eqn:Hm; cbn [rget].
  - apply rname_beq_eq in Hm. subst k. destruct (rname_beq m n) eqn:Hn; [|reflexivity].
    apply rname_beq_eq in Hn. congruence.
  - destruct (rname_beq k n); [reflexivity | exact IH].
Qed.
Lemma rget_rset_same n r' l r : rget n l = Some r -> rget n (rset n r' l) = Some r'.
Proof.
  induction l as [|[k r0] t IH]; cbn [rget rset]; [discriminate|].
  destruct (rname_beq k n) eqn:Hn; cbn [rget]; rewrite Hn; [reflexivity | exact IH].
Qed.
Lemma rget_rdel_other n m l : n <> m -> rget n (rdel m l) = rget n l.
Proof.
  intros Hne. induction l as [|[k r0] t IH]; cbn [rget rdel]; [reflexivity|].
  destruct (rname_beq k m) eqn:Hm.
  - apply rname_beq_eq in Hm. subst k. destruct (rname_beq m n) eqn:Hn; [|reflexivity].
    apply rname_beq_eq in Hn. congruence.
  - cbn [rget]. destruct (rname_beq k n); [reflexivity | exact IH].
Qed.
Lemma rget_rdel_same n l : NoDup (map fst l) -> rget n (rdel n l) = None.
Proof.
  induction l as [|[k r0] t IH]; cbn [rget rdel map fst]; [reflexivity|]. intros Hnd.
  inversion Hnd as [|? ? Hnin Hnd']; subst.
  destruct (rname_beq k n) eqn:Hn.
  - apply rname_beq_eq in Hn. subst k. destruct (rget n t) eqn:Hg; [|reflexivity].
    exfalso. apply Hnin. apply rget_Some_In in Hg. apply (in_map fst) in Hg. exact Hg.
  - cbn [rget]. rewrite Hn. apply IH. exact Hnd'.
Qed.
Lemma rget_finish n l :
  rget n (map (fun p : rname * region => (fst p, if r_end (snd p) then set_fin (snd p) true else snd p)) l)
  = option_map (fun r => if r_end r then set_fin r true else r) (rget n l).
Proof.
  induction l as [|[k r0] t IH]; [reflexivity|]. cbn [map fst snd rget].
  destruct (rname_beq k n); [reflexivity | exact IH].
Qed.

Lemma ist_eta {X} (s : ist X) : set_ext s (i_ext s) = s.
Proof. destruct s; reflexivity. Qed.

Lemma NoDup_fst_inj {A B} (l : list (A * B)) k a b :
  NoDup (map fst l) -> In (k, a) l -> In (k, b) l -> a = b.
Proof.
  intros Hn Ha Hb. pose proof (NoDup_map_inj fst l (k, a) (k, b) Hn Ha Hb eq_refl) as E. congruence.
Qed.

Definition cap1 (only : list rname) (chunk : bytes) (pos : N) (p : rname * region) : rname * region :=
  let '(n, r) := p in
  if (match only with [] => false | _ => negb (mem_rname n only) end) then (n, r)
  else if r_end r || negb (rcomplete r) then (n, rcapture r chunk pos)
  else (n, r).
Lemma capture_regs_map only c pos l : capture_regs only c pos l = map (cap1 only c pos) l.
Proof. reflexivity. Qed.

Lemma rcapture_id r c pos : r_id (rcapture r c pos) = r_id r.
Proof.
  unfold rcapture, cap_end, cap_fixed. destruct (r_end r); [reflexivity|].
  destruct (_ && _); reflexivity.
Qed.
Lemma cap1_fst only c pos p : fst (cap1 only c pos p) = fst p.
Proof. destruct p as [n r]. unfold cap1. destruct (match only with [] => false | _ => _ end); [reflexivity|]. destruct (_ || _); reflexivity. Qed.
Lemma cap1_id only c pos p : r_id (snd (cap1 only c pos p)) = r_id (snd p).
Proof. destruct p as [n r]. unfold cap1. destruct (match only with [] => false | _ => _ end); [reflexivity|]. destruct (_ || _); [apply rcapture_id|reflexivity]. Qed.

Lemma cap1_all c pos n r : cap1 [] c pos (n, r) = (n, if r_end r || negb (rcomplete r) then rcapture r c pos else r).
Proof. unfold cap1. destruct (r_end r || negb (rcomplete r)); reflexivity. Qed.

Lemma capture_regs_names only c pos l : map fst (capture_regs only c pos l) = map fst l.
Proof. rewrite capture_regs_map, map_map. apply map_ext. intros p. apply cap1_fst. Qed.
Lemma capture_regs_ids only c pos l : ids (capture_regs only c pos l) = ids l.
Proof. unfold ids. rewrite capture_regs_map, map_map. apply map_ext. intros p. apply cap1_id. Qed.

Lemma Forall_map_intro {A B} (P : B -> Prop) (f : A -> B) l :
  (forall x, In x l -> P (f x)) -> Forall P (map f l).
Proof. intros H. apply Forall_forall. intros y Hy. apply in_map_iff in Hy. destruct Hy as (x & <- & Hx). auto. Qed.

Lemma new_names_In known l n :
  In n (new_names known l) <-> exists r, In (n, r) l /\ ~ In (r_id r) known.
Proof.
  unfold new_names. rewrite in_map_iff. split.
  - intros ([n' r] & <- & Hf). apply filter_In in Hf. destruct Hf as [Hin Hb]. exists r. split; [exact Hin|].
    cbn [snd] in Hb. intros Hk. apply mem_nat_In in Hk. rewrite Hk in Hb. discriminate.
  - intros (r & Hin & Hk). exists (n, r). split; [reflexivity|]. apply filter_In. split; [exact Hin|].
    cbn [snd]. destruct (mem_nat (r_id r) known) eqn:Hm; [|reflexivity]. apply mem_nat_In in Hm. contradiction.
Qed.

Lemma rcapture_end r c pos : r_end (rcapture r c pos) = r_end r.
Proof.
  unfold rcapture, cap_end, cap_fixed. destruct (r_end r) eqn:H; [cbn [set_off set_data r_end]; exact H|].
  destruct (_ && _); cbn [set_data r_end]; exact H.
Qed.
Lemma cap1_end only c pos p : r_end (snd (cap1 only c pos p)) = r_end (snd p).
Proof. destruct p as [n r]. unfold cap1. destruct (match only with [] => false | _ => _ end); [reflexivity|]. destruct (_ || _); [apply rcapture_end|reflexivity]. Qed.

Lemma init_regs_names id l : map fst (init_regs id l) = map fst l.
Proof. revert id. induction l as [|[n sp] t IH]; intros id; cbn [init_regs map fst]; [reflexivity|]. rewrite IH. reflexivity. Qed.
Lemma init_regs_Forall (P : rname * region -> Prop) l :
  (forall id p, In p l -> P (fst p, region_of_spec id (snd p))) -> forall id, Forall P (init_regs id l).
Proof.
  induction l as [|[n sp] t IH]; intros H id; cbn [init_regs]; constructor.
  - apply (H id (n, sp)). left. reflexivity.
  - apply IH. intros id' p Hp. apply H. right. exact Hp.
Qed.

Lemma rcapture_len r c pos : r_len (rcapture r c pos) = r_len r.
Proof.
  unfold rcapture, cap_end, cap_fixed. destruct (r_end r); [reflexivity|].
  destruct (_ && _); reflexivity.
Qed.

Lemma rget_capture only c pos l n :
  rget n (capture_regs only c pos l) = option_map (fun r => snd (cap1 only c pos (n, r))) (rget n l).
Proof.
  induction l as [|[k r] t IH]; [reflexivity|].
  rewrite capture_regs_map. cbn [map]. rewrite <- capture_regs_map.
  assert (Hk : fst (cap1 only c pos (k, r)) = k) by apply cap1_fst.
  destruct (cap1 only c pos (k, r)) as [k' r'] eqn:Hc. cbn [fst] in Hk. subst k'.
  cbn [rget]. destruct (rname_beq k n) eqn:Hb.
  - apply rname_beq_eq in Hb. subst. cbn [option_map]. rewrite Hc. reflexivity.
  - exact IH.
Qed.
Lemma new_names_nil known l : (forall p, In p l -> In (r_id (snd p)) known) -> new_names known l = [].
Proof.
  unfold new_names. induction l as [|p t IH]; intros H; cbn [filter map]; [reflexivity|].
  assert (Hm : mem_nat (r_id (snd p)) known = true) by (apply mem_nat_In; apply H; left; reflexivity).
  rewrite Hm. cbn [negb]. apply IH. intros q Hq. apply H. right. exact Hq.
Qed.
Lemma new_names_same_ids l l' : ids l' = ids l -> new_names (ids l) l' = [].
Proof. intros H. apply new_names_nil. intros p Hp. rewrite <- H. apply (in_map (fun p => r_id (snd p))). exact Hp. Qed.

Lemma eat_finished {X} (F : fmt X) (s : ist X) c :
  i_fin s = true -> eat_chunk F s c = (set_pos s (i_pos s + flen c), Some RuntimeError).
Proof. intros H. unfold eat_chunk, do_capture. cbn [set_pos i_fin]. rewrite H. reflexivity. Qed.

Lemma eat_chunk_unfold {X} (F : fmt X) (s : ist X) c :
  i_fin s = false ->
  eat_chunk F s c =
  let pos := i_pos s + flen c in
  let s1 := mkIst pos (capture_regs [] c pos (i_regs s)) (i_next s) false (i_checks s) (i_ext s) in
  match f_post F s1 with
  | (s2, Some e) => (s2, Some e)
  | (s2, None) =>
    match settle eat_fuel F c (ids (i_regs s)) s2 with
    | (s3, Some e) => (s3, Some e)
    | (s3, None) => run_callbacks F (newly_complete (complete_ids (i_regs s)) (i_regs s3)) s3
    end
  end.
Proof.
  intros Hf. unfold eat_chunk, do_capture. destruct s as [p r n fi ch x]. cbn [i_fin] in Hf. subst fi. reflexivity.
Qed.

Lemma settle_done {X} (F : fmt X) fuel c known (s : ist X) :
  new_names known (i_regs s) = [] -> settle fuel F c known s = (s, None).
Proof. intros H. destruct fuel; cbn [settle]; rewrite H; reflexivity. Qed.

Lemma settle_step {X} (F : fmt X) fuel c known (s : ist X) n ns :
  new_names known (i_regs s) = n :: ns -> i_fin s = false ->
  settle (S fuel) F c known s =
  let s1 := set_regs s (capture_regs (n :: ns) c (i_pos s) (i_regs s)) in
  match f_post F s1 with
  | (s2, Some e) => (s2, Some e)
  | (s2, None) => settle fuel F c (ids (i_regs s1)) s2
  end.
Proof. intros H Hf. cbn [settle]. rewrite H. unfold do_capture. rewrite Hf. reflexivity. Qed.

Lemma run_callbacks_noop {X} (F : fmt X) names (s : ist X) :
  (forall n s0, f_rcomplete F n s0 = (s0, None)) -> run_callbacks F names s = (s, None).
Proof. intros H. induction names as [|n t IH]; cbn [run_callbacks]; [reflexivity|]. rewrite H. exact IH. Qed.

Section Pres.
Context {X : Type}.
Variable F : fmt X.
Variable c : bytes.
(* P0 before the call, P from the first capture on (the chunk [c] is fixed) *)
Variables P0 P : ist X -> Prop.
Hypothesis Pfirst : forall s, P0 s -> i_fin s = false ->
  P (set_regs (set_pos s (i_pos s + flen c)) (capture_regs [] c (i_pos s + flen c) (i_regs s))).
Hypothesis Pfinished : forall s, P0 s -> i_fin s = true -> P (set_pos s (i_pos s + flen c)).
Hypothesis Pcap : forall s only, P s -> i_fin s = false -> P (set_regs s (capture_regs only c (i_pos s) (i_regs s))).
Hypothesis Ppost : forall s s' e, P s -> f_post F s = (s', e) -> P s'.
Hypothesis Prc : forall n s s' e, P s -> f_rcomplete F n s = (s', e) -> P s'.

Lemma pres_do_capture only s s' e : P s -> do_capture only c s = (s', e) -> P s'.
Proof. unfold do_capture. intros HP H. destruct (i_fin s) eqn:Hf; inversion H; subst; auto. Qed.

Lemma pres_settle : forall fuel known s s' e, P s -> settle fuel F c known s = (s', e) -> P s'.
Proof.
  induction fuel as [|fuel IH]; intros known s s' e HP H; cbn [settle] in H.
  - destruct (new_names known (i_regs s)); inversion H; subst; exact HP.
  - destruct (new_names known (i_regs s)) as [|n0 new]; [inversion H; subst; exact HP|].
    destruct (do_capture (n0 :: new) c s) as [s1 [e1|]] eqn:Hc.
    + inversion H; subst. eapply pres_do_capture; eauto.
    + pose proof (pres_do_capture _ _ _ _ HP Hc) as HP1.
      destruct (f_post F s1) as [s2 [e2|]] eqn:Hp.
      * inversion H; subst. eapply Ppost; eauto.
      * eapply IH; [|exact H]. eapply Ppost; eauto.
Qed.

Lemma pres_callbacks : forall names s s' e, P s -> run_callbacks F names s = (s', e) -> P s'.
Proof.
  induction names as [|n t IH]; intros s s' e HP H; cbn [run_callbacks] in H.
  - inversion H; subst; exact HP.
  - destruct (f_rcomplete F n s) as [s1 [e1|]] eqn:Hc.
    + inversion H; subst. eapply Prc; eauto.
    + eapply IH; [|exact H]. eapply Prc; eauto.
Qed.

Theorem pres_eat_chunk s s' e : P0 s -> eat_chunk F s c = (s', e) -> P s'.
Proof.
  intros H0 He. unfold eat_chunk, do_capture in He. cbn [set_pos i_fin i_regs i_pos] in He.
  destruct (i_fin s) eqn:Hfin.
  - inversion He; subst. apply Pfinished; assumption.
  - pose proof (Pfirst s H0 Hfin) as H1.
    set (s1 := set_regs (set_pos s (i_pos s + flen c)) (capture_regs [] c (i_pos s + flen c) (i_regs s))) in *.
    destruct (f_post F s1) as [s2 [e2|]] eqn:Hp.
    + inversion He; subst. eapply Ppost; eauto.
    + pose proof (Ppost _ _ _ H1 Hp) as H2.
      destruct (settle eat_fuel F c (ids (i_regs s)) s2) as [s3 [e3|]] eqn:Hs.
      * inversion He; subst. eapply pres_settle; eauto.
      * eapply pres_callbacks; [|exact He]. eapply pres_settle; eauto.
Qed.
End Pres.

Section PresSimple.
Context {X : Type}.
Variable F : fmt X.
Variable P : ist X -> Prop.
Hypothesis Ppos : forall s p, P s -> P (set_pos s p).
Hypothesis Pcap : forall s only c pos, P s -> P (set_regs s (capture_regs only c pos (i_regs s))).
Hypothesis Ppost : forall s s' e, P s -> f_post F s = (s', e) -> P s'.
Hypothesis Prc : forall n s s' e, P s -> f_rcomplete F n s = (s', e) -> P s'.

Theorem pres_eat_chunk_simple s c s' e : P s -> eat_chunk F s c = (s', e) -> P s'.
Proof.
  apply (pres_eat_chunk F c P P).
  - intros s0 H _.
    assert (Hq : set_regs (set_pos s0 (i_pos s0 + flen c)) (capture_regs [] c (i_pos s0 + flen c) (i_regs s0))
                 = set_pos (set_regs s0 (capture_regs [] c (i_pos s0 + flen c) (i_regs s0))) (i_pos s0 + flen c))
      by (destruct s0; reflexivity).
    rewrite Hq. apply Ppos. apply Pcap. exact H.
  - intros s0 H _. apply Ppos. exact H.
  - intros s0 only H _. apply Pcap. exact H.
  - exact Ppost.
  - exact Prc.
Qed.

Theorem pres_eat_all cs : forall s s' e, P s -> eat_all F s cs = (s', e) -> P s'.
Proof.
  induction cs as [|c t IH]; intros s s' e HP H; cbn [eat_all] in H.
  - inversion H; subst; exact HP.
  - destruct (eat_chunk F s c) as [s1 [e1|]] eqn:Hc.
    + inversion H; subst. eapply pres_eat_chunk_simple; eauto.
    + eapply IH; [|exact H]. eapply pres_eat_chunk_simple; eauto.
Qed.

Hypothesis Pfin : forall s, P s -> P (finish s).

Theorem pres_run_fmt cs s e : P (init_ist F) -> run_fmt F cs = (s, e) -> P s.
Proof.
  intros Hi H. unfold run_fmt in H. destruct (eat_all F (init_ist F) cs) as [s1 e1] eqn:Ha.
  inversion H; subst. apply Pfin. eapply pres_eat_all; eauto.
Qed.
End PresSimple.

(* [on_track st r]: the region holds exactly the part of its window that the stream [st] has reached *)
Definition on_track (st : bytes) (r : region) : Prop := r_data r = bslice (r_off r) (r_len r) st.

Lemma set_data_same r : set_data r (r_data r) = r.
Proof. destruct r; reflexivity. Qed.

(* when CaptureRegion.capture takes the chunk [c], what the region holds then is the stream from its offset on
   (cut to its length): the chunk continues exactly where the data ends *)
Lemma cap_fixed_taken pre c r :
  r_data r = bslice (r_off r) (blen (r_data r)) (pre ++ c) -> blen pre <= r_off r + blen (r_data r) ->
  r_data r ++ bskip (r_off r + blen (r_data r) - blen pre) c = bskip (r_off r) (pre ++ c).
Proof.
  intros Hsl Hw. rewrite <- (btake_bskip_app (blen (r_data r)) (bskip (r_off r) (pre ++ c))).
  f_equal; [exact Hsl|]. rewrite bskip_bskip, bskip_app_ge by lia. reflexivity.
Qed.

(* CaptureRegion.capture on a region that is on track: it stays on track, whatever the chunk
   (empty, ending before the window, starting inside it, reaching beyond it) *)
Lemma cap_fixed_on_track st c r :
  on_track st r -> cap_fixed r c (blen st + blen c) = set_data r (bslice (r_off r) (r_len r) (st ++ c)).
Proof.
  unfold on_track, cap_fixed. intros H. rewrite !flen_blen, ntake_btake, nskip_bskip, N.add_sub.
  assert (Hd : blen (r_data r) = N.min (r_len r) (blen st - r_off r)) by (rewrite H at 1; apply blen_bslice).
  destruct ((blen st <=? r_off r + blen (r_data r)) && (r_off r + blen (r_data r) <=? blen st + blen c)) eqn:Hc.
  - assert (Hsl : r_data r = bslice (r_off r) (blen (r_data r)) (st ++ c)).
    { apply slice_ext. rewrite H at 1. unfold bslice. rewrite Hd, <- blen_bskip. apply btake_min. }
    rewrite (cap_fixed_taken st c r Hsl) by lia. reflexivity.
  - (* not taken: the window is full already, or begins beyond the chunk *)
    rewrite <- (set_data_same r) at 1. f_equal. rewrite H at 1. symmetry.
    destruct (N.le_gt_cases (blen st) (r_off r)) as [Ho|Ho].
    + unfold bslice. rewrite !bskip_all by (rewrite ?blen_app; lia). reflexivity.
    + apply bslice_full_ext. rewrite blen_bslice. lia.
Qed.

(* one step of _capture on such a region: a complete region is skipped; without min_length, complete means
   that the window is full *)
Lemma capture_step st c r :
  r_end r = false -> r_min r = None -> on_track st r ->
  (if r_end r || negb (rcomplete r) then rcapture r c (blen st + blen c) else r)
  = set_data r (bslice (r_off r) (r_len r) (st ++ c)).
Proof.
  intros He Hm Ht. unfold rcapture, rcomplete, base_complete. rewrite He, Hm, flen_blen. cbn [orb].
  destruct (r_len r =? blen (r_data r)) eqn:Hc; cbn [negb]; [|apply cap_fixed_on_track; exact Ht].
  unfold on_track in Ht. rewrite bslice_full_ext by (rewrite <- Ht; lia). rewrite <- Ht. symmetry. apply set_data_same.
Qed.

(* what a region holds is the stream's bytes at its offset, never more than its length; an
   EndCaptureRegion that holds something ends at the current position (while not finished) *)
Definition RI (st : bytes) (fin : bool) (r : region) : Prop :=
  blen (r_data r) <= r_len r /\
  r_data r = bslice (r_off r) (blen (r_data r)) st /\
  (r_end r = true -> 0 < r_len r /\ (fin = false -> r_data r = [] \/ r_off r + blen (r_data r) = blen st)).

Lemma RI_fresh st fin id sp : (rs_end sp = true -> 0 < rs_len sp) -> RI st fin (region_of_spec id sp).
Proof.
  intros H. unfold RI, region_of_spec. cbn [r_data r_len r_off r_end]. rewrite blen_nil, bslice_nil.
  split; [lia|]. split; [reflexivity|]. intros He. split; [apply H; exact He|]. intros _. left. reflexivity.
Qed.

Lemma cap_fixed_RI pre c r :
  r_end r = false -> RI (pre ++ c) false r -> RI (pre ++ c) false (cap_fixed r c (blen (pre ++ c))).
Proof.
  intros Hend (Hlen & Hsl & _). unfold cap_fixed. rewrite !flen_blen, blen_app.
  replace (blen pre + blen c - blen c) with (blen pre) by lia.
  destruct ((blen pre <=? r_off r + blen (r_data r)) && (r_off r + blen (r_data r) <=? blen pre + blen c)) eqn:Hcond.
  2:{ unfold RI. split; [exact Hlen|]. split; [exact Hsl|]. intros He. rewrite Hend in He. discriminate. }
  unfold RI. cbn [set_data r_data r_len r_off r_end]. rewrite Hend.
  rewrite ntake_btake, nskip_bskip.
  rewrite (cap_fixed_taken pre c r Hsl) by lia. split; [|split].
  - rewrite blen_btake. lia.
  - unfold bslice. rewrite blen_btake. rewrite <- btake_min. reflexivity.
  - discriminate.
Qed.

Lemma cap_end_RI pre c r :
  r_end r = true -> 0 < r_len r ->
  (r_data r = [] \/ (r_data r = bslice (r_off r) (blen (r_data r)) pre /\ r_off r + blen (r_data r) = blen pre)) ->
  RI (pre ++ c) false (cap_end r c (blen (pre ++ c))).
Proof.
  intros Hend Hpos Hd.
  (* what is accumulated is a suffix of the stream *)
  assert (HX : exists k, k <= blen (pre ++ c) /\ r_data r ++ c = bskip k (pre ++ c)).
  { destruct Hd as [Hd | [Hsl Ha]].
    - exists (blen pre). rewrite Hd, blen_app. split; [lia|]. rewrite bskip_app_ge by lia.
      replace (blen pre - blen pre) with 0 by lia. reflexivity.
    - exists (r_off r). rewrite blen_app. split; [lia|]. rewrite bskip_app_le by lia. f_equal.
      rewrite Hsl. unfold bslice. apply btake_all. rewrite blen_bskip. lia. }
  destruct HX as (k & Hk & HX).
  set (st := pre ++ c) in *.
  unfold cap_end, nlast. replace (r_len r =? 0) with false by lia.
  rewrite flen_blen, nskip_bskip. rewrite HX. rewrite bskip_bskip, blen_bskip.
  (* what is kept is the suffix of the stream from some j on, at most [r_len r] long *)
  set (j := k + (blen st - k - r_len r)).
  assert (Hj : j <= blen st /\ blen st - j <= r_len r) by (subst j; lia). clearbody j. clear HX.
  unfold RI. cbn [set_off set_data r_data r_len r_off r_end]. rewrite flen_blen, blen_bskip.
  replace (blen st - (blen st - j)) with j by lia.
  split; [apply Hj|]. split.
  - unfold bslice. symmetry. apply btake_all. rewrite blen_bskip. apply N.le_refl.
  - intros _. split; [exact Hpos|]. intros _. right. lia.
Qed.

(* the stream grows under a region that is not an EndCaptureRegion still collecting *)
Lemma RI_ext st c fin r : (r_end r = true -> fin = true) -> RI st fin r -> RI (st ++ c) fin r.
Proof.
  intros Hf (Hlen & Hsl & He). split; [exact Hlen|]. split; [apply slice_ext; exact Hsl|].
  intros H. split; [apply He; exact H|]. rewrite (Hf H). discriminate.
Qed.
Lemma RI_ext_fin st c r : RI st true r -> RI (st ++ c) true r.
Proof. apply RI_ext. reflexivity. Qed.

Lemma RI_to_fin st fin r : RI st fin r -> RI st true r.
Proof. intros (Hlen & Hsl & He). split; [exact Hlen|]. split; [exact Hsl|]. intros H. split; [apply He; exact H|]. discriminate. Qed.

(* one step of _capture on one region: the first presentation of a chunk *)
Lemma rcapture_RI_first st c r :
  RI st false r ->
  RI (st ++ c) false (if r_end r || negb (rcomplete r) then rcapture r c (blen (st ++ c)) else r).
Proof.
  intros HR. destruct (r_end r) eqn:Hend; cbn [orb].
  - unfold rcapture. rewrite Hend. destruct HR as (Hlen & Hsl & He). destruct (He Hend) as [Hp Ha].
    apply cap_end_RI; auto. destruct (Ha eq_refl) as [Hn | Hanch]; [left; exact Hn | right; split; assumption].
  - assert (HR' : RI (st ++ c) false r) by (apply RI_ext; [rewrite Hend; discriminate | exact HR]).
    destruct (negb (rcomplete r)); [|exact HR'].
    unfold rcapture. rewrite Hend. apply cap_fixed_RI; assumption.
Qed.

(* ... and the re-presentation of the same chunk to a region that is still empty *)
Lemma rcapture_RI_again pre c r :
  RI (pre ++ c) false r -> r_data r = [] ->
  RI (pre ++ c) false (if r_end r || negb (rcomplete r) then rcapture r c (blen (pre ++ c)) else r).
Proof.
  intros HR Hd. destruct (r_end r) eqn:Hend; cbn [orb].
  - unfold rcapture. rewrite Hend. destruct HR as (Hlen & Hsl & He). destruct (He Hend) as [Hp Ha].
    apply cap_end_RI; auto.
  - destruct (negb (rcomplete r)); [|exact HR].
    unfold rcapture. rewrite Hend. apply cap_fixed_RI; assumption.
Qed.

Section Invariant.
Context {X : Type}.
(* a format may fix which names are EndCaptureRegions ([K name is_end]); the engine never changes a region's kind *)
Variable K : rname -> bool -> Prop.
Definition kinds_ok (l : regions) : Prop := Forall (fun p => K (fst p) (r_end (snd p))) l.

Lemma kinds_capture only c pos l : kinds_ok l -> kinds_ok (capture_regs only c pos l).
Proof.
  unfold kinds_ok. intros H. rewrite capture_regs_map. apply Forall_map_intro. intros p Hin.
  rewrite Forall_forall in H. rewrite cap1_fst, cap1_end. apply H. exact Hin.
Qed.

(* what every reachable inspector state satisfies with respect to the stream [st] presented so far *)
Definition Inv (st : bytes) (s : ist X) : Prop :=
  i_pos s = blen st /\ NoDup (map fst (i_regs s)) /\
  Forall (fun p => RI st (i_fin s) (snd p)) (i_regs s) /\ kinds_ok (i_regs s).

(* region objects that did not exist in [old] are empty *)
Definition fresh_empty (old new : regions) : Prop :=
  forall p, In p new -> ~ In (r_id (snd p)) (ids old) -> r_data (snd p) = [].

(* the obligations of a format: its hooks keep the invariant and create regions empty *)
Definition post_ok (F : fmt X) : Prop :=
  forall st s s' e, Inv st s -> f_post F s = (s', e) ->
    Inv st s' /\ fresh_empty (i_regs s) (i_regs s') /\ i_fin s' = i_fin s.
Definition rc_ok (F : fmt X) : Prop :=
  forall n st s s' e, Inv st s -> f_rcomplete F n s = (s', e) -> Inv st s'.

Lemma Inv_capture st st' (s : ist X) only c pos p :
  Inv st s -> p = blen st' ->
  (forall n r, In (n, r) (i_regs s) -> RI st (i_fin s) r -> RI st' (i_fin s) (snd (cap1 only c pos (n, r)))) ->
  Inv st' (set_regs (set_pos s p) (capture_regs only c pos (i_regs s))).
Proof.
  intros (_ & Hnd & Hall & HK) Hp H. unfold Inv. cbn [set_regs set_pos i_pos i_regs i_fin].
  split; [exact Hp|]. split; [rewrite capture_regs_names; exact Hnd|]. split; [|apply kinds_capture; exact HK].
  rewrite capture_regs_map. apply Forall_map_intro. intros [n r] Hin. rewrite Forall_forall in Hall.
  exact (H n r Hin (Hall _ Hin)).
Qed.

Lemma Inv_capture_first st (s : ist X) c :
  Inv st s -> i_fin s = false ->
  Inv (st ++ c) (set_regs (set_pos s (i_pos s + flen c)) (capture_regs [] c (i_pos s + flen c) (i_regs s))).
Proof.
  intros HI Hfin. apply (Inv_capture st); [exact HI | rewrite flen_blen, (proj1 HI), blen_app; reflexivity|].
  intros n r _ HR. rewrite Hfin in *. rewrite cap1_all, flen_blen, (proj1 HI), <- blen_app.
  exact (rcapture_RI_first st c r HR).
Qed.

Lemma Inv_capture_again pre c (s : ist X) only :
  Inv (pre ++ c) s -> i_fin s = false -> only <> [] ->
  (forall n r, In (n, r) (i_regs s) -> In n only -> r_data r = []) ->
  Inv (pre ++ c) (set_regs s (capture_regs only c (i_pos s) (i_regs s))).
Proof.
  intros HI Hfin Hne Hempty. apply (Inv_capture (pre ++ c) (pre ++ c) s only c (i_pos s) (i_pos s) HI (proj1 HI)).
  intros n r Hin HR. rewrite Hfin in *. unfold cap1. destruct only as [|k t]; [contradiction|].
  destruct (mem_rname n (k :: t)) eqn:Hm; cbn [negb]; [|exact HR].
  apply mem_rname_In in Hm. rewrite (proj1 HI).
  pose proof (rcapture_RI_again pre c r HR (Hempty n r Hin Hm)) as H.
  destruct (r_end r || negb (rcomplete r)); exact H.
Qed.

Lemma Inv_settle (F : fmt X) pre c : post_ok F ->
  forall fuel known (s s' : ist X) e,
  Inv (pre ++ c) s ->
  (forall p, In p (i_regs s) -> ~ In (r_id (snd p)) known -> r_data (snd p) = []) ->
  settle fuel F c known s = (s', e) -> Inv (pre ++ c) s'.
Proof.
  intros HF. induction fuel as [|fuel IH]; intros known s s' e HI Hfresh Hs; cbn [settle] in Hs.
  - destruct (new_names known (i_regs s)); inversion Hs; subst; exact HI.
  - destruct (new_names known (i_regs s)) as [|n0 new] eqn:Hnew; [inversion Hs; subst; exact HI|].
    unfold do_capture in Hs. destruct (i_fin s) eqn:Hfin; [inversion Hs; subst; exact HI|].
    set (s1 := set_regs s (capture_regs (n0 :: new) c (i_pos s) (i_regs s))) in *.
    assert (HI1 : Inv (pre ++ c) s1).
    { apply Inv_capture_again; auto; [discriminate|].
      intros n r Hin Hn. rewrite <- Hnew in Hn. apply new_names_In in Hn. destruct Hn as (r' & Hin' & Hk).
      destruct HI as (_ & Hnd & _ & _). rewrite (NoDup_fst_inj _ _ _ _ Hnd Hin Hin').
      apply (Hfresh (n, r') Hin' Hk). }
    destruct (f_post F s1) as [s2 [e2|]] eqn:Hp.
    + inversion Hs; subst. destruct (HF _ _ _ _ HI1 Hp) as [H _]. exact H.
    + destruct (HF _ _ _ _ HI1 Hp) as (HI2 & Hfe & _).
      apply (IH _ _ _ _ HI2) in Hs; [exact Hs|].
      intros p Hin Hk. apply (Hfe p Hin). exact Hk.
Qed.

Lemma Inv_ext_fin st c (s : ist X) : Inv st s -> i_fin s = true -> Inv (st ++ c) (set_pos s (i_pos s + flen c)).
Proof.
  intros (Hpos & Hnd & Hall & HK) Hfin. unfold Inv. cbn [set_pos i_pos i_regs i_fin].
  rewrite flen_blen, Hpos, <- blen_app. split; [reflexivity|]. split; [exact Hnd|]. split; [|exact HK].
  rewrite Hfin in *. eapply Forall_impl; [|exact Hall]. intros p. apply RI_ext_fin.
Qed.

(* eat_chunk keeps the invariant, whether it returns or raises *)
Theorem Inv_eat_chunk (F : fmt X) st (s s' : ist X) c e :
  post_ok F -> rc_ok F -> Inv st s -> eat_chunk F s c = (s', e) -> Inv (st ++ c) s'.
Proof.
  intros HP HC HI He. unfold eat_chunk, do_capture in He. cbn [set_pos i_fin i_regs i_pos] in He.
  destruct (i_fin s) eqn:Hfin.
  - inversion He; subst. apply Inv_ext_fin; assumption.
  - set (s1 := set_regs (set_pos s (i_pos s + flen c)) (capture_regs [] c (i_pos s + flen c) (i_regs s))) in *.
    pose proof (Inv_capture_first st s c HI Hfin) as HI1. fold s1 in HI1.
    destruct (f_post F s1) as [s2 [e2|]] eqn:Hp.
    + inversion He; subst. destruct (HP _ _ _ _ HI1 Hp) as [H _]. exact H.
    + destruct (HP _ _ _ _ HI1 Hp) as (HI2 & Hfe & _).
      destruct (settle eat_fuel F c (ids (i_regs s)) s2) as [s3 [e3|]] eqn:Hs.
      * inversion He; subst. refine (Inv_settle F st c HP _ _ _ _ _ HI2 _ Hs).
        intros p Hin Hk. apply (Hfe p Hin). subst s1. cbn [set_regs i_regs]. rewrite capture_regs_ids. exact Hk.
      * apply (pres_callbacks F (Inv (st ++ c)) (fun n => HC n (st ++ c)) _ _ _ _) in He; [exact He|].
        refine (Inv_settle F st c HP _ _ _ _ _ HI2 _ Hs).
        intros p Hin Hk. apply (Hfe p Hin). subst s1. cbn [set_regs i_regs]. rewrite capture_regs_ids. exact Hk.
Qed.

Lemma Inv_finish st (s : ist X) : Inv st s -> Inv st (finish s).
Proof.
  intros (Hpos & Hnd & Hall & HK). unfold Inv, finish. cbn [i_pos i_regs i_fin].
  split; [exact Hpos|]. split; [|split].
  - rewrite map_map. cbn [fst]. exact Hnd.
  - apply Forall_map_intro. intros p Hin. rewrite Forall_forall in Hall. specialize (Hall _ Hin).
    cbn [snd]. apply RI_to_fin in Hall. destruct (r_end (snd p)); exact Hall.
  - unfold kinds_ok in *. apply Forall_map_intro. intros p Hin. rewrite Forall_forall in HK. specialize (HK _ Hin).
    cbn [fst snd].
    assert (Hq : r_end (if r_end (snd p) then set_fin (snd p) true else snd p) = r_end (snd p)).
    { destruct (r_end (snd p)) eqn:He; [cbn [set_fin r_end]; exact He | exact He]. }
    rewrite Hq. exact HK.
Qed.

Lemma Inv_init (F : fmt X) :
  NoDup (map fst (init_regions (f_id F))) ->
  Forall (fun p => (rs_end (snd p) = true -> 0 < rs_len (snd p)) /\ K (fst p) (rs_end (snd p))) (init_regions (f_id F)) ->
  Inv [] (init_ist F).
Proof.
  intros Hnd Hpos. rewrite Forall_forall in Hpos. unfold Inv, init_ist, kinds_ok. cbn [i_pos i_regs i_fin].
  split; [reflexivity|]. split; [rewrite init_regs_names; exact Hnd|].
  split; apply init_regs_Forall; intros id p Hp; cbn [fst snd]; [apply RI_fresh|]; apply (Hpos p Hp).
Qed.

(* every state an inspector can be driven into: any chunks (also after an exception, also after
   finish), finish at any time *)
Inductive reach (F : fmt X) : bytes -> ist X -> Prop :=
| reach_init : reach F [] (init_ist F)
| reach_eat st s c s' e : reach F st s -> eat_chunk F s c = (s', e) -> reach F (st ++ c) s'
| reach_finish st s : reach F st s -> reach F st (finish s).

Definition fmt_ok (F : fmt X) : Prop :=
  post_ok F /\ rc_ok F /\ NoDup (map fst (init_regions (f_id F))) /\
  Forall (fun p => (rs_end (snd p) = true -> 0 < rs_len (snd p)) /\ K (fst p) (rs_end (snd p))) (init_regions (f_id F)).

Theorem reach_Inv (F : fmt X) st s : fmt_ok F -> reach F st s -> Inv st s.
Proof.
  intros (HP & HC & Hnd & Hpos) Hr. induction Hr as [|st s c s' e Hr IH He|st s Hr IH].
  - apply Inv_init; assumption.
  - eapply Inv_eat_chunk; eauto.
  - apply Inv_finish. exact IH.
Qed.

(* DESIGN C01 item 2: whatever an inspector retains for a region is exactly the stream's bytes at
   that region's (current) offset, and never more than the region's length *)
Theorem retained_is_stream_slice (F : fmt X) st s n r :
  fmt_ok F -> reach F st s -> In (n, r) (i_regs s) ->
  r_data r = bslice (r_off r) (blen (r_data r)) st /\ blen (r_data r) <= r_len r /\ i_pos s = blen st.
Proof.
  intros HF Hr Hin. destruct (reach_Inv F st s HF Hr) as (Hpos & _ & Hall & _).
  rewrite Forall_forall in Hall. destruct (Hall _ Hin) as (Hlen & Hsl & _). cbn [snd] in *. auto.
Qed.

End Invariant.

Theorem reach_pres {X} (F : fmt X) (P : ist X -> Prop) :
  (forall s p, P s -> P (set_pos s p)) ->
  (forall s only c pos, P s -> P (set_regs s (capture_regs only c pos (i_regs s)))) ->
  (forall s s' e, P s -> f_post F s = (s', e) -> P s') ->
  (forall n s s' e, P s -> f_rcomplete F n s = (s', e) -> P s') ->
  (forall s, P s -> P (finish s)) ->
  forall st s, P (init_ist F) -> reach F st s -> P s.
Proof.
  intros Ppos Pcap Ppost Prc Pfin st s Hi Hr. induction Hr as [|st s c s' e Hr IH He|st s Hr IH].
  - exact Hi.
  - exact (pres_eat_chunk_simple F P Ppos Pcap Ppost Prc s c s' e IH He).
  - apply Pfin. exact IH.
Qed.

Definition old_or_empty (old new : regions) : Prop :=
  forall p, In p new ->
    (exists q, In q old /\ r_id (snd q) = r_id (snd p) /\ r_data (snd q) = r_data (snd p)) \/ r_data (snd p) = [].
Lemma ooe_incl a b : (forall p, In p b -> In p a) -> old_or_empty a b.
Proof. intros H p Hp. left. exists p. auto. Qed.
Lemma ooe_refl l : old_or_empty l l.
Proof. apply ooe_incl. auto. Qed.
Lemma ooe_trans a b c : old_or_empty a b -> old_or_empty b c -> old_or_empty a c.
Proof.
  intros H1 H2 p Hp. destruct (H2 p Hp) as [(q & Hq & Hi & Hd)|H]; [|right; exact H].
  rewrite <- Hi, <- Hd. apply H1. exact Hq.
Qed.
Lemma ooe_fresh a b : old_or_empty a b -> fresh_empty a b.
Proof.
  intros H p Hp Hid. destruct (H p Hp) as [(q & Hq & Hi & _)|He]; [|exact He].
  exfalso. apply Hid. rewrite <- Hi. apply (in_map (fun p => r_id (snd p))). exact Hq.
Qed.

Section Hooks.
Context {X : Type}.
Variable K : rname -> bool -> Prop.

Lemma Inv_same_regs st (s s' : ist X) :
  Inv K st s -> i_pos s' = i_pos s -> i_regs s' = i_regs s -> i_fin s' = i_fin s -> Inv K st s'.
Proof. intros (H1 & H2 & H3 & H4) Hp Hr Hf. unfold Inv. rewrite Hp, Hr, Hf. auto. Qed.

Lemma Inv_new_region st (s s' : ist X) n sp e :
  Inv K st s -> (rs_end sp = true -> 0 < rs_len sp) -> K n (rs_end sp) ->
  new_region n sp s = (s', e) ->
  Inv K st s' /\ old_or_empty (i_regs s) (i_regs s') /\ i_fin s' = i_fin s.
Proof.
  intros HI Hp Hk Hn. unfold new_region, has_region, rhas in Hn.
  destruct (rget n (i_regs s)) eqn:Hg; inversion Hn; subst; clear Hn.
  - split; [exact HI|]. split; [apply ooe_refl | reflexivity].
  - destruct HI as (H1 & H2 & H3 & H4). unfold Inv, kinds_ok. cbn [i_pos i_regs i_fin]. split; [|split; [|reflexivity]].
    + split; [exact H1|]. split; [|split].
      * rewrite map_app. cbn [map fst]. apply NoDup_snoc; [exact H2 | apply rget_None_notin; exact Hg].
      * apply Forall_app. split; [exact H3|]. constructor; [|constructor]. cbn [snd]. apply RI_fresh. exact Hp.
      * apply Forall_app. split; [exact H4|]. constructor; [|constructor]. cbn [fst snd region_of_spec r_end]. exact Hk.
    + intros p Hin. apply in_app_or in Hin. destruct Hin as [H|[<-|[]]]; [left; exists p; auto | right; reflexivity].
Qed.

Lemma Inv_delete_region st (s s' : ist X) n e :
  Inv K st s -> delete_region n s = (s', e) ->
  Inv K st s' /\ old_or_empty (i_regs s) (i_regs s') /\ i_fin s' = i_fin s.
Proof.
  intros HI Hd. unfold delete_region in Hd. destruct (has_region n s); inversion Hd; subst; clear Hd.
  - destruct HI as (H1 & H2 & H3 & H4). unfold Inv, kinds_ok. cbn [set_regs i_pos i_regs i_fin].
    split; [|split; [|reflexivity]].
    + split; [exact H1|]. split; [apply rdel_NoDup; exact H2|]. split.
      * apply Forall_forall. intros p Hp. rewrite Forall_forall in H3. apply H3. eapply rdel_In; exact Hp.
      * apply Forall_forall. intros p Hp. unfold kinds_ok in H4. rewrite Forall_forall in H4. apply H4. eapply rdel_In; exact Hp.
    + apply ooe_incl. intros p. apply rdel_In.
  - split; [exact HI|]. split; [apply ooe_refl | reflexivity].
Qed.

Lemma Inv_add_check st (s s' : ist X) c e :
  Inv K st s -> add_check c s = (s', e) ->
  Inv K st s' /\ old_or_empty (i_regs s) (i_regs s') /\ i_fin s' = i_fin s.
Proof.
  intros HI Ha. unfold add_check in Ha. destruct (mem_cname c (i_checks s)); inversion Ha; subst; clear Ha;
    (split; [|split; [apply ooe_refl | reflexivity]]); [exact HI|].
  eapply Inv_same_regs; [exact HI| | |]; reflexivity.
Qed.

Lemma Inv_set_ext st (s : ist X) x : Inv K st s -> Inv K st (set_ext s x).
Proof. intros HI. eapply Inv_same_regs; [exact HI| | |]; reflexivity. Qed.

(* in-place replacement of the region stored under n by one that satisfies the region invariant *)
Lemma Inv_rset st (s : ist X) n m m' :
  Inv K st s -> rget n (i_regs s) = Some m -> RI st (i_fin s) m' -> K n (r_end m') ->
  Inv K st (set_regs s (rset n m' (i_regs s))).
Proof.
  intros (H1 & H2 & H3 & H4) Hg HR Hk. unfold Inv, kinds_ok. cbn [set_regs i_pos i_regs i_fin].
  split; [exact H1|]. split; [rewrite rset_names; exact H2|]. split.
  - apply Forall_forall. intros p Hp. apply rset_In in Hp. destruct Hp as [Hp|[-> _]].
    + rewrite Forall_forall in H3. apply H3. exact Hp.
    + exact HR.
  - apply Forall_forall. intros p Hp. apply rset_In in Hp. destruct Hp as [Hp|[-> _]].
    + unfold kinds_ok in H4. rewrite Forall_forall in H4. apply H4. exact Hp.
    + exact Hk.
Qed.

Lemma Inv_region_RI st (s : ist X) n r : Inv K st s -> rget n (i_regs s) = Some r -> RI st (i_fin s) r /\ K n (r_end r).
Proof.
  intros (_ & _ & H3 & H4) Hg. apply rget_Some_In in Hg. unfold kinds_ok in H4. rewrite Forall_forall in H3, H4.
  split; [apply (H3 _ Hg) | apply (H4 _ Hg)].
Qed.
(* `region.length = len(region.data)` on a CaptureRegion *)
Lemma Inv_trim st (s : ist X) n m :
  Inv K st s -> rget n (i_regs s) = Some m -> r_end m = false ->
  let s' := set_regs s (rset n (set_len m (flen (r_data m))) (i_regs s)) in
  Inv K st s' /\ old_or_empty (i_regs s) (i_regs s') /\ i_fin s' = i_fin s.
Proof.
  intros HI Hg He. destruct (Inv_region_RI _ _ _ _ HI Hg) as [(_ & Hsl & _) Hk]. split; [|split; [|reflexivity]].
  - eapply Inv_rset; [exact HI | exact Hg | | exact Hk].
    unfold RI. cbn [set_len r_data r_len r_off r_end]. rewrite flen_blen. split; [lia|]. split; [exact Hsl|].
    rewrite He. discriminate.
  - intros p Hp. apply rset_In in Hp. destruct Hp as [Hp|[-> _]]; [left; exists p; auto|].
    left. exists (n, m). split; [apply rget_Some_In; exact Hg | split; reflexivity].
Qed.
End Hooks.

(* what FileInspector._capture does to ONE region over successive chunks (first presentation of each chunk) *)
Fixpoint feed (r : region) (pos : N) (cs : list bytes) : region :=
  match cs with
  | [] => r
  | c :: t => feed (if r_end r || negb (rcomplete r) then rcapture r c (pos + blen c) else r) (pos + blen c) t
  end.

Lemma feed_on_track r st cs :
  r_end r = false -> r_min r = None -> on_track st r ->
  on_track (st ++ concat cs) (feed r (blen st) cs) /\ r_off (feed r (blen st) cs) = r_off r /\ r_len (feed r (blen st) cs) = r_len r.
Proof.
  revert r st. induction cs as [|c t IH]; intros r st He Hm Ht; cbn [feed concat].
  - rewrite app_nil_r. auto.
  - rewrite (capture_step st c r He Hm Ht), <- blen_app, app_assoc.
    exact (IH (set_data r _) (st ++ c) He Hm eq_refl).
Qed.

(* DESIGN C01 item 1: a fixed region without min_length that is empty when the stream position is
   p <= offset holds, after ANY chunk list (empty chunks allowed), exactly stream[off : off+len] *)
Theorem capture_slice r st cs :
  r_end r = false -> r_min r = None -> r_data r = [] -> blen st <= r_off r ->
  r_data (feed r (blen st) cs) = bslice (r_off r) (r_len r) (st ++ concat cs).
Proof.
  intros He Hm Hd Hp.
  assert (Ht : on_track st r).
  { unfold on_track. rewrite Hd. unfold bslice. rewrite bskip_all by exact Hp. rewrite btake_nil. reflexivity. }
  destruct (feed_on_track r st cs He Hm Ht) as (H1 & H2 & H3). unfold on_track in H1. rewrite H1, H2, H3. reflexivity.
Qed.

(* the last n bytes (all of them when there are fewer) *)
Definition btail (n : N) (b : bytes) : bytes := bskip (blen b - n) b.
Lemma blen_btail n b : blen (btail n b) = N.min n (blen b).
Proof. unfold btail. rewrite blen_bskip. lia. Qed.
Lemma btail_app n a c : btail n (btail n a ++ c) = btail n (a ++ c).
Proof.
  unfold btail. rewrite blen_app, blen_bskip.
  rewrite <- (bskip_app_le (blen a - n) a c) by lia. rewrite bskip_bskip, blen_app. f_equal. lia.
Qed.
Lemma cap_end_data r c pos : 0 < r_len r -> r_data (cap_end r c pos) = btail (r_len r) (r_data r ++ c).
Proof.
  intros H. unfold cap_end, nlast. replace (r_len r =? 0) with false by lia.
  cbn [set_off set_data r_data]. rewrite flen_blen, nskip_bskip. reflexivity.
Qed.
Lemma cap_end_fields r c pos :
  r_end (cap_end r c pos) = r_end r /\ r_len (cap_end r c pos) = r_len r /\ r_min (cap_end r c pos) = r_min r
  /\ r_off (cap_end r c pos) = pos - blen (r_data (cap_end r c pos)).
Proof. unfold cap_end. cbn [set_off set_data r_end r_len r_min r_off r_data]. rewrite flen_blen. auto. Qed.

Lemma feed_end_aux r pos cs A :
  r_end r = true -> 0 < r_len r -> r_data r = btail (r_len r) A ->
  let r' := feed r pos cs in
  r_data r' = btail (r_len r) (A ++ concat cs) /\ r_len r' = r_len r /\ r_min r' = r_min r /\ r_end r' = true.
Proof.
  revert r pos A. induction cs as [|c t IH]; intros r pos A He Hl Hd; cbn [feed concat]; cbv zeta.
  - rewrite app_nil_r. auto.
  - rewrite He. cbn [orb]. unfold rcapture. rewrite He.
    destruct (cap_end_fields r c (pos + blen c)) as (F1 & F2 & F3 & _).
    assert (Hd' : r_data (cap_end r c (pos + blen c)) = btail (r_len (cap_end r c (pos + blen c))) (A ++ c)).
    { rewrite F2, (cap_end_data r c _ Hl), Hd. apply btail_app. }
    destruct (IH (cap_end r c (pos + blen c)) (pos + blen c) (A ++ c) (eq_trans F1 He) (eq_ind_r (fun x => 0 < x) Hl F2) Hd')
      as (G1 & G2 & G3 & G4).
    cbv zeta in *. rewrite G1, G2, G3, F2, F3, <- app_assoc. auto.
Qed.

(* DESIGN C01 item 3: an EndCaptureRegion(n) that is present (empty) from stream position p0 holds,
   after any chunk list and finish, the last min(n, total - p0) bytes of the stream, and is complete
   iff that is n *)
Theorem end_capture_tail r p0 cs :
  r_end r = true -> r_min r = None -> 0 < r_len r -> r_data r = [] ->
  let r' := set_fin (feed r p0 cs) true in
  r_data r' = btail (r_len r) (concat cs) /\
  blen (r_data r') = N.min (r_len r) (blen (concat cs)) /\
  (rcomplete r' = true <-> r_len r <= blen (concat cs)).
Proof.
  intros He Hm Hl Hd. cbv zeta.
  assert (Hd0 : r_data r = btail (r_len r) []) by (rewrite Hd; reflexivity).
  destruct (feed_end_aux r p0 cs [] He Hl Hd0) as (G1 & G2 & G3 & G4). cbv zeta in *. cbn [app] in G1.
  cbn [set_fin r_data]. split; [exact G1|]. split; [rewrite G1; apply blen_btail|].
  unfold rcomplete, base_complete. cbn [set_fin r_end r_min r_len r_data r_fin].
  rewrite G4, G3, Hm, G2, G1, flen_blen, blen_btail, andb_true_r. lia.
Qed.
