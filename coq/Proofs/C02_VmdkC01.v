(* Proofs/C02_VmdkC01.v — consequences of C01's vmdk_refines_spec for C02: outside the zones the safety verdict is the
   specification's, which covers the streams WITHOUT a valid sparse header that are outside the text zone F1
   (Proofs/C02_VmdkRun.v has the streams with one, and needs no hypothesis about F3). *)
Require Import OV.Base.Bytes OV.Base.Py OV.Base.PyInt OV.Base.Str OV.Base.Insp_Struct OV.Gen.Insp_Consts OV.Model.Insp_Engine.
Require Import OV.Model.Insp_Vmdk OV.Model.Insp_All OV.Model.C01_Vmdk OV.Model.C02.
Require Import OV.Proofs.C01_Vmdk_Step OV.Proofs.C01_Vmdk_Run OV.Proofs.C02_Vmdk.
Open Scope N_scope.

(* outside the zones the safety verdict is the specification's, for every chunking *)
Theorem vmdk_safety_is_spec b cs :
  concat cs = b -> zone_vmdk_text b = false -> zone_vmdk_shortfoot b = false ->
  safety (fst (Insp_All.run F_vmdk cs)) = v_safety (vmdk_spec b).
Proof.
  intros Hb Z1 Z2. rewrite <- (vmdk_refines_spec b cs Hb (conj Z1 Z2)). reflexivity.
Qed.

(* at least 64 bytes without the KDMV signature or with a version outside 1..3, outside the text zone:
   ImageFormatError in eat_chunk and never a Pass *)
Theorem vmdk_invalid_header_never_passes b cs :
  concat cs = b -> zone_vmdk_text b = false ->
  VMDK_MIN_SPARSE_HEADER <= blen b ->
  negb (beq (vh_sig b) VMDK_MAGIC_PP) || negb (ver_ok (vh_ver b)) = true ->
  snd (Insp_All.run F_vmdk cs) = Some ImageFormatError /\ safety (fst (Insp_All.run F_vmdk cs)) <> Pass.
Proof.
  intros Hb Z1 Hl Hbad. change (64 <= blen b) in Hl.
  assert (Hinv : hdr_sig_ok (vh b) && hdr_ver_ok (vh b) = false) by (apply negb_true_iff; rewrite negb_andb; exact Hbad).
  (* an invalid header cannot be in the zone of the short footer *)
  assert (Z2 : zone_vmdk_shortfoot b = false) by (unfold zone_vmdk_shortfoot; rewrite (valid_vh b Hl), Hinv; reflexivity).
  pose proof (vmdk_refines_spec b cs Hb (conj Z1 Z2)) as H.
  rewrite (proj1 (vmdk_spec_error b Hl) Hinv) in H.
  unfold verdict_of in H. injection H as H1 _ _ _ H5. split; [exact H1|]. rewrite H5. apply spec_safety_violation.
Qed.
