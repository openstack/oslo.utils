(* Proofs/C05.v — property C05 (bounded inspector memory).
   The invariant [regs_ok e] (every region is one of the envelope [e], within its cap, holding no more than its
   length) goes through the two capture methods, the engine and the hooks of the ten formats; the caps of every
   envelope sum to no more than the bound of the property ([envelope_fits]), so what a reachable state holds does
   too.  The two hostile streams are each run symbolically through one eat_chunk. *)
Require Import OV.Base.Bytes OV.Base.Py OV.Base.Insp_Struct OV.Gen.Insp_Consts OV.Gen.Insp_Code.
Require Import OV.Proofs.Insp_Engine OV.Proofs.Insp_FmtOk OV.Proofs.Insp_Equiv OV.Proofs.Insp_Static
               OV.Proofs.C01_Vhdx_Tables OV.Proofs.C01_Vhdx_Step.
Require Import OV.Model.Insp_Engine OV.Model.Insp_Raw OV.Model.Insp_Qcow2 OV.Model.Insp_Qed OV.Model.Insp_Vhd
               OV.Model.Insp_Vdi OV.Model.Insp_Iso OV.Model.Insp_Gpt OV.Model.Insp_Luks OV.Model.Insp_Vhdx
               OV.Model.Insp_Vmdk OV.Model.Insp_All OV.Model.C01_Vhdx OV.Model.C05.
Open Scope N_scope.

Lemma flen_ntake n b : flen (ntake n b) = N.min n (flen b).
Proof. rewrite ntake_btake, !flen_blen. apply blen_btake. Qed.
Lemma flen_nskip n b : flen (nskip n b) = flen b - n.
Proof. rewrite nskip_bskip, !flen_blen. apply blen_bskip. Qed.
Lemma flen_app a b : flen (a ++ b) = flen a + flen b.
Proof. rewrite !flen_blen. apply blen_app. Qed.
Lemma flen_nlast n b : n <> 0 -> flen (nlast n b) = N.min n (flen b).
Proof.
  intros Hn. unfold nlast. destruct (n =? 0) eqn:E; [lia|]. rewrite flen_nskip. lia.
Qed.
Lemma nlast_0 b : nlast 0 b = b.
Proof. reflexivity. Qed.

(* CaptureRegion.capture: whatever it is given, what it leaves behind fits the region length *)
Lemma cap_fixed_len_le r chunk pos :
  flen (r_data r) <= r_len r ->
  flen (r_data (cap_fixed r chunk pos)) <= r_len (cap_fixed r chunk pos).
Proof.
  intros H. unfold cap_fixed.
  destruct ((pos - flen chunk <=? r_off r + flen (r_data r)) && (r_off r + flen (r_data r) <=? pos)); [|exact H].
  cbn [set_data r_data r_len]. rewrite flen_ntake. lia.
Qed.
(* when the chunk is taken the truncation alone gives the bound *)
Lemma cap_fixed_taken_len_le r chunk pos :
  (pos - flen chunk <=? r_off r + flen (r_data r)) && (r_off r + flen (r_data r) <=? pos) = true ->
  flen (r_data (cap_fixed r chunk pos)) <= r_len r.
Proof.
  intros H. unfold cap_fixed. rewrite H. cbn [set_data r_data]. rewrite flen_ntake. lia.
Qed.
(* EndCaptureRegion.capture keeps min(length, everything seen) bytes — for a non-zero length *)
Lemma cap_end_len r chunk pos :
  r_len r <> 0 ->
  flen (r_data (cap_end r chunk pos)) = N.min (r_len r) (flen (r_data r) + flen chunk).
Proof.
  intros H. unfold cap_end. cbn [set_off set_data r_data]. rewrite flen_nlast by exact H. rewrite flen_app. reflexivity.
Qed.
Lemma cap_end_len_le r chunk pos :
  r_len r <> 0 ->
  flen (r_data (cap_end r chunk pos)) <= r_len (cap_end r chunk pos).
Proof.
  intros H. rewrite cap_end_len by exact H. unfold cap_end. cbn [set_off set_data r_len]. lia.
Qed.
(* the corner the invariant excludes: EndCaptureRegion(0) would keep the whole stream (data[0 - 0:] is data[0:]) *)
Lemma cap_end_len0_keeps_everything r chunk pos :
  r_len r = 0 -> r_data (cap_end r chunk pos) = r_data r ++ chunk.
Proof. intros H. unfold cap_end. rewrite H. reflexivity. Qed.

Lemma rcapture_ok c t r chunk pos : reg_ok c t r -> reg_ok c t (rcapture r chunk pos).
Proof.
  intros (Hd & Hc & He). pose proof (rcapture_len r chunk pos) as Hl. pose proof (rcapture_end r chunk pos) as Hen.
  unfold reg_ok. rewrite Hl, Hen. split; [|split; assumption].
  unfold rcapture. destruct (r_end r) eqn:E.
  - pose proof (cap_end_len_le r chunk pos (proj2 (He eq_refl))) as H.
    unfold cap_end in H |- *. cbn [set_off set_data r_len r_data] in H |- *. exact H.
  - pose proof (cap_fixed_len_le r chunk pos Hd) as H.
    replace (r_len (cap_fixed r chunk pos)) with (r_len r) in H; [exact H|].
    unfold cap_fixed. destruct (_ && _); reflexivity.
Qed.

Open Scope Z_scope.
(* CaptureRegion.capture as translated from the source keeps len(data) <= length *)
Ltac split_ifs := repeat match goal with |- context [if ?c then _ else _] => destruct c eqn:? end.

Lemma gen_capture_len_le off len data chunk pos :
  0 <= len -> zlen data <= len ->
  let '((off', len', data'), _) := gen_capture off len data chunk pos in
  off' = off /\ len' = len /\ zlen data' <= len'.
Proof.
  intros Hl Hd. unfold gen_capture. cbv zeta. split_ifs; (split; [reflexivity|split; [reflexivity|]]);
    rewrite ?zslice_to by exact Hl; unfold zlen in *; rewrite ?blen_btake; lia.
Qed.
(* EndCaptureRegion.capture as translated from the source keeps len(data) <= length when length > 0 *)
Lemma gen_end_capture_len_le off len data chunk pos :
  0 < len ->
  let '((_, len', data'), _) := gen_end_capture off len data chunk pos in
  len' = len /\ zlen data' <= len'.
Proof.
  intros Hl. unfold gen_end_capture. cbv zeta. split_ifs; (split; [reflexivity|]);
  unfold zslice, norm_idx, zlen, bsub in *;
  set (d := data ++ chunk) in *; set (n := Z.of_N (blen d)) in *;
  replace (0 - len <? 0) with true in * by lia;
  rewrite ?blen_btake, ?blen_bskip; lia.
Qed.

(* the hand model is the translated code (Z <-> N), for every region record and every call the engine makes
   (the position already includes the chunk) *)
Lemma C05_cap_fixed_equiv r chunk pos :
  (flen chunk <= pos)%N ->
  gen_capture (Z.of_N (r_off r)) (Z.of_N (r_len r)) (r_data r) chunk (Z.of_N pos)
  = ((Z.of_N (r_off (cap_fixed r chunk pos)), Z.of_N (r_len (cap_fixed r chunk pos)), r_data (cap_fixed r chunk pos)), tt).
Proof. intros Hp. rewrite flen_blen in Hp. exact (gen_capture_equiv r chunk pos Hp). Qed.

Lemma C05_cap_end_equiv r chunk pos :
  (r_len r <> 0)%N -> (flen (r_data r) + flen chunk <= pos)%N ->
  gen_end_capture (Z.of_N (r_off r)) (Z.of_N (r_len r)) (r_data r) chunk (Z.of_N pos)
  = ((Z.of_N (r_off (cap_end r chunk pos)), Z.of_N (r_len (cap_end r chunk pos)), r_data (cap_end r chunk pos)), tt).
Proof. intros _ Hp. rewrite !flen_blen in Hp. exact (gen_end_capture_equiv r chunk pos Hp). Qed.
Close Scope Z_scope.

Lemma rname_beq_false a b : rname_beq a b = false <-> a <> b.
Proof.
  split.
  - intros H E. apply rname_beq_eq in E. congruence.
  - intros H. destruct (rname_beq a b) eqn:E; [|reflexivity]. apply rname_beq_eq in E. contradiction.
Qed.

Lemma nodupb_NoDup l : nodupb l = true -> NoDup l.
Proof.
  induction l as [|x t IH]; cbn [nodupb]; intros H; constructor.
  - intros Hin. apply mem_rname_In in Hin. rewrite Hin in H. discriminate.
  - apply IH. destruct (mem_rname x t); [discriminate|exact H].
Qed.

Lemma rhas_false_notin n l : rhas n l = false -> ~ In n (map fst l).
Proof. unfold rhas. destruct (rget n l) eqn:E; [discriminate|]. intros _. apply rget_None_notin. exact E. Qed.
Lemma rdel_notin n l : NoDup (map fst l) -> ~ In n (map fst (rdel n l)).
Proof.
  induction l as [|[k r] t IH]; cbn [rdel map fst]; intros H; [tauto|].
  inversion H as [|? ? Hn Ht]; subst.
  destruct (rname_beq k n) eqn:E.
  - apply rname_beq_eq in E. subst. exact Hn.
  - cbn [map fst In]. intros [Hk|Hin]; [apply rname_beq_false in E; contradiction|]. exact (IH Ht Hin).
Qed.
Section Inv.
Variable e : env.

Lemma regs_ok_get n l r : regs_ok e l -> rget n l = Some r -> ent_ok e (n, r).
Proof.
  intros [_ HF] H. apply rget_Some_In in H. rewrite Forall_forall in HF. exact (HF _ H).
Qed.

Lemma regs_ok_rset n r' l :
  regs_ok e l -> reg_ok (cap_of e n) (is_tail n) r' -> regs_ok e (rset n r' l).
Proof.
  intros [Hn HF] Hr. split; [rewrite rset_names; exact Hn|].
  clear Hn. induction l as [|[k r] t IH]; cbn [rset]; [constructor|].
  inversion HF as [|? ? Hk Ht]; subst.
  destruct (rname_beq k n) eqn:E.
  - apply rname_beq_eq in E. subst. constructor; [|exact Ht].
    destruct Hk as [Hin _]. split; [exact Hin|exact Hr].
  - constructor; [exact Hk|auto].
Qed.

Lemma regs_ok_rdel n l : regs_ok e l -> regs_ok e (rdel n l).
Proof.
  intros [Hn HF]. split; [apply rdel_NoDup; exact Hn|].
  rewrite Forall_forall in *. intros p Hp. apply HF. eapply rdel_In; eauto.
Qed.

Lemma spec_okb_ok n sp id : spec_okb e n sp = true -> ent_ok e (n, region_of_spec id sp).
Proof.
  unfold spec_okb. rewrite !Bool.andb_true_iff. intros [[Hm Hc] He].
  apply mem_rname_In in Hm. split; [exact Hm|].
  unfold reg_ok, region_of_spec. cbn [fst snd r_data r_len r_end].
  split; [unfold flen; cbn; lia|]. split; [lia|].
  intros Hend. rewrite Hend in He. cbn [negb orb] in He. apply Bool.andb_true_iff in He. split; [tauto|lia].
Qed.

Lemma regs_ok_app1 l n r :
  regs_ok e l -> ~ In n (map fst l) -> ent_ok e (n, r) -> regs_ok e (l ++ [(n, r)]).
Proof.
  intros [Hn HF] Hnot Hr. split.
  - rewrite map_app. cbn [map fst].
    apply NoDup_snoc; assumption.
  - apply Forall_app. split; [exact HF|]. constructor; [exact Hr|constructor].
Qed.

Section Fmt.
Variable X : Type.
Notation st := (ist X).

Definition st_ok (s : st) : Prop := regs_ok e (i_regs s).

Lemma new_region_ok n sp (s : st) :
  spec_okb e n sp = true -> st_ok s -> st_ok (fst (new_region n sp s)).
Proof.
  intros Hsp Hs. unfold new_region, has_region. destruct (rhas n (i_regs s)) eqn:E; cbn [fst]; [exact Hs|].
  unfold st_ok. cbn [i_regs]. apply regs_ok_app1; [exact Hs|apply rhas_false_notin; exact E|].
  apply spec_okb_ok. exact Hsp.
Qed.
Lemma delete_region_ok n (s : st) : st_ok s -> st_ok (fst (delete_region n s)).
Proof.
  intros Hs. unfold delete_region. destruct (has_region n s); cbn [fst]; [|exact Hs].
  unfold st_ok, set_regs. cbn [i_regs]. apply regs_ok_rdel. exact Hs.
Qed.
Lemma add_check_regs c (s : st) : i_regs (fst (add_check c s)) = i_regs s.
Proof. unfold add_check. destruct (mem_cname c (i_checks s)); reflexivity. Qed.
Lemma set_ext_regs (s : st) x : i_regs (set_ext s x) = i_regs s.
Proof. reflexivity. Qed.

Lemma capture_regs_ok only chunk pos l : regs_ok e l -> regs_ok e (capture_regs only chunk pos l).
Proof.
  intros [Hn HF]. unfold capture_regs. split.
  - fold (capture_regs only chunk pos l). rewrite capture_regs_names. exact Hn.
  - rewrite Forall_forall in *. intros p Hp. apply in_map_iff in Hp. destruct Hp as ([n r] & Hp & Hin).
    specialize (HF _ Hin). subst p.
    destruct (match only with [] => false | _ => _ end); [exact HF|].
    destruct (r_end r || negb (rcomplete r)); [|exact HF].
    destruct HF as [Hi Hr]. split; [exact Hi|]. cbn [fst snd] in *. apply rcapture_ok. exact Hr.
Qed.

Variable F : fmt X.
Hypothesis Hpost : forall s, st_ok s -> st_ok (fst (f_post F s)).
Hypothesis Hrc : forall n s, st_ok s -> st_ok (fst (f_rcomplete F n s)).

(* [fst] covers both the state eat_chunk returns normally and the state it leaves behind when it raises *)
Lemma eat_chunk_ok (s : st) chunk : st_ok s -> st_ok (fst (eat_chunk F s chunk)).
Proof.
  intros Hs. destruct (eat_chunk F s chunk) as [s' x] eqn:E. cbn [fst].
  refine (pres_eat_chunk_simple F st_ok _ _ _ _ s chunk s' x Hs E).
  - intros s0 p H. exact H.
  - intros s0 only c pos H. apply capture_regs_ok. exact H.
  - intros s0 s1 x0 H Hp. pose proof (Hpost s0 H) as H'. rewrite Hp in H'. exact H'.
  - intros n s0 s1 x0 H Hp. pose proof (Hrc n s0 H) as H'. rewrite Hp in H'. exact H'.
Qed.

Lemma finish_ok (s : st) : st_ok s -> st_ok (Insp_Engine.finish s).
Proof.
  intros [Hn HF]. unfold st_ok, Insp_Engine.finish. cbn [i_regs]. split.
  - rewrite map_map. cbn [fst]. exact Hn.
  - rewrite Forall_forall in *. intros p Hp. apply in_map_iff in Hp. destruct Hp as ([n r] & Hp & Hin).
    specialize (HF _ Hin). subst p. cbn [fst snd] in *. destruct (r_end r); exact HF.
Qed.

End Fmt.

(* cls(): the _initialize regions *)
Lemma init_regs_ok l : forall id,
  forallb (fun p => spec_okb e (fst p) (snd p)) l = true -> NoDup (map fst l) -> regs_ok e (init_regs id l).
Proof.
  induction l as [|[n sp] t IH]; intros id Hf Hn; cbn [init_regs].
  - split; constructor.
  - cbn [forallb fst snd] in Hf. apply Bool.andb_true_iff in Hf. destruct Hf as [H1 H2].
    inversion Hn as [|? ? Hx Ht]; subst.
    assert (Hnames : forall id', map fst (init_regs id' t) = map fst t).
    { clear. induction t as [|[n sp] t IH]; intros id'; cbn [init_regs map fst]; [reflexivity|]. rewrite IH. reflexivity. }
    destruct (IH (S id) H2 Ht) as [Hn' HF']. split.
    + cbn [map fst]. rewrite Hnames. constructor; assumption.
    + constructor; [apply spec_okb_ok; exact H1|exact HF'].
Qed.

End Inv.

Lemma no_post_ok e X (s : ist X) : st_ok e X s -> st_ok e X (fst (no_post s)).
Proof. intros H; exact H. Qed.
Lemma no_rcomplete_ok e X n (s : ist X) : st_ok e X s -> st_ok e X (fst (no_rcomplete n s)).
Proof. intros H; exact H. Qed.

(* qcow2: region_complete only sets qemu_header_info *)
Lemma qcow_rcomplete_regs n s : i_regs (fst (qcow_rcomplete n s)) = i_regs s.
Proof.
  unfold qcow_rcomplete. destruct (get_region R_header s); [|reflexivity].
  destruct (unpack _ _); [|reflexivity].
  destruct (qcow_match _) as [[|]|]; reflexivity.
Qed.
(* vmdk: region_complete only sets desc_text / vmdktype *)
Lemma vmdk_rcomplete_regs n s : i_regs (fst (vmdk_rcomplete n s)) = i_regs s.
Proof.
  unfold vmdk_rcomplete, vmdk_parse_descriptor. destruct n; try reflexivity.
  destruct (get_region R_descriptor s); [|reflexivity].
  destruct (negb _); reflexivity.
Qed.

(* _find_meta_region: whatever the table says, the region it returns is 2048*32 long *)
Lemma vhdx_find_meta_region_spec s sp :
  vhdx_find_meta_region s = Ok (Some sp) -> rs_end sp = false /\ rs_len sp = VHDX_META_A * VHDX_META_B.
Proof.
  unfold vhdx_find_meta_region. destruct (get_region R_header s); cbn [bind]; [|discriminate].
  destruct (unpack sf_vhdx_rt_hdr _); cbn [bind]; [|discriminate].
  destruct (negb _); [discriminate|]. destruct (VHDX_RT_LIMIT <=? _); [discriminate|].
  apply vhdx_rt_loop_spec.
Qed.
(* _find_meta_entry: the item length is clamped to VHDX_METADATA_TABLE_MAX_SIZE *)
Lemma vhdx_mt_loop_spec k guid rest o l :
  vhdx_mt_loop k guid rest = Ok (Some (o, l)) -> l <= VHDX_VHDX_METADATA_TABLE_MAX_SIZE.
Proof.
  revert rest. induction k as [|k IH]; intros rest; cbn [vhdx_mt_loop]; [discriminate|].
  destruct (vhdx_guid_is _ _) as [[|]|]; cbn [bind]; [| |discriminate].
  - destruct (unpack sf_vhdx_mt_item _); cbn [bind]; [|discriminate].
    intros H. inversion H; subst. lia.
  - apply IH.
Qed.

Lemma spec_okb_mono e n o l o' l' m m' :
  spec_okb e n (mkRspec false o l m) = true -> l' <= l -> spec_okb e n (mkRspec false o' l' m') = true.
Proof.
  unfold spec_okb. cbn [rs_len rs_end]. rewrite !Bool.andb_true_iff. intros [[H1 H2] _] Hl.
  split; [split; [exact H1|lia]|reflexivity].
Qed.

Section Vhdx.
Let e := envelope F_vhdx.
Hypothesis Hmeta : spec_okb e R_metadata (mkRspec false 0 (VHDX_META_A * VHDX_META_B) None) = true.
Hypothesis Hvds : spec_okb e R_vds (mkRspec false 0 VHDX_VHDX_METADATA_TABLE_MAX_SIZE None) = true.

(* the in-place `self.region('metadata').length = len(meta_buffer)` keeps |data| <= length <= cap *)
Lemma vhdx_find_meta_entry_ok guid s :
  st_ok e unit s ->
  st_ok e unit (fst (vhdx_find_meta_entry guid s)) /\
  (forall sp, snd (vhdx_find_meta_entry guid s) = Ok (Some sp) -> spec_okb e R_vds sp = true).
Proof.
  intros Hs. unfold vhdx_find_meta_entry, get_region.
  destruct (rget R_metadata (i_regs s)) as [m|] eqn:Em; cbn [fst snd]; [|split; [exact Hs|discriminate]].
  destruct (flen (r_data m) <? VHDX_MT_MIN); cbn [fst snd]; [split; [exact Hs|discriminate]|].
  destruct (unpack sf_vhdx_mt_hdr _); cbn [fst snd]; [|split; [exact Hs|discriminate]].
  destruct (negb (beq _ _)); cbn [fst snd]; [split; [exact Hs|discriminate]|].
  destruct (flen (r_data m) <? _); cbn [fst snd]; [split; [exact Hs|discriminate]|].
  destruct (VHDX_MT_LIMIT <=? _); cbn [fst snd]; [split; [exact Hs|discriminate]|].
  destruct (vhdx_mt_loop _ _ _) as [[[o l]|]|] eqn:El; cbn [fst snd]; try (split; [exact Hs|discriminate]).
  split.
  - unfold st_ok, set_regs. cbn [i_regs]. apply regs_ok_rset; [exact Hs|].
    pose proof (regs_ok_get e _ _ _ Hs Em) as [_ (Hd & Hc & He)]. cbn [fst snd] in *.
    unfold reg_ok, set_len. cbn [r_data r_len r_end]. split; [lia|]. split; [lia|]. intros Hend.
    (* 'metadata' is never a tail region *)
    destruct (He Hend) as [Ht _]. discriminate Ht.
  - intros sp H. inversion H; subst. apply vhdx_mt_loop_spec in El.
    eapply spec_okb_mono; [exact Hvds|exact El].
Qed.

Lemma vhdx_post_st_ok s : st_ok e unit s -> st_ok e unit (fst (vhdx_post s)).
Proof.
  intros Hs. unfold vhdx_post. destruct (get_region R_header s) as [h|]; [|exact Hs].
  destruct (rcomplete h && negb (has_region R_metadata s)).
  - destruct (vhdx_find_meta_region s) as [[sp|]|] eqn:Ef; cbn [fst]; try exact Hs.
    apply new_region_ok; [|exact Hs].
    apply vhdx_find_meta_region_spec in Ef. destruct Ef as [E1 E2].
    destruct sp as [en o l m]. cbn [rs_end rs_len] in *. subst en.
    eapply spec_okb_mono; [exact Hmeta|lia].
  - destruct (has_region R_metadata s && negb (has_region R_vds s)); [|exact Hs].
    destruct (vhdx_find_meta_entry_ok VHDX_GUID_VIRTUAL_DISK_SIZE s Hs) as [H1 H2].
    destruct (vhdx_find_meta_entry VHDX_GUID_VIRTUAL_DISK_SIZE s) as [s' [[sp|]|]]; cbn [fst snd] in *; try exact H1.
    apply new_region_ok; [|exact H1]. apply H2. reflexivity.
Qed.
End Vhdx.

Section Vmdk.
Let e := envelope F_vmdk.
Hypothesis Hfoot : spec_okb e R_footer (mkRspec true VMDK_FOOTER_LEN VMDK_FOOTER_LEN None) = true.
Hypothesis Hdesc : spec_okb e R_descriptor (mkRspec false 0 VMDK_DESC_MAX_SIZE None) = true.

(* post_process: the footer is EndCaptureRegion(1536) and the descriptor is re-created with
   min(desc_num * 512, DESC_MAX_SIZE), whatever the header announces *)
Lemma vmdk_post_st_ok s : st_ok e vx s -> st_ok e vx (fst (vmdk_post s)).
Proof.
  intros Hs. unfold vmdk_post. destruct (rget R_header (i_regs s)) as [h|]; [|exact Hs].
  destruct (negb (rcomplete h)); [exact Hs|].
  destruct (vmdk_parse_sparse s R_header 0) as [[[[[sig ver] dsec] dnum] gd]|]; [|exact Hs].
  destruct (negb (beq sig VMDK_MAGIC_PP)).
  { destruct (forallb ascii_text (r_data h)); [apply delete_region_ok|]; exact Hs. }
  destruct (negb _); [exact Hs|].
  set (m1 := if (gd =? VMDK_GD_AT_END) && negb (has_region R_footer s) then _ else _).
  assert (H1 : st_ok e vx (fst m1)).
  { subst m1. destruct ((gd =? VMDK_GD_AT_END) && negb (has_region R_footer s)); [|exact Hs].
    pose proof (new_region_ok e vx R_footer _ s Hfoot Hs) as Hn.
    destruct (new_region R_footer _ s) as [s' [e'|]]; cbn [fst] in *; [exact Hn|].
    unfold st_ok. rewrite add_check_regs. exact Hn. }
  destruct m1 as [s1 [e1|]]; cbn [fst] in *; [exact H1|].
  destruct (negb (dsec * VMDK_SECTOR_A =? VMDK_DESC_OFFSET)); [exact H1|].
  destruct (get_region R_descriptor s1) as [d|]; [|exact H1].
  destruct (r_off d =? 0); [|exact H1].
  pose proof (delete_region_ok e vx R_descriptor s1 H1) as H2.
  destruct (delete_region R_descriptor s1) as [s2 [e2|]]; cbn [fst] in *; [exact H2|].
  apply new_region_ok; [|exact H2].
  eapply spec_okb_mono; [exact Hdesc|]. lia.
Qed.
End Vmdk.

(* computed from the GENERATED constants: enlarging DESC_MAX_SIZE, the footer, 2048*32, ... in the source breaks these *)
Lemma envelope_vhdx_meta : spec_okb (envelope F_vhdx) R_metadata (mkRspec false 0 (VHDX_META_A * VHDX_META_B) None) = true.
Proof. vm_compute. reflexivity. Qed.
Lemma envelope_vhdx_vds : spec_okb (envelope F_vhdx) R_vds (mkRspec false 0 VHDX_VHDX_METADATA_TABLE_MAX_SIZE None) = true.
Proof. vm_compute. reflexivity. Qed.
Lemma envelope_vmdk_footer : spec_okb (envelope F_vmdk) R_footer (mkRspec true VMDK_FOOTER_LEN VMDK_FOOTER_LEN None) = true.
Proof. vm_compute. reflexivity. Qed.
Lemma envelope_vmdk_desc : spec_okb (envelope F_vmdk) R_descriptor (mkRspec false 0 VMDK_DESC_MAX_SIZE None) = true.
Proof. vm_compute. reflexivity. Qed.
Lemma envelope_init f :
  forallb (fun p => spec_okb (envelope f) (fst p) (snd p)) (init_regions f) = true /\
  nodupb (map fst (init_regions f)) = true.
Proof. destruct f; vm_compute; split; reflexivity. Qed.

Definition cap_total (e : env) : N := fold_right N.add 0 (map (cap_of e) (map fst e)).

(* THE numeric step: the static envelope of every format fits the bound of the property text *)
Lemma envelope_fits f : cap_total (envelope f) <= C05_bound f.
Proof. destruct f; vm_compute; intros H; discriminate H. Qed.

Lemma sum_incl (g : rname -> N) l l' :
  NoDup l -> incl l l' -> fold_right N.add 0 (map g l) <= fold_right N.add 0 (map g l').
Proof.
  revert l'. induction l as [|a t IH]; intros l' Hn Hi; cbn [map fold_right]; [lia|].
  inversion Hn as [|? ? Ha Ht]; subst.
  assert (Hin : In a l') by (apply Hi; left; reflexivity).
  apply in_split in Hin. destruct Hin as (l1 & l2 & ->).
  assert (Hi' : incl t (l1 ++ l2)).
  { intros x Hx. assert (H : In x (l1 ++ a :: l2)) by (apply Hi; right; exact Hx).
    apply in_app_or in H. apply in_or_app. destruct H as [H|[H|H]]; [left; exact H| |right; exact H].
    subst. contradiction. }
  specialize (IH _ Ht Hi').
  assert (Hf : forall (x : list N) y, fold_right N.add y x = fold_right N.add 0 x + y).
  { clear. induction x as [|z x IHx]; intros y; cbn [fold_right]; [lia|]. rewrite IHx. lia. }
  rewrite map_app, fold_right_app in IH. rewrite map_app, fold_right_app. cbn [map fold_right].
  rewrite (Hf (map g l1)) in IH. rewrite (Hf (map g l1)). lia.
Qed.

Lemma total_regs_le e (l : regions) :
  regs_ok e l ->
  total (map (fun p => (fst p, flen (r_data (snd p)))) l) <= cap_total e.
Proof.
  intros [Hn HF]. unfold total, cap_total.
  apply N.le_trans with (fold_right N.add 0 (map (cap_of e) (map fst l))).
  - clear Hn. induction l as [|[n r] t IH]; cbn [map fold_right fst snd]; [lia|].
    inversion HF as [|? ? Hk Ht]; subst. specialize (IH Ht).
    destruct Hk as [_ (Hd & Hc & _)]. cbn [fst snd] in *. cbn [map fold_right fst snd] in IH. lia.
  - apply sum_incl; [exact Hn|]. intros x Hx. rewrite Forall_forall in HF.
    apply in_map_iff in Hx. destruct Hx as (p & <- & Hp). exact (proj1 (HF _ Hp)).
Qed.

Definition envelope_inv (i : istate) : Prop := regs_ok (envelope (name_of i)) (regions_of i).

Lemma init_inv f : envelope_inv (init f) /\ name_of (init f) = f.
Proof.
  destruct (envelope_init f) as [H1 H2]. apply nodupb_NoDup in H2.
  pose proof (init_regs_ok (envelope f) (init_regions f) 0 H1 H2) as H.
  destruct f; (split; [exact H|reflexivity]).
Qed.

Lemma ufmt_post_st_ok f s : st_ok (envelope f) unit s -> st_ok (envelope f) unit (fst (f_post (ufmt f) s)).
Proof.
  destruct f; try (intros H; exact H).
  apply vhdx_post_st_ok; [exact envelope_vhdx_meta|exact envelope_vhdx_vds].
Qed.
Lemma ufmt_rc_st_ok f n s : st_ok (envelope f) unit s -> st_ok (envelope f) unit (fst (f_rcomplete (ufmt f) n s)).
Proof. destruct f; intros H; exact H. Qed.

Lemma eat_inv i chunk : envelope_inv i -> envelope_inv (fst (eat i chunk)) /\ name_of (fst (eat i chunk)) = name_of i.
Proof.
  intros Hi. destruct i as [f s|s|s]; cbn [eat].
  - pose proof (eat_chunk_ok (envelope f) unit (ufmt f) (ufmt_post_st_ok f) (ufmt_rc_st_ok f) s chunk Hi) as H.
    destruct (eat_chunk (ufmt f) s chunk) as [s' x]. split; [exact H|reflexivity].
  - assert (H : st_ok (envelope F_qcow2) qx (fst (eat_chunk qcow_fmt s chunk))).
    { apply eat_chunk_ok; [intros s0 H0; exact H0| |exact Hi].
      intros n s0 H0. unfold st_ok. cbn [f_rcomplete qcow_fmt]. rewrite qcow_rcomplete_regs. exact H0. }
    destruct (eat_chunk qcow_fmt s chunk) as [s' x]. split; [exact H|reflexivity].
  - assert (H : st_ok (envelope F_vmdk) vx (fst (eat_chunk vmdk_fmt s chunk))).
    { apply eat_chunk_ok; [| |exact Hi].
      - intros s0 H0. apply vmdk_post_st_ok; [exact envelope_vmdk_footer|exact envelope_vmdk_desc|exact H0].
      - intros n s0 H0. unfold st_ok. cbn [f_rcomplete vmdk_fmt]. rewrite vmdk_rcomplete_regs. exact H0. }
    destruct (eat_chunk vmdk_fmt s chunk) as [s' x]. split; [exact H|reflexivity].
Qed.

Lemma finish_inv i : envelope_inv i -> envelope_inv (finish i) /\ name_of (finish i) = name_of i.
Proof.
  intros Hi. destruct i as [f s|s|s]; cbn [finish]; (split; [|reflexivity]); unfold envelope_inv; cbn [name_of regions_of];
    apply finish_ok; exact Hi.
Qed.

Lemma reachable_inv f i : reachable f i -> envelope_inv i /\ name_of i = f.
Proof.
  induction 1 as [|i chunk _ [IH1 IH2]|i _ [IH1 IH2]].
  - apply init_inv.
  - destruct (eat_inv i chunk IH1) as [H1 H2]. split; [exact H1|congruence].
  - destruct (finish_inv i IH1) as [H1 H2]. split; [exact H1|congruence].
Qed.

(* every state InspectWrapper-style feeding passes through is reachable *)
Lemma eat_list_reachable f cs : forall i, reachable f i -> reachable f (fst (eat_list i cs)).
Proof.
  induction cs as [|c t IH]; intros i Hi; cbn [eat_list]; [exact Hi|].
  pose proof (reach_eat f i c Hi) as H.
  destruct (eat i c) as [i' [x|]]; cbn [fst] in *; [exact H|]. apply IH. exact H.
Qed.
Lemma state_after_reachable f cs : reachable f (state_after f cs).
Proof. apply eat_list_reachable. constructor. Qed.

(* region_caps: in every reachable state no name occurs twice, every region is one of the envelope's, its
   length is within the envelope's cap and what it holds is within its length *)
Lemma region_caps_reachable f i :
  reachable f i ->
  NoDup (map fst (regions_of i)) /\
  forall n r, In (n, r) (regions_of i) ->
    In n (map fst (envelope f)) /\ flen (r_data r) <= r_len r /\ r_len r <= cap_of (envelope f) n.
Proof.
  intros H. apply reachable_inv in H. destruct H as [[Hn HF] Hname]. subst f. split; [exact Hn|].
  intros n r Hin. rewrite Forall_forall in HF. destruct (HF _ Hin) as [H1 (H2 & H3 & _)]. auto.
Qed.

Lemma memory_bound_reachable f i : reachable f i -> total (context_info i) <= C05_bound f.
Proof.
  intros H. apply reachable_inv in H. destruct H as [Hi Hname]. subst f.
  eapply N.le_trans; [|apply envelope_fits]. unfold context_info. apply total_regs_le. exact Hi.
Qed.

(* length of an _initialize region of format f (generated) *)
Definition init_len (f : fmt_id) (n : rname) : N := cap_of (init_env f) n.

Lemma region_caps_vhdx_l i :
  reachable F_vhdx i ->
  NoDup (map fst (regions_of i)) /\
  forall n r, In (n, r) (regions_of i) ->
    flen (r_data r) <= r_len r /\
    match n with
    | R_ident => r_len r <= init_len F_vhdx R_ident
    | R_header => r_len r <= init_len F_vhdx R_header
    | R_metadata => r_len r <= VHDX_META_A * VHDX_META_B
    | R_vds => r_len r <= VHDX_VHDX_METADATA_TABLE_MAX_SIZE
    | _ => False
    end.
Proof.
  intros H. apply region_caps_reachable in H. destruct H as [Hn H]. split; [exact Hn|].
  intros n r Hin. destruct (H n r Hin) as (H1 & H2 & H3). split; [exact H2|].
  destruct n; try exact H3;
    try (exfalso; vm_compute in H1; repeat (destruct H1 as [H1|H1]; [discriminate H1|]); exact H1).
Qed.

Lemma region_caps_vmdk_l i :
  reachable F_vmdk i ->
  NoDup (map fst (regions_of i)) /\
  forall n r, In (n, r) (regions_of i) ->
    flen (r_data r) <= r_len r /\
    match n with
    | R_header => r_len r <= init_len F_vmdk R_header
    | R_descriptor => r_len r <= N.max (init_len F_vmdk R_descriptor) VMDK_DESC_MAX_SIZE
    | R_footer => r_len r <= VMDK_FOOTER_LEN
    | _ => False
    end.
Proof.
  intros H. apply region_caps_reachable in H. destruct H as [Hn H]. split; [exact Hn|].
  intros n r Hin. destruct (H n r Hin) as (H1 & H2 & H3). split; [exact H2|].
  destruct n; try exact H3;
    try (exfalso; vm_compute in H1; repeat (destruct H1 as [H1|H1]; [discriminate H1|]); exact H1).
Qed.

Definition static_fmt (f : fmt_id) : bool := match f with F_vhdx | F_vmdk => false | _ => true end.
Lemma region_caps_static_l f i :
  static_fmt f = true -> reachable f i ->
  NoDup (map fst (regions_of i)) /\
  forall n r, In (n, r) (regions_of i) ->
    In n (map fst (init_regions f)) /\ flen (r_data r) <= r_len r /\ r_len r <= init_len f n.
Proof.
  intros Hs H. apply region_caps_reachable in H. destruct H as [Hn H]. split; [exact Hn|].
  intros n r Hin. destruct (H n r Hin) as (H1 & H2 & H3).
  assert (He : envelope f = init_env f) by (destruct f; try reflexivity; discriminate Hs).
  rewrite He in *. split; [|split; [exact H2|exact H3]].
  assert (Hnames : forall l x, In x (map fst (fold_right (fun p e => env_add (fst p) (rs_len (snd p)) e) [] l)) -> In x (map fst l)).
  { clear. induction l as [|[k sp] t IH]; intros x; cbn [fold_right map fst]; [tauto|].
    set (e := fold_right _ _ t) in *. clearbody e. intros Hx.
    assert (Ha : forall e0, In x (map fst (env_add k (rs_len sp) e0)) -> k = x \/ In x (map fst e0)).
    { clear. induction e0 as [|[k0 c0] t0 IH0]; cbn [env_add map fst In]; [tauto|].
      destruct (rname_beq k0 k); cbn [map fst In]; tauto. }
    apply Ha in Hx. destruct Hx as [<-|Hx]; [left; reflexivity|right; auto]. }
  unfold init_env in H1. apply Hnames in H1. rewrite map_rev in H1. apply in_rev in H1. exact H1.
Qed.

Lemma memory_bound_list f cs : total (context_info (fst (eat_list (init f) cs))) <= C05_bound f.
Proof. apply memory_bound_reachable. apply state_after_reachable. Qed.

(* Hostile streams: the announced sizes are maximal, the retained bytes are not.
   One chunk into a fresh inspector, stage by stage.  The regions the chunk is presented to are empty and the
   position is the chunk's length, so every capture is a slice of the chunk; the hooks only look at the first
   sector, and everything behind it stays a variable. *)
Lemma state_after_one f c : state_after f [c] = fst (eat (init f) c).
Proof. unfold state_after. cbn [eat_list]. destruct (eat (init f) c) as [i [x|]]; reflexivity. Qed.

Lemma cap_fixed_fresh r c :
  r_data r = [] -> cap_fixed r c (0 + flen c) = set_data r (bslice (r_off r) (r_len r) c).
Proof.
  intros H. rewrite flen_blen. apply (cap_fixed_on_track [] c r). unfold on_track. rewrite H, bslice_of_nil. reflexivity.
Qed.

Lemma run_callbacks_regs {X} (F : fmt X) names s :
  (forall n s0, i_regs (fst (f_rcomplete F n s0)) = i_regs s0) -> i_regs (fst (run_callbacks F names s)) = i_regs s.
Proof.
  intros H. revert s. induction names as [|n t IH]; intros s; cbn [run_callbacks]; [reflexivity|].
  specialize (H n s). destruct (f_rcomplete F n s) as [s' [e|]]; cbn [fst] in *; [exact H|]. rewrite IH. exact H.
Qed.

Section HostileVmdk.
Variable tl : bytes.
Let hdr := vmdk_header 18446744073709551615 VMDK_GD_AT_END.
Let c := hdr ++ tl.
Let rh := mkRegion 0 false 0 512 (Some 64) hdr false.
Let regs2 fo fd dd : regions :=
  [(R_header, rh); (R_footer, mkRegion 2 true fo 1536 None fd false); (R_descriptor, mkRegion 3 false 512 1048575 None dd false)].

Lemma vmdk_first_sector : bslice 0 512 c = hdr.
Proof.
  assert (H : blen hdr = 512) by reflexivity.
  unfold bslice, c. rewrite bskip_0, btake_app_le by lia. apply btake_all. lia.
Qed.

Local Arguments cap_fixed : simpl never.
Local Arguments flen b : simpl nomatch.
Local Arguments bslice : simpl never.
Local Arguments nlast : simpl never.
Local Arguments N.add : simpl never.
Local Arguments N.sub : simpl never.

Lemma vmdk_capture_1 :
  capture_regs [] c (0 + flen c) (i_regs (init_ist vmdk_fmt))
  = [(R_header, rh); (R_descriptor, mkRegion 1 false 0 1048575 (Some 4) (bslice 0 1048575 c) false)].
Proof.
  cbn -[c]. rewrite !cap_fixed_fresh by reflexivity. unfold region_of_spec. cbn -[c]. rewrite vmdk_first_sector. reflexivity.
Qed.
(* post_process: footer region and check, descriptor deleted and re-created at sector 1 with min(2^64-1 sectors, DESC_MAX_SIZE) *)
Lemma vmdk_post_1 p d x :
  vmdk_post (mkIst p [(R_header, rh); (R_descriptor, mkRegion 1 false 0 1048575 (Some 4) d false)] 2 false [K_descriptor] x)
  = (mkIst p (regs2 1536 [] []) 4 false [K_descriptor; K_footer] x, None).
Proof. reflexivity. Qed.
Lemma vmdk_capture_2 :
  capture_regs [R_footer; R_descriptor] c (0 + flen c) (regs2 1536 [] [])
  = regs2 (0 + flen c - flen (nlast 1536 c)) (nlast 1536 c) (bslice 512 1048575 c).
Proof. cbn -[c]. rewrite !cap_fixed_fresh by reflexivity. reflexivity. Qed.
Lemma vmdk_post_2 p fo fd dd x :
  vmdk_post (mkIst p (regs2 fo fd dd) 4 false [K_descriptor; K_footer] x)
  = (mkIst p (regs2 fo fd dd) 4 false [K_descriptor; K_footer] x, None).
Proof. reflexivity. Qed.

Lemma hostile_vmdk_regions :
  regions_of (state_after F_vmdk [c]) = regs2 (0 + flen c - flen (nlast 1536 c)) (nlast 1536 c) (bslice 512 1048575 c).
Proof.
  rewrite state_after_one. cbn [init eat].
  destruct (eat_chunk vmdk_fmt (init_ist vmdk_fmt) c) as [s' e] eqn:E. cbn [fst regions_of].
  apply (f_equal (fun p => i_regs (fst p))) in E. cbn [fst] in E. rewrite <- E. clear E s' e.
  rewrite eat_chunk_unfold by reflexivity. cbv zeta.
  change (i_pos (init_ist vmdk_fmt)) with 0. rewrite vmdk_capture_1.
  cbn [f_post vmdk_fmt]. rewrite vmdk_post_1.
  unfold eat_fuel. rewrite (settle_step _ _ _ _ _ R_footer [R_descriptor]) by reflexivity. cbv zeta.
  unfold set_regs. cbn [i_pos i_regs i_next i_fin i_checks i_ext].
  rewrite vmdk_capture_2. cbn [f_post vmdk_fmt]. rewrite vmdk_post_2.
  rewrite settle_done by reflexivity.
  apply run_callbacks_regs. intros n s0. apply vmdk_rcomplete_regs.
Qed.
End HostileVmdk.

(* the announced descriptor is 2^64-1 sectors; header and min(DESC_MAX_SIZE, what follows the header) bytes of
   descriptor alone exceed 1 MiB *)
Lemma hostile_vmdk_attains :
  let s := hostile_vmdk 1100000 in
  let i := state_after F_vmdk [s] in
  sint sf_vmdk_sparse 6 (ntake VMDK_MIN_SPARSE_HEADER s) = 2 ^ 64 - 1 /\
  1048576 < total (context_info i) /\ total (context_info i) <= C05_bound F_vmdk.
Proof.
  cbv zeta. split; [|split; [|apply memory_bound_list]].
  - unfold hostile_vmdk. rewrite ntake_btake, btake_app_le by (vm_compute; discriminate). vm_compute. reflexivity.
  - unfold context_info, hostile_vmdk. rewrite hostile_vmdk_regions.
    unfold total. cbn [map fst snd fold_right r_data]. rewrite !flen_blen, blen_bslice, blen_app, blen_repeatN, N2Nat.id.
    change (blen (vmdk_header 18446744073709551615 VMDK_GD_AT_END)) with 512. lia.
Qed.

Lemma blen_zeros n : blen (zeros n) = n.
Proof. unfold zeros. rewrite blen_repeatN. apply N2Nat.id. Qed.

(* VHDX, with the padding and the tail as variables: nothing lies before the first chunk, so the symbolic eat_chunk of
   Proofs/C01_Vhdx_Step.v applies with every pointer a forward pointer; what is left is to read the two tables *)
Section HostileVhdx.
Variables z1 z2 tl : bytes.
Hypothesis Hz1 : blen z1 = 196600.
Hypothesis Hz2 : blen z2 = 65488.
Hypothesis Ht : 131012 <= blen tl.
Let rt := le_enc 4 VHDX_REGI ++ le_enc 4 0 ++ le_enc 4 1 ++ le_enc 4 0
            ++ VHDX_GUID_METAREGION ++ le_enc 8 262144 ++ le_enc 4 1048576 ++ le_enc 4 1.
Let mt := VHDX_META_SIG ++ le_enc 2 0 ++ le_enc 2 1 ++ zeros 20
            ++ VHDX_GUID_VIRTUAL_DISK_SIZE ++ le_enc 4 65536 ++ le_enc 4 4294967295 ++ zeros 4.
Let c := VHDX_MAGIC ++ z1 ++ rt ++ z2 ++ mt ++ tl.
Let Hg : blen VHDX_MAGIC = 8. Proof. reflexivity. Qed.
Let Hr : blen rt = 48. Proof. reflexivity. Qed.
Let Hm : blen mt = 60. Proof. reflexivity. Qed.

Lemma vhdx_c_len : blen c = 262204 + blen tl.
Proof. unfold c. rewrite !blen_app, Hg, Hz1, Hr, Hz2, Hm. lia. Qed.

(* the region table: one entry, the metadata region at 256 KiB *)
Lemma vhdx_c_rt : vx_region_table (bslice VX_HDR_OFF VX_HDR_LEN c) = Ok (Some 262144).
Proof.
  assert (H : bslice 196608 65536 c = rt ++ z2).
  { unfold bslice, c. rewrite !bskip_app_ge, Hg, Hz1 by lia. change (196608 - 8 - 196600) with 0.
    rewrite bskip_0, btake_app_ge, btake_app_le, btake_all by lia. reflexivity. }
  change VX_HDR_OFF with 196608. change VX_HDR_LEN with 65536. rewrite H.
  rewrite region_table_app by (vm_compute; discriminate). reflexivity.
Qed.
(* the metadata table: one entry (its last four bytes are the first four of the tail), the size item at 64 KiB, length clamped *)
Lemma vhdx_c_mt : vx_meta_table (bslice 262144 VX_META_LEN c) = Ok (Some (65536, 65536)).
Proof.
  destruct tl as [|a [|b [|d [|e t]]]]; try (unfold blen in Ht; cbn [length] in Ht; lia).
  assert (H : bslice 262144 65536 c = (mt ++ [a; b; d; e]) ++ btake 65472 t).
  { unfold bslice, c. rewrite !bskip_app_ge, Hg, Hz1, Hr, Hz2 by lia. change (262144 - 8 - 196600 - 48 - 65488) with 0.
    rewrite bskip_0, btake_app_ge, Hm by lia. change (65536 - 60) with (4 + 65472).
    rewrite <- app_assoc. reflexivity. }
  change VX_META_LEN with 65536. rewrite H. rewrite meta_table_app by (vm_compute; discriminate). reflexivity.
Qed.

Lemma hostile_vhdx_regions :
  regions_of (state_after F_vhdx [c]) = fill_regs 0 (SK2 262144 65536 327680 65536) c.
Proof.
  rewrite state_after_one. cbn [init eat ufmt]. rewrite vhdx_init.
  rewrite (eat_chunk_SK0 [] c) by (intros mo _ _; change (blen []) with 0; split; [lia|intros; lia]).
  cbn [app]. replace (blen c <? VX_HDR_END) with false by (rewrite vhdx_c_len; change VX_HDR_END with 262144; lia).
  rewrite vhdx_c_rt. unfold after_meta. rewrite vhdx_c_mt.
  replace (blen (bslice 262144 VX_META_LEN c)) with 65536 by (rewrite blen_bslice, vhdx_c_len; change VX_META_LEN with 65536; lia).
  reflexivity.
Qed.

Lemma hostile_vhdx_general :
  let i := state_after F_vhdx [c] in
  (exists r, rget R_vds (regions_of i) = Some r /\ r_len r = VHDX_VHDX_METADATA_TABLE_MAX_SIZE) /\
  total (context_info i) = 196640.
Proof.
  cbv zeta. unfold context_info. rewrite hostile_vhdx_regions. split; [eexists; split; reflexivity|].
  unfold total. cbn [SK2 SK1 SK0 app fill_regs map fst snd fold_right r_data rs_off rs_len].
  rewrite !flen_blen, !blen_bslice, vhdx_c_len. unfold VX_IDENT_LEN, VX_HDR_LEN, VX_HDR_OFF. lia.
Qed.
End HostileVhdx.

(* a metadata item announcing 2^32-1 bytes: the vds region is created with the clamped length; ident, header,
   metadata and vds are all full *)
Lemma hostile_vhdx_attains :
  let i := state_after F_vhdx [hostile_vhdx] in
  (exists r, rget R_vds (regions_of i) = Some r /\ r_len r = VHDX_VHDX_METADATA_TABLE_MAX_SIZE) /\
  196608 < total (context_info i) /\ total (context_info i) <= C05_bound F_vhdx.
Proof.
  cbv zeta. unfold hostile_vhdx, vhdx_stream. cbv zeta.
  match goal with |- context [repeatN 7 ?n] => set (tl := repeatN 7 n) end.
  assert (Ht : 131012 <= blen tl).
  { subst tl. rewrite blen_repeatN, N2Nat.id, flen_blen, !blen_app, !blen_zeros, !blen_le_enc. vm_compute. discriminate. }
  pose proof (hostile_vhdx_general _ _ tl (blen_zeros (196608 - 8)) (blen_zeros (65536 - 48)) Ht) as H. cbv zeta in H.
  rewrite <- !app_assoc. rewrite <- !app_assoc in H. destruct H as [H1 H2].
  split; [exact H1|]. split; [|apply memory_bound_list].
  apply (N.lt_le_trans _ 196640); [reflexivity|]. apply N.eq_le_incl. symmetry. exact H2.
Qed.

(* EndCaptureRegion(1536), the footer region of the source: the instance of the hypothesis of C05_capture_len_le_end *)
Definition footer_region : region := region_of_spec 0 (mkRspec true VMDK_FOOTER_LEN VMDK_FOOTER_LEN None).
