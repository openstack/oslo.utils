(* Proofs/C02_VmdkEx.v — concrete sparse VMDK images satisfying the hypotheses of clean_vmdk_accepted (non-vacuity) *)
From Coq Require Import String.
Require Import OV.Base.Bytes OV.Base.Py OV.Base.PyInt OV.Base.Str OV.Base.Insp_Struct OV.Gen.Insp_Consts OV.Model.Insp_Engine.
Require Import OV.Model.Insp_Vmdk OV.Model.Insp_All OV.Model.C02 OV.Proofs.C02_VmdkSpec.
Open Scope N_scope.

Definition zpad_to (n : nat) (b : bytes) : bytes := b ++ repeatN 0 (n - length b).
Definition sparse_hdr (gd : N) : bytes :=
  lit "KDMV" ++ le_enc 4 1 ++ le_enc 4 3 ++ le_enc 8 2048 ++ le_enc 8 128 ++ le_enc 8 1 ++ le_enc 8 1 ++
  le_enc 4 512 ++ le_enc 8 0 ++ le_enc 8 gd.
Definition ex_desc (ctype : str) : bytes :=
  lit "# Disk DescriptorFile" ++ [10] ++ lit "version=1" ++ [10] ++ lit "createType=" ++ [34] ++ ctype ++ [34] ++ [10] ++
  lit "RW 2048 SPARSE " ++ [34] ++ lit "disk.vmdk" ++ [34] ++ [10] ++ lit "ddb.adapterType = " ++ [34] ++ lit "ide" ++ [34] ++ [10].

(* monolithicSparse: header, descriptor sector *)
Definition ex_vmdk : bytes := zpad_to 512 (sparse_hdr 21) ++ zpad_to 512 (ex_desc (lit "monolithicSparse")).

Example ex_vmdk_wellformed :
  64 <= blen ex_vmdk /\ hdr_pre ex_vmdk /\ vmdk_desc_sec ex_vmdk * 512 = 512 /\ 512 + dsize ex_vmdk <= blen ex_vmdk /\
  is_ascii_text (bslice 512 (dsize ex_vmdk) ex_vmdk) = true /\
  descriptor_ok (mkVx (Some (text_of (bslice 512 (dsize ex_vmdk) ex_vmdk))) (vmdk_type_of (text_of (bslice 512 (dsize ex_vmdk) ex_vmdk)))) /\
  vmdk_gd ex_vmdk <> gd_at_end.
Proof.
  split; [vm_compute; discriminate|]. split; [split; [vm_compute; reflexivity|left; vm_compute; reflexivity]|].
  split; [vm_compute; reflexivity|]. split; [vm_compute; discriminate|]. split; [vm_compute; reflexivity|].
  split; [apply descriptor_okb_iff; vm_compute; reflexivity|vm_compute; discriminate].
Qed.

(* streamOptimized: header with gdOffset = GD_AT_END, descriptor, footer marker, footer (copy of the header with the real
   gdOffset), end-of-stream marker *)
Definition ex_vmdk_stream : bytes :=
  zpad_to 512 (sparse_hdr gd_at_end) ++ zpad_to 512 (ex_desc (lit "streamOptimized")) ++
  zpad_to 512 (le_enc 8 1 ++ le_enc 4 0 ++ le_enc 4 3) ++ zpad_to 512 (sparse_hdr 3) ++ repeatN 0 512.

Example ex_vmdk_stream_wellformed :
  64 <= blen ex_vmdk_stream /\ hdr_pre ex_vmdk_stream /\ vmdk_desc_sec ex_vmdk_stream * 512 = 512 /\
  512 + dsize ex_vmdk_stream <= blen ex_vmdk_stream /\
  is_ascii_text (bslice 512 (dsize ex_vmdk_stream) ex_vmdk_stream) = true /\
  descriptor_ok (mkVx (Some (text_of (bslice 512 (dsize ex_vmdk_stream) ex_vmdk_stream)))
                      (vmdk_type_of (text_of (bslice 512 (dsize ex_vmdk_stream) ex_vmdk_stream)))) /\
  vmdk_gd ex_vmdk_stream = gd_at_end /\ 1599 <= blen ex_vmdk_stream /\
  footer_ok ex_vmdk_stream (bslice (blen ex_vmdk_stream - 1536) 1536 ex_vmdk_stream).
Proof.
  split; [vm_compute; discriminate|]. split; [split; [vm_compute; reflexivity|left; vm_compute; reflexivity]|].
  split; [vm_compute; reflexivity|]. split; [vm_compute; discriminate|]. split; [vm_compute; reflexivity|].
  split; [apply descriptor_okb_iff; vm_compute; reflexivity|].
  split; [vm_compute; reflexivity|]. split; [vm_compute; discriminate|].
  apply footer_okb_iff. vm_compute. reflexivity.
Qed.
