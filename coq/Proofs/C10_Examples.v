(* Proofs/C10_Examples.v — instances of the hypotheses of the C10 theorems (non-vacuity),
   each next to the theorem it instantiates. *)
From Coq Require Import String.
From Coq Require Import ZArith SpecFloat.
Require Import OV.Base.Bytes OV.Base.Py OV.Base.PyInt OV.Base.Str OV.Base.Regex OV.Base.PyFloat.
Require Import OV.Model.C10_Regex OV.Gen.C10_Units OV.Model.C10.
Require Import OV.Proofs.C10_Form OV.Proofs.C10.
Open Scope Z_scope.

(* admitted_iff_form / value_is_ieee_evaluation: a text of the form, with its decomposition *)
Example ex_numform : numform (lit "+.5").
Proof. exists (lit "+"), [], (lit "."), (lit "5"). repeat split; auto. discriminate. Qed.

Example ex_form_mixed : form mixed_prefixes (lit "+.5kibit").
Proof.
  exists (lit "+.5"), (lit "ki"), (lit "bit").
  split; [reflexivity|]. split; [exact ex_numform|].
  split; [right; vm_compute; tauto|]. vm_compute; tauto.
Qed.

(* a trailing newline is not admitted: the patterns end in \Z *)
Example ex_newline_rejected : string_to_bytes (lit "1KB" ++ [10%N]) (lit "IEC") false = Exn ValueError.
Proof. vm_compute. reflexivity. Qed.

Example ex_system_mixed : In (lit "mixed", mixed_prefixes) spec_systems.
Proof. vm_compute. tauto. Qed.

Example ex_value_mixed :
  string_to_bytes (lit "+.5kibit") (lit "mixed") false = Ok (NFloat (S754_finite false 4503599627370496 (-46))).
Proof. vm_compute. reflexivity. Qed.   (* 0.5 * 1024 / 8 = 64.0 *)

(* not_admitted_raises_ValueError: a prefix foreign to the system, an unknown system *)
Example ex_foreign_prefix : forall prefixes, In (lit "IEC", prefixes) spec_systems -> ~ form prefixes (lit "1kB").
Proof.
  intros prefixes HS F.
  destruct (system_facts _ _ HS) as [base [rx [L _]]].
  apply (admitted_iff_form _ _ _ _ HS L) in F.
  revert F. vm_compute in L. injection L as <- <-. vm_compute. discriminate.
Qed.

Example ex_unknown_system : forall prefixes, ~ In (lit "iec", prefixes) spec_systems.
Proof. intros prefixes H. vm_compute in H. intuition congruence. Qed.

(* prefix_table_total: a captured prefix *)
Example ex_captured_prefix : exists base rx e g,
  lookup (lit "IEC") unit_system_info = Some (base, rx) /\
  rz_match rx (lit "7QiB") = Some (e, g) /\ group_text (lit "7QiB") g 2 = Some (lit "Qi").
Proof. vm_compute. repeat eexists. Qed.

(* only_ValueError: a malformed text; a quantity beyond binary64 under return_int (Proofs/C10.v: overflow_witness_int) *)
Example ex_value_error : string_to_bytes (lit "1.KB") (lit "SI") true = Exn ValueError.
Proof. vm_compute. reflexivity. Qed.

(* ceil_is_ceiling: -2.5 *)
Example ex_ceil : ceil_to_Z (S754_finite true 5 (-1)) = Ok (-2).
Proof. reflexivity. Qed.

(* bytes_figure_precedence / qemu_same_arithmetic: the hypotheses are met by qemu-img's own output *)
Example ex_figure_found : exists a e g,
  re_search size_re (lit "1.0K (7 bytes)") = Some (a, e, g) /\ gget g 3%nat <> None.
Proof. vm_compute. repeat eexists. discriminate. Qed.

Example ex_unit_no_figure : exists a e g,
  re_search size_re (lit "1.5G") = Some (a, e, g) /\ group_text (lit "1.5G") g 1 = Some (lit "1.5") /\
  has_e (lit "1.5") = false /\ truthy (group_text (lit "1.5G") g 3) = false /\
  group_text (lit "1.5G") g 2 = Some (lit "G").
Proof. vm_compute. repeat eexists. Qed.
