(* Proofs/C11_Regex.v — the declarative matching relation of C10_Regex.v without the groups,
   a repeat being stated by a count up to run_len: the one to use when only "does it match, and
   how far" is asked (C04, C11); C10_Regex.mt is the one that also says what the groups hold.
   Both are called [mt]; a file that needs both qualifies the names.  Soundness and completeness
   of the backtracking matcher are carried over from C10_Regex.v (mt_forget, mt_lift).  Then a
   reflective reading of "flat" patterns (a fixed sequence of character classes, optionally
   followed by `$`). *)
Require Import OV.Base.Bytes OV.Base.PyInt OV.Base.Regex OV.Proofs.C04_Regex OV.Proofs.C10_Regex.
Open Scope N_scope.

(* mt r s p s' p': r matches a prefix of s (the subject from position p on), leaving s' at position p' *)
Inductive mt : re -> str -> N -> str -> N -> Prop :=
| mt_eps s p : mt Eps s p s p
| mt_chr cs c t p : cmem c cs = true -> mt (Chr cs) (c :: t) p t (p + 1)
| mt_seq a b s p s1 p1 s2 p2 : mt a s p s1 p1 -> mt b s1 p1 s2 p2 -> mt (Seq a b) s p s2 p2
| mt_alt_l a b s p s' p' : mt a s p s' p' -> mt (Alt a b) s p s' p'
| mt_alt_r a b s p s' p' : mt b s p s' p' -> mt (Alt a b) s p s' p'
| mt_rep cs mn mx s p n : (mn <= n <= run_len cs s mx)%nat ->
    mt (Rep cs mn mx) s p (skipn n s) (p + N.of_nat n)
| mt_opt_some a s p s' p' : mt a s p s' p' -> mt (Opt a) s p s' p'
| mt_opt_none a s p : mt (Opt a) s p s p
| mt_group i a s p s' p' : mt a s p s' p' -> mt (Group i a) s p s' p'
| mt_bol s : mt Bol s 0 s 0
| mt_eol_end p : mt Eol [] p [] p
| mt_eol_nl p : mt Eol [10] p [10] p.

(* [mt] is the relation of C10_Regex.v with the groups forgotten (and the repeat stated by a count) *)
Lemma mt_forget r s p g s' p' g' : C10_Regex.mt r s p g s' p' g' -> mt r s p s' p'.
Proof.
  induction 1; try (econstructor; eassumption).
  replace s' with (skipn (length w) (w ++ s')) at 2 by apply skipn_app_exact. unfold blen. constructor.
  split; [assumption|]. apply run_len_ge; [assumption|apply le_opt_within; assumption].
Qed.

Lemma mt_lift r s p s' p' : mt r s p s' p' -> forall g, exists g', C10_Regex.mt r s p g s' p' g'.
Proof.
  induction 1; intros g; try (eexists; econstructor; eassumption);
    try (destruct (IHmt g) as [g' M]; eexists; econstructor; exact M).
  - destruct (IHmt1 g) as [g1 M1]. destruct (IHmt2 g1) as [g2 M2]. exists g2. econstructor; eassumption.
  - destruct (run_len_split cs s mx n) as [w [Hs [Hl [Ha Hw]]]]; [lia|].
    exists g. rewrite Hs at 1. replace (N.of_nat n) with (blen w) by (unfold blen; congruence).
    constructor; [exact Ha|lia|apply le_opt_within; rewrite Hl; exact Hw].
Qed.

Section Matcher.
Variable R : Type.

Lemma m_sound r : forall s p g (k : cont R) x,
  m R r s p g k = Some x -> exists s' p' g', mt r s p s' p' /\ k s' p' g' = Some x.
Proof.
  intros s p g k x H. destruct (C10_Regex.m_sound R r s p g k x H) as [s' [p' [g' [M K]]]].
  exists s', p', g'. split; [exact (mt_forget _ _ _ _ _ _ _ M)|exact K].
Qed.

Lemma m_complete r : forall s p s' p', mt r s p s' p' ->
  forall g (k : cont R), (forall g', k s' p' g' <> None) -> m R r s p g k <> None.
Proof.
  intros s p s' p' H g k Hk. destruct (mt_lift _ _ _ _ _ H g) as [g' M].
  exact (C10_Regex.m_complete R r s p g s' p' g' M k (Hk g')).
Qed.
End Matcher.

Theorem re_matchb_iff r s : re_matchb r s = true <-> exists s' p', mt r s 0 s' p'.
Proof.
  unfold re_matchb, re_match, match_at. split.
  - destruct (m (N * groups) r s 0 [] (fun _ p' g' => Some (p', g'))) as [x|] eqn:E; [|discriminate].
    intros _. apply m_sound in E. destruct E as [s' [p' [_ [H _]]]]. exists s', p'. exact H.
  - intros [s' [p' H]].
    pose proof (m_complete (N * groups) r s 0 s' p' H [] (fun _ p' g' => Some (p', g'))) as C.
    destruct (m (N * groups) r s 0 [] (fun _ p' g' => Some (p', g'))); [reflexivity|].
    exfalso. apply C; [intros; discriminate|reflexivity].
Qed.

Definition in_cs (cs : cset) (c : N) : Prop := cmem c cs = true.

Lemma in_cs_all_in cs w : Forall (in_cs cs) w <-> all_in cs w = true.
Proof. unfold all_in. rewrite forallb_forall, Forall_forall. reflexivity. Qed.

(* a regex that is a fixed sequence of character classes *)
Fixpoint flat (r : re) : option (list cset) :=
  match r with
  | Eps => Some []
  | Chr cs => Some [cs]
  | Seq a b => match flat a, flat b with Some x, Some y => Some (x ++ y) | _, _ => None end
  | Group _ a => flat a
  | Rep cs mn (Some mx) => if Nat.eqb mn mx then Some (repeat cs mn) else None
  | _ => None
  end.

(* ... followed by `$` *)
Fixpoint flat_eol (r : re) : option (list cset) :=
  match r with
  | Eol => Some []
  | Seq a b => match flat a, flat_eol b with Some x, Some y => Some (x ++ y) | _, _ => None end
  | Group _ a => flat_eol a
  | _ => None
  end.

Definition fits (cl : list cset) (t : str) : Prop := Forall2 in_cs cl t.

Lemma fits_repeat cs k t : fits (repeat cs k) t <-> length t = k /\ Forall (in_cs cs) t.
Proof.
  unfold fits. revert t. induction k as [|k IH]; intros t; cbn [repeat].
  - split.
    + intros H. inversion H. split; [reflexivity|constructor].
    + intros [L _]. destruct t; [constructor|discriminate].
  - split.
    + intros H. inversion H as [|? c ? t' Hc Ht]; subst. apply IH in Ht. destruct Ht as [L F].
      split; [cbn; lia|constructor; assumption].
    + intros [L F]. destruct t as [|c t']; [discriminate|]. inversion F; subst.
      constructor; [assumption|]. apply IH. split; [cbn in L; lia|assumption].
Qed.

Lemma Forall2_len {A B} (P : A -> B -> Prop) l t : Forall2 P l t -> length t = length l.
Proof. intros H. induction H; cbn; [reflexivity|lia]. Qed.

Lemma fits_length cl t : fits cl t -> length t = length cl.
Proof. apply Forall2_len. Qed.

Lemma flat_sound r : forall cl s p s' p', flat r = Some cl -> mt r s p s' p' ->
  exists pre, s = pre ++ s' /\ fits cl pre.
Proof.
  induction r as [|cs|a IHa b IHb|a IHa b IHb|cs mn mx|a IHa|i a IHa| |]; intros cl s p s' p' F H; cbn [flat] in F; try discriminate.
  - injection F as <-. inversion H; subst. exists []. split; [reflexivity|constructor].
  - injection F as <-. inversion H; subst. exists [c]. split; [reflexivity|]. constructor; [assumption|constructor].
  - destruct (flat a) as [x|] eqn:Fa; [|discriminate]. destruct (flat b) as [y|] eqn:Fb; [|discriminate].
    injection F as <-. inversion H as [| |? ? ? ? s1 p1 ? ? Ha Hb| | | | | | | | |]; subst.
    destruct (IHa _ _ _ _ _ eq_refl Ha) as [pa [-> Fa']]. destruct (IHb _ _ _ _ _ eq_refl Hb) as [pb [-> Fb']].
    exists (pa ++ pb). split; [rewrite app_assoc; reflexivity|]. apply Forall2_app; assumption.
  - destruct mx as [mx|]; [|discriminate]. destruct (Nat.eqb mn mx) eqn:E; [|discriminate]. apply Nat.eqb_eq in E. subst mx.
    injection F as <-. inversion H as [| | | | |? ? ? ? ? n Hn| | | | | |]; subst.
    destruct (run_len_split cs s (Some mn) n) as [pre [E [L [Fp W]]]]; [lia|]. apply Nat.leb_le in W.
    exists pre. split; [exact E|]. apply fits_repeat. split; [lia|apply in_cs_all_in; exact Fp].
  - inversion H; subst. eapply IHa; eassumption.
Qed.

Lemma flat_complete r : forall cl pre s' p, flat r = Some cl -> fits cl pre ->
  mt r (pre ++ s') p s' (p + N.of_nat (length pre)).
Proof.
  induction r as [|cs|a IHa b IHb|a IHa b IHb|cs mn mx|a IHa|i a IHa| |]; intros cl pre s' p F H; cbn [flat] in F; try discriminate.
  - injection F as <-. inversion H; subst. cbn. rewrite N.add_0_r. constructor.
  - injection F as <-. inversion H as [|? c ? t Hc Ht]; subst. inversion Ht; subst. cbn. constructor. exact Hc.
  - destruct (flat a) as [x|] eqn:Fa; [|discriminate]. destruct (flat b) as [y|] eqn:Fb; [|discriminate].
    injection F as <-. unfold fits in H. apply Forall2_app_inv_l in H. destruct H as [pa [pb [Ha [Hb ->]]]].
    rewrite <- app_assoc. econstructor.
    + apply (IHa x pa (pb ++ s') p eq_refl Ha).
    + rewrite app_length. replace (p + N.of_nat (length pa + length pb)) with (p + N.of_nat (length pa) + N.of_nat (length pb)) by lia.
      apply (IHb y pb s' _ eq_refl Hb).
  - destruct mx as [mx|]; [|discriminate]. destruct (Nat.eqb mn mx) eqn:E; [|discriminate]. apply Nat.eqb_eq in E. subst mx.
    injection F as <-. apply fits_repeat in H. destruct H as [L Fp].
    replace s' with (skipn (length pre) (pre ++ s')) at 2.
    2:{ rewrite skipn_app, skipn_all, Nat.sub_diag. reflexivity. }
    constructor. rewrite <- L.
    rewrite run_len_exact by (try (apply in_cs_all_in; exact Fp); try (apply Nat.leb_refl); right; reflexivity). lia.
  - constructor. eapply IHa; eassumption.
Qed.

Lemma flat_eol_sound r : forall cl s p s' p', flat_eol r = Some cl -> mt r s p s' p' ->
  exists pre, fits cl pre /\ (s = pre \/ s = pre ++ [10]).
Proof.
  induction r as [|cs|a IHa b IHb|a IHa b IHb|cs mn mx|a IHa|i a IHa| |]; intros cl s p s' p' F H; cbn [flat_eol] in F; try discriminate.
  - destruct (flat a) as [x|] eqn:Fa; [|discriminate]. destruct (flat_eol b) as [y|] eqn:Fb; [|discriminate].
    injection F as <-. inversion H as [| |? ? ? ? s1 p1 ? ? Ha Hb| | | | | | | | |]; subst.
    destruct (flat_sound _ _ _ _ _ _ Fa Ha) as [pa [-> Fa']]. destruct (IHb _ _ _ _ _ eq_refl Hb) as [pb [Fb' E]].
    exists (pa ++ pb). split; [apply Forall2_app; assumption|].
    destruct E as [->| ->]; [left; reflexivity|right; rewrite app_assoc; reflexivity].
  - inversion H; subst. eapply IHa; eassumption.
  - injection F as <-. exists []. split; [constructor|]. inversion H; subst; [left|right]; reflexivity.
Qed.

Lemma flat_eol_complete r : forall cl pre s p, flat_eol r = Some cl -> fits cl pre -> s = pre \/ s = pre ++ [10] ->
  exists s' p', mt r s p s' p'.
Proof.
  induction r as [|cs|a IHa b IHb|a IHa b IHb|cs mn mx|a IHa|i a IHa| |]; intros cl pre s p F H E; cbn [flat_eol] in F; try discriminate.
  - destruct (flat a) as [x|] eqn:Fa; [|discriminate]. destruct (flat_eol b) as [y|] eqn:Fb; [|discriminate].
    injection F as <-. unfold fits in H. apply Forall2_app_inv_l in H. destruct H as [pa [pb [Ha [Hb ->]]]].
    assert (X : exists rest, s = pa ++ rest /\ (rest = pb \/ rest = pb ++ [10])).
    { destruct E as [->| ->]; [exists pb|exists (pb ++ [10])]; rewrite <- ?app_assoc; split; auto. }
    destruct X as [rest [Es Er]].
    destruct (IHb y pb rest (p + N.of_nat (length pa)) eq_refl Hb Er) as [s' [p' Hm]].
    exists s', p'. rewrite Es. econstructor; [apply (flat_complete a x pa rest p Fa Ha)|exact Hm].
  - destruct (IHa cl pre s p F H E) as [s' [p' Hm]]. exists s', p'. constructor. exact Hm.
  - injection F as <-. inversion H; subst. destruct E as [->| ->]; cbn [app]; do 2 eexists; constructor.
Qed.

(* re.match on a flat pattern followed by `$` *)
Theorem flat_eol_match r cl s : flat_eol r = Some cl ->
  (re_matchb r s = true <-> exists pre, fits cl pre /\ (s = pre \/ s = pre ++ [10])).
Proof.
  intros F. rewrite re_matchb_iff. split.
  - intros [s' [p' H]]. eapply flat_eol_sound; eassumption.
  - intros [pre [H E]]. eapply flat_eol_complete; eassumption.
Qed.

(* re.match on a flat pattern followed by \Z (end of string): the matcher run with the
   continuation "the rest is empty" *)
Theorem flat_eos_match r cl s : flat r = Some cl ->
  (m (N * groups) r s 0 [] (fun s' p' g' => match s' with [] => Some (p', g') | _ => None end) <> None <-> fits cl s).
Proof.
  intros F. split.
  - intros H. destruct (m _ r s 0 [] _) as [x|] eqn:E; [|congruence].
    apply m_sound in E. destruct E as [s' [p' [g' [Hm Hk]]]].
    destruct s' as [|c t]; [|discriminate].
    destruct (flat_sound r cl s 0 [] p' F Hm) as [pre [-> Hf]]. rewrite app_nil_r. exact Hf.
  - intros Hf. pose proof (flat_complete r cl s [] 0 F Hf) as Hm. rewrite app_nil_r in Hm.
    apply (m_complete _ r s 0 [] _ Hm). intros g'. discriminate.
Qed.
