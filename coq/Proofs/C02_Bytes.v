(* Proofs/C02_Bytes.v — slicing and decoding lemmas used by the per-format proofs of C02, and the bit-level
   facts about N behind the qcow2 feature word *)
Require Import OV.Base.Bytes OV.Base.Py OV.Base.Insp_Struct.
Open Scope N_scope.

Lemma bslice_bsub lo hi b : bsub lo hi b = bslice lo (hi - lo) b.
Proof. reflexivity. Qed.

Lemma bidx_ok d i : i < blen d -> bidx d i = Ok (bnth i d).
Proof. intros H. unfold bidx. rewrite flen_blen. replace (i <? blen d) with true by lia. reflexivity. Qed.

Lemma bidx_exn d i : blen d <= i -> bidx d i = Exn IndexError.
Proof. intros H. unfold bidx. rewrite flen_blen. replace (i <? blen d) with false by lia. reflexivity. Qed.

Lemma unpack_exn f d : blen d <> sf_size f -> unpack f d = Exn StructError.
Proof. apply unpack_bad. Qed.

(* a one-byte slice is the byte *)
Lemma bslice_one o b : o < blen b -> bslice o 1 b = [bnth o b].
Proof.
  intros H. unfold bslice, bnth, btake, bskip, blen in *.
  change (N.to_nat 1) with 1%nat.
  rewrite <- (firstn_skipn (N.to_nat o) b) at 2.
  rewrite app_nth2 by (rewrite firstn_length; lia).
  rewrite firstn_length. replace (N.to_nat o - Nat.min (N.to_nat o) (length b))%nat with 0%nat by lia.
  destruct (skipn (N.to_nat o) b) as [|x t] eqn:Hs.
  - assert (length (skipn (N.to_nat o) b) = 0%nat) by (rewrite Hs; reflexivity). rewrite skipn_length in *. lia.
  - reflexivity.
Qed.

Lemma le_val_one x : le_val [x] = x.
Proof. cbn. lia. Qed.
Lemma be_val_one x : be_val [x] = x.
Proof. unfold be_val. cbn. lia. Qed.

Lemma In_firstn' {A} n (l : list A) x : In x (firstn n l) -> In x l.
Proof.
  revert l. induction n as [|n IH]; intros l H; [destruct H|].
  destruct l as [|y l]; [destruct H|]. cbn [firstn] in H. destruct H as [->|H]; [left; reflexivity|right; auto].
Qed.

Lemma all_bytes_bslice o l b : all_bytes b = true -> all_bytes (bslice o l b) = true.
Proof.
  unfold all_bytes, bslice, btake, bskip. intros H. apply forallb_forall. intros x Hx.
  apply (proj1 (forallb_forall _ _) H). apply In_firstn' in Hx. eapply in_skipn. exact Hx.
Qed.

Lemma all_bytes_bnth i b : all_bytes b = true -> bnth i b < 256.
Proof.
  unfold all_bytes, bnth. intros H.
  destruct (Nat.lt_ge_cases (N.to_nat i) (length b)) as [Hl|Hl].
  - assert (Hin : In (nth (N.to_nat i) b 0) b) by (apply nth_In; exact Hl).
    apply (proj1 (forallb_forall _ _) H) in Hin. unfold is_byte in Hin. lia.
  - rewrite nth_overflow by lia. lia.
Qed.

(* le_val / be_val of a concatenation *)
Lemma le_val_app a b : le_val (a ++ b) = le_val a + 256 ^ blen a * le_val b.
Proof.
  induction a as [|x a IH]; cbn [app le_val].
  - rewrite blen_nil, N.pow_0_r. cbn [le_val]. lia.
  - rewrite IH, blen_cons. replace (1 + blen a) with (N.succ (blen a)) by lia. rewrite N.pow_succ_r'. lia.
Qed.

Lemma be_val_cons x b : be_val (x :: b) = x * 256 ^ blen b + be_val b.
Proof.
  unfold be_val. cbn [rev]. rewrite le_val_app. cbn [le_val].
  replace (blen (rev b)) with (blen b) by (unfold blen; rewrite rev_length; reflexivity). lia.
Qed.

Lemma be_val_bound b : all_bytes b = true -> be_val b < 256 ^ blen b.
Proof.
  intros H. unfold be_val.
  replace (blen b) with (blen (rev b)) by (unfold blen; rewrite rev_length; reflexivity).
  apply le_val_bound. unfold all_bytes in *. apply forallb_forall. intros x Hx. apply in_rev in Hx.
  apply (proj1 (forallb_forall _ _) H). exact Hx.
Qed.

(* prefix test against a slice *)
Lemma prefixb_bslice p o l b : blen p <= l -> prefixb p (bslice o l b) = beq (bslice o (blen p) b) p.
Proof.
  intros H. rewrite prefixb_btake. f_equal.
  change (btake (blen p) (bslice o l b)) with (bslice 0 (blen p) (bslice o l b)) at 1.
  - rewrite bslice_bslice by lia. f_equal. lia.
Qed.

Lemma high_bits_clear_iff x m : (forall n, m <= n -> N.testbit x n = false) <-> x < 2 ^ m.
Proof.
  split.
  - intros H. destruct (N.eq_dec x 0) as [->|Hx]; [apply N.neq_0_lt_0, N.pow_nonzero; lia|].
    destruct (N.lt_ge_cases x (2 ^ m)) as [Hlt|Hge]; [exact Hlt|].
    exfalso. assert (Hlog : m <= N.log2 x) by (apply N.log2_le_pow2; lia).
    specialize (H (N.log2 x) Hlog). rewrite N.bit_log2 in H by exact Hx. discriminate.
  - intros H n Hn. destruct (N.eq_dec x 0) as [->|Hx]; [apply N.bits_0|].
    apply N.bits_above_log2. apply N.log2_lt_pow2; [lia|].
    eapply N.lt_le_trans; [exact H|]. apply N.pow_le_mono_r; lia.
Qed.

(* x & ~(2^m - 1) = 0  <->  x < 2^m *)
Lemma ldiff_ones_zero_iff x m : N.ldiff x (N.shiftl 1 m - 1) = 0 <-> x < 2 ^ m.
Proof.
  rewrite N.shiftl_1_l. replace (2 ^ m - 1) with (N.ones m) by (rewrite N.ones_equiv; lia).
  rewrite <- high_bits_clear_iff. split.
  - intros H n Hn. assert (Hb : N.testbit (N.ldiff x (N.ones m)) n = false) by (rewrite H; apply N.bits_0).
    rewrite N.ldiff_spec, N.ones_spec_high in Hb by lia. cbn [negb] in Hb. rewrite andb_true_r in Hb. exact Hb.
  - intros H. apply N.bits_inj_0. intros n. rewrite N.ldiff_spec.
    destruct (N.lt_ge_cases n m) as [Hlt|Hge].
    + rewrite N.ones_spec_low by exact Hlt. apply andb_false_r.
    + rewrite (H n Hge). reflexivity.
Qed.

(* x & 2^k = 0  <->  bit k of x is clear *)
Lemma land_pow2_zero_iff x k : N.land x (2 ^ k) = 0 <-> N.testbit x k = false.
Proof.
  split.
  - intros H. assert (Hb : N.testbit (N.land x (2 ^ k)) k = false) by (rewrite H; apply N.bits_0).
    rewrite N.land_spec, N.pow2_bits_true, andb_true_r in Hb. exact Hb.
  - intros H. apply N.bits_inj_0. intros n. rewrite N.land_spec.
    destruct (N.eq_dec n k) as [->|Hn]; [rewrite H; reflexivity|].
    rewrite N.pow2_bits_false by congruence. apply andb_false_r.
Qed.

Lemma testbit_low_add a r k n : a < 2 ^ k -> n < k -> N.testbit (a + 2 ^ k * r) n = N.testbit a n.
Proof.
  intros Ha Hn. rewrite <- (N.mod_pow2_bits_low (a + 2 ^ k * r) k n Hn).
  replace (a + 2 ^ k * r) with (a + r * 2 ^ k) by lia.
  rewrite N.mod_add by (apply N.pow_nonzero; lia).
  rewrite N.mod_small by exact Ha. reflexivity.
Qed.
