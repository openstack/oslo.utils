(* Proofs/C18.v — the spec-matcher grammar and operator table.

   What the property needs of the source is isolated in the gen_* lemmas: facts about the GENERATED
   values, each decided by computation (literals are words, longer operators come first, the
   alternatives are in a workable order, the operator table is the documented one, the class of \S
   is the complement of str.isspace).  The parse theorems (operator + word, <or>, <all-in>,
   <range-in>, bare word, the shapes a parse can have) rest on those facts; parseString's tab
   expansion is shown not to change the token list; match is related to the documented meaning;
   the side conditions ends_atoms / ends_disj get readable sufficient conditions; the Examples at
   the end show that the hypotheses of the theorems can be met. *)
From Coq Require Import String.
Require Import OV.Proofs.C04_Regex.
Require Import OV.Base.Bytes OV.Base.Py OV.Base.PyInt OV.Base.Str OV.Base.Regex OV.Base.PyFloat.
Require Import OV.Gen.Unicode OV.Gen.C18_SpecsMatcher OV.Model.C18.
Open Scope N_scope.

Arguments is_pp_ws : simpl never.
Arguments cmem : simpl never.

Definition lit_wf (l : str) : bool := negb (is_nil l) && forallb (fun c => cmem c atom_cs) l.

(* no earlier literal of a MatchFirst is a prefix of a later one: "longer operators win" *)
Fixpoint order_ok (ls : list str) : bool :=
  match ls with
  | [] => true
  | l :: t => forallb (fun m => negb (prefixb l m)) t && order_ok t
  end.

Definition mem_str (l : str) (ls : list str) : bool := existsb (beq l) ls.

Definition alt_eqb (a b : alt) : bool :=
  match a, b with
  | ADisj, ADisj | ANary, ANary | ARange, ARange | AUnary, AUnary | AAtom, AAtom => true
  | _, _ => false
  end.
Definition mem_alt (a : alt) (l : list alt) : bool := existsb (alt_eqb a) l.
(* [a] occurs in [alts] and no element of [bad] occurs before its first occurrence *)
Fixpoint pick_ok (alts : list alt) (a : alt) (bad : list alt) : bool :=
  match alts with
  | [] => false
  | b :: t => if alt_eqb b a then true else negb (mem_alt b bad) && pick_ok t a bad
  end.

Definition alt_head (a : alt) : list str :=
  match a with
  | ADisj => [or_lit]
  | ANary => [all_in_lit]
  | ARange => [range_in_lit]
  | AUnary => unary_lits
  | AAtom => []
  end.

(* the skipped characters are not word characters *)
Lemma gen_white_not_word : forallb (fun c => negb (cmem c atom_cs)) pp_white = true.
Proof. vm_compute. reflexivity. Qed.
(* every operator literal is a non-empty run of word characters *)
Lemma gen_lits_wf : forallb lit_wf all_lits = true.
Proof. vm_compute. reflexivity. Qed.
(* the unary operators are listed so that no operator hides a longer one *)
Lemma gen_unary_order : order_ok unary_lits = true.
Proof. vm_compute. reflexivity. Qed.
(* the look-ahead of an atom refuses exactly the operator literals *)
Lemma gen_stop_incl : forallb (fun l => mem_str l all_lits) atom_stop_lits = true.
Proof. vm_compute. reflexivity. Qed.
Lemma gen_all_incl_stop : forallb (fun l => mem_str l atom_stop_lits) all_lits = true.
Proof. vm_compute. reflexivity. Qed.
(* the three n-ary operators are not prefixes of one another nor of a unary operator *)
Lemma gen_nary_distinct :
  forallb (fun l => forallb (fun m => beq l m || negb (prefixb l m)) all_lits) [all_in_lit; or_lit; range_in_lit] = true.
Proof. vm_compute. reflexivity. Qed.
(* the same, per alternative: an n-ary operator is not a prefix of a literal that starts a different
   alternative.  (A unary operator MAY be a prefix of an n-ary one, '<' of '<or>'; hence the
   order of expr: no operator alternative has the unary one before it.) *)
Lemma gen_heads_exclusive :
  forallb (fun b => forallb (fun a => alt_eqb b a ||
             forallb (fun l => forallb (fun op => negb (prefixb l op)) (alt_head a)) (alt_head b))
           [ADisj; ANary; ARange; AUnary]) [ADisj; ANary; ARange] = true.
Proof. vm_compute. reflexivity. Qed.
Lemma gen_alts_op : forallb (fun a => pick_ok expr_alts a [AUnary]) [ADisj; ANary; ARange; AUnary] = true.
Proof. vm_compute. reflexivity. Qed.
Lemma gen_alts_atom : pick_ok expr_alts AAtom [] = true.
Proof. vm_compute. reflexivity. Qed.
(* Regex(r"\S+"): one or more *)
Lemma gen_atom_min : atom_min = 1%nat.
Proof. reflexivity. Qed.
(* the parse action of the disjunction: [or_] + t[1::2] *)
Lemma gen_disj_action : disj_head = or_lit /\ disj_start = 1%nat /\ disj_step = 2%nat.
Proof. repeat split. Qed.
(* range_op = literal + four atoms, and _range_in wants four arguments at indices 0..3 *)
Lemma gen_range_arity : range_arity = 4%nat.
Proof. reflexivity. Qed.
Lemma gen_range_shape :
  range_arity = range_nargs /\ (range_iy < range_nargs)%nat /\ (range_iz < range_nargs)%nat
  /\ (range_il < range_nargs)%nat /\ (range_iu < range_nargs)%nat.
Proof. vm_compute. repeat split; repeat constructor. Qed.

(* the documented operator table (docstring of make_grammar) *)
Definition documented : list (str * meth) :=
  [ (lit "=", MNum CGe); (lit "==", MNum CEq); (lit "!=", MNum CNe);
    (lit "<", MNum CLt); (lit "<=", MNum CLe); (lit ">", MNum CGt); (lit ">=", MNum CGe);
    (lit "s==", MStr CEq); (lit "s!=", MStr CNe); (lit "s<", MStr CLt); (lit "s<=", MStr CLe);
    (lit "s>", MStr CGt); (lit "s>=", MStr CGe);
    (lit "<in>", MIn); (lit "<all-in>", MAllIn); (lit "<or>", MOr); (lit "<range-in>", MRangeIn) ].

Definition is_unary_meth (m : meth) : bool :=
  match m with MNum _ | MStr _ | MIn => true | _ => false end.

Definition meths_ok (u : bool) (ls : list str) : bool :=
  forallb (fun l => match lookup l op_methods with Some m => Bool.eqb (is_unary_meth m) u | None => false end) ls.

(* op_methods gives every documented operator its documented method *)
Lemma gen_table_documented :
  map (fun km => lookup (fst km) op_methods) documented = map (fun km => Some (snd km)) documented.
Proof. vm_compute. reflexivity. Qed.
(* the grammar knows every documented operator, in the right role *)
Lemma gen_grammar_documented :
  forallb (fun km => match snd km with
                     | MAllIn => beq (fst km) all_in_lit
                     | MOr => beq (fst km) or_lit
                     | MRangeIn => beq (fst km) range_in_lit
                     | _ => mem_str (fst km) unary_lits
                     end) documented = true.
Proof. vm_compute. reflexivity. Qed.
(* every literal of the grammar is a key of op_methods: the dispatch cannot raise KeyError *)
Lemma gen_lits_have_methods :
  forallb (fun l => match lookup l op_methods with Some _ => true | None => false end) (disj_head :: all_lits) = true.
Proof. vm_compute. reflexivity. Qed.
(* and the role in the grammar agrees with the arity of the method *)
Lemma gen_unary_methods : meths_ok true unary_lits = true.
Proof. vm_compute. reflexivity. Qed.
Lemma gen_nary_methods : meths_ok false [disj_head; all_in_lit; range_in_lit] = true.
Proof. vm_compute. reflexivity. Qed.
Lemma gen_white_space : forallb is_space pp_white = true.
Proof. vm_compute. reflexivity. Qed.
Lemma gen_tab_space_ws : is_pp_ws 9 = true /\ is_pp_ws 32 = true.
Proof. vm_compute. split; reflexivity. Qed.

Lemma mem_str_In l ls : mem_str l ls = true <-> In l ls.
Proof.
  unfold mem_str. rewrite existsb_exists. split.
  - intros [x [Hin Hx]]. apply beq_eq in Hx. subst. exact Hin.
  - intros H. exists l. split; [exact H|apply beq_refl].
Qed.

Lemma flat_map_single {A B} (f : A -> B) l : flat_map (fun x => [f x]) l = map f l.
Proof. induction l as [|x l IH]; cbn; congruence. Qed.

Lemma alt_eqb_eq a b : alt_eqb a b = true <-> a = b.
Proof. destruct a, b; cbn; split; intros H; try discriminate; reflexivity. Qed.

Lemma stop_in_all l : In l atom_stop_lits -> In l all_lits.
Proof. intros H. apply mem_str_In. exact (forallb_In _ _ _ gen_stop_incl H). Qed.
Lemma all_in_stop l : In l all_lits -> In l atom_stop_lits.
Proof. intros H. apply mem_str_In. exact (forallb_In _ _ _ gen_all_incl_stop H). Qed.
Lemma head_in_all a l : In l (alt_head a) -> In l all_lits.
Proof.
  unfold all_lits. destruct a; cbn [alt_head In]; intros H; apply in_or_app;
    [right|right|right|left|]; cbn [In]; tauto.
Qed.

Lemma head_not_prefix b a l op :
  In b [ADisj; ANary; ARange] -> In a [ADisj; ANary; ARange; AUnary] -> b <> a ->
  In l (alt_head b) -> In op (alt_head a) -> prefixb l op = false.
Proof.
  intros Hb Ha Hne Hl Hop.
  pose proof (forallb_In _ _ _ (forallb_In _ _ _ gen_heads_exclusive Hb) Ha) as H. cbv beta in H.
  destruct (alt_eqb b a) eqn:E; [apply alt_eqb_eq in E; contradiction|].
  pose proof (forallb_In _ _ _ (forallb_In _ _ _ H Hl) Hop) as H1. cbv beta in H1.
  destruct (prefixb l op); [discriminate|reflexivity].
Qed.

Lemma lit_wf_all l : In l all_lits -> lit_wf l = true.
Proof. intros H. exact (forallb_In _ _ _ gen_lits_wf H). Qed.

Lemma ws_not_word c : is_pp_ws c = true -> cmem c atom_cs = false.
Proof.
  intros H. pose proof (forallb_In _ _ _ gen_white_not_word (proj1 (memN_In _ _) H)) as H1. cbv beta in H1.
  destruct (cmem c atom_cs); [discriminate|reflexivity].
Qed.
Lemma word_not_ws c : cmem c atom_cs = true -> is_pp_ws c = false.
Proof. intros H. destruct (is_pp_ws c) eqn:E; [|reflexivity]. apply ws_not_word in E. congruence. Qed.

(* complement of a sorted list of ranges inside [lo, mx] *)
Fixpoint compl_from (lo : N) (rs : cset) (mx : N) : cset :=
  match rs with
  | [] => if lo <=? mx then [(lo, mx)] else []
  | (a, b) :: t => (if lo <? a then [(lo, a - 1)] else []) ++ compl_from (b + 1) t mx
  end.
Fixpoint sorted_from (lo : N) (rs : cset) : bool :=
  match rs with
  | [] => true
  | (a, b) :: t => (lo <=? a) && (a <=? b) && sorted_from (b + 1) t
  end.

Lemma cmem_cons c a b t : cmem c ((a, b) :: t) = ((a <=? c) && (c <=? b)) || cmem c t.
Proof. reflexivity. Qed.

Lemma sorted_cons lo a b t : sorted_from lo ((a, b) :: t) = true -> lo <= a /\ a <= b /\ sorted_from (b + 1) t = true.
Proof.
  cbn [sorted_from]. intros H. apply andb_true_iff in H. destruct H as [H Ht].
  apply andb_true_iff in H. destruct H as [H1 H2]. repeat split; [lia|lia|exact Ht].
Qed.

Lemma cmem_below rs : forall lo c, sorted_from lo rs = true -> c < lo -> cmem c rs = false.
Proof.
  induction rs as [|[a b] t IH]; intros lo c Hs Hc; [reflexivity|].
  apply sorted_cons in Hs. destruct Hs as [H1 [H2 Ht]].
  rewrite cmem_cons, (IH (b + 1) c Ht) by lia.
  replace (a <=? c) with false by lia. reflexivity.
Qed.

Lemma compl_below rs : forall lo mx c, sorted_from lo rs = true -> c < lo -> cmem c (compl_from lo rs mx) = false.
Proof.
  induction rs as [|[a b] t IH]; intros lo mx c Hs Hc; cbn [compl_from].
  - destruct (lo <=? mx); [|reflexivity]. rewrite cmem_cons. replace (lo <=? c) with false by lia. reflexivity.
  - apply sorted_cons in Hs. destruct Hs as [H1 [H2 Ht]].
    rewrite cmem_app, (IH (b + 1) mx c Ht) by lia.
    destruct (lo <? a); [|reflexivity]. rewrite cmem_cons. replace (lo <=? c) with false by lia. reflexivity.
Qed.

Lemma compl_from_spec rs : forall lo mx c,
  sorted_from lo rs = true -> lo <= c -> c <= mx -> cmem c (compl_from lo rs mx) = negb (cmem c rs).
Proof.
  induction rs as [|[a b] t IH]; intros lo mx c Hs L U; cbn [compl_from].
  - replace (lo <=? mx) with true by lia. rewrite cmem_cons.
    replace (lo <=? c) with true by lia. replace (c <=? mx) with true by lia. reflexivity.
  - apply sorted_cons in Hs. destruct Hs as [H1 [H2 Ht]]. rewrite cmem_app, cmem_cons.
    destruct (N.lt_ge_cases c a) as [Hca|Hca].
    + replace (lo <? a) with true by lia. rewrite cmem_cons.
      replace (lo <=? c) with true by lia. replace (c <=? a - 1) with true by lia.
      replace (a <=? c) with false by lia. rewrite (cmem_below t (b + 1) c Ht) by lia. reflexivity.
    + destruct (lo <? a) eqn:E.
      2: change (cmem c []) with false.
      1: rewrite cmem_cons; replace (c <=? a - 1) with false by lia; rewrite andb_false_r.
      all: cbn [orb]; replace (a <=? c) with true by lia; cbn [andb].
      all: destruct (N.le_gt_cases c b) as [Hcb|Hcb].
      all: try (replace (c <=? b) with true by lia; cbn [orb negb]; apply compl_below; [exact Ht|lia]).
      all: replace (c <=? b) with false by lia; cbn [orb]; apply IH; [exact Ht|lia|exact U].
Qed.

(* the generated class of Regex(r"\S+") is exactly the complement, within the code point
   range, of the interpreter's str.isspace() table (Gen/Unicode.v): a word is a run of
   non-whitespace characters in Python's sense *)
Lemma gen_atom_cs_compl : atom_cs = compl_from 0 py_space 1114111 /\ sorted_from 0 py_space = true.
Proof. vm_compute. split; reflexivity. Qed.

Definition nows_head (x : str) : bool :=
  match x with [] => true | c :: _ => negb (is_pp_ws c) end.

Lemma skip_ws_app w x : all_ws w = true -> skip_ws (w ++ x) = skip_ws x.
Proof.
  induction w as [|c w IH]; intros H; [reflexivity|].
  cbn in H. apply andb_true_iff in H. destruct H as [Hc Hw].
  cbn [app skip_ws]. rewrite Hc. auto.
Qed.
Lemma skip_ws_nows x : nows_head x = true -> skip_ws x = x.
Proof. destruct x as [|c x]; [reflexivity|]. cbn. intros H. destruct (is_pp_ws c); [discriminate|reflexivity]. Qed.
Lemma skip_ws_ws_nows w x : all_ws w = true -> nows_head x = true -> skip_ws (w ++ x) = x.
Proof. intros Hw Hx. rewrite skip_ws_app by exact Hw. apply skip_ws_nows, Hx. Qed.
Lemma skip_ws_all w : all_ws w = true -> skip_ws w = [].
Proof. intros H. rewrite <- (app_nil_r w). rewrite skip_ws_app by exact H. reflexivity. Qed.
Lemma skip_ws_length s : (length (skip_ws s) <= length s)%nat.
Proof. induction s as [|c s IH]; cbn; [lia|]. destruct (is_pp_ws c); cbn; lia. Qed.

Lemma all_ws_app a b : all_ws (a ++ b) = all_ws a && all_ws b.
Proof. unfold all_ws. apply forallb_app. Qed.

Lemma lit_wf_cons l : lit_wf l = true -> exists c l', l = c :: l' /\ cmem c atom_cs = true.
Proof.
  unfold lit_wf. destruct l as [|c l']; cbn; [discriminate|]. intros H.
  apply andb_true_iff in H. exists c, l'. tauto.
Qed.
Lemma lit_wf_nows l t : lit_wf l = true -> nows_head (l ++ t) = true.
Proof.
  intros H. destruct (lit_wf_cons l H) as [c [l' [-> Hc]]]. cbn. rewrite (word_not_ws c Hc). reflexivity.
Qed.

Lemma drop_prefix_app p s : drop_prefix p (p ++ s) = Some s.
Proof. induction p as [|x p IH]; cbn; [reflexivity|]. rewrite N.eqb_refl. exact IH. Qed.

Lemma drop_prefix_some p s r : drop_prefix p s = Some r -> s = p ++ r.
Proof.
  revert s. induction p as [|x p IH]; intros s H; cbn in H.
  - inversion H. reflexivity.
  - destruct s as [|y s]; [discriminate|]. destruct (x =? y) eqn:E; [|discriminate].
    apply N.eqb_eq in E. subst. cbn. f_equal. auto.
Qed.

Lemma drop_prefix_none p s : prefixb p s = false -> drop_prefix p s = None.
Proof.
  revert s. induction p as [|x p IH]; intros s H; cbn in *; [discriminate|].
  destruct s as [|y s]; [reflexivity|]. destruct (x =? y); cbn in H; [auto|reflexivity].
Qed.

Lemma drop_prefix_prefixb p s r : drop_prefix p s = Some r -> prefixb p s = true.
Proof. intros H. apply drop_prefix_some in H. subst. apply prefixb_app. Qed.

(* a literal (a run of word characters) cannot run over a character that is not one *)
Lemma lit_no_overrun l a x :
  lit_wf l = true -> stops x = true -> prefixb l (a ++ x) = true -> prefixb l a = true.
Proof.
  unfold lit_wf. intros Hwf Hx. apply andb_true_iff in Hwf. destruct Hwf as [_ Hwf].
  revert a. induction l as [|y l IH]; intros a H; [reflexivity|].
  cbn [forallb] in Hwf. apply andb_true_iff in Hwf. destruct Hwf as [Hy Hl].
  destruct a as [|z a]; cbn [app prefixb] in *.
  - (* the literal would go on into [x], whose first character ends a word *)
    destruct x as [|d x]; [discriminate|]. apply andb_true_iff in H. destruct H as [E _].
    apply N.eqb_eq in E. subst d. cbn [stops] in Hx. rewrite Hy in Hx. discriminate.
  - apply andb_true_iff in H. destruct H as [E H]. rewrite E. exact (IH Hl a H).
Qed.

Lemma stops_ws_head w x : all_ws w = true -> w <> [] -> stops (w ++ x) = true.
Proof.
  destruct w as [|c w]; [congruence|]. intros H _. cbn in H. apply andb_true_iff in H.
  cbn. rewrite (ws_not_word c (proj1 H)). reflexivity.
Qed.

Lemma p_lit_hit op ws t : lit_wf op = true -> all_ws ws = true -> p_lit op (ws ++ op ++ t) = Some t.
Proof.
  intros Hop Hws. unfold p_lit. rewrite skip_ws_ws_nows by (auto using lit_wf_nows). apply drop_prefix_app.
Qed.

Lemma p_lit_miss l ws x :
  all_ws ws = true -> nows_head x = true -> prefixb l x = false -> p_lit l (ws ++ x) = None.
Proof. intros Hws Hx H. unfold p_lit. rewrite skip_ws_ws_nows by assumption. apply drop_prefix_none, H. Qed.

Lemma p_lit_length l s r : p_lit l s = Some r -> (length r <= length s)%nat.
Proof.
  unfold p_lit. intros H. apply drop_prefix_some in H. pose proof (skip_ws_length s) as L.
  rewrite H in L. rewrite app_length in L. lia.
Qed.

Lemma first_lit_none ls s : (forall l, In l ls -> p_lit l s = None) -> first_lit ls s = None.
Proof.
  induction ls as [|l ls IH]; intros H; [reflexivity|].
  cbn [first_lit]. rewrite (H l (in_eq _ _)). apply IH. intros m Hm. apply H. right. exact Hm.
Qed.

Lemma first_lit_In ls s l r : first_lit ls s = Some (l, r) -> In l ls /\ p_lit l s = Some r.
Proof.
  induction ls as [|m ls IH]; cbn; [discriminate|].
  destruct (p_lit m s) eqn:E.
  - intros H. inversion H; subst. split; [left; reflexivity|exact E].
  - intros H. destruct (IH H). split; [right|]; assumption.
Qed.

Lemma first_lit_some_of ls s l r : In l ls -> p_lit l s = Some r -> first_lit ls s <> None.
Proof.
  induction ls as [|m ls IH]; [contradiction|]. intros [->|Hin] H; cbn.
  - rewrite H. discriminate.
  - destruct (p_lit m s); [discriminate|]. auto.
Qed.

(* [op] followed by [t]: no operator literal matches there except prefixes of [op] itself *)
Definition clean (op t : str) : Prop :=
  forall l, In l all_lits -> prefixb l (op ++ t) = true -> prefixb l op = true.

Lemma clean_of_join op w a rest :
  clean_join op w a = true -> all_ws w = true -> stops rest = true -> clean op (w ++ a ++ rest).
Proof.
  intros Hj Hw Hrest l Hl H. pose proof (lit_wf_all l Hl) as Hwf.
  destruct w as [|c w].
  - cbn [app] in *. unfold clean_join in Hj. cbn [is_nil negb orb] in Hj. rewrite forallb_forall in Hj. specialize (Hj l Hl).
    rewrite app_assoc in H. apply (lit_no_overrun l (op ++ a) rest Hwf Hrest) in H.
    rewrite H in Hj. exact Hj.
  - apply (lit_no_overrun l op ((c :: w) ++ a ++ rest) Hwf); [|exact H].
    apply stops_ws_head; [exact Hw|discriminate].
Qed.

Lemma p_lit_other l op ws t :
  In l all_lits -> In op all_lits -> all_ws ws = true -> clean op t -> prefixb l op = false ->
  p_lit l (ws ++ op ++ t) = None.
Proof.
  intros Hl Hop Hws Hc Hn. apply p_lit_miss; [exact Hws|apply lit_wf_nows, lit_wf_all, Hop|].
  destruct (prefixb l (op ++ t)) eqn:E; [|reflexivity]. apply Hc in E; [congruence|exact Hl].
Qed.

Lemma first_lit_op ls op ws t :
  In op ls -> order_ok ls = true -> (forall l, In l ls -> In l all_lits) ->
  all_ws ws = true -> clean op t ->
  first_lit ls (ws ++ op ++ t) = Some (op, t).
Proof.
  intros Hin Hord Hsub Hws Hc. induction ls as [|m ls IH]; [contradiction|].
  cbn [order_ok] in Hord. apply andb_true_iff in Hord. destruct Hord as [Hm Hord]. cbn [first_lit].
  destruct Hin as [->|Hin].
  - rewrite p_lit_hit; [reflexivity|apply lit_wf_all, Hsub, in_eq|exact Hws].
  - rewrite p_lit_other; [apply IH; auto using in_cons|apply Hsub, in_eq|apply Hsub, in_cons, Hin|exact Hws|exact Hc|].
    pose proof (forallb_In _ _ _ Hm Hin) as H. cbv beta in H. destruct (prefixb m op); [discriminate|reflexivity].
Qed.

Lemma re_match_rep cs mn s :
  re_match (Rep cs mn None) s =
  if Nat.ltb (run_len cs s None) mn then None else Some (N.of_nat (run_len cs s None), []).
Proof. apply match_at_rep. Qed.

Lemma btake_len_app (x y : str) : btake (N.of_nat (length x)) (x ++ y) = x.
Proof.
  unfold btake. rewrite Nat2N.id, firstn_app, Nat.sub_diag, firstn_all. cbn. apply app_nil_r.
Qed.
Lemma bskip_len_app (x y : str) : bskip (N.of_nat (length x)) (x ++ y) = y.
Proof.
  unfold bskip. rewrite Nat2N.id, skipn_app, Nat.sub_diag, skipn_all. reflexivity.
Qed.

Lemma word_ok_cons a : word_ok a = true ->
  exists c a', a = c :: a' /\ cmem c atom_cs = true /\ forallb (fun c => cmem c atom_cs) a = true.
Proof.
  unfold word_ok. destruct a as [|c a']; cbn [is_nil negb andb]; [discriminate|].
  intros H. exists c, a'. cbn [forallb] in *. apply andb_true_iff in H. destruct H as [H1 H2].
  rewrite H1, H2. auto.
Qed.

Lemma word_nows a t : word_ok a = true -> nows_head (a ++ t) = true.
Proof.
  intros H. destruct (word_ok_cons a H) as [c [a' [-> [Hc _]]]]. cbn. rewrite (word_not_ws c Hc). reflexivity.
Qed.

Lemma no_lit_at_word l ws a rest :
  In l all_lits -> all_ws ws = true -> atom_ok a = true -> stops rest = true ->
  p_lit l (ws ++ a ++ rest) = None.
Proof.
  intros Hl Hws Ha Hr. unfold atom_ok in Ha. apply andb_true_iff in Ha. destruct Ha as [Hword Hnop].
  apply p_lit_miss; [exact Hws|apply word_nows, Hword|].
  destruct (prefixb l (a ++ rest)) eqn:E; [|reflexivity].
  apply (lit_no_overrun l a rest (lit_wf_all l Hl) Hr) in E.
  pose proof (forallb_In _ _ _ Hnop Hl) as H. cbv beta in H. rewrite E in H. discriminate.
Qed.

Lemma p_regex_word w a rest :
  all_ws w = true -> word_ok a = true -> stops rest = true ->
  p_regex (w ++ a ++ rest) = Some ([a], rest).
Proof.
  intros Hw Ha Hr. destruct (word_ok_cons a Ha) as [c [a' [Ea [Hc Hall]]]].
  unfold p_regex. rewrite skip_ws_ws_nows by (auto using word_nows).
  unfold atom_re. rewrite re_match_rep.
  rewrite (run_len_exact atom_cs a rest None Hall eq_refl (or_introl Hr)).
  rewrite gen_atom_min.
  assert (Hlen : Nat.ltb (length a) 1 = false) by (subst a; reflexivity).
  rewrite Hlen, btake_len_app, bskip_len_app. reflexivity.
Qed.

Lemma p_atom_inv s t r :
  p_atom s = Some (t, r) -> (exists x, t = [x]) /\ (length r < length s)%nat.
Proof.
  unfold p_atom. destruct (first_lit atom_stop_lits s); [discriminate|].
  unfold p_regex, atom_re. rewrite re_match_rep, gen_atom_min.
  pose proof (run_len_le atom_cs (skip_ws s) None) as L. pose proof (skip_ws_length s) as L2.
  set (rl := run_len atom_cs (skip_ws s) None) in *.
  destruct (Nat.ltb rl 1) eqn:E; [discriminate|]. apply Nat.ltb_ge in E.
  intros H. inversion H; subst; clear H. split; [eexists; reflexivity|].
  pose proof (blen_bskip (N.of_nat rl) (skip_ws s)) as B. unfold blen in B. lia.
Qed.

Lemma p_atom_word w a rest :
  all_ws w = true -> atom_ok a = true -> stops rest = true ->
  p_atom (w ++ a ++ rest) = Some ([a], rest).
Proof.
  intros Hw Ha Hr. unfold p_atom. rewrite first_lit_none.
  - apply p_regex_word; [exact Hw| |exact Hr]. unfold atom_ok in Ha. apply andb_true_iff in Ha. tauto.
  - intros l Hl. apply no_lit_at_word; [apply stop_in_all, Hl|assumption..].
Qed.

Lemma p_atom_at_op op ws t : In op all_lits -> all_ws ws = true -> p_atom (ws ++ op ++ t) = None.
Proof.
  intros Hop Hws. unfold p_atom.
  destruct (first_lit atom_stop_lits (ws ++ op ++ t)) eqn:E; [reflexivity|].
  exfalso. revert E. apply (first_lit_some_of _ _ op t); [apply all_in_stop, Hop|].
  apply p_lit_hit; [apply lit_wf_all, Hop|exact Hws].
Qed.

Lemma p_atom_nil : p_atom [] = None.
Proof.
  destruct (p_atom []) as [[t r]|] eqn:E; [|reflexivity].
  apply p_atom_inv in E. cbn in E. lia.
Qed.
Lemma p_atom_ws w : all_ws w = true -> p_atom w = None.
Proof.
  intros H. destruct (p_atom w) as [[t r]|] eqn:E; [|reflexivity]. exfalso.
  unfold p_atom in E. destruct (first_lit atom_stop_lits w); [discriminate|].
  unfold p_regex in E. rewrite (skip_ws_all w H) in E. unfold atom_re in E. rewrite re_match_rep, gen_atom_min in E.
  cbn in E. discriminate.
Qed.

Lemma then_inv p q s t r : then_ p q s = Some (t, r) ->
  exists t1 r1 t2, p s = Some (t1, r1) /\ q r1 = Some (t2, r) /\ t = t1 ++ t2.
Proof.
  unfold then_. destruct (p s) as [[t1 r1]|]; [|discriminate]. destruct (q r1) as [[t2 r2]|] eqn:E; [|discriminate].
  intros H. inversion H; subst. exists t1, r1, t2. auto.
Qed.

Lemma p_lit_tok_inv l s t r : p_lit_tok l s = Some (t, r) -> t = [l] /\ p_lit l s = Some r.
Proof. unfold p_lit_tok. destruct (p_lit l s); [|discriminate]. intros H. inversion H. auto. Qed.

Lemma p_first_inv ls s t r : p_first ls s = Some (t, r) -> exists l, t = [l] /\ In l ls.
Proof.
  unfold p_first. destruct (first_lit ls s) as [[l r0]|] eqn:E; [|discriminate].
  intros H. inversion H; subst. exists l. split; [reflexivity|]. apply first_lit_In in E. tauto.
Qed.

Lemma one_or_more_inv p s t r : one_or_more p s = Some (t, r) -> exists t1 r1 t2, p s = Some (t1, r1) /\ t = t1 ++ t2.
Proof.
  unfold one_or_more. destruct (p s) as [[t1 r1]|]; [|discriminate]. destruct (many _ p r1) as [t2 r2].
  intros H. inversion H; subst. exists t1, r1, t2. auto.
Qed.

Lemma then_lit_none l q s : p_lit l s = None -> then_ (p_lit_tok l) q s = None.
Proof. intros H. unfold then_, p_lit_tok. rewrite H. reflexivity. Qed.

Definition consuming (p : str -> tokres) : Prop :=
  forall s t r, p s = Some (t, r) -> (length r < length s)%nat.

Lemma p_atom_consuming : consuming p_atom.
Proof. intros s t r H. apply p_atom_inv in H. tauto. Qed.

Lemma p_or_item_consuming : consuming p_or_item.
Proof.
  intros s t r H. destruct (then_inv _ _ _ _ _ H) as (t1 & r1 & t2 & H1 & H2 & _).
  apply p_lit_tok_inv in H1. destruct H1 as [_ H1]. apply p_lit_length in H1. apply p_atom_inv in H2. lia.
Qed.

(* the fuel of [many] is never exhausted: any two sufficient amounts give the same result *)
Lemma many_fuel_enough p : consuming p ->
  forall f f' s, (length s <= f)%nat -> (length s <= f')%nat -> many f p s = many f' p s.
Proof.
  intros Hp. induction f as [|f IH]; intros f' s L L'.
  - destruct s; [|cbn in L; lia]. destruct f'; [reflexivity|]. cbn [many].
    destruct (p []) as [[t r]|] eqn:E; [apply Hp in E; cbn in E; lia|reflexivity].
  - destruct f' as [|f'].
    + destruct s; [|cbn in L'; lia]. cbn [many].
      destruct (p []) as [[t r]|] eqn:E; [apply Hp in E; cbn in E; lia|reflexivity].
    + cbn [many]. destruct (p s) as [[t r]|] eqn:E; [|reflexivity].
      apply Hp in E. rewrite (IH f' r) by lia. reflexivity.
Qed.

(* a run of items [x], written [sg x], each of which [p] turns into the tokens [tk x] whenever
   the text after it ends a word; the run is followed by [rest], which [p] refuses *)
Section Items.
Context {A : Type} (p : str -> tokres) (ok : A -> bool) (sg : A -> str) (tk : A -> list str).
Hypothesis Hcons : consuming p.
Hypothesis Hitem : forall x R, ok x = true ->
  stops (sg x ++ R) = true /\ (stops R = true -> p (sg x ++ R) = Some (tk x, R)).

Lemma items_stop items rest :
  forallb ok items = true -> stops rest = true -> stops (flat_map sg items ++ rest) = true.
Proof.
  destruct items as [|x items]; cbn [forallb flat_map app]; intros Hi Hr; [exact Hr|].
  apply andb_true_iff in Hi. rewrite <- app_assoc. apply Hitem, Hi.
Qed.

(* the length of the text is fuel enough because every round consumes *)
Lemma many_items items : forall rest f,
  forallb ok items = true -> stops rest = true -> p rest = None ->
  (length (flat_map sg items ++ rest) <= f)%nat ->
  many f p (flat_map sg items ++ rest) = (flat_map tk items, rest).
Proof.
  induction items as [|x items IH]; intros rest f Hi Hr Hn L.
  - cbn [flat_map app]. destruct f; [reflexivity|]. cbn [many]. rewrite Hn. reflexivity.
  - cbn [forallb] in Hi. apply andb_true_iff in Hi. destruct Hi as [Hx Hi].
    cbn [flat_map] in *. rewrite <- app_assoc in *.
    pose proof (proj2 (Hitem x _ Hx) (items_stop items rest Hi Hr)) as E. pose proof (Hcons _ _ _ E) as Lx.
    destruct f as [|f]; [lia|]. cbn [many]. rewrite E, (IH rest f Hi Hr Hn) by lia. reflexivity.
Qed.

Lemma one_or_more_items s t items rest :
  p s = Some (t, flat_map sg items ++ rest) ->
  forallb ok items = true -> stops rest = true -> p rest = None ->
  one_or_more p s = Some (t ++ flat_map tk items, rest).
Proof. intros E Hi Hr Hn. unfold one_or_more. rewrite E, many_items by (auto; lia). reflexivity. Qed.
End Items.

Lemma ends_inv (p : str -> tokres) rest :
  stops rest && match p rest with None => true | Some _ => false end = true -> stops rest = true /\ p rest = None.
Proof. intros H. apply andb_true_iff in H. destruct H as [Hs H]. destruct (p rest); [discriminate|]. auto. Qed.

Lemma item_parse wa R : item_ok wa = true ->
  stops (seg wa ++ R) = true /\ (stops R = true -> p_atom (seg wa ++ R) = Some ([snd wa], R)).
Proof.
  unfold item_ok, seg. intros H. apply andb_true_iff in H. destruct H as [H Ha]. apply andb_true_iff in H.
  destruct H as [Hne Hw]. rewrite <- app_assoc. split.
  - apply stops_ws_head; [exact Hw|]. intros E. rewrite E in Hne. discriminate.
  - intros HR. apply p_atom_word; assumption.
Qed.

Lemma lit_wf_or : lit_wf or_lit = true.
Proof. apply lit_wf_all, (head_in_all ADisj), in_eq. Qed.

Lemma p_or_item_word sep w a R :
  all_ws sep = true -> all_ws w = true -> atom_ok a = true -> stops R = true ->
  p_or_item (sep ++ or_lit ++ w ++ a ++ R) = Some ([or_lit; a], R).
Proof.
  intros Hs Hw Ha HR. unfold p_or_item, then_, p_lit_tok.
  rewrite (p_lit_hit or_lit sep _ lit_wf_or Hs). rewrite (p_atom_word w a R Hw Ha HR). reflexivity.
Qed.

Lemma oitem_parse x R : oitem_ok x = true ->
  stops (oseg x ++ R) = true /\ (stops R = true -> p_or_item (oseg x ++ R) = Some ([or_lit; snd x], R)).
Proof.
  unfold oitem_ok, oseg. intros H. apply andb_true_iff in H. destruct H as [H Ha]. apply andb_true_iff in H.
  destruct H as [H Hw]. apply andb_true_iff in H. destruct H as [Hne Hs]. rewrite <- !app_assoc. split.
  - apply stops_ws_head; [exact Hs|]. intros E. rewrite E in Hne. discriminate.
  - intros HR. apply p_or_item_word; assumption.
Qed.

(* t[1::2] of [c; x1; c; x2; ...] *)
Lemma every_nth_pairs {A} (c : str) (f : A -> str) l : every_nth 1 2 (flat_map (fun x => [c; f x]) l) = map f l.
Proof. induction l as [|a l IH]; cbn; [reflexivity|]. f_equal. exact IH. Qed.

Lemma first_alt_pick alts a bad s x :
  pick_ok alts a bad = true -> parse_alt a s = Some x ->
  (forall b, b <> a -> mem_alt b bad = false -> parse_alt b s = None) ->
  first_alt alts s = Some x.
Proof.
  intros Hp Hx Hn. induction alts as [|b alts IH]; cbn in Hp; [discriminate|].
  cbn [first_alt]. destruct (alt_eqb b a) eqn:E.
  - apply alt_eqb_eq in E. subst b. rewrite Hx. reflexivity.
  - apply andb_true_iff in Hp. destruct Hp as [Hb Hp].
    rewrite Hn; [auto| |].
    + intros ->. destruct a; discriminate.
    + destruct (mem_alt b bad); [discriminate|reflexivity].
Qed.

Lemma alt_needs_lit b s : b <> AAtom -> (forall l, In l (alt_head b) -> p_lit l s = None) -> parse_alt b s = None.
Proof.
  intros Hb H. destruct b; cbn [parse_alt alt_head] in *.
  - unfold p_disj, one_or_more, p_or_item. rewrite then_lit_none by (apply H, in_eq). reflexivity.
  - apply then_lit_none, H, in_eq.
  - apply then_lit_none, H, in_eq.
  - unfold p_unary, then_, p_first. rewrite (first_lit_none _ _ H). reflexivity.
  - congruence.
Qed.

Section AtOperator.
(* the text starts (after whitespace) with the operator [op], which begins alternative [a], cleanly
   followed by [t]: [a] decides the parse, since every alternative that may be tried before it fails *)
Variables (a : alt) (op ws t : str).
Hypothesis Ha : a <> AAtom.
Hypothesis Hop : In op (alt_head a).
Hypothesis Hws : all_ws ws = true.
Hypothesis Hc : clean op t.

Lemma parse_at_op x : parse_alt a (ws ++ op ++ t) = Some x -> parse (ws ++ op ++ t) = Some (fst x).
Proof.
  intros Hx. assert (Ha4 : In a [ADisj; ANary; ARange; AUnary]) by (destruct a; cbn; tauto).
  unfold parse. rewrite (first_alt_pick expr_alts a [AUnary] _ x (forallb_In _ _ a gen_alts_op Ha4) Hx); [reflexivity|].
  intros b Hb Hbad. pose proof (head_in_all a op Hop) as Hall.
  destruct (alt_eqb b AAtom) eqn:Eb.
  - apply alt_eqb_eq in Eb. subst b. apply p_atom_at_op; assumption.
  - assert (Hb3 : In b [ADisj; ANary; ARange]) by (destruct b; cbn; auto; discriminate).
    apply alt_needs_lit; [intros ->; discriminate|]. intros l Hl.
    apply p_lit_other; [exact (head_in_all b l Hl)|exact Hall|exact Hws|exact Hc|].
    exact (head_not_prefix b a l op Hb3 Ha4 Hb Hl Hop).
Qed.
End AtOperator.

Theorem parse_op_atom op ws w a rest :
  In op unary_lits -> all_ws ws = true -> all_ws w = true -> atom_ok a = true ->
  stops rest = true -> clean_join op w a = true ->
  parse (ws ++ op ++ w ++ a ++ rest) = Some [op; a].
Proof.
  intros Hop Hws Hw Ha Hr Hj.
  pose proof (clean_of_join op w a rest Hj Hw Hr) as Hc.
  apply (parse_at_op AUnary op ws _ ltac:(discriminate) Hop Hws Hc ([op; a], rest)).
  unfold parse_alt, p_unary, then_, p_first.
  rewrite (first_lit_op unary_lits op ws _ Hop gen_unary_order (head_in_all AUnary) Hws Hc).
  rewrite (p_atom_word w a rest Hw Ha Hr). reflexivity.
Qed.

Theorem parse_or ws w a items rest :
  all_ws ws = true -> all_ws w = true -> atom_ok a = true -> clean_join or_lit w a = true ->
  forallb oitem_ok items = true -> ends_disj rest = true ->
  parse (ws ++ or_lit ++ w ++ a ++ flat_map oseg items ++ rest) = Some (or_lit :: a :: map snd items).
Proof.
  intros Hws Hw Ha Hj Hi He. destruct (ends_inv p_or_item rest He) as [Hr Hn].
  pose proof (items_stop p_or_item oitem_ok oseg _ oitem_parse items rest Hi Hr) as Hst.
  pose proof (clean_of_join or_lit w a _ Hj Hw Hst) as Hc.
  apply (parse_at_op ADisj or_lit ws _ ltac:(discriminate) (in_eq _ _) Hws Hc (or_lit :: a :: map snd items, rest)).
  unfold parse_alt, p_disj.
  rewrite (one_or_more_items p_or_item oitem_ok oseg (fun x => [or_lit; snd x]) p_or_item_consuming oitem_parse
             _ [or_lit; a] items rest (p_or_item_word ws w a _ Hws Hw Ha Hst) Hi Hr Hn).
  unfold disj_action. destruct gen_disj_action as [-> [-> ->]]. cbn [app every_nth pred].
  rewrite every_nth_pairs. reflexivity.
Qed.

Theorem parse_all_in ws w a items rest :
  all_ws ws = true -> all_ws w = true -> atom_ok a = true -> clean_join all_in_lit w a = true ->
  forallb item_ok items = true -> ends_atoms rest = true ->
  parse (ws ++ all_in_lit ++ w ++ a ++ flat_map seg items ++ rest) = Some (all_in_lit :: a :: map snd items).
Proof.
  intros Hws Hw Ha Hj Hi He. destruct (ends_inv p_atom rest He) as [Hr Hn].
  pose proof (items_stop p_atom item_ok seg _ item_parse items rest Hi Hr) as Hst.
  pose proof (clean_of_join all_in_lit w a _ Hj Hw Hst) as Hc.
  apply (parse_at_op ANary all_in_lit ws _ ltac:(discriminate) (in_eq _ _) Hws Hc (all_in_lit :: a :: map snd items, rest)).
  unfold parse_alt, p_nary, then_, p_lit_tok.
  rewrite (p_lit_hit all_in_lit ws _ (lit_wf_all _ (head_in_all ANary _ (in_eq _ _))) Hws).
  rewrite (one_or_more_items p_atom item_ok seg (fun wa => [snd wa]) p_atom_consuming item_parse
             _ [a] items rest (p_atom_word w a _ Hw Ha Hst) Hi Hr Hn).
  rewrite flat_map_single. reflexivity.
Qed.

Theorem parse_range_in ws w1 a1 w2 a2 w3 a3 w4 a4 rest :
  all_ws ws = true -> all_ws w1 = true -> clean_join range_in_lit w1 a1 = true ->
  all_ws w2 = true -> w2 <> [] -> all_ws w3 = true -> w3 <> [] -> all_ws w4 = true -> w4 <> [] ->
  atom_ok a1 = true -> atom_ok a2 = true -> atom_ok a3 = true -> atom_ok a4 = true ->
  stops rest = true ->
  parse (ws ++ range_in_lit ++ w1 ++ a1 ++ w2 ++ a2 ++ w3 ++ a3 ++ w4 ++ a4 ++ rest)
  = Some [range_in_lit; a1; a2; a3; a4].
Proof.
  intros Hws Hw1 Hj Hw2 N2 Hw3 N3 Hw4 N4 Ha1 Ha2 Ha3 Ha4 Hr.
  assert (S2 : stops (w2 ++ a2 ++ w3 ++ a3 ++ w4 ++ a4 ++ rest) = true) by (apply stops_ws_head; assumption).
  assert (S3 : stops (w3 ++ a3 ++ w4 ++ a4 ++ rest) = true) by (apply stops_ws_head; assumption).
  assert (S4 : stops (w4 ++ a4 ++ rest) = true) by (apply stops_ws_head; assumption).
  pose proof (clean_of_join range_in_lit w1 a1 _ Hj Hw1 S2) as Hc.
  apply (parse_at_op ARange range_in_lit ws _ ltac:(discriminate) (in_eq _ _) Hws Hc ([range_in_lit; a1; a2; a3; a4], rest)).
  unfold parse_alt, p_range, then_ at 1, p_lit_tok.
  rewrite (p_lit_hit range_in_lit ws _ (lit_wf_all _ (head_in_all ARange _ (in_eq _ _))) Hws).
  rewrite gen_range_arity. cbn [p_times]. unfold then_.
  rewrite (p_atom_word w1 a1 _ Hw1 Ha1 S2), (p_atom_word w2 a2 _ Hw2 Ha2 S3),
          (p_atom_word w3 a3 _ Hw3 Ha3 S4), (p_atom_word w4 a4 _ Hw4 Ha4 Hr). reflexivity.
Qed.

Theorem parse_word ws a rest :
  all_ws ws = true -> atom_ok a = true -> stops rest = true ->
  parse (ws ++ a ++ rest) = Some [a].
Proof.
  intros Hws Ha Hr.
  pose proof (p_atom_word ws a rest Hws Ha Hr) as Hx.
  unfold parse. rewrite (first_alt_pick expr_alts AAtom [] _ _ gen_alts_atom Hx); [reflexivity|].
  intros b Hb _. apply alt_needs_lit; [exact Hb|]. intros l Hl.
  apply no_lit_at_word; [exact (head_in_all b l Hl)|assumption..].
Qed.

Inductive shape : list str -> Prop :=
| sh_atom a : shape [a]
| sh_unary op a : In op unary_lits -> shape [op; a]
| sh_nary op a l : In op [disj_head; all_in_lit; range_in_lit] -> shape (op :: a :: l).

Lemma parse_alt_shape a s t r : parse_alt a s = Some (t, r) -> shape t.
Proof.
  destruct a; cbn [parse_alt]; intros H.
  - unfold p_disj in H. destruct (one_or_more p_or_item s) as [[t0 r0]|] eqn:E; [|discriminate]. inversion H; subst.
    destruct (one_or_more_inv _ _ _ _ E) as (t1 & r1 & t2 & E1 & ->).
    destruct (then_inv _ _ _ _ _ E1) as (x & r2 & y & L & At & ->).
    apply p_lit_tok_inv in L. destruct L as [-> _]. apply p_atom_inv in At. destruct At as [[b ->] _].
    unfold disj_action. destruct gen_disj_action as (_ & -> & ->). cbn. apply sh_nary. cbn; auto.
  - destruct (then_inv _ _ _ _ _ H) as (x & r1 & y & L & M & ->).
    apply p_lit_tok_inv in L. destruct L as [-> _].
    destruct (one_or_more_inv _ _ _ _ M) as (t1 & r2 & t2 & At & ->).
    apply p_atom_inv in At. destruct At as [[b ->] _]. cbn. apply sh_nary. cbn; auto.
  - destruct (then_inv _ _ _ _ _ H) as (x & r1 & y & L & T & ->).
    apply p_lit_tok_inv in L. destruct L as [-> _]. rewrite gen_range_arity in T. cbn [p_times] in T.
    destruct (then_inv _ _ _ _ _ T) as (t1 & r2 & t2 & At & _ & ->).
    apply p_atom_inv in At. destruct At as [[b ->] _]. cbn. apply sh_nary. cbn; auto.
  - destruct (then_inv _ _ _ _ _ H) as (x & r1 & y & F & At & ->).
    destruct (p_first_inv _ _ _ _ F) as (l & -> & Hl). apply p_atom_inv in At. destruct At as [[b ->] _].
    cbn. apply sh_unary, Hl.
  - apply p_atom_inv in H. destruct H as [[x ->] _]. apply sh_atom.
Qed.

Theorem parse_shape spec t : parse spec = Some t -> shape t.
Proof.
  unfold parse. generalize expr_alts. intros alts. induction alts as [|a alts IH]; cbn [first_alt]; [discriminate|].
  destruct (parse_alt a spec) as [[t0 r0]|] eqn:E.
  - cbn. intros H. inversion H; subst. eapply parse_alt_shape, E.
  - exact IH.
Qed.

(* [tabeq s s']: s' is s with every tab replaced by one or more spaces *)
Inductive tabeq : str -> str -> Prop :=
| te_nil : tabeq [] []
| te_same c s s' : tabeq s s' -> tabeq (c :: s) (c :: s')
| te_tab k s s' : tabeq s s' -> tabeq (9 :: s) (repeatN 32 (S k) ++ s').

Lemma tabeq_expand s : forall col, tabeq s (expandtabs_go col s).
Proof.
  induction s as [|c s IH]; intros col; cbn [expandtabs_go]; [constructor|].
  destruct (c =? 9) eqn:E9.
  - apply N.eqb_eq in E9. subst c.
    pose proof (Nat.mod_upper_bound col 8) as Hm.
    destruct (8 - Nat.modulo col 8)%nat as [|k] eqn:Ek; [lia|]. apply te_tab, IH.
  - destruct ((c =? 10) || (c =? 13)); apply te_same, IH.
Qed.

Lemma all_ws_spaces k : all_ws (repeatN 32 k) = true.
Proof. induction k as [|k IH]; cbn; [reflexivity|]. rewrite (proj2 gen_tab_space_ws). exact IH. Qed.

Lemma tabeq_length s s' : tabeq s s' -> (length s <= length s')%nat.
Proof.
  induction 1 as [|c s s' H IH|k s s' H IH]; cbn [repeatN app length]; [lia|lia|]. rewrite app_length. lia.
Qed.

Lemma skip_ws_tabeq s s' : tabeq s s' -> tabeq (skip_ws s) (skip_ws s').
Proof.
  induction 1 as [|c s s' H IH|k s s' H IH].
  - constructor.
  - cbn [skip_ws]. destruct (is_pp_ws c); [exact IH|apply te_same, H].
  - cbn [skip_ws]. rewrite (proj1 gen_tab_space_ws).
    rewrite (skip_ws_app (repeatN 32 (S k)) s' (all_ws_spaces (S k))). exact IH.
Qed.

(* results of two runs of an element on tab-equivalent texts *)
Definition tr_eq (a b : tokres) : Prop :=
  match a, b with
  | Some (t, r), Some (t', r') => t = t' /\ tabeq r r'
  | None, None => True
  | _, _ => False
  end.

Lemma tr_eq_cases a b : tr_eq a b ->
  (a = None /\ b = None) \/ exists t r r', a = Some (t, r) /\ b = Some (t, r') /\ tabeq r r'.
Proof.
  destruct a as [[t r]|], b as [[t' r']|]; cbn; try contradiction; [|auto].
  intros [-> Hr]. right. exists t', r, r'. auto.
Qed.

Definition or_eq (a b : option str) : Prop :=
  match a, b with
  | Some r, Some r' => tabeq r r'
  | None, None => True
  | _, _ => False
  end.

Lemma drop_prefix_tabeq l : forallb (fun c => cmem c atom_cs) l = true ->
  forall s s', tabeq s s' -> or_eq (drop_prefix l s) (drop_prefix l s').
Proof.
  induction l as [|x l IH]; intros Hl s s' H; [exact H|].
  cbn [forallb] in Hl. apply andb_true_iff in Hl. destruct Hl as [Hx Hl].
  assert (X9 : x =? 9 = false).
  { destruct (x =? 9) eqn:E; [|reflexivity]. apply N.eqb_eq in E. subst.
    rewrite (ws_not_word 9 (proj1 gen_tab_space_ws)) in Hx. discriminate. }
  assert (X32 : x =? 32 = false).
  { destruct (x =? 32) eqn:E; [|reflexivity]. apply N.eqb_eq in E. subst.
    rewrite (ws_not_word 32 (proj2 gen_tab_space_ws)) in Hx. discriminate. }
  destruct H as [|c s s' H|k s s' H]; cbn [drop_prefix repeatN app].
  - exact I.
  - destruct (x =? c); [apply IH; assumption|exact I].
  - rewrite X9, X32. exact I.
Qed.

Lemma p_lit_tabeq l s s' : lit_wf l = true -> tabeq s s' -> or_eq (p_lit l s) (p_lit l s').
Proof.
  intros Hl H. unfold p_lit. apply drop_prefix_tabeq; [|apply skip_ws_tabeq, H].
  unfold lit_wf in Hl. apply andb_true_iff in Hl. tauto.
Qed.

Lemma first_lit_tabeq ls s s' :
  (forall l, In l ls -> lit_wf l = true) -> tabeq s s' ->
  match first_lit ls s, first_lit ls s' with
  | Some (l, r), Some (l', r') => l = l' /\ tabeq r r'
  | None, None => True
  | _, _ => False
  end.
Proof.
  intros Hls H. induction ls as [|l ls IH]; cbn [first_lit]; [exact I|].
  pose proof (p_lit_tabeq l s s' (Hls l (in_eq _ _)) H) as P. unfold or_eq in P.
  destruct (p_lit l s), (p_lit l s'); try contradiction; [split; [reflexivity|exact P]|].
  apply IH. intros m Hm. apply Hls. right. exact Hm.
Qed.

Lemma run_tabeq s s' : tabeq s s' ->
  run_len atom_cs s None = run_len atom_cs s' None /\
  firstn (run_len atom_cs s None) s = firstn (run_len atom_cs s None) s' /\
  tabeq (skipn (run_len atom_cs s None) s) (skipn (run_len atom_cs s None) s').
Proof.
  induction 1 as [|c s s' H IH|k s s' H IH].
  - repeat split; constructor.
  - cbn [run_len option_map]. destruct (cmem c atom_cs).
    + destruct IH as [E [F T]]. cbn [firstn skipn]. rewrite <- E, F. repeat split; assumption.
    + repeat split. cbn [skipn]. apply te_same, H.
  - cbn [run_len option_map repeatN app].
    rewrite (ws_not_word 9 (proj1 gen_tab_space_ws)), (ws_not_word 32 (proj2 gen_tab_space_ws)).
    repeat split. cbn [skipn]. apply (te_tab k), H.
Qed.

Lemma p_regex_tabeq s s' : tabeq s s' -> tr_eq (p_regex s) (p_regex s').
Proof.
  intros H. apply skip_ws_tabeq in H. unfold p_regex, atom_re. rewrite !re_match_rep.
  destruct (run_tabeq _ _ H) as [E [F T]]. rewrite <- E.
  destruct (Nat.ltb (run_len atom_cs (skip_ws s) None) atom_min); [exact I|].
  unfold tr_eq, btake, bskip. rewrite Nat2N.id. split; [rewrite F; reflexivity|exact T].
Qed.

Lemma stop_lits_wf l : In l atom_stop_lits -> lit_wf l = true.
Proof. intros H. apply lit_wf_all, stop_in_all, H. Qed.

Lemma p_atom_tabeq s s' : tabeq s s' -> tr_eq (p_atom s) (p_atom s').
Proof.
  intros H. unfold p_atom. pose proof (first_lit_tabeq atom_stop_lits s s' stop_lits_wf H) as P.
  destruct (first_lit atom_stop_lits s) as [[l r]|], (first_lit atom_stop_lits s') as [[l' r']|];
    try contradiction; [exact I|]. apply p_regex_tabeq, H.
Qed.

Definition respects (p : str -> tokres) : Prop := forall s s', tabeq s s' -> tr_eq (p s) (p s').

Lemma then_respects p q : respects p -> respects q -> respects (then_ p q).
Proof.
  intros Hp Hq s s' H. unfold then_.
  destruct (tr_eq_cases _ _ (Hp s s' H)) as [[-> ->]|(t1 & r1 & r1' & -> & -> & Hr)]; [exact I|].
  destruct (tr_eq_cases _ _ (Hq r1 r1' Hr)) as [[-> ->]|(t2 & r2 & r2' & -> & -> & Hr2)]; [exact I|].
  split; [reflexivity|exact Hr2].
Qed.

Lemma p_lit_tok_respects l : lit_wf l = true -> respects (p_lit_tok l).
Proof.
  intros Hl s s' H. unfold p_lit_tok. pose proof (p_lit_tabeq l s s' Hl H) as P. unfold or_eq in P.
  destruct (p_lit l s), (p_lit l s'); try contradiction; [split; [reflexivity|exact P]|exact I].
Qed.

Lemma p_first_respects ls : (forall l, In l ls -> lit_wf l = true) -> respects (p_first ls).
Proof.
  intros Hls s s' H. unfold p_first. pose proof (first_lit_tabeq ls s s' Hls H) as P.
  destruct (first_lit ls s) as [[l r]|], (first_lit ls s') as [[l' r']|]; try contradiction; [|exact I].
  destruct P as [-> P]. split; [reflexivity|exact P].
Qed.

Lemma p_times_respects n p : respects p -> respects (p_times n p).
Proof.
  intros Hp. induction n as [|n IH]; cbn [p_times].
  - intros s s' H. split; [reflexivity|exact H].
  - apply then_respects; assumption.
Qed.

(* with the same fuel the two runs proceed in step *)
Lemma many_respects p : respects p -> forall f s s', tabeq s s' ->
  fst (many f p s) = fst (many f p s') /\ tabeq (snd (many f p s)) (snd (many f p s')).
Proof.
  intros Hp. induction f as [|f IH]; intros s s' H; cbn [many]; [split; [reflexivity|exact H]|].
  destruct (tr_eq_cases _ _ (Hp s s' H)) as [[-> ->]|(t & r & r' & -> & -> & Hr)]; [split; [reflexivity|exact H]|].
  specialize (IH r r' Hr).
  destruct (many f p r) as [t1 r1], (many f p r') as [t2 r2]. cbn [fst snd] in *.
  destruct IH as [-> T]. split; [reflexivity|exact T].
Qed.

Lemma one_or_more_respects p : consuming p -> respects p -> respects (one_or_more p).
Proof.
  intros Hc Hp s s' H. unfold one_or_more.
  destruct (tr_eq_cases _ _ (Hp s s' H)) as [[-> ->]|(t & r & r' & -> & -> & Hr)]; [exact I|].
  pose proof (tabeq_length r r' Hr) as L.
  (* the expanded text is the longer one: its fuel serves both *)
  rewrite (many_fuel_enough p Hc (S (length r)) (S (length r')) r) by lia.
  pose proof (many_respects p Hp (S (length r')) r r' Hr) as M.
  destruct (many (S (length r')) p r) as [t1 r1], (many (S (length r')) p r') as [t2 r2]. cbn [fst snd] in M.
  destruct M as [-> T]. split; [reflexivity|exact T].
Qed.

Lemma p_or_item_respects : respects p_or_item.
Proof. apply then_respects; [apply p_lit_tok_respects, lit_wf_or|exact p_atom_tabeq]. Qed.

Lemma parse_alt_respects a : respects (parse_alt a).
Proof.
  destruct a; cbn [parse_alt].
  - intros s s' H. unfold p_disj.
    destruct (tr_eq_cases _ _ (one_or_more_respects p_or_item p_or_item_consuming p_or_item_respects s s' H))
      as [[-> ->]|(t & r & r' & -> & -> & T)]; [exact I|]. split; [reflexivity|exact T].
  - apply then_respects; [apply p_lit_tok_respects, lit_wf_all, (head_in_all ANary), in_eq|].
    apply one_or_more_respects; [exact p_atom_consuming|exact p_atom_tabeq].
  - apply then_respects; [apply p_lit_tok_respects, lit_wf_all, (head_in_all ARange), in_eq|].
    apply p_times_respects. exact p_atom_tabeq.
  - apply then_respects; [|exact p_atom_tabeq].
    apply p_first_respects. intros l Hl. apply lit_wf_all, (head_in_all AUnary), Hl.
  - exact p_atom_tabeq.
Qed.

Lemma parse_tabeq s s' : tabeq s s' -> parse s = parse s'.
Proof.
  intros H. unfold parse. generalize expr_alts. intros alts.
  induction alts as [|a alts IH]; cbn [first_alt]; [reflexivity|].
  destruct (tr_eq_cases _ _ (parse_alt_respects a s s' H)) as [[-> ->]|(t & r & r' & -> & -> & _)]; [exact IH|reflexivity].
Qed.

(* parseString's tab expansion never changes the token list *)
Theorem parse_string_eq spec : parse_string spec = parse spec.
Proof. unfold parse_string, expandtabs. symmetry. apply parse_tabeq, tabeq_expand. Qed.

Lemma lookup_doc op mt : In (op, mt) documented -> lookup op op_methods = Some mt.
Proof. exact (proj1 map_ext_in_iff gen_table_documented (op, mt)). Qed.

Lemma doc_unary op mt : In (op, mt) documented -> is_unary_meth mt = true -> In op unary_lits.
Proof.
  intros H Hu. pose proof (forallb_In _ _ _ gen_grammar_documented H) as H1. cbn [fst snd] in H1.
  apply mem_str_In. destruct mt; try discriminate; exact H1.
Qed.

Lemma doc_named :
  In (lit "<in>", MIn) documented /\ In (or_lit, MOr) documented /\
  In (all_in_lit, MAllIn) documented /\ In (range_in_lit, MRangeIn) documented.
Proof. unfold documented. cbn [In]. repeat split; auto 20. Qed.

Lemma meths_ok_method u ls op : meths_ok u ls = true -> In op ls ->
  exists mt, lookup op op_methods = Some mt /\ is_unary_meth mt = u.
Proof.
  intros H Hop. pose proof (forallb_In _ _ _ H Hop) as H1. cbv beta in H1.
  destruct (lookup op op_methods) as [mt|]; [|discriminate]. exists mt. split; [reflexivity|].
  apply Bool.eqb_prop, H1.
Qed.

(* the documented meaning of <range-in> LB lo hi RB, written without the generated tables
   (arity, argument indices, bracket dictionaries) that range_in reads *)
Definition range_meaning (r : levres) (lb lo hi rb : str) : outcome :=
  match r with
  | LRaise e => Raise e
  | LVal pv =>
    match float_of_pyval pv with
    | inr e => Raise e
    | inl x =>
      match py_float_of_str lo with
      | None => Raise E_Value
      | Some y =>
        match py_float_of_str hi with
        | None => Raise E_Value
        | Some z =>
          if f_gtb y z then Raise E_Type
          else Val ((if beq lb (lit "[") then f_geb x y else f_gtb x y)
                    && (if beq rb (lit "]") then f_leb x z else f_ltb x z))
        end
      end
    end
  end.

Lemma bracket_atoms :
  atom_ok (lit "[") = true /\ atom_ok (lit "(") = true /\ atom_ok (lit "]") = true /\ atom_ok (lit ")") = true.
Proof. vm_compute. repeat split. Qed.

Section Match.
Variable lev : str -> levres.

Lemma match_of_parse v spec op a l mt :
  parse spec = Some (op :: a :: l) -> In (op, mt) documented ->
  match_ lev v spec = apply_meth lev mt v (a :: l).
Proof. intros Hp Hd. unfold match_, tree_of. rewrite parse_string_eq, Hp, (lookup_doc op mt Hd). reflexivity. Qed.

Lemma match_single v spec a : parse spec = Some [a] -> match_ lev v spec = Val (beq a v).
Proof. unfold match_, tree_of. rewrite parse_string_eq. intros ->. reflexivity. Qed.

(* a spec the grammar rejects is compared as a whole *)
Lemma match_unparsed v spec : parse spec = None -> match_ lev v spec = Val (beq spec v).
Proof. unfold match_, tree_of. rewrite parse_string_eq. intros ->. reflexivity. Qed.

Lemma match_unary op mt v ws w a rest :
  In (op, mt) documented -> is_unary_meth mt = true ->
  all_ws ws = true -> all_ws w = true -> atom_ok a = true -> stops rest = true -> clean_join op w a = true ->
  match_ lev v (ws ++ op ++ w ++ a ++ rest) = apply_meth lev mt v [a].
Proof.
  intros Hd Hu Hws Hw Ha Hr Hj. apply (match_of_parse v _ op a [] mt); [|exact Hd].
  apply parse_op_atom; auto. exact (doc_unary op mt Hd Hu).
Qed.

Theorem match_range_in v ws w1 lb w2 lo w3 hi w4 rb rest :
  In lb [lit "["; lit "("] -> In rb [lit "]"; lit ")"] ->
  all_ws ws = true -> all_ws w1 = true ->
  all_ws w2 = true -> w2 <> [] -> all_ws w3 = true -> w3 <> [] -> all_ws w4 = true -> w4 <> [] ->
  atom_ok lo = true -> atom_ok hi = true -> stops rest = true ->
  match_ lev v (ws ++ range_in_lit ++ w1 ++ lb ++ w2 ++ lo ++ w3 ++ hi ++ w4 ++ rb ++ rest)
  = range_meaning (lev v) lb lo hi rb.
Proof.
  intros Hlb Hrb Hws Hw1 Hw2 N2 Hw3 N3 Hw4 N4 Hlo Hhi Hr.
  destruct bracket_atoms as [B1 [B2 [B3 B4]]].
  assert (Alb : atom_ok lb = true) by (destruct Hlb as [<-|[<-|[]]]; assumption).
  assert (Arb : atom_ok rb = true) by (destruct Hrb as [<-|[<-|[]]]; assumption).
  assert (Hj : clean_join range_in_lit w1 lb = true).
  { destruct w1; [|reflexivity]. destruct Hlb as [<-|[<-|[]]]; vm_compute; reflexivity. }
  rewrite (match_of_parse v _ range_in_lit lb [lo; hi; rb] MRangeIn).
  - cbn [apply_meth]. unfold range_in, range_meaning.
    destruct (lev v) as [pv|e]; [|reflexivity].
    replace (negb (Nat.eqb (length [lb; lo; hi; rb]) range_nargs)) with false by reflexivity.
    destruct (float_of_pyval pv) as [x|e]; [|reflexivity].
    unfold range_iy, range_iz, range_il, range_iu. cbn [nth].
    destruct (py_float_of_str lo) as [y|]; [|reflexivity].
    destruct (py_float_of_str hi) as [z|]; [|reflexivity].
    unfold range_guard. cbn [fcmp]. destruct (f_gtb y z); [reflexivity|].
    destruct Hlb as [<-|[<-|[]]]; destruct Hrb as [<-|[<-|[]]]; reflexivity.
  - apply parse_range_in; auto.
  - apply doc_named.
Qed.

(* no operator: the FIRST word is compared with the value as a string; whatever follows the
   word (after a character that ends it) is ignored (observation O5: match('abc','abc def')) *)
Theorem no_operator_is_equality v ws a rest :
  all_ws ws = true -> atom_ok a = true -> stops rest = true ->
  match_ lev v (ws ++ a ++ rest) = Val (beq a v).
Proof. intros Hws Ha Hr. apply match_single, parse_word; assumption. Qed.

Theorem single_token_equality v spec a :
  tree_of spec = [a] -> match_ lev v spec = Val (beq a v).
Proof. unfold match_. intros ->. reflexivity. Qed.
End Match.

Lemma str_cmp_refl a : str_cmp a a = Eq.
Proof. induction a as [|x a IH]; cbn; [reflexivity|]. rewrite N.compare_refl. exact IH. Qed.

Lemma str_cmp_eq a b : str_cmp a b = Eq <-> a = b.
Proof.
  split; [|intros ->; apply str_cmp_refl].
  revert b. induction a as [|x a IH]; intros [|y b]; cbn; try discriminate; [reflexivity|].
  destruct (x ?= y) eqn:E; try discriminate. apply N.compare_eq in E. subst. intros H. f_equal. auto.
Qed.

Lemma str_cmp_antisym a b : str_cmp b a = CompOpp (str_cmp a b).
Proof.
  revert b. induction a as [|x a IH]; intros [|y b]; cbn; try reflexivity.
  rewrite (N.compare_antisym x y). destruct (x ?= y); cbn; auto.
Qed.

Lemma str_cmp_beq a b : beq a b = match str_cmp a b with Eq => true | _ => false end.
Proof.
  destruct (str_cmp a b) eqn:E.
  - apply str_cmp_eq in E. subst. apply beq_refl.
  - destruct (beq a b) eqn:B; [|reflexivity]. apply beq_eq in B. subst. rewrite str_cmp_refl in E. discriminate.
  - destruct (beq a b) eqn:B; [|reflexivity]. apply beq_eq in B. subst. rewrite str_cmp_refl in E. discriminate.
Qed.

(* the six string operators are the six order relations of ONE total order:
   s== is equality, s!= its negation, s<= is "s< or s==", s>= is "s> or s==",
   s> is s< with the sides swapped, and s< is the negation of s>= *)
Theorem string_ops_table a b :
  scmp CEq a b = beq a b /\ scmp CNe a b = negb (beq a b) /\
  scmp CLe a b = scmp CLt a b || beq a b /\ scmp CGe a b = scmp CGt a b || beq a b /\
  scmp CGt a b = scmp CLt b a /\ scmp CLt a b = negb (scmp CGe a b).
Proof.
  unfold scmp. rewrite (str_cmp_antisym a b), (str_cmp_beq a b).
  destruct (str_cmp a b); cbn; repeat split.
Qed.

(* s< is the lexicographic order on code points: a proper prefix, or a smaller code point at
   the first difference *)
Theorem string_lt_lexicographic a b :
  scmp CLt a b = true <->
  (exists c t, b = a ++ c :: t) \/
  (exists p x y a' b', a = p ++ x :: a' /\ b = p ++ y :: b' /\ x < y).
Proof.
  unfold scmp. split.
  - revert b. induction a as [|x a IH]; intros [|y b]; cbn; try discriminate.
    + intros _. left. exists y, b. reflexivity.
    + destruct (x ?= y) eqn:E.
      * apply N.compare_eq in E. subst y. intros H. destruct (IH b H) as [[c [t ->]]|[p [x0 [y0 [a' [b' [-> [-> L]]]]]]]].
        -- left. exists c, t. reflexivity.
        -- right. exists (x :: p), x0, y0, a', b'. auto.
      * intros _. right. exists [], x, y, a, b. repeat split. apply N.compare_lt_iff, E.
      * discriminate.
  - intros [[c [t ->]]|[p [x [y [a' [b' [-> [-> L]]]]]]]].
    + induction a as [|x a IH]; cbn; [reflexivity|]. rewrite N.compare_refl. exact IH.
    + induction p as [|z p IH]; cbn.
      * apply N.compare_lt_iff in L. rewrite L. reflexivity.
      * rewrite N.compare_refl. exact IH.
Qed.

(* <all-in>: every word is a string element of the list *)
Theorem all_in_spec xs atoms :
  forallb (fun a => existsb (pyval_is_str a) xs) atoms = true <-> (forall a, In a atoms -> In (PStr a) xs).
Proof.
  rewrite forallb_forall. split; intros H a Ha; specialize (H a Ha).
  - rewrite existsb_exists in H. destruct H as [x [Hin Hx]]. destruct x; cbn in Hx; try discriminate.
    apply beq_eq in Hx. subst. exact Hin.
  - rewrite existsb_exists. exists (PStr a). split; [exact H|apply beq_refl].
Qed.

(* '=' means '>=' *)
Theorem legacy_eq_is_ge :
  lookup (lit "=") op_methods = Some (MNum CGe) /\ lookup (lit ">=") op_methods = Some (MNum CGe).
Proof. split; reflexivity. Qed.

Lemma stops_ws w : all_ws w = true -> stops w = true.
Proof.
  destruct w as [|c w]; [reflexivity|]. intros H. rewrite <- (app_nil_r (c :: w)).
  apply stops_ws_head; [exact H|discriminate].
Qed.

(* trailing whitespace ends both kinds of list *)
Lemma ends_atoms_ws w : all_ws w = true -> ends_atoms w = true.
Proof. intros H. unfold ends_atoms. rewrite (stops_ws w H), (p_atom_ws w H). reflexivity. Qed.

Lemma ends_disj_ws w : all_ws w = true -> ends_disj w = true.
Proof.
  intros H. unfold ends_disj. rewrite (stops_ws w H).
  unfold p_or_item, then_, p_lit_tok, p_lit. rewrite (skip_ws_all w H).
  destruct (lit_wf_cons or_lit lit_wf_or) as [c [l' [-> _]]]. reflexivity.
Qed.

(* whitespace and then any operator ends a list of atoms *)
Lemma ends_atoms_op w op t : all_ws w = true -> w <> [] -> In op all_lits -> ends_atoms (w ++ op ++ t) = true.
Proof.
  intros Hw Hne Hop. unfold ends_atoms. rewrite (stops_ws_head w _ Hw Hne), (p_atom_at_op op w t Hop Hw). reflexivity.
Qed.

(* whitespace and then a word that is not an operator ends a disjunction *)
Lemma ends_disj_word w a rest :
  all_ws w = true -> w <> [] -> atom_ok a = true -> stops rest = true -> ends_disj (w ++ a ++ rest) = true.
Proof.
  intros Hw Hne Ha Hr. unfold ends_disj. rewrite (stops_ws_head w _ Hw Hne).
  unfold p_or_item, then_, p_lit_tok. rewrite (no_lit_at_word or_lit w a rest (head_in_all ADisj _ (in_eq _ _)) Hw Ha Hr). reflexivity.
Qed.

Definition no_lev : str -> levres := fun _ => LRaise (lit "ValueError").

(* the hypotheses of parse_op_atom / C18_match_numeric hold for "  = 5 x" read as ws="  ", op="=", w=" ", a="5", rest=" x" *)
Example ex_op_atom_hyps :
  In (lit "=", MNum CGe) documented /\ In (lit "=") unary_lits /\ all_ws (lit "  ") = true /\ all_ws (lit " ") = true /\
  atom_ok (lit "5") = true /\ stops (lit " x") = true /\ clean_join (lit "=") (lit " ") (lit "5") = true /\
  clean_join (lit "=") [] (lit "5") = true.
Proof. vm_compute. repeat split; tauto. Qed.
Example ex_op_atom : parse (lit "  = 5 x") = Some [lit "="; lit "5"].
Proof. vm_compute. reflexivity. Qed.

(* longer operators win *)
Example ex_longer_1 : parse (lit "== 5") = Some [lit "=="; lit "5"]. Proof. vm_compute. reflexivity. Qed.
Example ex_longer_2 : parse (lit "<= 5") = Some [lit "<="; lit "5"]. Proof. vm_compute. reflexivity. Qed.
Example ex_longer_3 : parse (lit "s<= x") = Some [lit "s<="; lit "x"]. Proof. vm_compute. reflexivity. Qed.
Example ex_longer_4 : parse (lit "<in> x") = Some [lit "<in>"; lit "x"]. Proof. vm_compute. reflexivity. Qed.
Example ex_longer_5 : parse (lit "s>=x") = Some [lit "s>="; lit "x"]. Proof. vm_compute. reflexivity. Qed.
Example ex_longer_6 : parse (lit "<or> a <or> b") = Some [lit "<or>"; lit "a"; lit "b"]. Proof. vm_compute. reflexivity. Qed.
Example ex_longer_7 : parse (lit "<all-in> aes mmx") = Some [lit "<all-in>"; lit "aes"; lit "mmx"]. Proof. vm_compute. reflexivity. Qed.
Example ex_longer_8 : parse (lit "<range-in> ( 10 20 ]") = Some [lit "<range-in>"; lit "("; lit "10"; lit "20"; lit "]"].
Proof. vm_compute. reflexivity. Qed.

(* why clean_join is a hypothesis: gluing '<' and 'in>x' spells the operator '<in>' *)
Example ex_glue : clean_join (lit "<") [] (lit "in>x") = false /\ parse (lit "<in>x") = Some [lit "<in>"; lit "x"]
                  /\ parse (lit "< in>x") = Some [lit "<"; lit "in>x"].
Proof. vm_compute. repeat split. Qed.
(* why atom_ok is a hypothesis: '=5' starts with an operator *)
Example ex_not_atom : atom_ok (lit "=5") = false /\ parse (lit "= =5") = None.
Proof. vm_compute. repeat split. Qed.

(* the hypotheses of parse_or / parse_all_in can be met *)
Example ex_or_hyps :
  oitem_ok (lit " ", lit " ", lit "b") = true /\ oitem_ok (lit "  ", [], lit "c") = true /\ ends_disj (lit " d") = true
  /\ ends_disj [] = true /\ clean_join or_lit [] (lit "a") = true.
Proof. vm_compute. repeat split. Qed.
Example ex_all_in_hyps :
  item_ok (lit " ", lit "mmx") = true /\ ends_atoms (lit "  ") = true /\ ends_atoms (lit " <or> x") = true /\ ends_atoms [] = true.
Proof. vm_compute. repeat split. Qed.

Example ex_match_1 : match_ no_lev (lit "61") (lit ">= 60") = Val true. Proof. vm_compute. reflexivity. Qed.
Example ex_match_2 : match_ no_lev (lit "60.0") (lit "= 6e1") = Val true. Proof. vm_compute. reflexivity. Qed.
Example ex_match_3 : match_ no_lev (lit "abc") (lit ">= 60") = Raise E_Value. Proof. vm_compute. reflexivity. Qed.
Example ex_match_4 : match_ no_lev (lit "2.1.0") (lit "s== 2.1.0") = Val true. Proof. vm_compute. reflexivity. Qed.
Example ex_match_5 : match_ no_lev (lit "x gcc y") (lit "<in> gcc") = Val true. Proof. vm_compute. reflexivity. Qed.
Example ex_match_6 : match_ no_lev (lit "eggs") (lit "<or> spam <or> eggs") = Val true. Proof. vm_compute. reflexivity. Qed.
Example ex_match_7 : match_ (fun _ => LVal (PInt 10)) (lit "10") (lit "<range-in> ( 10 20 ]") = Val false.
Proof. vm_compute. reflexivity. Qed.
Example ex_match_8 : match_ (fun _ => LVal (PInt 10)) (lit "10") (lit "<range-in> [ 10 20 ]") = Val true.
Proof. vm_compute. reflexivity. Qed.
Example ex_match_9 : match_ (fun _ => LVal (PList [PStr (lit "aes"); PStr (lit "mmx"); PStr (lit "sse")])) (lit "['aes', 'mmx', 'sse']")
                            (lit "<all-in> aes mmx") = Val true.
Proof. vm_compute. reflexivity. Qed.
Example ex_O5 : match_ no_lev (lit "abc") (lit "abc def") = Val true. Proof. vm_compute. reflexivity. Qed.
Example ex_unparsable : parse (lit "=== 5") = None /\ match_ no_lev (lit "=== 5") (lit "=== 5") = Val true.
Proof. vm_compute. split; reflexivity. Qed.
(* malformed range: fewer than four words after <range-in> falls to '<' + 'range-in>' *)
Example ex_range_fallback : parse (lit "<range-in> [10 20]") = Some [lit "<"; lit "range-in>"].
Proof. vm_compute. reflexivity. Qed.
