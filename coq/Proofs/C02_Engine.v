(* Proofs/C02_Engine.v — engine-level facts used by C02:
   1. the gate of safety_check (any format, any state);
   2. the registered checks of an inspector only ever grow (eat_chunk, finish), generic in the format. *)
Require Import OV.Base.Bytes OV.Base.Py OV.Base.Insp_Struct OV.Gen.Insp_Consts OV.Model.Insp_Engine OV.Model.C01_Vmdk.
Require Import OV.Proofs.Insp_Engine.
Open Scope N_scope.

(* ------------------------------------------------------------------ 1. the gate *)
Section Gate.
Context {X : Type}.
Variable F : fmt X.

Lemma filter_nil_iff {A} (p : A -> bool) (l : list A) :
  filter p l = [] <-> forall x, In x l -> p x = false.
Proof.
  induction l as [|a l IH]; cbn [filter].
  - split; [intros _ x []|reflexivity].
  - destruct (p a) eqn:Hp.
    + split; [discriminate|]. intros H. specialize (H a (or_introl eq_refl)). congruence.
    + rewrite IH. split.
      * intros H x [->|Hx]; auto.
      * intros H x Hx. apply H. right. exact Hx.
Qed.

Lemma is_exn_unit (r : res unit) : is_exn r = false <-> r = Ok tt.
Proof. destruct r as [[]|e]; cbn [is_exn]; split; try reflexivity; discriminate. Qed.

(* safety_check() returns normally exactly when the inspector is complete, format_match is True
   and every registered check returns without raising — for ANY state, reachable or not. *)
Lemma safety_pass_iff (s : ist X) :
  safety_check F s = Pass <->
  complete s = true /\ f_match F s = Ok true /\ forall c, In c (i_checks s) -> f_check F c s = Ok tt.
Proof.
  unfold safety_check.
  destruct (complete s) eqn:Hc; cbn [negb].
  2:{ split; [discriminate|]. intros [H _]. discriminate. }
  destruct (f_match F s) as [[|]|e] eqn:Hm.
  2,3: (split; [discriminate|]; intros [_ [H _]]; discriminate).
  destruct (filter (fun c => is_exn (f_check F c s)) (i_checks s)) as [|c0 l] eqn:Hf.
  - split; [intros _|reflexivity]. repeat split.
    intros c Hin. apply (proj1 (filter_nil_iff _ _) Hf) in Hin.
    apply is_exn_unit. exact Hin.
  - split; [discriminate|]. intros [_ [_ H]].
    assert (Hin : In c0 (filter (fun c => is_exn (f_check F c s)) (i_checks s))) by (rewrite Hf; left; reflexivity).
    apply filter_In in Hin. destruct Hin as [Hin He]. rewrite (H _ Hin) in He. discriminate.
Qed.

(* the gate in the order safety_check() evaluates it: format_match is looked at on a complete inspector
   only, the checks after a match only *)
Lemma safety_pass_staged (s : ist X) (m p : bool) :
  (complete s = true -> f_match F s = Ok m) ->
  (complete s = true -> m = true -> ((forall c, In c (i_checks s) -> f_check F c s = Ok tt) <-> p = true)) ->
  (safety_check F s = Pass <-> complete s && m && p = true).
Proof.
  intros Hm Hk. rewrite safety_pass_iff, !andb_true_iff. split.
  - intros [Hc [Hmt Hch]]. rewrite (Hm Hc) in Hmt. injection Hmt as ->.
    split; [split; [exact Hc|reflexivity]|]. apply (Hk Hc eq_refl), Hch.
  - intros [[Hc ->] Hp]. split; [exact Hc|]. split; [exact (Hm Hc)|]. apply (Hk Hc eq_refl), Hp.
Qed.

Lemma single_check_iff (s : ist X) k :
  i_checks s = [k] -> ((forall c, In c (i_checks s) -> f_check F c s = Ok tt) <-> f_check F k s = Ok tt).
Proof.
  intros ->. split; [intros H; apply H; left; reflexivity|]. intros H c [<-|[]]. exact H.
Qed.

(* an exception of ANY class inside a check is a failure of that check *)
Lemma check_exception_fails (s : ist X) c e :
  In c (i_checks s) -> f_check F c s = Exn e -> safety_check F s <> Pass.
Proof.
  intros Hin He Hp. apply safety_pass_iff in Hp. destruct Hp as [_ [_ H]].
  rewrite (H _ Hin) in He. discriminate.
Qed.

(* ... and it is reported under the check's name *)
Lemma check_exception_reported (s : ist X) c e :
  complete s = true -> f_match F s = Ok true ->
  In c (i_checks s) -> f_check F c s = Exn e ->
  exists names, safety_check F s = Fail names /\ In c names.
Proof.
  intros Hc Hm Hin He. unfold safety_check. rewrite Hc, Hm. cbn [negb].
  assert (H : In c (filter (fun c => is_exn (f_check F c s)) (i_checks s))).
  { apply filter_In. split; [exact Hin|]. rewrite He. reflexivity. }
  destruct (filter (fun c => is_exn (f_check F c s)) (i_checks s)) as [|c0 l] eqn:Hf; [destruct H|].
  exists (c0 :: l). split; [reflexivity|exact H].
Qed.

(* the names reported are exactly the registered checks that raised *)
Lemma safety_fail_names (s : ist X) names :
  safety_check F s = Fail names ->
  forall c, In c names <-> In c (i_checks s) /\ exists e, f_check F c s = Exn e.
Proof.
  unfold safety_check. destruct (complete s); cbn [negb]; [|discriminate].
  destruct (f_match F s) as [[|]|e]; try discriminate.
  destruct (filter (fun c => is_exn (f_check F c s)) (i_checks s)) as [|c0 l] eqn:Hf; [discriminate|].
  intros H c. injection H as <-. rewrite <- Hf, filter_In. split.
  - intros [Hin He]. split; [exact Hin|]. destruct (f_check F c s) as [|e]; [discriminate|eauto].
  - intros [Hin [e He]]. split; [exact Hin|]. rewrite He. reflexivity.
Qed.

(* safety_check() with every outcome: spec_safety (Model/C01_Vmdk.v) of what it consults — complete,
   format_match (when it does not raise), the registered checks *)
Lemma safety_check_spec (s : ist X) fm :
  f_match F s = Ok fm ->
  safety_check F s = spec_safety (complete s) fm (map (fun c => (c, f_check F c s)) (i_checks s)).
Proof.
  intros Hm. unfold safety_check, spec_safety. destruct (complete s); [|reflexivity]. cbn [negb].
  rewrite Hm. destruct fm; [|reflexivity]. cbn [negb].
  replace (filter (fun p => is_exn (snd p)) (map (fun c => (c, f_check F c s)) (i_checks s)))
    with (map (fun c => (c, f_check F c s)) (filter (fun c => is_exn (f_check F c s)) (i_checks s))).
  - destruct (filter _ (i_checks s)) as [|c l]; [reflexivity|]. cbn [map fst]. rewrite map_map, map_id. reflexivity.
  - induction (i_checks s) as [|c l IH]; [reflexivity|]. cbn [filter map snd].
    destruct (is_exn (f_check F c s)); cbn [map]; rewrite IH; reflexivity.
Qed.

(* the two refusals *)
Lemma safety_incomplete_refused (s : ist X) : complete s = false -> safety_check F s = Refused.
Proof. intros H. unfold safety_check. rewrite H. reflexivity. Qed.
Lemma safety_mismatch_refused (s : ist X) : f_match F s = Ok false -> safety_check F s = Refused.
Proof. intros H. unfold safety_check. rewrite H. destruct (complete s); reflexivity. Qed.

End Gate.

Lemma spec_safety_pass_iff c fm checks :
  spec_safety c fm checks = Pass <-> c = true /\ fm = true /\ filter (fun p => is_exn (snd p)) checks = [].
Proof.
  unfold spec_safety. destruct c, fm, (filter _ checks); cbn [negb]; split; try discriminate; try tauto;
    intros (H1 & H2 & H3); discriminate.
Qed.

Lemma if_ok_iff (c : bool) : (if c then Ok tt else violation) = Ok tt <-> c = true.
Proof. destruct c; split; try reflexivity; discriminate. Qed.

(* ------------------------------------------------------------------ 2. checks only grow *)
Section Checks.
Context {X : Type}.
Variable F : fmt X.
(* a reflexive, transitive relation between check lists that post_process and region_complete respect *)
Variable R : list cname -> list cname -> Prop.
Hypothesis R_refl : forall l, R l l.
Hypothesis R_trans : forall a b c, R a b -> R b c -> R a c.
Hypothesis post_R : forall s, R (i_checks s) (i_checks (fst (f_post F s))).
Hypothesis rc_R : forall n s, R (i_checks s) (i_checks (fst (f_rcomplete F n s))).

(* capture, position and finish do not touch _safety_checks: Insp_Engine.pres_run_fmt *)
Lemma run_fmt_R cs : R (init_checks (f_id F)) (i_checks (fst (run_fmt F cs))).
Proof.
  destruct (run_fmt F cs) as [s e] eqn:E.
  apply (pres_run_fmt F (fun s => R (init_checks (f_id F)) (i_checks s))) with (cs := cs) (e := e);
    try (intros; assumption).
  - intros s0 s' e0 H Hp. apply (R_trans _ _ _ H). pose proof (post_R s0) as H0. rewrite Hp in H0. exact H0.
  - intros n s0 s' e0 H Hp. apply (R_trans _ _ _ H). pose proof (rc_R n s0) as H0. rewrite Hp in H0. exact H0.
  - apply R_refl.
Qed.
End Checks.

(* instances *)
Definition extends (a b : list cname) : Prop := exists l, b = a ++ l.
Lemma extends_refl l : extends l l. Proof. exists []. symmetry. apply app_nil_r. Qed.
Lemma extends_trans a b c : extends a b -> extends b c -> extends a c.
Proof. intros [l ->] [m ->]. exists (l ++ m). symmetry. apply app_assoc. Qed.
Lemma extends_nonempty a b : extends a b -> a <> [] -> b <> [].
Proof. intros [l ->] H. destruct a; [congruence|discriminate]. Qed.
Lemma extends_In a b c : extends a b -> In c a -> In c b.
Proof. intros [l ->] H. apply in_or_app. left. exact H. Qed.
