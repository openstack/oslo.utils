(* Proofs/C11.v — oslo's own logic over the library models: scope rule, CIDR segment test,
   MAC pattern, integer ranges, totality; translator-equivalence lemmas (named ..._equiv). *)
From Coq Require Import String.
Require Import OV.Base.Bytes OV.Base.Py OV.Base.PyInt OV.Base.Str OV.Base.Regex OV.Base.C11_Lib.
Require Import OV.Gen.Unicode OV.Gen.C11_Netutils OV.Gen.C11_Code OV.Model.C11 OV.Model.C11_Spec.
Require Import OV.Proofs.C11_Split OV.Proofs.C11_V4 OV.Proofs.C11_V6 OV.Proofs.C11_Regex.
Open Scope N_scope.

Lemma rsplit1_none c s : ~ In c s -> rsplit1 c s = (s, None).
Proof. intros H. unfold rsplit1. rewrite split_notin by exact H. reflexivity. Qed.

Lemma rsplit1_last c a sc : ~ In c sc -> rsplit1 c (a ++ c :: sc) = (a, Some sc).
Proof.
  intros H. unfold rsplit1. rewrite split_app, (split_notin c sc H).
  pose proof (split_nonnil c a) as Hne. pose proof (join_split c a) as J.
  rewrite app_length. cbn [length].
  replace (length (split_char c a) + 1 <=? 1)%nat with false.
  2:{ symmetry. apply Nat.leb_gt. destruct (split_char c a); [congruence|cbn; lia]. }
  rewrite removelast_last, last_last, J. reflexivity.
Qed.

Lemma last_occurrence (c : N) (s : str) : In c s -> exists a sc, s = a ++ c :: sc /\ ~ In c sc.
Proof.
  induction s as [|x t IH]; intros H; [destruct H|].
  destruct (in_dec N.eq_dec c t) as [Hin|Hnot].
  - destruct (IH Hin) as [a [sc [-> Hsc]]]. exists (x :: a), sc. split; [reflexivity|exact Hsc].
  - destruct H as [->|H]; [|contradiction]. exists [], t. split; [reflexivity|exact Hnot].
Qed.

(* ================================================================== is_valid_ipv6 *)
Definition v6_char (c : N) : bool := is_hex c || (c =? 58) || (c =? 46).

Lemma h16_chars f : h16 f -> forallb v6_char f = true.
Proof.
  intros [_ H]. rewrite forallb_forall. rewrite Forall_forall in H. intros c Hc.
  specialize (H c Hc). apply is_hex_iff in H. unfold v6_char. rewrite H. reflexivity.
Qed.

Lemma quad_v6_chars q : dotted_quad q -> forallb v6_char q = true.
Proof.
  intros Q. apply quad_chars in Q. revert Q. apply forallb_impl.
  intros c. unfold quad_char, v6_char, is_hex, ascii_digit. lia.
Qed.

Lemma colons_chars l : Forall (fun f => forallb v6_char f = true) l -> forallb v6_char (colons l) = true.
Proof. apply join_forallb. reflexivity. Qed.

Lemma ipv6_text_chars s : ipv6_text s -> forallb v6_char s = true.
Proof.
  assert (HH : forall l, Forall h16 l -> Forall (fun f => forallb v6_char f = true) l).
  { intros l. apply Forall_impl. exact h16_chars. }
  assert (HQ : forall l q, Forall h16 l -> dotted_quad q -> Forall (fun f => forallb v6_char f = true) (l ++ [q])).
  { intros l q Hl Q. apply Forall_app. split; [apply HH, Hl|constructor; [apply quad_v6_chars, Q|constructor]]. }
  intros [[g [Hg [_ ->]]]|[[g [q [Hg [_ [Q ->]]]]]|[[l [r [Hl [Hr [_ ->]]]]]|[l [r [q [Hl [Hr [Q [_ ->]]]]]]]]]].
  - apply colons_chars, HH, Hg.
  - apply colons_chars, HQ; assumption.
  - rewrite !forallb_app, !colons_chars by (apply HH; assumption). reflexivity.
  - rewrite !forallb_app, !colons_chars by (first [apply HH; assumption|apply HQ; assumption]). reflexivity.
Qed.

Lemma ipv6_text_nonempty s : ipv6_text s -> s <> [].
Proof. intros H E. subst s. apply pton6b_iff in H. discriminate. Qed.

Lemma v6_chars_no_percent s : forallb v6_char s = true -> ~ In 37 s.
Proof. intros H Hin. rewrite forallb_forall in H. specialize (H _ Hin). discriminate. Qed.

Lemma v6_chars_cstr s : forallb v6_char s = true -> cstr_ok s = true.
Proof. apply forallb_impl. intros c. unfold v6_char, is_hex, cstr_char_ok. lia. Qed.

Lemma netaddr_v6_true_iff a : netaddr_valid_ipv6 a = AOk true <-> ipv6_text a.
Proof.
  unfold netaddr_valid_ipv6, inet_pton. split.
  - destruct (cstr_ok a); cbn [negb]; [|discriminate].
    destruct (pton6b a) eqn:E; [|discriminate]. intros _. apply pton6b_iff. exact E.
  - intros H. rewrite (v6_chars_cstr a (ipv6_text_chars a H)). cbn [negb].
    apply pton6b_iff in H. rewrite H. reflexivity.
Qed.

Lemma scope_ok sc :
  ((zlen sc <? scope_min)%Z || (zlen sc >? scope_max)%Z || existsb (N.eqb scope_forbidden) sc) = false <->
  (1 <= length sc <= 15)%nat /\ ~ In 47 sc.
Proof.
  change scope_forbidden with 47. rewrite orb_false_iff, existsb_eqb_notin.
  unfold zlen, blen, scope_min, scope_max. split; intros [H1 H2]; split; try exact H2; lia.
Qed.

Theorem is_valid_ipv6_iff s : is_valid_ipv6 s = AOk true <-> ipv6_scoped_text s.
Proof.
  unfold is_valid_ipv6, ipv6_scoped_text. change scope_sep with 37. split.
  - destruct s as [|c0 t0]; [discriminate|]. set (s := c0 :: t0).
    destruct (in_dec N.eq_dec 37 s) as [Hin|Hnot].
    + destruct (last_occurrence 37 s Hin) as [a [sc [E Hsc]]]. rewrite E, (rsplit1_last 37 a sc Hsc).
      match goal with |- context [if ?b then _ else _] => destruct b eqn:B end; [discriminate|].
      rewrite guard_true, netaddr_v6_true_iff. intros H. right. exists a, sc. apply scope_ok in B. destruct B as [L S].
      repeat split; [exact H|lia|lia|exact Hsc|exact S].
    + rewrite (rsplit1_none 37 s Hnot). rewrite guard_true, netaddr_v6_true_iff. intros H. left. exact H.
  - intros [H|[a [sc [H [L [Hsc [Hsl ->]]]]]]].
    + pose proof (ipv6_text_nonempty s H) as Hne. destruct s as [|c0 t0]; [congruence|].
      rewrite rsplit1_none by (apply v6_chars_no_percent, ipv6_text_chars, H).
      rewrite guard_true, netaddr_v6_true_iff. exact H.
    + pose proof (ipv6_text_nonempty a H) as Hne. destruct a as [|c0 t0]; [congruence|].
      cbn [app]. change (c0 :: t0 ++ 37 :: sc) with ((c0 :: t0) ++ 37 :: sc).
      rewrite (rsplit1_last 37 _ sc Hsc).
      match goal with |- context [if ?b then _ else _] => replace b with false by (symmetry; apply scope_ok; split; assumption) end.
      rewrite guard_true, netaddr_v6_true_iff. exact H.
Qed.

(* ================================================================== is_valid_ipv4 (non-strict), is_valid_ip *)
Lemma ipv4_caught_covers e : caught [AValueError; AAddrFormatError] e = true -> caught ipv4_caught e = true.
Proof. destruct e; cbn; intros H; try discriminate; reflexivity. Qed.
Lemma ipv6_caught_covers e : caught [AValueError; AAddrFormatError] e = true -> caught ipv6_caught e = true.
Proof. destruct e; cbn; intros H; try discriminate; reflexivity. Qed.
Lemma cidr_caught_covers e : caught [AValueError; ATypeError; AAddrFormatError] e = true -> caught cidr_caught e = true.
Proof. destruct e; cbn; intros H; try discriminate; reflexivity. Qed.
Lemma v6cidr_caught_covers e : caught [AValueError; ATypeError; AAddrFormatError] e = true -> caught v6cidr_caught e = true.
Proof. destruct e; cbn; intros H; try discriminate; reflexivity. Qed.

Lemma ipv4_nonstrict_logic aton s : is_valid_ipv4 false aton s = AOk true <-> s <> [] /\ aton = AOk true.
Proof.
  unfold is_valid_ipv4. destruct s as [|c t].
  - split; [discriminate|intros [H _]; congruence].
  - rewrite guard_true. split; [intros H; split; [discriminate|exact H]|intros [_ H]; exact H].
Qed.

Lemma ipv4_nonstrict_total aton s : aton_contract aton = true -> exists b, is_valid_ipv4 false aton s = AOk b.
Proof.
  intros C. unfold is_valid_ipv4. destruct s as [|c t]; [exists false; reflexivity|].
  destruct aton as [b|e]; cbn [guard]; [exists b; reflexivity|].
  cbn [aton_contract] in C. rewrite (ipv4_caught_covers e C). exists false. reflexivity.
Qed.

Theorem is_valid_ip_logic aton s : aton_contract aton = true ->
  (is_valid_ip aton s = AOk true <-> s <> [] /\ (aton = AOk true \/ ipv6_scoped_text s)).
Proof.
  intros C. unfold is_valid_ip. change ip_v4_strict with false.
  destruct (ipv4_nonstrict_total aton s C) as [b Hb]. rewrite Hb. destruct b.
  - apply ipv4_nonstrict_logic in Hb. destruct Hb as [Hne ->]. split; [intros _; split; [exact Hne|left; reflexivity]|reflexivity].
  - rewrite is_valid_ipv6_iff. split.
    + intros H. split; [|right; exact H]. intros ->. destruct H as [H|[a [sc [_ [_ [_ [_ H]]]]]]].
      * apply ipv6_text_nonempty in H. congruence.
      * destruct a; discriminate.
    + intros [Hne [Ha|H]]; [|exact H]. subst aton.
      destruct (ipv4_nonstrict_logic (AOk true) s) as [_ X]. rewrite X in Hb by (split; [exact Hne|reflexivity]). discriminate.
Qed.

Theorem is_valid_cidr_logic net s :
  is_valid_cidr net s = AOk true <->
  (exists b, net = AOk b) /\
  exists a p more, ~ In 47 a /\ ~ In 47 p /\ p <> [] /\ s = a ++ [47] ++ p ++ more /\ (more = [] \/ exists m, more = 47 :: m).
Proof.
  unfold is_valid_cidr. change cidr_sep with 47. change cidr_seg_bad_max with 1%Z.
  pose proof (join_split 47 s) as J. pose proof (split_fields 47 s) as F.
  split.
  - destruct net as [b|e]; [|destruct (caught cidr_caught e); discriminate].
    destruct (split_char 47 s) as [|a [|p rest]] eqn:E; cbn [length]; try (intros H; discriminate).
    replace (Z.of_nat (S (S (length rest))) <=? 1)%Z with false by lia.
    intros H. injection H as H. apply negb_true_iff in H.
    split; [exists b; reflexivity|].
    pose proof (Forall_inv F) as Fa. pose proof (Forall_inv (Forall_inv_tail F)) as Fp. cbv beta in Fa, Fp.
    exists a, p. destruct rest as [|r rest'].
    + exists []. cbn [join app] in J. repeat split; try assumption.
      * intros ->. discriminate.
      * rewrite app_nil_r. symmetry. exact J.
      * left. reflexivity.
    + exists (47 :: join [47] (r :: rest')). repeat split; try assumption.
      * intros ->. discriminate.
      * rewrite <- J. rewrite (join_cons_ne [47] a) by discriminate. rewrite (join_cons_ne [47] p) by discriminate. reflexivity.
      * right. eexists. reflexivity.
  - intros [[b ->] [a [p [more [Ha [Hp [Hne [-> Hm]]]]]]]].
    assert (S : exists rest, split_char 47 (a ++ [47] ++ p ++ more) = a :: p :: rest).
    { cbn [app]. rewrite split_app, (split_notin 47 a Ha). destruct Hm as [->|[m ->]].
      - rewrite app_nil_r, (split_notin 47 p Hp). exists []. reflexivity.
      - rewrite split_app, (split_notin 47 p Hp). eexists. reflexivity. }
    destruct S as [rest ->]. cbn [length].
    match goal with |- context [if ?c then _ else _] => destruct c eqn:Eq end; [lia|].
    destruct p; [congruence|reflexivity].
Qed.

Lemma is_valid_cidr_total net s : net_contract net = true -> exists b, is_valid_cidr net s = AOk b.
Proof.
  intros C. unfold is_valid_cidr. change cidr_seg_bad_max with 1%Z. destruct net as [b|e].
  - destruct (split_char cidr_sep s) as [|a [|p rest]]; cbn [length].
    + exists false. reflexivity.
    + exists false. reflexivity.
    + replace (Z.of_nat (S (S (length rest))) <=? 1)%Z with false by lia. eexists. reflexivity.
  - cbn [net_contract] in C. rewrite (cidr_caught_covers e C). exists false. reflexivity.
Qed.

Theorem is_valid_ipv6_cidr_logic net6 s : is_valid_ipv6_cidr net6 s = AOk true <-> exists b, net6 = AOk b.
Proof.
  unfold is_valid_ipv6_cidr. destruct net6 as [b|e].
  - split; [intros _; exists b; reflexivity|reflexivity].
  - split; [destruct (caught v6cidr_caught e); discriminate|intros [b H]; discriminate].
Qed.

Lemma is_valid_ipv6_cidr_total net6 s : net_contract net6 = true -> exists b, is_valid_ipv6_cidr net6 s = AOk b.
Proof.
  intros C. unfold is_valid_ipv6_cidr. destruct net6 as [b|e]; [exists true; reflexivity|].
  cbn [net_contract] in C. rewrite (v6cidr_caught_covers e C). exists false. reflexivity.
Qed.

Lemma inet_pton_outcomes v6 s : inet_pton v6 s = AOk true \/ inet_pton v6 s = ARaise AValueError \/ inet_pton v6 s = ARaise AOSError.
Proof.
  unfold inet_pton. destruct (cstr_ok s); cbn [negb]; [|right; left; reflexivity].
  destruct (if v6 then pton6b s else pton4b s); [left|right; right]; reflexivity.
Qed.

Lemma is_valid_ipv4_strict_total aton s : exists b, is_valid_ipv4 true aton s = AOk b.
Proof.
  unfold is_valid_ipv4. destruct s as [|c t]; [exists false; reflexivity|]. set (s := c :: t).
  unfold netaddr_valid_ipv4_pton.
  destruct (existsb (N.eqb 58) s); [exists false; reflexivity|].
  destruct (existsb leading_zero_part (split_char 46 s)); [exists false; reflexivity|].
  destruct (inet_pton_outcomes false s) as [H|[H|H]]; rewrite H; cbn [guard].
  - exists true. reflexivity.
  - rewrite (ipv4_caught_covers AValueError eq_refl). exists false. reflexivity.
  - exists false. reflexivity.
Qed.

Lemma is_valid_ipv6_total s : exists b, is_valid_ipv6 s = AOk b.
Proof.
  unfold is_valid_ipv6. destruct s as [|c t]; [exists false; reflexivity|]. set (s := c :: t).
  destruct (rsplit1 scope_sep s) as [addr scope].
  match goal with |- context [if ?b then _ else _] => destruct b end; [exists false; reflexivity|].
  unfold netaddr_valid_ipv6.
  destruct (inet_pton_outcomes true addr) as [H|[H|H]]; rewrite H; cbn [guard].
  - exists true. reflexivity.
  - rewrite (ipv6_caught_covers AValueError eq_refl). exists false. reflexivity.
  - exists false. reflexivity.
Qed.

Lemma is_valid_ip_total aton s : aton_contract aton = true -> exists b, is_valid_ip aton s = AOk b.
Proof.
  intros C. unfold is_valid_ip. destruct (ipv4_nonstrict_total aton s C) as [b Hb].
  change ip_v4_strict with false. rewrite Hb. destruct b; [exists true; reflexivity|apply is_valid_ipv6_total].
Qed.

(* the pattern, read off the GENERATED regex: hex hex (':' hex hex) x 5, then \Z (mac_eos) *)
Definition mac_pat : list bool :=
  [true; true; false; true; true; false; true; true; false; true; true; false; true; true; false; true; true].
Definition cls_of (b : bool) : cset := if b then [(48, 57); (97, 102)] else [(58, 58)].

Lemma mac_re_flat : flat mac_re = Some (map cls_of mac_pat).
Proof. vm_compute. reflexivity. Qed.

Definition low_class (b : bool) (c : N) : Prop :=
  if b then (48 <= c <= 57) \/ (97 <= c <= 102) else c = 58.
Definition up_class (b : bool) (c : N) : Prop := if b then hex_char c else c = 58.

Lemma in_cls_of b c : in_cs (cls_of b) c <-> low_class b c.
Proof. unfold in_cs, cls_of, low_class. destruct b; cbn [cmem]; lia. Qed.

Lemma fits_cls pat t : fits (map cls_of pat) t <-> Forall2 low_class pat t.
Proof.
  unfold fits. revert t. induction pat as [|b pat IH]; intros t; cbn [map].
  - split; intros H; inversion H; constructor.
  - split; intros H; inversion H as [|? c ? t' Hc Ht]; subst; constructor; try (apply in_cls_of; exact Hc); apply IH; exact Ht.
Qed.

Theorem mac_re_match L : re_match_eos mac_re L = true <-> Forall2 low_class mac_pat L.
Proof.
  rewrite <- fits_cls, <- (flat_eos_match mac_re _ L mac_re_flat). unfold re_match_eos.
  destruct (m _ mac_re L 0 [] _); split; intros H; try reflexivity; try discriminate; congruence.
Qed.

(* ---------- str.lower() on the MAC alphabet ---------- *)
(* lowered alphabet: 0-9 a-f ':' '\n' ; original alphabet adds A-F *)
Definition inA (c : N) : bool := ((48 <=? c) && (c <=? 57)) || ((97 <=? c) && (c <=? 102)) || (c =? 58) || (c =? 10).
Definition inAU (c : N) : bool := inA c || ((65 <=? c) && (c <=? 70)).

(* facts about the GENERATED Unicode tables, by computation *)
Definition run_safe (r : N * N * N) : bool :=
  let '(lo, hi, tgt) := r in ((lo =? 65) && (hi =? 90) && (tgt =? 97)) || (102 <? tgt).
Lemma lower_runs_safe : forallb run_safe lower_runs = true.
Proof. vm_compute. reflexivity. Qed.
Lemma lower_multi_safe : forallb (fun kv : N * list N => negb (forallb inA (snd kv))) lower_multi = true.
Proof. vm_compute. reflexivity. Qed.

Lemma lower_ascii1_A c : inA (lower_ascii1 c) = true -> inAU c = true.
Proof. unfold lower_ascii1, inAU, inA. destruct ((65 <=? c) && (c <=? 90)) eqn:E; lia. Qed.

Lemma lower1_safe c : forallb inA (py_lower1 c) = true -> py_lower1 c = [lower_ascii1 c].
Proof.
  unfold py_lower1. destruct (lower_run c lower_runs) as [l|] eqn:R.
  - cbn [forallb]. rewrite andb_true_r. intros Hl.
    destruct (lower_run_some _ _ _ R) as [lo [hi [tgt [Hin [Hc ->]]]]].
    pose proof lower_runs_safe as S. rewrite forallb_forall in S. specialize (S _ Hin). cbn [run_safe] in S.
    apply orb_true_iff in S. destruct S as [S|S].
    + assert (lo = 65 /\ hi = 90 /\ tgt = 97) as [-> [-> ->]] by lia.
      unfold lower_ascii1. replace ((65 <=? c) && (c <=? 90)) with true by lia. f_equal. lia.
    + unfold inA in Hl. lia.
  - destruct (lower_multi_find c lower_multi) as [v|] eqn:M.
    + intros Hv. pose proof (lower_multi_some _ _ _ M) as Hin.
      pose proof lower_multi_safe as S. rewrite forallb_forall in S. specialize (S _ Hin). cbn [snd] in S.
      rewrite Hv in S. discriminate.
    + cbn [forallb]. rewrite andb_true_r. intros Hc. f_equal.
      unfold lower_ascii1. replace ((65 <=? c) && (c <=? 90)) with false by (unfold inA in Hc; lia). reflexivity.
Qed.

Lemma py_lower_safe s : forallb inA (py_lower s) = true ->
  py_lower s = map lower_ascii1 s /\ forallb inAU s = true.
Proof.
  unfold py_lower. induction s as [|c t IH]; cbn [flat_map map forallb]; [split; reflexivity|].
  rewrite forallb_app, andb_true_iff. intros [Hc Ht]. destruct (IH Ht) as [E F].
  pose proof (lower1_safe c Hc) as L. rewrite L in Hc |- *. cbn [forallb] in Hc. rewrite andb_true_r in Hc.
  split; [cbn [app]; f_equal; exact E|]. rewrite (lower_ascii1_A c Hc), F. reflexivity.
Qed.

Lemma low_inA b c : low_class b c -> inA c = true.
Proof. unfold low_class, inA. destruct b; lia. Qed.

Lemma low_up b c : low_class b (lower_ascii1 c) -> up_class b c.
Proof.
  unfold low_class, up_class, hex_char, lower_ascii1. destruct b; destruct ((65 <=? c) && (c <=? 90)) eqn:E; lia.
Qed.

Lemma up_low b c : up_class b c -> low_class b (lower_ascii1 c).
Proof.
  unfold low_class, up_class, hex_char, lower_ascii1. destruct b; destruct ((65 <=? c) && (c <=? 90)) eqn:E; lia.
Qed.

Lemma up_inAU b c : up_class b c -> inAU c = true.
Proof. unfold up_class, hex_char, inAU, inA. destruct b; lia. Qed.

Lemma Forall2_low_inA pat t : Forall2 low_class pat t -> forallb inA t = true.
Proof. intros H. induction H as [|b c pat t Hc _ IH]; [reflexivity|]. cbn [forallb]. rewrite (low_inA b c Hc), IH. reflexivity. Qed.

Lemma Forall2_up_inAU pat t : Forall2 up_class pat t -> forallb inAU t = true.
Proof. intros H. induction H as [|b c pat t Hc _ IH]; [reflexivity|]. cbn [forallb]. rewrite (up_inAU b c Hc), IH. reflexivity. Qed.

Lemma Forall2_low_up pat t : Forall2 low_class pat (map lower_ascii1 t) <-> Forall2 up_class pat t.
Proof.
  revert t. induction pat as [|b pat IH]; intros t.
  - split; intros H; inversion H as [|? ? ? ? ? ? E1 E2]; [destruct t; [constructor|discriminate]|constructor].
  - split; intros H.
    + destruct t as [|c t']; [inversion H|]. cbn [map] in H. inversion H as [|? ? ? ? Hc Ht]; subst.
      constructor; [apply low_up; exact Hc|apply IH; exact Ht].
    + inversion H as [|? c ? t' Hc Ht]; subst. cbn [map]. constructor; [apply up_low; exact Hc|apply IH; exact Ht].
Qed.

Fixpoint pairs_pat (n : nat) : list bool :=
  match n with
  | O => []
  | S O => [true; true]
  | S (S _ as m) => true :: true :: false :: pairs_pat m
  end.

Lemma hex_pair_iff p : hex_pair p <-> exists a b, p = [a; b] /\ hex_char a /\ hex_char b.
Proof.
  split.
  - intros [L F]. destruct p as [|a [|b [|? ?]]]; try discriminate L. exists a, b.
    inversion F as [|? ? Ha F']. inversion F' as [|? ? Hb _]. repeat split; assumption.
  - intros [a [b [-> [Ha Hb]]]]. split; [reflexivity|]. constructor; [exact Ha|constructor; [exact Hb|constructor]].
Qed.

Lemma up_pair_inv pat t : Forall2 up_class (true :: true :: pat) t <->
  exists a b t', t = a :: b :: t' /\ hex_char a /\ hex_char b /\ Forall2 up_class pat t'.
Proof.
  split.
  - intros H. inversion H as [|? a ? t1 Ha H1]; subst. inversion H1 as [|? b ? t2 Hb H2]; subst.
    exists a, b, t2. repeat split; assumption.
  - intros [a [b [t' [-> [Ha [Hb H]]]]]]. constructor; [exact Ha|]. constructor; [exact Hb|exact H].
Qed.

Lemma pairs_shape n : forall t,
  Forall2 up_class (pairs_pat (S n)) t <-> exists ps, length ps = S n /\ Forall hex_pair ps /\ t = colons ps.
Proof.
  induction n as [|n IH]; intros t.
  - change (pairs_pat 1) with [true; true]. rewrite up_pair_inv. split.
    + intros [a [b [t' [-> [Ha [Hb H]]]]]]. inversion H; subst. exists [[a; b]].
      split; [reflexivity|]. split; [|reflexivity]. constructor; [apply hex_pair_iff; exists a, b; auto|constructor].
    + intros [ps [L [F ->]]]. destruct ps as [|p [|? ?]]; try discriminate L.
      apply Forall_inv, hex_pair_iff in F. destruct F as [a [b [-> [Ha Hb]]]].
      exists a, b, []. repeat split; try assumption. constructor.
  - change (pairs_pat (S (S n))) with (true :: true :: false :: pairs_pat (S n)). rewrite up_pair_inv. split.
    + intros [a [b [t' [-> [Ha [Hb H]]]]]]. inversion H as [|? c ? t2 Hc H2]; subst. cbn [up_class] in Hc. subst c.
      apply IH in H2. destruct H2 as [ps [L [F ->]]]. exists ([a; b] :: ps).
      split; [cbn [length]; rewrite L; reflexivity|]. split; [constructor; [apply hex_pair_iff; exists a, b; auto|exact F]|].
      unfold colons. rewrite join_cons_ne by (destruct ps; discriminate). reflexivity.
    + intros [ps [L [F ->]]]. destruct ps as [|p ps']; [discriminate L|]. injection L as L. inversion F as [|? ? Fp F']; subst.
      apply hex_pair_iff in Fp. destruct Fp as [a [b [-> [Ha Hb]]]]. exists a, b, (58 :: colons ps').
      unfold colons. rewrite join_cons_ne by (destruct ps'; discriminate). repeat split; try assumption.
      constructor; [reflexivity|]. apply IH. exists ps'. repeat split; assumption.
Qed.

Lemma mac_shape_text t : Forall2 up_class mac_pat t <-> mac_text t.
Proof. apply (pairs_shape 5). Qed.

Theorem is_valid_mac_iff s : is_valid_mac s = true <-> mac_text s.
Proof.
  unfold is_valid_mac. change mac_eos with true. cbv iota. rewrite mac_re_match. split.
  - intros H. pose proof (Forall2_low_inA _ _ H) as HA.
    destruct (py_lower_safe s HA) as [EL _]. rewrite EL in H.
    apply mac_shape_text, Forall2_low_up. exact H.
  - intros H. apply mac_shape_text in H.
    rewrite py_lower_ascii by (apply (forallb_impl inAU), (Forall2_up_inAU _ _ H); intros c; unfold inAU, inA; lia).
    apply Forall2_low_up. exact H.
Qed.

Lemma mac_text_length t : mac_text t -> length t = 17%nat.
Proof. intros H. apply mac_shape_text, Forall2_len in H. exact H. Qed.

(* translator equivalence: the statement-level translations of the four functions
   (Gen/C11_Code.v, regenerated from the source on every run) equal the hand model *)
Lemma is_int_in_range_equiv v lo hi : gen_is_int_in_range v lo hi = is_int_in_range v lo hi.
Proof.
  unfold gen_is_int_in_range, is_int_in_range. destruct (py_int_of v) as [z|e]; [reflexivity|].
  destruct e; reflexivity.
Qed.

Lemma res_eta (r : res bool) : match r with Exn e => Exn e | Ok x => Ok x end = r.
Proof. destruct r; reflexivity. Qed.

Lemma is_valid_port_equiv v : gen_is_valid_port v = is_valid_port v.
Proof. unfold gen_is_valid_port, is_valid_port. rewrite is_int_in_range_equiv. apply res_eta. Qed.

Lemma is_valid_icmp_type_equiv v : gen_is_valid_icmp_type v = is_valid_icmp_type v.
Proof. unfold gen_is_valid_icmp_type, is_valid_icmp_type. rewrite is_int_in_range_equiv. apply res_eta. Qed.

Lemma is_valid_icmp_code_equiv v : gen_is_valid_icmp_code v = is_valid_icmp_code v.
Proof.
  unfold gen_is_valid_icmp_code, is_valid_icmp_code. destruct v; cbn [pyval_is_none]; try reflexivity;
    rewrite is_int_in_range_equiv; apply res_eta.
Qed.

Lemma is_int_in_range_iff v lo hi :
  is_int_in_range v lo hi = Ok true <-> exists z, pyint v = Some z /\ (lo <= z <= hi)%Z.
Proof.
  unfold is_int_in_range, pyint. destruct (py_int_of v) as [z|e].
  - split.
    + intros [= H]. exists z. split; [reflexivity|lia].
    + intros [z' [[= <-] H]]. f_equal. lia.
  - split; [destruct e; discriminate|intros [z [H _]]; discriminate].
Qed.

Lemma py_int_of_exn v e : py_int_of v = Exn e -> e = ValueError \/ e = TypeError.
Proof.
  destruct v as [s|z|b|]; cbn [py_int_of].
  - destruct (py_int_str s); [discriminate|]. intros [= <-]. left. reflexivity.
  - discriminate.
  - discriminate.
  - intros [= <-]. right. reflexivity.
Qed.

Lemma is_int_in_range_total v lo hi : exists b, is_int_in_range v lo hi = Ok b.
Proof.
  unfold is_int_in_range. destruct (py_int_of v) as [z|e] eqn:E; [eexists; reflexivity|].
  destruct (py_int_of_exn v e E) as [-> | ->]; exists false; reflexivity.
Qed.

Theorem port_iff v : gen_is_valid_port v = Ok true <-> exists z, pyint v = Some z /\ (0 <= z <= 65535)%Z.
Proof. rewrite is_valid_port_equiv. apply is_int_in_range_iff. Qed.

Theorem icmp_type_iff v : gen_is_valid_icmp_type v = Ok true <-> exists z, pyint v = Some z /\ (0 <= z <= 255)%Z.
Proof. rewrite is_valid_icmp_type_equiv. apply is_int_in_range_iff. Qed.

Theorem icmp_code_iff v : gen_is_valid_icmp_code v = Ok true <->
  v = VNone \/ exists z, pyint v = Some z /\ (0 <= z <= 255)%Z.
Proof.
  rewrite is_valid_icmp_code_equiv. unfold is_valid_icmp_code. destruct v as [s|z|b|].
  - rewrite is_int_in_range_iff. split; [intros H; right; exact H|intros [H|H]; [discriminate|exact H]].
  - rewrite is_int_in_range_iff. split; [intros H; right; exact H|intros [H|H]; [discriminate|exact H]].
  - rewrite is_int_in_range_iff. split; [intros H; right; exact H|intros [H|H]; [discriminate|exact H]].
  - split; [intros _; left; reflexivity|reflexivity].
Qed.

(* int() of the str forms: decimal text of an integer is read back (Base/PyInt) *)
Lemma py_int_str_dec z : py_int_str (dec_of_Z z) = Some z.
Proof.
  unfold py_int_str. replace (existsb is_ascii_sep (dec_of_Z z)) with false; [apply py_int_dec_of_Z|].
  symmetry. apply existsb_false_forallb.
  assert (D : forall n, forallb (fun x => negb (is_ascii_sep x)) (dec_of_N n) = true).
  { intros n. pose proof (dec_of_N_digits n) as H. unfold all_ascii_digits in H. revert H. apply forallb_impl.
    intros c. unfold ascii_digit, is_ascii_sep. lia. }
  destruct z as [|p|p]; cbn [dec_of_Z]; [reflexivity|apply D|]. cbn [forallb]. rewrite D. reflexivity.
Qed.

Lemma py_int_str_dec_N n : py_int_str (dec_of_N n) = Some (Z.of_N n).
Proof. rewrite <- (py_int_str_dec (Z.of_N n)). destruct n; reflexivity. Qed.

Lemma pyint_dec z : pyint (VStr (dec_of_Z z)) = Some z.
Proof. unfold pyint, py_int_of. rewrite py_int_str_dec. reflexivity. Qed.

Theorem validators_total_oracles aton net net6 s :
  aton_contract aton = true -> net_contract net = true -> net_contract net6 = true ->
  (exists b, is_valid_ipv4 false aton s = AOk b) /\
  (exists b, is_valid_ip aton s = AOk b) /\
  (exists b, is_valid_cidr net s = AOk b) /\
  (exists b, is_valid_ipv6_cidr net6 s = AOk b).
Proof.
  intros Ca Cn C6. repeat split.
  - apply ipv4_nonstrict_total, Ca.
  - apply is_valid_ip_total, Ca.
  - apply is_valid_cidr_total, Cn.
  - apply is_valid_ipv6_cidr_total, C6.
Qed.

(* the contract is needed: a class outside it escapes — why the except tuple has to name ValueError (finding D6) *)
Example oracle_contract_needed : is_valid_cidr (ARaise AOSError) (lit "10.0.0.0/8") = ARaise AOSError.
Proof. reflexivity. Qed.

(* the default of is_valid_ipv4 is the strict mode *)
Lemma ipv4_default_strict : ipv4_strict_default = true.
Proof. reflexivity. Qed.

(* ================================================================== non-vacuity: instances of the grammars and of the hypotheses *)
Example ex_quad : dotted_quad (lit "192.168.0.255").
Proof. apply pton4b_iff. vm_compute. reflexivity. Qed.
Example ex_quad_not : ~ dotted_quad (lit "192.168.0.256") /\ ~ dotted_quad (lit "192.168.00.1") /\ ~ dotted_quad (lit "1.2.3").
Proof. repeat split; intros H; apply pton4b_iff in H; vm_compute in H; discriminate. Qed.
Example ex_v6_full : ipv6_text (lit "2001:db8:0:0:8:800:200C:417A").
Proof. apply pton6b_iff. vm_compute. reflexivity. Qed.
Example ex_v6_compressed : ipv6_text (lit "fe80::1") /\ ipv6_text (lit "::") /\ ipv6_text (lit "1:2:3:4:5:6:7::").
Proof. repeat split; apply pton6b_iff; vm_compute; reflexivity. Qed.
Example ex_v6_embedded : ipv6_text (lit "::ffff:1.2.3.4") /\ ipv6_text (lit "1:2:3:4:5:6:1.2.3.4").
Proof. repeat split; apply pton6b_iff; vm_compute; reflexivity. Qed.
Example ex_v6_not : ~ ipv6_text (lit "1:2:3:4:5:6:7::8") /\ ~ ipv6_text (lit "1:2:3:4:5:6::1.2.3.4") /\ ~ ipv6_text (lit "1::2::3") /\ ~ ipv6_text (lit "12345::").
Proof. repeat split; intros H; apply pton6b_iff in H; vm_compute in H; discriminate. Qed.
Example ex_v6_scoped : ipv6_scoped_text (lit "fe80::1%eth0") /\ ~ ipv6_scoped_text (lit "fe80::1%") /\ ~ ipv6_scoped_text (lit "fe80::1%0123456789abcdef")
  /\ ~ ipv6_scoped_text (lit "fe80::1%eth0/64").
Proof.
  repeat split; [apply is_valid_ipv6_iff; vm_compute; reflexivity| | |]; intros H; apply is_valid_ipv6_iff in H; vm_compute in H; discriminate.
Qed.
Example ex_mac : mac_text (lit "00:1B:44:11:3a:B7") /\ ~ mac_text (lit "00:1B:44:11:3a:B7" ++ [10]) /\ ~ mac_text (lit "00-1B-44-11-3a-B7").
Proof. repeat split; [apply is_valid_mac_iff; vm_compute; reflexivity| |]; intros H; apply is_valid_mac_iff in H; vm_compute in H; discriminate. Qed.
Example ex_ip_logic_hyp : aton_contract (ARaise AAddrFormatError) = true /\ is_valid_ip (ARaise AAddrFormatError) (lit "::1") = AOk true.
Proof. split; vm_compute; reflexivity. Qed.
Example ex_total_hyp : aton_contract (ARaise AValueError) = true /\ net_contract (ARaise AValueError) = true /\ net_contract (ARaise ATypeError) = true
  /\ is_valid_cidr (ARaise AValueError) (lit "10.0.0.0/8/8") = AOk false.
Proof. repeat split; vm_compute; reflexivity. Qed.
Example ex_cidr : is_valid_cidr (AOk true) (lit "10.0.0.0/8") = AOk true /\ is_valid_cidr (AOk true) (lit "10.0.0.0") = AOk false
  /\ is_valid_cidr (AOk true) (lit "10.0.0.0/") = AOk false.
Proof. repeat split; vm_compute; reflexivity. Qed.
Example ex_port : gen_is_valid_port (VStr (lit "65535")) = Ok true /\ gen_is_valid_port (VStr (lit "65536")) = Ok false
  /\ gen_is_valid_port (VInt 0) = Ok true /\ gen_is_valid_port (VInt (-1)) = Ok false /\ gen_is_valid_port VNone = Ok false
  /\ gen_is_valid_icmp_code VNone = Ok true /\ gen_is_valid_icmp_type VNone = Ok false.
Proof. repeat split; vm_compute; reflexivity. Qed.
