(* Proofs/C16_Regex.v — what [re_sub] of Base/Regex.v computes for the two pattern
   shapes to_slug uses, proved from the engine's definitions for every character
   set, template of literals and subject:
     one character of a class        Chr cs           -> every member is replaced
     a maximal run of a class        Rep cs 1 None    -> every maximal run is replaced  *)
Require Import OV.Base.Bytes OV.Base.PyInt OV.Base.Regex.
Open Scope N_scope.

(* templates without group references *)
Fixpoint tlits (t : list titem) : option str :=
  match t with
  | [] => Some []
  | TLit c :: r => option_map (cons c) (tlits r)
  | TGrp _ :: _ => None
  end.

Lemma expand_tlits t : forall l whole g, tlits t = Some l -> expand t whole g = l.
Proof.
  induction t as [|[c|i] r IH]; intros l whole g H; cbn in H.
  - injection H as <-. reflexivity.
  - destruct (tlits r) as [l'|] eqn:E; cbn in H; [|discriminate].
    injection H as <-. cbn [expand]. f_equal. apply IH. reflexivity.
  - discriminate.
Qed.

Definition replace_each (cs : cset) (l : str) (s : str) : str :=
  flat_map (fun c => if cmem c cs then l else [c]) s.

(* [in_run]: the previous character belonged to a run that has already been replaced *)
Fixpoint replace_runs (cs : cset) (l : str) (s : str) (in_run : bool) : str :=
  match s with
  | [] => []
  | c :: t => if cmem c cs then (if in_run then replace_runs cs l t true else l ++ replace_runs cs l t true)
              else c :: replace_runs cs l t false
  end.

Lemma match_at_Chr cs c t p :
  match_at (Chr cs) (c :: t) p = if cmem c cs then Some (p + 1, []) else None.
Proof. unfold match_at. cbn [m]. destruct (cmem c cs); reflexivity. Qed.

Lemma sub_go_Chr cs t l whole : tlits t = Some l ->
  forall s p, sub_go (Chr cs) t whole s p 0 = replace_each cs l s.
Proof.
  intros Ht s. induction s as [|c rest IH]; intros p; [reflexivity|].
  cbn [sub_go]. rewrite match_at_Chr. unfold replace_each. cbn [flat_map].
  destruct (cmem c cs).
  - replace (p <? p + 1) with true by lia.
    replace (N.to_nat (p + 1 - p) - 1)%nat with 0%nat by lia.
    rewrite (expand_tlits _ _ _ _ Ht). f_equal. apply IH.
  - cbn [app]. f_equal. apply IH.
Qed.

(* ---------- Rep cs 1 None ---------- *)
Lemma match_at_Rep1 cs s p :
  match_at (Rep cs 1 None) s p =
  match run_len cs s None with O => None | S k => Some (p + N.of_nat (S k), []) end.
Proof.
  unfold match_at. cbn [m]. destruct (run_len cs s None) as [|k] eqn:E.
  - reflexivity.
  - replace (Nat.ltb (S k) 1) with false by (symmetry; apply Nat.ltb_ge; lia).
    destruct k; reflexivity.
Qed.

Lemma run_len_cons cs c t :
  run_len cs (c :: t) None = if cmem c cs then S (run_len cs t None) else 0%nat.
Proof. reflexivity. Qed.

Lemma sub_go_Rep1 cs t l whole : tlits t = Some l ->
  forall s p,
    sub_go (Rep cs 1 None) t whole s p 0 = replace_runs cs l s false /\
    sub_go (Rep cs 1 None) t whole s p (run_len cs s None) = replace_runs cs l s true.
Proof.
  intros Ht s. induction s as [|c rest IH]; intros p; [split; reflexivity|].
  destruct (IH (p + 1)) as [IH0 IH1].
  rewrite run_len_cons. cbn [replace_runs].
  destruct (cmem c cs) eqn:Ec.
  - split.
    + cbn [sub_go]. rewrite match_at_Rep1, run_len_cons, Ec.
      replace (p <? p + N.of_nat (S (run_len cs rest None))) with true by lia.
      replace (N.to_nat (p + N.of_nat (S (run_len cs rest None)) - p) - 1)%nat with (run_len cs rest None) by lia.
      rewrite (expand_tlits _ _ _ _ Ht). f_equal. exact IH1.
    + cbn [sub_go]. exact IH1.
  - assert (H0 : sub_go (Rep cs 1 None) t whole (c :: rest) p 0 = c :: replace_runs cs l rest false).
    { cbn [sub_go]. rewrite match_at_Rep1, run_len_cons, Ec. f_equal. exact IH0. }
    split; exact H0.
Qed.

Inductive csub := CsEach (cs : cset) (l : str) | CsRuns (cs : cset) (l : str).
Definition csub_of (r : re) (t : list titem) : option csub :=
  match tlits t with
  | None => None
  | Some l =>
    match r with
    | Chr cs => Some (CsEach cs l)
    | Rep cs 1%nat None => Some (CsRuns cs l)
    | _ => None
    end
  end.
Definition csub_apply (d : csub) (s : str) : str :=
  match d with
  | CsEach cs l => replace_each cs l s
  | CsRuns cs l => replace_runs cs l s false
  end.

Theorem csub_correct r t d s : csub_of r t = Some d -> re_sub r t s = csub_apply d s.
Proof.
  unfold csub_of. destruct (tlits t) as [l|] eqn:Ht; [|discriminate].
  destruct r as [|cs|a b|a b|cs mn mx|a|i a| |]; try discriminate.
  - intros H. injection H as <-. apply sub_go_Chr. exact Ht.
  - destruct mn as [|[|mn]]; try discriminate. destruct mx; try discriminate.
    intros H. injection H as <-. apply (sub_go_Rep1 cs t l s Ht s 0).
Qed.

(* deleting (empty replacement) is filtering, for both shapes *)
Lemma replace_each_nil cs s : replace_each cs [] s = filter (fun c => negb (cmem c cs)) s.
Proof.
  induction s as [|c t IH]; [reflexivity|]. unfold replace_each in *. cbn [flat_map filter].
  destruct (cmem c cs); cbn [negb app]; [exact IH|f_equal; exact IH].
Qed.
Lemma replace_runs_nil cs s : forall b, replace_runs cs [] s b = filter (fun c => negb (cmem c cs)) s.
Proof.
  induction s as [|c t IH]; intros b; [reflexivity|]. cbn [replace_runs filter].
  destruct (cmem c cs); cbn [negb]; [destruct b; cbn [app]; apply IH|f_equal; apply IH].
Qed.
Definition deletes (d : csub) : option cset :=
  match d with CsEach cs [] => Some cs | CsRuns cs [] => Some cs | _ => None end.
Lemma deletes_filter d cs s : deletes d = Some cs -> csub_apply d s = filter (fun c => negb (cmem c cs)) s.
Proof.
  destruct d as [cs' [|x l]|cs' [|x l]]; cbn [deletes]; intros H; try discriminate; injection H as <-.
  - apply replace_each_nil.
  - apply replace_runs_nil.
Qed.

(* run replacement by one character h that itself belongs to the class *)
Lemma replace_runs_chars cs h s : forall b c,
  In c (replace_runs cs [h] s b) -> c = h \/ (In c s /\ cmem c cs = false).
Proof.
  induction s as [|x t IH]; intros b c H; [destruct H|]. cbn [replace_runs] in H.
  assert (G : forall b', In c (replace_runs cs [h] t b') -> c = h \/ (In c (x :: t) /\ cmem c cs = false)).
  { intros b' H'. destruct (IH _ _ H') as [->|[Hi Hc]]; [left; reflexivity|right; split; [right; exact Hi|exact Hc]]. }
  destruct (cmem x cs) eqn:Ex.
  - destruct b; [exact (G _ H)|]. destruct H as [<-|H]; [left; reflexivity|exact (G _ H)].
  - destruct H as [<-|H]; [right; split; [left; reflexivity|exact Ex]|exact (G _ H)].
Qed.

(* no two adjacent h *)
Fixpoint no_double (h : N) (s : str) : bool :=
  match s with
  | a :: ((b :: _) as t) => negb ((a =? h) && (b =? h)) && no_double h t
  | _ => true
  end.

Lemma no_double_cons2 h a y r :
  no_double h (a :: y :: r) = negb ((a =? h) && (y =? h)) && no_double h (y :: r).
Proof. reflexivity. Qed.

Lemma replace_runs_no_double cs h : cmem h cs = true -> forall s b,
  no_double h (replace_runs cs [h] s b) = true /\
  (b = true -> match replace_runs cs [h] s b with x :: _ => x <> h | [] => True end).
Proof.
  intros Hh s. induction s as [|x t IH]; intros b.
  - split; [reflexivity|intros _; exact I].
  - cbn [replace_runs]. destruct (cmem x cs) eqn:Ex.
    + destruct (IH true) as [IHn IHh]. destruct b.
      * split; [exact IHn|intros _; apply IHh; reflexivity].
      * split; [|discriminate]. cbn [app].
        specialize (IHh eq_refl).
        destruct (replace_runs cs [h] t true) as [|y r] eqn:E; [reflexivity|].
        rewrite no_double_cons2.
        replace (y =? h) with false by (symmetry; apply N.eqb_neq; exact IHh).
        rewrite andb_false_r. cbn [negb andb]. exact IHn.
    + destruct (IH false) as [IHn _]. 
      assert (Hx : x <> h) by (intros ->; rewrite Hh in Ex; discriminate).
      split.
      * destruct (replace_runs cs [h] t false) as [|y r] eqn:E; [reflexivity|].
        rewrite no_double_cons2. replace (x =? h) with false by (symmetry; apply N.eqb_neq; exact Hx).
        cbn [andb negb]. exact IHn.
      * intros _. exact Hx.
Qed.

(* a text whose only class members are isolated h's is a fixed point *)
Lemma replace_runs_fixed cs h : forall s b,
  (forall c, In c s -> cmem c cs = true -> c = h) ->
  cmem h cs = true ->
  no_double h s = true ->
  (b = true -> match s with x :: _ => x <> h | [] => True end) ->
  replace_runs cs [h] s b = s.
Proof.
  induction s as [|x t IH]; intros b Hc Hh Hn Hb; [reflexivity|].
  cbn [replace_runs].
  assert (Hn' : no_double h t = true).
  { destruct t as [|y r]; [reflexivity|]. rewrite no_double_cons2 in Hn. apply andb_true_iff in Hn. apply Hn. }
  assert (Hc' : forall c, In c t -> cmem c cs = true -> c = h) by (intros c Hi; apply Hc; right; exact Hi).
  destruct (cmem x cs) eqn:Ex.
  - assert (x = h) by (apply Hc; [left; reflexivity|exact Ex]). subst x.
    destruct b; [exfalso; apply (Hb eq_refl); reflexivity|].
    cbn [app]. f_equal. apply IH; try assumption.
    intros _. destruct t as [|y r]; [exact I|].
    rewrite no_double_cons2 in Hn. apply andb_true_iff in Hn. destruct Hn as [Hn _].
    rewrite N.eqb_refl in Hn. cbn [andb] in Hn. apply negb_true_iff in Hn. apply N.eqb_neq in Hn. exact Hn.
  - f_equal. apply IH; try assumption. discriminate.
Qed.
