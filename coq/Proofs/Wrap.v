(* Proofs/Wrap.v — generic lemmas about the wrapper model (Model/Wrap.v), for ANY
   inspector type and ANY eat/finish/complete/fmatch: fault injection is just the
   universal quantification over [eat].  The lemmas that depend on the shape of
   _process_chunk take [shape_okb sh = true] (Gen: [gen_shape], discharged by
   computation in Proofs/C06.v). *)
Require Import OV.Base.Bytes OV.Base.Py OV.Base.C06_WrapShape OV.Model.Wrap.
Open Scope N_scope.

Lemma firstn_skipn_app {A} (n m : nat) (l : list A) :
  firstn n l ++ firstn m (skipn n l) = firstn (n + m) l.
Proof.
  revert l. induction n as [|n IH]; intros l; cbn [firstn skipn plus app]; [reflexivity|].
  destruct l as [|x l]; cbn [firstn skipn app]; [now rewrite firstn_nil|]. now rewrite IH.
Qed.

Lemma bsub_app a b c d : a <= b -> b <= c -> bsub a b d ++ bsub b c d = bsub a c d.
Proof.
  intros Hab Hbc. unfold bsub, btake, bskip.
  replace (N.to_nat b) with (N.to_nat a + N.to_nat (b - a))%nat by lia.
  rewrite <- skipn_skipn'. rewrite firstn_skipn_app. f_equal. lia.
Qed.

Lemma bsub_same a d : bsub a a d = [].
Proof. unfold bsub. now rewrite N.sub_diag, btake_0. Qed.


Lemma Forall2_diag {A} (R : A -> A -> Prop) l : (forall x, R x x) -> Forall2 R l l.
Proof. intros H. induction l; constructor; auto. Qed.

Lemma Forall2_compose {A} (R1 R2 R3 : A -> A -> Prop) l1 l2 l3 :
  (forall x y z, R1 x y -> R2 y z -> R3 x z) -> Forall2 R1 l1 l2 -> Forall2 R2 l2 l3 -> Forall2 R3 l1 l3.
Proof.
  intros H H1. revert l3. induction H1 as [|x y l1 l2 Hxy _ IH]; intros l3 H2; inversion H2; subst; constructor; eauto.
Qed.

Lemma Forall2_nth_error {A} (R : A -> A -> Prop) l l' k x :
  Forall2 R l l' -> nth_error l k = Some x -> exists x', nth_error l' k = Some x' /\ R x x'.
Proof.
  intros H. revert k. induction H as [|a b l l' Hab _ IH]; intros [|k]; cbn [nth_error]; try discriminate; [|apply IH].
  intros [= <-]. eauto.
Qed.

Lemma Forall2_Forall_l {A} (R : A -> A -> Prop) (P Q : A -> Prop) l l' :
  (forall a b, P a -> R a b -> Q b) -> Forall P l -> Forall2 R l l' -> Forall Q l'.
Proof.
  intros H HP HR. induction HR as [|a b l l' Hab HR IH]; [constructor|].
  inversion HP; subst. constructor; [eapply H; eauto | apply IH; assumption].
Qed.

Lemma firstn_S_nth {A} (l : list A) j d : (j < length l)%nat -> firstn (S j) l = firstn j l ++ [nth j l d].
Proof.
  revert j. induction l as [|x l IH]; intros j Hj; [cbn in Hj; lia|].
  destruct j; [reflexivity|]. cbn [firstn nth app]. f_equal. apply IH. cbn in Hj. lia.
Qed.

Lemma skipn_nth_cons {A} (l : list A) j d : (j < length l)%nat -> skipn j l = nth j l d :: skipn (S j) l.
Proof.
  revert j. induction l as [|x l IH]; intros j Hj; [cbn in Hj; lia|].
  destruct j; [reflexivity|]. cbn [skipn nth]. apply IH. cbn in Hj. lia.
Qed.

Lemma f_chunk_is_slice s size :
  f_chunk s size = bsub (f_pos s) (f_pos s + blen (f_chunk s size)) (f_data s).
Proof.
  unfold bsub. replace (f_pos s + blen (f_chunk s size) - f_pos s) with (blen (f_chunk s size)) by lia.
  unfold f_chunk. destruct (size <? 0)%Z.
  - now rewrite btake_all by lia.
  - now rewrite blen_btake, <- btake_min.
Qed.

Lemma f_read_spec s size s' r : f_read s size = (s', r) ->
  f_data s' = f_data s /\
  ((f_closed s = true /\ s' = s /\ r = Exn ValueError) \/
   (f_closed s = false /\ f_closed s' = false /\ exists c, r = Ok c /\ f_pos s' = f_pos s + blen c /\
      c = bsub (f_pos s) (f_pos s') (f_data s))).
Proof.
  unfold f_read. destruct (f_closed s) eqn:Hc; intros H; inversion H; subst; clear H.
  - split; [reflexivity|]. left. auto.
  - cbn [f_data f_pos f_closed]. split; [reflexivity|]. right. repeat split.
    exists (f_chunk s size). repeat split. apply f_chunk_is_slice.
Qed.

Section WrapProofs.
Variable I : Type.
Variable eat : I -> bytes -> I * option exn.
Variable finish : I -> I.
Variable complete : I -> bool.
Variable fmatch : I -> bool.
Variable sh : pc_shape.

Notation slot := (slot I).
Notation wrapper := (wrapper I).
Notation pc_loop := (pc_loop I eat complete fmatch sh).
Notation process_chunk := (process_chunk I eat complete fmatch sh).
Notation finish_all := (finish_all I finish).
Notation w_step := (w_step I eat finish complete fmatch sh).
Notation w_run := (w_run I eat finish complete fmatch sh).
Notation w_run_stop := (w_run_stop I eat finish complete fmatch sh).
Notation w_read := (w_read I eat finish complete fmatch sh).
Notation w_next := (w_next I eat finish complete fmatch sh).
Notation run_reads := (run_reads I eat finish complete fmatch sh).
Notation run_iter := (run_iter I eat finish complete fmatch sh).

(* what _process_chunk does with ONE inspector that is not errored; [pc_std] is the loop written with it, and
   [pc_loop] of any shape that passes [shape_okb] is equal to it ([pc_loop_std]) *)
Definition feed_slot (expected : option str) (idx : nat) (s : slot) (chunk : bytes) : slot * eat_ev * option exn :=
  let (i', oe) := eat (s_insp s) chunk in
  let ev := {| ev_idx := idx; ev_name := s_name s; ev_chunk := chunk; ev_exn := oe |} in
  match oe with
  | Some e =>
    if name_is (s_name s) expected
    then ({| s_name := s_name s; s_insp := i'; s_err := s_err s |}, ev, Some e)
    else ({| s_name := s_name s; s_insp := i'; s_err := true |}, ev, None)
  | None =>
    ({| s_name := s_name s; s_insp := i'; s_err := s_err s |}, ev,
     if name_is (s_name s) expected && complete i' && negb (fmatch i') then Some ImageFormatError else None)
  end.

Fixpoint pc_std (expected : option str) (idx : nat) (ss : list slot) (chunk : bytes)
  : list slot * list eat_ev * option exn :=
  match ss with
  | [] => ([], [], None)
  | s :: rest =>
    if s_err s then
      let '(rest', tr, r) := pc_std expected (S idx) rest chunk in (s :: rest', tr, r)
    else
      let '(s', ev, r) := feed_slot expected idx s chunk in
      match r with
      | Some e => (s' :: rest, [ev], Some e)
      | None => let '(rest', tr, r') := pc_std expected (S idx) rest chunk in (s' :: rest', ev :: tr, r')
      end
  end.

Lemma feed_slot_spec expected idx s chunk s' ev r :
  feed_slot expected idx s chunk = (s', ev, r) ->
  s_name s' = s_name s /\ ev_idx ev = idx /\ ev_name ev = s_name s /\ ev_chunk ev = chunk /\
  eat (s_insp s) chunk = (s_insp s', ev_exn ev) /\
  (s_err s = true -> s_err s' = true) /\
  (forall e, ev_exn ev = Some e -> name_is (s_name s) expected = false -> s_err s' = true /\ r = None) /\
  (forall e, ev_exn ev = Some e -> name_is (s_name s) expected = true -> s_err s' = s_err s /\ r = Some e) /\
  (ev_exn ev = None -> s_err s' = s_err s /\
     r = if name_is (s_name s) expected && complete (s_insp s') && negb (fmatch (s_insp s')) then Some ImageFormatError else None).
Proof.
  unfold feed_slot. destruct (eat (s_insp s) chunk) as [i' oe] eqn:He. destruct oe as [e|].
  - destruct (name_is (s_name s) expected) eqn:Hn; intros H; inversion H; subst; clear H; cbn;
      repeat split; auto; try discriminate; intros e0 H0; inversion H0; subst; auto; discriminate.
  - intros H; inversion H; subst; clear H; cbn. repeat split; auto; discriminate.
Qed.

Lemma feed_slot_result expected idx s chunk s' ev r :
  feed_slot expected idx s chunk = (s', ev, r) ->
  match r with
  | Some e => name_is (ev_name ev) expected = true /\
      (ev_exn ev = Some e \/
       (ev_exn ev = None /\ e = ImageFormatError /\ complete (s_insp s') = true /\ fmatch (s_insp s') = false))
  | None => name_is (ev_name ev) expected = true ->
      ev_exn ev = None /\ complete (s_insp s') && negb (fmatch (s_insp s')) = false
  end.
Proof.
  unfold feed_slot. destruct (eat (s_insp s) chunk) as [i' [e|]]; destruct (name_is (s_name s) expected) eqn:Hn; cbn [andb].
  - intros [= <- <- <-]. cbn. auto.
  - intros [= <- <- <-]. cbn. congruence.
  - destruct (complete i') eqn:Hc, (fmatch i') eqn:Hm; intros [= <- <- <-]; cbn; rewrite ?Hc, ?Hm; auto 7.
  - intros [= <- <- <-]. cbn. congruence.
Qed.

Lemma pc_std_pass_ind expected chunk (P : nat -> list slot -> list slot -> list eat_ev -> option exn -> Prop) :
  (forall idx, P idx [] [] [] None) ->
  (forall idx s rest rest' tr r, s_err s = true ->
     pc_std expected (S idx) rest chunk = (rest', tr, r) -> P (S idx) rest rest' tr r ->
     P idx (s :: rest) (s :: rest') tr r) ->
  (forall idx s rest s' ev e, s_err s = false -> feed_slot expected idx s chunk = (s', ev, Some e) ->
     P idx (s :: rest) (s' :: rest) [ev] (Some e)) ->
  (forall idx s rest s' ev rest' tr r, s_err s = false -> feed_slot expected idx s chunk = (s', ev, None) ->
     pc_std expected (S idx) rest chunk = (rest', tr, r) -> P (S idx) rest rest' tr r ->
     P idx (s :: rest) (s' :: rest') (ev :: tr) r) ->
  forall idx ss ss' tr r, pc_std expected idx ss chunk = (ss', tr, r) -> P idx ss ss' tr r.
Proof.
  intros Hnil Hskip Hstop Hgo idx ss. revert idx.
  induction ss as [|s rest IH]; intros idx ss' tr r; cbn [pc_std].
  - intros [= <- <- <-]. apply Hnil.
  - destruct (s_err s) eqn:Herr.
    + destruct (pc_std expected (S idx) rest chunk) as [[rest' tr'] r'] eqn:Hr. intros [= <- <- <-]. auto.
    + destruct (feed_slot expected idx s chunk) as [[s' ev] [e|]] eqn:Hf.
      * intros [= <- <- <-]. auto.
      * destruct (pc_std expected (S idx) rest chunk) as [[rest' tr'] r'] eqn:Hr. intros [= <- <- <-]. auto.
Qed.

Lemma pc_std_names expected chunk : forall idx ss ss' tr r,
  pc_std expected idx ss chunk = (ss', tr, r) -> map (@s_name I) ss' = map (@s_name I) ss.
Proof.
  apply pc_std_pass_ind; cbn [map].
  - reflexivity.
  - intros _ s rest rest' _ _ _ _ IH. now rewrite IH.
  - intros idx s rest s' ev e _ Hf. now rewrite (proj1 (feed_slot_spec _ _ _ _ _ _ _ Hf)).
  - intros idx s rest s' ev rest' _ _ _ Hf _ IH. now rewrite IH, (proj1 (feed_slot_spec _ _ _ _ _ _ _ Hf)).
Qed.

Lemma pc_std_length expected idx ss chunk ss' tr r :
  pc_std expected idx ss chunk = (ss', tr, r) -> length ss' = length ss.
Proof. intros H. apply pc_std_names in H. apply (f_equal (@length _)) in H. now rewrite !map_length in H. Qed.

Definition touched (c : bytes) (s s' : slot) : Prop :=
  s_name s' = s_name s /\ (s' = s \/ (s_err s = false /\ exists oe, eat (s_insp s) c = (s_insp s', oe))).

Lemma touched_refl c s : touched c s s.
Proof. split; auto. Qed.

Lemma pc_std_mono expected chunk : forall idx ss ss' tr r,
  pc_std expected idx ss chunk = (ss', tr, r) -> Forall2 (touched chunk) ss ss'.
Proof.
  assert (Hfed : forall idx s s' ev r0, s_err s = false -> feed_slot expected idx s chunk = (s', ev, r0) -> touched chunk s s').
  { intros idx s s' ev r0 Herr Hf. destruct (feed_slot_spec _ _ _ _ _ _ _ Hf) as (Hn & _ & _ & _ & He & _).
    split; [exact Hn|]. right. eauto. }
  apply pc_std_pass_ind.
  - constructor.
  - intros idx s rest rest' tr r _ _ IH. constructor; [apply touched_refl | exact IH].
  - intros idx s rest s' ev e Herr Hf. constructor; [eapply Hfed; eauto | apply Forall2_diag, touched_refl].
  - intros idx s rest s' ev rest' tr r Herr Hf _ IH. constructor; [eapply Hfed; eauto | exact IH].
Qed.

Definition fed_at (expected : option str) (chunk : bytes) (ss ss' : list slot) (ev : eat_ev) (k : nat) : Prop :=
  exists s s', nth_error ss k = Some s /\ nth_error ss' k = Some s' /\
    s_err s = false /\ ev_name ev = s_name s /\ ev_chunk ev = chunk /\
    eat (s_insp s) chunk = (s_insp s', ev_exn ev) /\
    (forall e, ev_exn ev = Some e -> name_is (ev_name ev) expected = false -> s_err s' = true).

Lemma feed_slot_fed expected idx s chunk s' ev r l l' :
  feed_slot expected idx s chunk = (s', ev, r) -> s_err s = false ->
  ev_idx ev = (idx + 0)%nat /\ fed_at expected chunk (s :: l) (s' :: l') ev 0.
Proof.
  intros Hf Herr. destruct (feed_slot_spec _ _ _ _ _ _ _ Hf) as (_ & Hi & Hnm & Hch & Heat & _ & Hne & _).
  split; [now rewrite Nat.add_0_r|]. exists s, s'. repeat split; auto.
  intros e He Hx. rewrite Hnm in Hx. apply (Hne e He Hx).
Qed.

(* every eat_chunk call of one pass: which slot, that it was not errored, what it did to it *)
Lemma pc_std_events expected chunk : forall idx ss ss' tr r,
  pc_std expected idx ss chunk = (ss', tr, r) ->
  forall ev, In ev tr -> exists k, ev_idx ev = (idx + k)%nat /\ fed_at expected chunk ss ss' ev k.
Proof.
  assert (Htail : forall idx a a' l l' ev, (exists k, ev_idx ev = (S idx + k)%nat /\ fed_at expected chunk l l' ev k) ->
            exists k, ev_idx ev = (idx + k)%nat /\ fed_at expected chunk (a :: l) (a' :: l') ev k).
  { intros idx a a' l l' ev (k & Hi & Hk). exists (S k). split; [now rewrite Nat.add_succ_r | exact Hk]. }
  apply (pc_std_pass_ind expected chunk (fun idx ss ss' tr _ =>
    forall ev, In ev tr -> exists k, ev_idx ev = (idx + k)%nat /\ fed_at expected chunk ss ss' ev k)).
  - intros _ ev [].
  - intros idx s rest rest' tr _ _ _ IH ev Hin. apply Htail, IH, Hin.
  - intros idx s rest s' ev0 e Herr Hf ev [<-|[]]. exists 0%nat. apply (feed_slot_fed _ _ _ _ _ _ _ _ _ Hf Herr).
  - intros idx s rest s' ev0 rest' tr _ Herr Hf _ IH ev [<-|Hin].
    + exists 0%nat. apply (feed_slot_fed _ _ _ _ _ _ _ _ _ Hf Herr).
    + apply Htail, IH, Hin.
Qed.

(* within one pass the positions of the inspectors fed are strictly increasing *)
Lemma pc_std_sorted expected chunk : forall idx ss ss' tr r,
  pc_std expected idx ss chunk = (ss', tr, r) ->
  forall t1 ev t2, tr = t1 ++ ev :: t2 -> forall ev', In ev' t2 -> (ev_idx ev < ev_idx ev')%nat.
Proof.
  apply (pc_std_pass_ind expected chunk (fun _ _ _ tr _ =>
    forall t1 ev t2, tr = t1 ++ ev :: t2 -> forall ev', In ev' t2 -> (ev_idx ev < ev_idx ev')%nat)).
  - intros _ [|? ?] ? ? Ht; discriminate.
  - intros idx s rest rest' tr r _ _ IH. exact IH.
  - intros idx s rest s' ev0 e _ _ [|a t1] ev t2 Ht; [injection Ht as <- <-; intros ev' [] | destruct t1; discriminate].
  - intros idx s rest s' ev0 rest' tr r Herr Hf Hr IH [|a t1] ev t2 [= <- ->].
    + intros ev' Hin. destruct (pc_std_events _ _ _ _ _ _ _ Hr ev' Hin) as (k & -> & _).
      rewrite (proj1 (feed_slot_fed _ _ _ _ _ _ _ [] [] Hf Herr)). lia.
    + apply (IH t1 ev t2 eq_refl).
Qed.

Definition at_pos (ss' : list slot) (idx : nat) (ev : eat_ev) (Q : slot -> Prop) : Prop :=
  exists k s', ev_idx ev = (idx + k)%nat /\ nth_error ss' k = Some s' /\ Q s'.

Lemma at_pos_head s' l idx ev (Q : slot -> Prop) : ev_idx ev = idx -> Q s' -> at_pos (s' :: l) idx ev Q.
Proof. intros Hi Hq. exists 0%nat, s'. now rewrite Nat.add_0_r. Qed.

Lemma at_pos_tail a l idx ev Q : at_pos l (S idx) ev Q -> at_pos (a :: l) idx ev Q.
Proof. intros (k & s' & Hi & H). exists (S k), s'. now rewrite Nat.add_succ_r. Qed.

Lemma at_pos_0 l ev Q : at_pos l 0 ev Q -> exists s', nth_error l (ev_idx ev) = Some s' /\ Q s'.
Proof. intros (k & s' & -> & H). exists s'. exact H. Qed.

(* where an exception leaving the loop comes from *)
Lemma pc_std_surface expected chunk : forall idx ss ss' tr r,
  pc_std expected idx ss chunk = (ss', tr, r) ->
  match r with
  | Some e =>
    exists tr0 ev, tr = tr0 ++ [ev] /\ name_is (ev_name ev) expected = true /\
      at_pos ss' idx ev (fun s' => ev_exn ev = Some e \/
        (ev_exn ev = None /\ e = ImageFormatError /\ complete (s_insp s') = true /\ fmatch (s_insp s') = false))
  | None =>
    forall ev, In ev tr -> name_is (ev_name ev) expected = true ->
      ev_exn ev = None /\ at_pos ss' idx ev (fun s' => complete (s_insp s') && negb (fmatch (s_insp s')) = false)
  end.
Proof.
  apply pc_std_pass_ind.
  - intros _ ev [].
  - intros idx s rest rest' tr [e|] _ _ IH.
    + destruct IH as (tr0 & ev & -> & Hn & Hp). exists tr0, ev. auto using at_pos_tail.
    + intros ev Hin Hn. destruct (IH ev Hin Hn) as [Hx Hp]. auto using at_pos_tail.
  - intros idx s rest s' ev e _ Hf. destruct (feed_slot_result _ _ _ _ _ _ _ Hf) as [Hn Hc].
    exists [], ev. split; [reflexivity|]. split; [exact Hn|].
    apply at_pos_head; [apply (feed_slot_spec _ _ _ _ _ _ _ Hf) | exact Hc].
  - intros idx s rest s' ev0 rest' tr [e|] _ Hf _ IH.
    + destruct IH as (tr0 & ev & -> & Hn & Hp). exists (ev0 :: tr0), ev. auto using at_pos_tail.
    + intros ev [<-|Hin] Hn.
      * destruct (feed_slot_result _ _ _ _ _ _ _ Hf Hn) as [Hx Hc]. split; [exact Hx|].
        apply at_pos_head; [apply (feed_slot_spec _ _ _ _ _ _ _ Hf) | exact Hc].
      * destruct (IH ev Hin Hn) as [Hx Hp]. auto using at_pos_tail.
Qed.

Hypothesis Hsh : shape_okb sh = true.

Lemma pc_loop_std expected idx ss chunk : pc_loop expected idx ss chunk = pc_std expected idx ss chunk.
Proof.
  destruct (shape_okb_spec sh Hsh) as (Hskip & Hadd & Hrr & Helse).
  revert idx. induction ss as [|s rest IH]; intros idx; cbn [Wrap.pc_loop pc_std]; [reflexivity|].
  rewrite Hskip. cbn [andb]. unfold feed_slot. destruct (s_err s) eqn:Herr.
  - now rewrite IH.
  - destruct (eat (s_insp s) chunk) as [i' oe]. destruct oe as [e|].
    + rewrite Hrr. cbn [eval_reraise]. destruct (name_is (s_name s) expected); [reflexivity|].
      rewrite Hadd. now rewrite IH.
    + rewrite Helse. destruct (name_is (s_name s) expected && complete i' && negb (fmatch i')); [reflexivity|].
      now rewrite IH.
Qed.

Notation err_at := (err_at I).

Lemma process_chunk_std w chunk :
  process_chunk w chunk =
  let '(ss, tr, r) := pc_std (w_expected w) 0 (w_slots w) chunk in (with_slots I w ss, tr, r).
Proof. unfold Wrap.process_chunk. now rewrite pc_loop_std. Qed.

(* _finish: StopIteration from the source and close() call finish() on EVERY inspector,
   errored ones included, and set _finished *)
Lemma finish_all_spec w :
  map (@s_insp I) (w_slots (finish_all w)) = map finish (map (@s_insp I) (w_slots w)) /\
  map (@s_name I) (w_slots (finish_all w)) = map (@s_name I) (w_slots w) /\
  map (@s_err I) (w_slots (finish_all w)) = map (@s_err I) (w_slots w) /\
  w_finished (finish_all w) = true /\ w_expected (finish_all w) = w_expected w.
Proof. unfold Wrap.finish_all. cbn. rewrite !map_map. repeat split. Qed.

Lemma finish_all_err w k : err_at (finish_all w) k = err_at w k.
Proof.
  unfold Wrap.err_at, Wrap.finish_all. cbn [w_slots]. rewrite nth_error_map.
  destruct (nth_error (w_slots w) k); reflexivity.
Qed.

Lemma w_step_expected w inp w' tr o : w_step w inp = (w', tr, o) -> w_expected w' = w_expected w.
Proof.
  destruct inp; cbn [Wrap.w_step]; [rewrite process_chunk_std; destruct (pc_std _ _ _ _) as [[ss t] r]|..];
    intros [= <- <- <-]; reflexivity.
Qed.

Lemma w_step_names w inp w' tr o : w_step w inp = (w', tr, o) ->
  map (@s_name I) (w_slots w') = map (@s_name I) (w_slots w).
Proof.
  destruct inp; cbn [Wrap.w_step].
  - rewrite process_chunk_std. destruct (pc_std _ _ _ _) as [[ss t] r] eqn:Hp. intros [= <- <- <-].
    apply (pc_std_names _ _ _ _ _ _ _ Hp).
  - intros [= <- <- <-]. apply finish_all_spec.
  - intros [= <- <- <-]. reflexivity.
  - intros [= <- <- <-]. apply finish_all_spec.
Qed.

(* the errored set only grows *)
Lemma w_step_err_mono w inp w' tr o k : w_step w inp = (w', tr, o) -> err_at w k = true -> err_at w' k = true.
Proof.
  destruct inp; cbn [Wrap.w_step].
  - rewrite process_chunk_std. destruct (pc_std _ _ _ _) as [[ss t] r] eqn:Hp. intros [= <- <- <-].
    unfold Wrap.err_at. cbn [w_slots with_slots].
    destruct (nth_error (w_slots w) k) as [s|] eqn:Hk; [|discriminate]. intros He.
    destruct (Forall2_nth_error _ _ _ _ _ (pc_std_mono _ _ _ _ _ _ _ Hp) Hk) as (s' & -> & _ & [->|[Hf _]]); congruence.
  - intros [= <- <- <-]. now rewrite finish_all_err.
  - intros [= <- <- <-]. auto.
  - intros [= <- <- <-]. now rewrite finish_all_err.
Qed.

(* every eat_chunk call of one wrapper call: the inspector was not in the errored set,
   it got the chunk of this call, and if it raised and is not the expected one it is
   in the errored set afterwards *)
Lemma w_step_events w inp w' tr o : w_step w inp = (w', tr, o) ->
  forall ev, In ev tr ->
    err_at w (ev_idx ev) = false /\ inp = InChunk (ev_chunk ev) /\
    (exists s s', nth_error (w_slots w) (ev_idx ev) = Some s /\ nth_error (w_slots w') (ev_idx ev) = Some s' /\
       ev_name ev = s_name s /\ eat (s_insp s) (ev_chunk ev) = (s_insp s', ev_exn ev)) /\
    (forall e, ev_exn ev = Some e -> name_is (ev_name ev) (w_expected w) = false -> err_at w' (ev_idx ev) = true).
Proof.
  destruct inp; cbn [Wrap.w_step]; [|intros [= <- <- <-] ev []..].
  rewrite process_chunk_std. destruct (pc_std _ _ _ _) as [[ss t] r] eqn:Hp. intros [= <- <- <-] ev Hin.
  destruct (pc_std_events _ _ _ _ _ _ _ Hp ev Hin) as (k & Hi & s & s' & H1 & H2 & H3 & H4 & <- & H6 & H7).
  cbn [plus] in Hi. subst k. unfold Wrap.err_at. cbn [w_slots with_slots]. rewrite H1, H2.
  split; [exact H3|]. split; [reflexivity|]. split; [exists s, s'; auto | exact H7].
Qed.

Lemma w_step_sorted w inp w' tr o : w_step w inp = (w', tr, o) ->
  forall t1 ev t2, tr = t1 ++ ev :: t2 -> forall ev', In ev' t2 -> (ev_idx ev < ev_idx ev')%nat.
Proof.
  destruct inp; cbn [Wrap.w_step]; [|intros [= <- <- <-] [|? ?] ? ? Ht; discriminate..].
  rewrite process_chunk_std. destruct (pc_std _ _ _ _) as [[ss t] r] eqn:Hp. intros [= <- <- <-].
  apply (pc_std_sorted _ _ _ _ _ _ _ Hp).
Qed.

(* THE PIPE: whatever a call returns is the chunk its source handed out in that call *)
Lemma w_step_identity w inp w' tr o : w_step w inp = (w', tr, o) ->
  match o with
  | OutChunk c => inp = InChunk c
  | OutNone => inp = InClose
  | OutExn _ => True
  end.
Proof.
  destruct inp; cbn [Wrap.w_step]; [destruct (process_chunk w c) as [[w1 t] [e|]]|..]; intros [= <- <- <-]; auto.
Qed.

(* where an exception reaching the reader comes from: the source itself, or the LAST
   eat_chunk call of this wrapper call, made on an inspector whose NAME is the expected
   format: either that call raised it, or it succeeded and the inspector is complete
   without matching (ImageFormatError) *)
Definition surfaced_from_expected (w w' : wrapper) (tr : list eat_ev) (e : exn) : Prop :=
  exists tr0 ev s', tr = tr0 ++ [ev] /\ name_is (ev_name ev) (w_expected w) = true /\
    nth_error (w_slots w') (ev_idx ev) = Some s' /\
    (ev_exn ev = Some e \/
     (ev_exn ev = None /\ e = ImageFormatError /\ complete (s_insp s') = true /\ fmatch (s_insp s') = false)).

Lemma w_step_surface w inp w' tr o e : w_step w inp = (w', tr, o) -> o = OutExn e ->
  (inp = InStop /\ e = StopIteration /\ tr = []) \/ (inp = InSrcErr e /\ tr = []) \/
  ((exists c, inp = InChunk c) /\ surfaced_from_expected w w' tr e).
Proof.
  destruct inp; cbn [Wrap.w_step].
  - rewrite process_chunk_std. destruct (pc_std _ _ _ _) as [[ss t] [e0|]] eqn:Hp; intros [= <- <- <-] [= <-].
    right; right. split; [eauto|]. destruct (pc_std_surface _ _ _ _ _ _ _ Hp) as (tr0 & ev & Ht & Hn & Hpos).
    apply at_pos_0 in Hpos. destruct Hpos as (s' & Hnth & Hc). exists tr0, ev, s'. auto.
  - intros [= <- <- <-] [= <-]. auto.
  - intros [= <- <- <-] [= <-]. auto.
  - intros [= <- <- <-]. discriminate.
Qed.

(* ... and conversely a delivered chunk means that no inspector named like the expected
   format failed or was complete-without-match in this call *)
Lemma w_step_delivered w c w' tr o : w_step w (InChunk c) = (w', tr, o) -> o = OutChunk c ->
  forall ev, In ev tr -> name_is (ev_name ev) (w_expected w) = true ->
    ev_exn ev = None /\
    exists s', nth_error (w_slots w') (ev_idx ev) = Some s' /\ complete (s_insp s') && negb (fmatch (s_insp s')) = false.
Proof.
  cbn [Wrap.w_step]. rewrite process_chunk_std.
  destruct (pc_std _ _ _ _) as [[ss t] [e0|]] eqn:Hp; intros [= <- <- <-]; [discriminate|]. intros _ ev Hin Hn.
  destruct (pc_std_surface _ _ _ _ _ _ _ Hp ev Hin Hn) as (Hx & Hpos). split; [exact Hx | apply at_pos_0, Hpos].
Qed.

(* no inspector carries the expected name (expected_format=None, a name not in
   allowed_formats, ...): no call on a chunk ever raises *)
Lemma w_step_no_expected w c w' tr o :
  (forall s, In s (w_slots w) -> name_is (s_name s) (w_expected w) = false) ->
  w_step w (InChunk c) = (w', tr, o) -> o = OutChunk c.
Proof.
  intros Hno H. destruct o as [c'|e|].
  - apply w_step_identity in H. congruence.
  - exfalso. destruct (w_step_surface _ _ _ _ _ e H eq_refl) as [(Hx & _)|[(Hx & _)|(_ & Hs)]]; try discriminate.
    destruct Hs as (tr0 & ev & s' & Ht & Hn & _).
    destruct (w_step_events _ _ _ _ _ H ev) as (_ & _ & (s & s0 & Hk & _ & Hnm & _) & _).
    { subst. apply in_or_app. right. left. reflexivity. }
    apply nth_error_In in Hk. rewrite Hnm in Hn. rewrite (Hno s Hk) in Hn. discriminate.
  - apply w_step_identity in H. discriminate.
Qed.

Lemma w_step_stop w : w_step w InStop = (finish_all w, [], OutExn StopIteration).
Proof. reflexivity. Qed.
Lemma w_step_close w : w_step w InClose = (finish_all w, [], OutNone).
Proof. reflexivity. Qed.

Lemma w_run_cons w inp rest :
  w_run w (inp :: rest) =
  let '(w1, tr1, o) := w_step w inp in let (w2, recs) := w_run w1 rest in
  (w2, {| sr_in := inp; sr_tr := tr1; sr_out := o |} :: recs).
Proof. reflexivity. Qed.

Lemma w_run_session_ind (P : wrapper -> list input -> wrapper -> list step_rec -> Prop) :
  (forall w, P w [] w []) ->
  (forall w inp rest w1 tr1 o w2 recs, w_step w inp = (w1, tr1, o) -> w_run w1 rest = (w2, recs) ->
     P w1 rest w2 recs -> P w (inp :: rest) w2 ({| sr_in := inp; sr_tr := tr1; sr_out := o |} :: recs)) ->
  forall w inps w' recs, w_run w inps = (w', recs) -> P w inps w' recs.
Proof.
  intros Hnil Hcons w inps. revert w. induction inps as [|inp rest IH]; intros w w' recs.
  - intros [= <- <-]. apply Hnil.
  - rewrite w_run_cons. destruct (w_step w inp) as [[w1 tr1] o] eqn:Hs.
    destruct (w_run w1 rest) as [w2 recs2] eqn:Hr. intros [= <- <-]. eauto.
Qed.

Lemma w_run_expected w inps w' recs : w_run w inps = (w', recs) -> w_expected w' = w_expected w.
Proof.
  revert w inps w' recs. apply w_run_session_ind; [reflexivity|].
  intros w inp rest w1 tr1 o w2 recs Hs _ IH. rewrite IH. apply (w_step_expected _ _ _ _ _ Hs).
Qed.

(* reads_are_identity, for every sequence of calls and whatever the inspectors do *)
Theorem reads_are_identity w inps w' recs : w_run w inps = (w', recs) ->
  map sr_in recs = inps /\
  Forall (fun r => match sr_out r with
                   | OutChunk c => sr_in r = InChunk c
                   | OutNone => sr_in r = InClose
                   | OutExn _ => True end) recs.
Proof.
  revert w inps w' recs. apply w_run_session_ind; [split; constructor|].
  intros w inp rest w1 tr1 o w2 recs Hs _ [Hm Hf]. split; [cbn; now rewrite Hm|].
  constructor; [apply (w_step_identity _ _ _ _ _ Hs) | exact Hf].
Qed.

Lemma w_run_app w l1 l2 :
  w_run w (l1 ++ l2) = let (w1, r1) := w_run w l1 in let (w2, r2) := w_run w1 l2 in (w2, r1 ++ r2).
Proof.
  revert w. induction l1 as [|inp rest IH]; intros w; cbn [app].
  - cbn. destruct (w_run w l2). reflexivity.
  - rewrite !w_run_cons. destruct (w_step w inp) as [[w1 tr1] o]. rewrite IH.
    destruct (w_run w1 rest) as [w2 r2]. destruct (w_run w2 l2) as [w3 r3]. reflexivity.
Qed.

(* an inspector in the errored set is never fed *)
Lemma errored_not_fed w inps w' recs k : w_run w inps = (w', recs) -> err_at w k = true ->
  forall ev, In ev (run_trace recs) -> ev_idx ev <> k.
Proof.
  revert w inps w' recs. apply (w_run_session_ind (fun w _ _ recs =>
    err_at w k = true -> forall ev, In ev (run_trace recs) -> ev_idx ev <> k)).
  - intros _ _ ev [].
  - intros w inp rest w1 tr1 o w2 recs Hs _ IH He ev Hin.
    change (In ev (tr1 ++ run_trace recs)) in Hin. apply in_app_or in Hin. destruct Hin as [Hin|Hin].
    + destruct (w_step_events _ _ _ _ _ Hs ev Hin) as (Hne & _). congruence.
    + apply IH; [apply (w_step_err_mono _ _ _ _ _ _ Hs He) | exact Hin].
Qed.

(* errored_never_fed_again: in the trace of ALL eat_chunk calls of any session, once a
   call on an inspector whose NAME is not the expected format has raised, no later call
   is made on that inspector *)
Theorem errored_never_fed_again w inps w' recs : w_run w inps = (w', recs) ->
  forall t1 ev t2 e, run_trace recs = t1 ++ ev :: t2 ->
    ev_exn ev = Some e -> name_is (ev_name ev) (w_expected w) = false ->
    forall ev', In ev' t2 -> ev_idx ev' <> ev_idx ev.
Proof.
  revert w inps w' recs. apply (w_run_session_ind (fun w _ _ recs => forall t1 ev t2 e,
    run_trace recs = t1 ++ ev :: t2 -> ev_exn ev = Some e -> name_is (ev_name ev) (w_expected w) = false ->
    forall ev', In ev' t2 -> ev_idx ev' <> ev_idx ev)).
  - intros w [|? ?] ? ? ? Ht; discriminate.
  - intros w inp rest w1 tr1 o w2 recs Hs Hr IH t1 ev t2 e Ht Hx Hn ev' Hin'.
    assert (Hn1 : name_is (ev_name ev) (w_expected w1) = false) by now rewrite (w_step_expected _ _ _ _ _ Hs).
    change (tr1 ++ run_trace recs = t1 ++ ev :: t2) in Ht.
    (* is ev in the trace of this call or of a later one? *)
    apply app_eq_app in Ht. destruct Ht as (l & [(Ha & Hb)|(Ha & Hb)]); [destruct l as [|x l]|].
    + apply (IH [] ev t2 e (eq_sym Hb) Hx Hn1 ev' Hin').
    + injection Hb as <- ->. apply in_app_or in Hin'. destruct Hin' as [Hin'|Hin'].
      * apply not_eq_sym, Nat.lt_neq. apply (w_step_sorted _ _ _ _ _ Hs _ _ _ Ha ev' Hin').
      * destruct (w_step_events _ _ _ _ _ Hs ev) as (_ & _ & _ & Herr); [rewrite Ha; apply in_elt|].
        apply (errored_not_fed _ _ _ _ _ Hr (Herr e Hx Hn) ev' Hin').
    + apply (IH l ev t2 e Hb Hx Hn1 ev' Hin').
Qed.

(* non_expected_faults_never_surface: every exception that reaches the reader in any
   session is the source's own, or comes from the last eat_chunk call of that wrapper
   call, made on an inspector whose NAME is the expected format *)
Theorem non_expected_faults_never_surface w inps w' recs : w_run w inps = (w', recs) ->
  Forall (fun r => forall e, sr_out r = OutExn e ->
            (sr_in r = InStop /\ e = StopIteration) \/ sr_in r = InSrcErr e \/
            exists tr0 ev, sr_tr r = tr0 ++ [ev] /\ name_is (ev_name ev) (w_expected w) = true /\
              (ev_exn ev = Some e \/ (ev_exn ev = None /\ e = ImageFormatError))) recs.
Proof.
  revert w inps w' recs. apply w_run_session_ind; [constructor|].
  intros w inp rest w1 tr1 o w2 recs Hs _ IH. rewrite (w_step_expected _ _ _ _ _ Hs) in IH.
  constructor; [|exact IH]. cbn [sr_in sr_out sr_tr]. intros e He.
  destruct (w_step_surface _ _ _ _ _ e Hs He) as [(H1 & H2 & _)|[(H1 & _)|(_ & Hsf)]]; auto.
  right; right. destruct Hsf as (tr0 & ev & s' & Ht & Hn & _ & Hc). exists tr0, ev.
  split; [exact Ht|]. split; [exact Hn|]. destruct Hc as [Hc|(Hc1 & Hc2 & _)]; auto.
Qed.

(* with no inspector named like the expected format, no call on a chunk raises *)
Theorem no_expected_inspector_no_exception w inps w' recs :
  (forall s, In s (w_slots w) -> name_is (s_name s) (w_expected w) = false) ->
  w_run w inps = (w', recs) ->
  Forall (fun r => forall c, sr_in r = InChunk c -> sr_out r = OutChunk c) recs.
Proof.
  intros Hno H. revert w inps w' recs H Hno. apply (w_run_session_ind (fun w _ _ recs =>
    (forall s, In s (w_slots w) -> name_is (s_name s) (w_expected w) = false) ->
    Forall (fun r => forall c, sr_in r = InChunk c -> sr_out r = OutChunk c) recs)); [constructor|].
  intros w inp rest w1 tr1 o w2 recs Hs _ IH Hno. constructor.
  - cbn [sr_in sr_out]. intros c ->. apply (w_step_no_expected _ _ _ _ _ Hno Hs).
  - apply IH. intros s Hin. rewrite (w_step_expected _ _ _ _ _ Hs).
    apply (in_map (@s_name I)) in Hin. rewrite (w_step_names _ _ _ _ _ Hs) in Hin.
    apply in_map_iff in Hin. destruct Hin as (s0 & <- & Hin0). apply Hno, Hin0.
Qed.

Definition nonexp (expected : option str) (l : list slot) : Prop :=
  Forall (fun x => name_is (s_name x) expected = false) l.

Lemma pc_std_nonexp expected a : nonexp expected a -> forall idx chunk,
  exists a' tra, pc_std expected idx a chunk = (a', tra, None) /\ nonexp expected a'.
Proof.
  induction 1 as [|s0 rest Hs0 Hrest IH]; intros idx chunk; cbn [pc_std].
  - exists [], []. split; constructor.
  - destruct (IH (S idx) chunk) as (a' & tra & Hp & Hn). rewrite Hp. destruct (s_err s0).
    + exists (s0 :: a'), tra. split; [reflexivity | constructor; assumption].
    + destruct (feed_slot expected idx s0 chunk) as [[s' ev] r] eqn:Hf.
      pose proof (feed_slot_result _ _ _ _ _ _ _ Hf) as Hr.
      destruct (feed_slot_spec _ _ _ _ _ _ _ Hf) as (Hnm & _ & Hev & _).
      destruct r as [e|]; [rewrite Hev, Hs0 in Hr; destruct Hr; discriminate|].
      exists (s' :: a'), (ev :: tra). split; [reflexivity | constructor; [now rewrite Hnm | assumption]].
Qed.

Lemma pc_std_app expected a b chunk : forall idx,
  pc_std expected idx (a ++ b) chunk =
  let '(a', tra, ra) := pc_std expected idx a chunk in
  match ra with
  | Some e => (a' ++ b, tra, Some e)
  | None => let '(b', trb, rb) := pc_std expected (idx + length a) b chunk in (a' ++ b', tra ++ trb, rb)
  end.
Proof.
  induction a as [|s0 rest IH]; intros idx; cbn [pc_std app length].
  - rewrite Nat.add_0_r. destruct (pc_std expected idx b chunk) as [[b' trb] rb]. reflexivity.
  - rewrite Nat.add_succ_r, <- Nat.add_succ_l.
    destruct (s_err s0).
    + rewrite IH. destruct (pc_std expected (S idx) rest chunk) as [[a' tra] ra]. destruct ra; [reflexivity|].
      destruct (pc_std expected (S idx + length rest) b chunk) as [[b' trb] rb]. reflexivity.
    + destruct (feed_slot expected idx s0 chunk) as [[s' ev] r]. destruct r; [reflexivity|].
      rewrite IH. destruct (pc_std expected (S idx) rest chunk) as [[a' tra] ra]. destruct ra; [reflexivity|].
      destruct (pc_std expected (S idx + length rest) b chunk) as [[b' trb] rb]. reflexivity.
Qed.

Definition sole_expected (n : str) (i : I) (w : wrapper) : Prop :=
  w_expected w = Some n /\ exists pre post,
    w_slots w = pre ++ {| s_name := n; s_insp := i; s_err := false |} :: post /\
    nonexp (Some n) pre /\ nonexp (Some n) post.

Lemma sole_expected_intro w n pre s post :
  w_expected w = Some n -> w_slots w = pre ++ s :: post -> s_name s = n -> s_err s = false ->
  nonexp (Some n) pre -> nonexp (Some n) post -> sole_expected n (s_insp s) w.
Proof.
  intros He Hsl Hn Herr Hpre Hpost. split; [exact He|]. exists pre, post.
  destruct s as [nm i er]. cbn in Hn, Herr. subst nm er. auto.
Qed.

(* one call on such a wrapper: the inspectors before the expected one are fed and cannot stop the loop; the
   expected one decides; only if it lets the chunk pass are the others fed (they cannot stop the loop either) *)
Lemma w_step_unique n i w c : sole_expected n i w ->
  exists w1 tr1,
    let (i', oe) := eat i c in
    let r := match oe with
             | Some e => Some e
             | None => if complete i' && negb (fmatch i') then Some ImageFormatError else None
             end in
    w_step w (InChunk c) = (w1, tr1, match r with Some e => OutExn e | None => OutChunk c end) /\
    sole_expected n i' w1.
Proof.
  intros (He & pre & post & Hsl & Hpre & Hpost). cbn [Wrap.w_step]. rewrite process_chunk_std, He, Hsl, pc_std_app.
  destruct (pc_std_nonexp _ _ Hpre 0%nat c) as (pre1 & tra & -> & Hnp).
  cbn [pc_std s_err]. unfold feed_slot. cbn [s_name s_insp s_err name_is]. rewrite beq_refl.
  destruct (eat i c) as [i' [e|]]; [|cbn [andb]; destruct (complete i' && negb (fmatch i'))].
  1,2: eexists _, _; split; [reflexivity|]; split; [exact He | exists pre1, post; auto].
  destruct (pc_std_nonexp _ _ Hpost (S (0 + length pre)) c) as (post1 & trb & -> & Hnq).
  eexists _, _. split; [reflexivity|]. split; [exact He | exists pre1, post1; auto].
Qed.

Lemma w_run_stop_cons w inp rest :
  w_run_stop w (inp :: rest) =
  let '(w1, tr1, o) := w_step w inp in
  match o with
  | OutExn e => (w1, tr1, [], Some (e, taken inp), rest)
  | OutChunk c => let '(w2, tr2, cs, stop, unused) := w_run_stop w1 rest in (w2, tr1 ++ tr2, c :: cs, stop, unused)
  | OutNone => let '(w2, tr2, cs, stop, unused) := w_run_stop w1 rest in (w2, tr1 ++ tr2, cs, stop, unused)
  end.
Proof. reflexivity. Qed.

Notation first_abort := (first_abort I eat complete fmatch).

(* The reader feeds chunks cs (then whatever [tl] says) and stops at the first exception.
   [first_abort] of the expected inspector alone decides what happens, whatever the other
   inspectors do. *)
Lemma expected_abort_core n tl : forall cs i w, sole_expected n i w ->
  match first_abort i cs with
  | Some (j, a) => exists w' tr,
      w_run_stop w (map InChunk cs ++ tl) =
        (w', tr, firstn j cs, Some (abort_exn a, Some (nth j cs [])), map InChunk (skipn (S j) cs) ++ tl)
  | None => exists w1 tr1,
      w_run_stop w (map InChunk cs ++ tl) =
        let '(w2, tr2, d2, stop2, un2) := w_run_stop w1 tl in (w2, tr1 ++ tr2, cs ++ d2, stop2, un2)
  end.
Proof.
  induction cs as [|c cs IH]; intros i w Hw; cbn [Wrap.first_abort map app].
  - exists w, []. destruct (w_run_stop w tl) as [[[[w2 tr2] d2] stop2] un2]. reflexivity.
  - rewrite w_run_stop_cons. destruct (w_step_unique n i w c Hw) as (w1 & tr1 & Hstep).
    destruct (eat i c) as [i' [e|]]; [|destruct (complete i' && negb (fmatch i'))];
      cbv zeta in Hstep; destruct Hstep as [-> Hw1].
    1,2: exists w1, tr1; reflexivity.
    specialize (IH i' w1 Hw1). destruct (first_abort i' cs) as [[j a]|].
    + destruct IH as (w' & tr & ->). exists w', (tr1 ++ tr). reflexivity.
    + destruct IH as (w2 & tr2 & ->). exists w2, (tr1 ++ tr2).
      destruct (w_run_stop w2 tl) as [[[[w3 tr3] d3] stop3] un3]. now rewrite app_assoc.
Qed.

(* expected_fault_propagates_at_that_chunk / expected_complete_mismatch_aborts_at_that_chunk,
   in one statement: a reader that stops at the first exception gets exactly the chunks
   before the first chunk at which the expected inspector fails or is complete without
   matching, then that exception; the failing call has taken that chunk (and nothing more)
   from the source; without such a chunk everything is delivered. *)
Theorem expected_abort_exact w n pre s post cs :
  w_expected w = Some n -> w_slots w = pre ++ s :: post -> s_name s = n -> s_err s = false ->
  nonexp (Some n) pre -> nonexp (Some n) post ->
  exists w' tr, w_run_stop w (map InChunk cs) =
    match first_abort (s_insp s) cs with
    | Some (j, a) => (w', tr, firstn j cs, Some (abort_exn a, Some (nth j cs [])), map InChunk (skipn (S j) cs))
    | None => (w', tr, cs, None, [])
    end.
Proof.
  intros He Hsl Hn Herr Hpre Hpost.
  pose proof (expected_abort_core n [] cs _ w (sole_expected_intro _ _ _ _ _ He Hsl Hn Herr Hpre Hpost)) as H.
  rewrite app_nil_r in H. destruct (first_abort (s_insp s) cs) as [[j a]|].
  - rewrite app_nil_r in H. exact H.
  - destruct H as (w1 & tr1 & Hr). cbn in Hr. rewrite !app_nil_r in Hr. eauto.
Qed.

Lemma first_abort_bound i cs j a : first_abort i cs = Some (j, a) -> (j < length cs)%nat.
Proof.
  revert i j. induction cs as [|c cs IH]; intros i j; cbn [Wrap.first_abort length]; [discriminate|].
  destruct (eat i c) as [i' [e|]]; [intros [= <- _]; apply Nat.lt_0_succ|].
  destruct (complete i' && negb (fmatch i')); [intros [= <- _]; apply Nat.lt_0_succ|].
  destruct (first_abort i' cs) as [[k b]|] eqn:Hf; [|discriminate].
  intros [= <- <-]. apply -> Nat.succ_lt_mono. exact (IH _ _ Hf).
Qed.

Lemma w_read_open w s n : f_closed s = false ->
  w_read w s n =
  let c := f_chunk s n in
  let '(w', tr, o) := w_step w (InChunk c) in
  (w', {| f_data := f_data s; f_pos := f_pos s + blen c; f_closed := false |}, tr, InChunk c, o).
Proof. intros Hc. unfold Wrap.w_read, f_read. rewrite Hc. reflexivity. Qed.

Lemma w_read_closed w s n : f_closed s = true ->
  w_read w s n = (w, s, [], InSrcErr ValueError, OutExn ValueError).
Proof. intros Hc. unfold Wrap.w_read, f_read. rewrite Hc. reflexivity. Qed.

(* reads_are_identity for read(size): the bytes delivered (plus the chunk lost in the
   failing call, if the run ended with an exception) are exactly the bytes of the source
   between its position before and after; whatever the inspectors do *)
Theorem reads_are_identity_file : forall sizes w s w' s' tr cs stop,
  run_reads w s sizes = (w', s', tr, cs, stop) ->
  let lost := match stop with Some (_, t) => opt_bytes t | None => [] end in
  f_data s' = f_data s /\
  f_pos s' = f_pos s + blen (concat cs) + blen lost /\
  concat cs ++ lost = bsub (f_pos s) (f_pos s') (f_data s).
Proof.
  clear Hsh.   (* holds for every shape of the loop; keep lia from picking the hypothesis up *)
  induction sizes as [|n rest IH]; intros w s w' s' tr cs stop; cbn [Wrap.run_reads].
  - intros [= <- <- <- <- <-]. cbn. rewrite bsub_same. repeat split. lia.
  - destruct (f_closed s) eqn:Hc.
    + rewrite w_read_closed by assumption. intros [= <- <- <- <- <-]. cbn. rewrite bsub_same. repeat split. lia.
    + rewrite w_read_open by assumption. cbn zeta.
      destruct (w_step w (InChunk (f_chunk s n))) as [[w1 tr1] o] eqn:Hs.
      pose proof (w_step_identity _ _ _ _ _ Hs) as Hid.
      pose proof (f_chunk_is_slice s n) as Hsl.
      destruct o as [c|e|]; [|intros [= <- <- <- <- <-]; cbn; repeat split; [lia | exact Hsl] | discriminate].
      injection Hid as <-.
      destruct (run_reads w1 _ rest) as [[[[w2 s2] tr2] cs2] stop2] eqn:Hr.
      intros [= <- <- <- <- <-]. specialize (IH _ _ _ _ _ _ _ Hr). cbn zeta in IH. cbn [f_data f_pos] in IH.
      destruct IH as (Hd & Hp & Hcat). cbn zeta. cbn [concat]. repeat split; [assumption | rewrite blen_app; lia |].
      rewrite <- app_assoc, Hcat. rewrite Hsl at 1. apply bsub_app; lia.
Qed.

(* the reader's run is the core run on the chunks the file hands out *)
Lemma run_reads_stop : forall sizes w s, f_closed s = false ->
  forall w' s' tr cs stop, run_reads w s sizes = (w', s', tr, cs, stop) ->
  exists unused, w_run_stop w (map InChunk (f_chunks s sizes)) = (w', tr, cs, stop, unused).
Proof.
  induction sizes as [|n rest IH]; intros w s Hc w' s' tr cs stop; cbn [Wrap.run_reads f_chunks map].
  - intros [= <- <- <- <- <-]. exists []. reflexivity.
  - rewrite w_read_open by assumption. cbn zeta. rewrite w_run_stop_cons.
    destruct (w_step w (InChunk (f_chunk s n))) as [[w1 tr1] o] eqn:Hs.
    destruct o as [c|e|]; [|intros [= <- <- <- <- <-]; eauto | apply w_step_identity in Hs; discriminate].
    destruct (run_reads w1 _ rest) as [[[[w2 s2] tr2] cs2] stop2] eqn:Hr.
    intros [= <- <- <- <- <-]. apply IH in Hr; [|reflexivity]. destruct Hr as (un & ->). eauto.
Qed.

Lemma w_next_nil w s : i_chunks s = [] -> w_next w s = (finish_all w, s, [], InStop, OutExn StopIteration).
Proof. intros Hc. unfold Wrap.w_next, i_next. rewrite Hc. reflexivity. Qed.

Lemma w_next_cons w s c r : i_chunks s = c :: r ->
  w_next w s = let '(w', tr, o) := w_step w (InChunk c) in
               (w', {| i_chunks := r; i_has_close := i_has_close s |}, tr, InChunk c, o).
Proof. intros Hc. unfold Wrap.w_next, i_next. rewrite Hc. reflexivity. Qed.

(* reads_are_identity for iteration: chunks delivered, then the chunk lost in a failing
   call (if any), then what is left in the source, are the source's chunks in order *)
Theorem reads_are_identity_iter : forall fuel w s w' s' tr cs stop,
  run_iter fuel w s = (w', s', tr, cs, stop) ->
  i_chunks s = cs ++ (match stop with Some (_, Some c) => [c] | _ => [] end) ++ i_chunks s'.
Proof.
  induction fuel as [|k IH]; intros w s w' s' tr cs stop; cbn [Wrap.run_iter].
  - intros [= <- <- <- <- <-]. reflexivity.
  - destruct (i_chunks s) as [|c r] eqn:Hc.
    + rewrite w_next_nil by assumption. intros [= <- <- <- <- <-]. cbn. now rewrite Hc.
    + rewrite (w_next_cons _ _ _ _ Hc). destruct (w_step w (InChunk c)) as [[w1 tr1] o] eqn:Hs.
      pose proof (w_step_identity _ _ _ _ _ Hs) as Hid.
      destruct o as [c'|e|]; [|intros [= <- <- <- <- <-]; reflexivity | discriminate].
      injection Hid as <-.
      destruct (run_iter k w1 _) as [[[[w2 s2] tr2] cs2] stop2] eqn:Hr.
      intros [= <- <- <- <- <-]. apply IH in Hr. cbn [i_chunks] in Hr. now rewrite Hr.
Qed.

(* [for chunk in wrapper] with enough fuel is the core run on the source's chunks followed
   by StopIteration; it always ends with an exception (StopIteration at the latest) *)
Lemma run_iter_stop : forall chunks fuel w s, i_chunks s = chunks -> (length chunks < fuel)%nat ->
  forall w' s' tr cs stop, run_iter fuel w s = (w', s', tr, cs, stop) ->
  exists unused, w_run_stop w (map InChunk chunks ++ [InStop]) = (w', tr, cs, stop, unused).
Proof.
  clear Hsh. induction chunks as [|c r IH]; intros [|k] w s Hc Hf w' s' tr cs stop; try (cbn in Hf; lia); cbn [Wrap.run_iter map app].
  - rewrite w_next_nil by assumption. intros [= <- <- <- <- <-]. exists []. reflexivity.
  - rewrite (w_next_cons _ _ _ _ Hc), w_run_stop_cons. destruct (w_step w (InChunk c)) as [[w1 tr1] o] eqn:Hs.
    destruct o as [c'|e|]; [|intros [= <- <- <- <- <-]; eauto | apply w_step_identity in Hs; discriminate].
    destruct (run_iter k w1 _) as [[[[w2 s2] tr2] cs2] stop2] eqn:Hr.
    intros [= <- <- <- <- <-]. apply IH in Hr; [|reflexivity|cbn in Hf; lia]. destruct Hr as (un & ->). eauto.
Qed.

Lemma run_iter_S k w s :
  run_iter (S k) w s =
  let '(w1, s1, tr1, inp, o) := w_next w s in
  match o with
  | OutChunk c => let '(w2, s2, tr2, cs, stop) := run_iter k w1 s1 in (w2, s2, tr1 ++ tr2, c :: cs, stop)
  | OutExn e => (w1, s1, tr1, [], Some (e, taken inp))
  | OutNone => (w1, s1, tr1, [], None)
  end.
Proof. reflexivity. Qed.

(* a complete iteration: either it aborts at a chunk, or it delivers every chunk, ends
   with StopIteration and leaves every inspector finished *)
Theorem iteration_complete : forall w s w' s' tr cs stop,
  run_iter (S (length (i_chunks s))) w s = (w', s', tr, cs, stop) ->
  match stop with
  | None => False
  | Some (e, None) => e = StopIteration /\ cs = i_chunks s /\ i_chunks s' = [] /\
                      w_finished w' = true /\ exists w0, w' = finish_all w0
  | Some (e, Some c) => i_chunks s = cs ++ c :: i_chunks s'
  end.
Proof.
  intros w s. remember (i_chunks s) as chunks eqn:Hc. symmetry in Hc. revert w s Hc.
  induction chunks as [|c r IH]; intros w s Hc w' s' tr cs stop; cbn [length]; rewrite run_iter_S.
  - rewrite w_next_nil by assumption. intros [= <- <- <- <- <-]. repeat split; eauto.
  - rewrite (w_next_cons _ _ c r) by assumption. destruct (w_step w (InChunk c)) as [[w1 tr1] o] eqn:Hs.
    pose proof (w_step_identity _ _ _ _ _ Hs) as Hid.
    destruct o as [c'|e|]; [|intros [= <- <- <- <- <-]; reflexivity | discriminate].
    injection Hid as <-.
    destruct (run_iter (S (length r)) w1 _) as [[[[w2 s2] tr2] cs2] stop2] eqn:Hr.
    intros [= <- <- <- <- <-]. apply IH in Hr; [|reflexivity].
    destruct stop2 as [[e [c2|]]|]; [now rewrite Hr | | contradiction].
    destruct Hr as (H1 & -> & H3 & H4 & H5). auto.
Qed.

Lemma w_run_stop_ind' (P : wrapper -> list input -> wrapper -> list eat_ev -> list bytes ->
                          option (exn * option bytes) -> list input -> Prop) :
  (forall w, P w [] w [] [] None []) ->
  (forall w inp rest w1 tr1 e, w_step w inp = (w1, tr1, OutExn e) ->
     P w (inp :: rest) w1 tr1 [] (Some (e, taken inp)) rest) ->
  (forall w inp rest w1 tr1 o w2 tr2 cs stop unused, w_step w inp = (w1, tr1, o) -> (forall e, o <> OutExn e) ->
     P w1 rest w2 tr2 cs stop unused ->
     P w (inp :: rest) w2 (tr1 ++ tr2) (match o with OutChunk c => c :: cs | _ => cs end) stop unused) ->
  forall inps w w' tr cs stop unused, w_run_stop w inps = (w', tr, cs, stop, unused) -> P w inps w' tr cs stop unused.
Proof.
  intros Hnil Hexn Hgo. induction inps as [|inp rest IH]; intros w w' tr cs stop unused.
  - intros [= <- <- <- <- <-]. apply Hnil.
  - rewrite w_run_stop_cons. destruct (w_step w inp) as [[w1 tr1] o] eqn:Hs.
    destruct o as [c|e|]; [|intros [= <- <- <- <- <-]; apply (Hexn _ _ _ _ _ _ Hs)|];
      destruct (w_run_stop w1 rest) as [[[[w2 tr2] cs2] stop2] un2] eqn:Hr; intros [= <- <- <- <- <-];
      apply (Hgo _ _ _ _ _ _ _ _ _ _ _ Hs); (discriminate || exact (IH _ _ _ _ _ _ Hr)).
Qed.

(* no_read_after_abort: the run of a reader that stops at the first exception is a prefix
   of the general run that ends with its first exception; nothing is asked of the source
   (or of any inspector) afterwards *)
Theorem no_read_after_abort : forall inps w w' tr cs stop unused,
  w_run_stop w inps = (w', tr, cs, stop, unused) ->
  exists used recs, inps = used ++ unused /\ w_run w used = (w', recs) /\ run_trace recs = tr /\
    match stop with
    | None => unused = [] /\ Forall (fun r => forall e, sr_out r <> OutExn e) recs
    | Some (e, t) => exists recs0 r, recs = recs0 ++ [r] /\ sr_out r = OutExn e /\ taken (sr_in r) = t /\
                       Forall (fun r => forall e, sr_out r <> OutExn e) recs0
    end.
Proof.
  apply w_run_stop_ind'.
  - intros w. exists [], []. repeat split; constructor.
  - intros w inp rest w1 tr1 e Hs. exists [inp], [{| sr_in := inp; sr_tr := tr1; sr_out := OutExn e |}].
    split; [reflexivity|]. split; [rewrite w_run_cons, Hs; reflexivity|]. split; [apply app_nil_r|].
    exists [], {| sr_in := inp; sr_tr := tr1; sr_out := OutExn e |}. repeat split. constructor.
  - intros w inp rest w1 tr1 o w2 tr2 cs stop unused Hs Ho (used & recs & -> & Hrun & <- & Hst).
    exists (inp :: used), ({| sr_in := inp; sr_tr := tr1; sr_out := o |} :: recs).
    split; [reflexivity|]. split; [rewrite w_run_cons, Hs, Hrun; reflexivity|]. split; [reflexivity|].
    destruct stop as [[e t]|].
    + destruct Hst as (recs0 & r & -> & H2 & H3 & H4).
      exists ({| sr_in := inp; sr_tr := tr1; sr_out := o |} :: recs0), r. repeat split; auto.
    + destruct Hst as (H1 & H2). split; [exact H1|]. constructor; auto.
Qed.

Notation feed := (feed I eat).

(* [feed] flags an inspector as soon as it raises; the loop does so for all but the expected one, whose
   exception leaves the loop instead, with the inspectors after it not fed: the relation holds between the
   slots before and after a pass only if no exception leaves it ([pc_std_full_pass]) *)
Definition fed_with (cs : list bytes) (s s' : slot) : Prop :=
  s_name s' = s_name s /\ (s_insp s', s_err s') = if s_err s then (s_insp s, true) else feed (s_insp s) cs.

Lemma fed_with_errored cs s s' : fed_with cs s s' -> s_err s = true -> s' = s.
Proof. intros [Hn Hf] He. rewrite He in Hf. destruct s, s'. cbn in *. congruence. Qed.

Lemma fed_with_one c s s' : fed_with [c] s s' -> s_err s = false -> exists oe, eat (s_insp s) c = (s_insp s', oe).
Proof.
  intros [_ Hf] He. rewrite He in Hf. cbn [Wrap.feed] in Hf.
  destruct (eat (s_insp s) c) as [i' [e|]]; injection Hf as -> _; eauto.
Qed.

Lemma pc_std_full_pass expected chunk : forall idx ss ss' tr r,
  pc_std expected idx ss chunk = (ss', tr, r) -> r = None -> Forall2 (fed_with [chunk]) ss ss'.
Proof.
  apply (pc_std_pass_ind expected chunk (fun _ ss ss' _ r => r = None -> Forall2 (fed_with [chunk]) ss ss')).
  - constructor.
  - intros idx s rest rest' tr r Herr _ IH Hr. constructor; [|exact (IH Hr)]. unfold fed_with. now rewrite Herr.
  - discriminate.
  - intros idx s rest s' ev rest' tr r Herr Hf _ IH Hr. constructor; [|exact (IH Hr)].
    unfold fed_with. rewrite Herr. cbn [Wrap.feed].
    destruct (feed_slot_spec _ _ _ _ _ _ _ Hf) as (Hn & _ & _ & _ & -> & _ & Hne & Hee & Hnone).
    split; [exact Hn|]. destruct (ev_exn ev) as [e1|] eqn:Hx.
    + destruct (name_is (s_name s) expected) eqn:Hnx.
      * destruct (Hee e1 eq_refl eq_refl) as (_ & Hbad). discriminate.
      * now destruct (Hne e1 eq_refl eq_refl) as (-> & _).
    + destruct (Hnone eq_refl) as (-> & _). now rewrite Herr.
Qed.

Lemma w_run_stop_delivered_ind (P : wrapper -> list bytes -> wrapper -> Prop) :
  (forall w, P w [] w) ->
  (forall w c cs w1 tr1 w2, w_step w (InChunk c) = (w1, tr1, OutChunk c) -> P w1 cs w2 -> P w (c :: cs) w2) ->
  forall cs w w' tr unused, w_run_stop w (map InChunk cs) = (w', tr, cs, None, unused) -> P w cs w'.
Proof.
  intros Hnil Hcons. induction cs as [|c cs IH]; intros w w' tr unused; cbn [map].
  - intros [= <- _ _]. apply Hnil.
  - rewrite w_run_stop_cons. destruct (w_step w (InChunk c)) as [[w1 tr1] o] eqn:Hs.
    pose proof (w_step_identity _ _ _ _ _ Hs) as Hid.
    destruct o as [c'|e|]; [injection Hid as <-|discriminate..].
    destruct (w_run_stop w1 (map InChunk cs)) as [[[[w2 tr2] cs2] stop2] un2] eqn:Hr.
    intros [= <- _ -> -> _]. apply (Hcons _ _ _ _ _ _ Hs), (IH _ _ _ _ Hr).
Qed.

(* after a run in which every chunk was delivered, every slot holds the state reached by feeding its
   inspector the chunks up to its first exception and is errored iff it raised - unless it was errored
   before, in which case it has not been touched *)
Lemma wrapper_slots_fed : forall cs w w' tr unused,
  w_run_stop w (map InChunk cs) = (w', tr, cs, None, unused) -> Forall2 (fed_with cs) (w_slots w) (w_slots w').
Proof.
  apply w_run_stop_delivered_ind.
  - intros w. apply Forall2_diag. intros s. unfold fed_with. cbn [Wrap.feed]. destruct (s_err s) eqn:He; rewrite <- ?He; auto.
  - intros w c cs w1 tr1 w2 Hs IH. cbn [Wrap.w_step] in Hs. rewrite process_chunk_std in Hs.
    destruct (pc_std (w_expected w) 0 (w_slots w) c) as [[ss t] [e|]] eqn:Hp; [discriminate|]. injection Hs as <- _.
    eapply Forall2_compose; [|apply (pc_std_full_pass _ _ _ _ _ _ _ Hp eq_refl)|exact IH].
    unfold fed_with. cbn [Wrap.feed]. intros s s1 s2 [Hn1 H1] [Hn2 H2]. split; [congruence|]. rewrite H2.
    destruct (s_err s); [injection H1 as -> ->; reflexivity|].
    destruct (eat (s_insp s) c) as [i' [e|]]; injection H1 as -> ->; reflexivity.
Qed.

End WrapProofs.

Section FormatProofs.
Variable I : Type.
Variable complete : I -> bool.
Variable fmatch : I -> bool.
Variable raw_nr raw_r : str.

Notation slot := (slot I).
Notation wrapper := (wrapper I).
Notation non_raw := (non_raw I raw_nr).
Notation is_raw := (is_raw I raw_r).
Notation all_complete := (all_complete I complete raw_nr).
Notation matches := (matches I fmatch raw_nr).
Notation formats := (formats I complete fmatch raw_nr raw_r).
Notation format := (format I complete fmatch raw_nr raw_r).

(* a decision has been reached: every non-raw inspector is complete, or EOF was signalled *)
Definition decided (w : wrapper) : bool := all_complete w || w_finished w.

Lemma formats_none w : formats w = None <-> decided w = false.
Proof.
  unfold Wrap.formats, decided. destruct (all_complete w), (w_finished w); cbn;
    try (destruct (matches w)); split; intros; try discriminate; reflexivity.
Qed.

Lemma formats_some w : decided w = true ->
  formats w = Some (match matches w with [] => filter is_raw (w_slots w) | ms => ms end).
Proof.
  unfold Wrap.formats, decided. intros H.
  destruct (all_complete w), (w_finished w); cbn in *; try discriminate; destruct (matches w); reflexivity.
Qed.

(* formats_total: format returns or raises ImageFormatError, nothing else *)
Theorem format_total w : (exists r, format w = Ok r) \/ format w = Exn ImageFormatError.
Proof.
  unfold Wrap.format. destruct (formats w) as [ms|]; [|left; eauto].
  destruct (1 <? length ms)%nat; [right; reflexivity|]. destruct ms; [right; reflexivity|left; eauto].
Qed.

Lemma format_spec w :
  format w =
  if decided w then
    match matches w with
    | [m] => Ok (Some m)
    | _ :: _ :: _ => Exn ImageFormatError
    | [] => match filter is_raw (w_slots w) with [m] => Ok (Some m) | _ => Exn ImageFormatError end
    end
  else Ok None.
Proof.
  unfold Wrap.format. destruct (decided w) eqn:Hd.
  - rewrite (formats_some w Hd). destruct (matches w) as [|m [|m2 ms]]; cbn; try reflexivity.
    destruct (filter is_raw (w_slots w)) as [|r [|r2 rs]]; reflexivity.
  - apply formats_none in Hd. now rewrite Hd.
Qed.

Theorem format_some_implies_unique_match w m : format w = Ok (Some m) ->
  decided w = true /\
  (matches w = [m] \/ (matches w = [] /\ filter is_raw (w_slots w) = [m])).
Proof.
  rewrite format_spec. intros Hx. destruct (decided w); [|discriminate]. split; [reflexivity|].
  destruct (matches w) as [|m1 [|m2 ms]].
  - destruct (filter is_raw (w_slots w)) as [|r [|r2 rs]]; inversion Hx. auto.
  - inversion Hx. auto.
  - inversion Hx.
Qed.

Theorem two_matches_raise w : decided w = true -> (1 < length (matches w))%nat ->
  format w = Exn ImageFormatError.
Proof.
  intros Hd Hl. rewrite format_spec, Hd. destruct (matches w) as [|m1 [|m2 ms]]; cbn in Hl; try lia. reflexivity.
Qed.

Lemma two_positions_two_matches w a b l1 l2 l3 :
  non_raw w = l1 ++ a :: l2 ++ b :: l3 -> fmatch (s_insp a) = true -> fmatch (s_insp b) = true ->
  (1 < length (matches w))%nat.
Proof.
  intros Hn Ha Hb. unfold Wrap.matches. rewrite Hn. rewrite filter_app. cbn [filter]. rewrite Ha.
  rewrite filter_app. cbn [filter]. rewrite Hb. rewrite !app_length. cbn [length]. rewrite app_length. cbn [length]. lia.
Qed.

Hypothesis Hraw : raw_nr = raw_r.

Lemma matches_not_raw w m : In m (matches w) -> is_raw m = false /\ fmatch (s_insp m) = true /\ In m (w_slots w).
Proof.
  unfold Wrap.matches, Wrap.non_raw. intros H. apply filter_In in H. destruct H as (H1 & H2).
  apply filter_In in H1. destruct H1 as (H0 & H1). unfold Wrap.is_raw_nr in H1. unfold Wrap.is_raw. rewrite <- Hraw.
  destruct (beq (s_name m) raw_nr); [discriminate|]. auto.
Qed.

Theorem raw_only_when_nothing_matches_and_allowed w m : format w = Ok (Some m) -> is_raw m = true ->
  matches w = [] /\ In m (w_slots w) /\ decided w = true.
Proof.
  intros Hf Hr. destruct (format_some_implies_unique_match w m Hf) as (Hd & [Hm|(Hm & Hrs)]).
  - exfalso. destruct (matches_not_raw w m) as (H1 & _); [rewrite Hm; left; reflexivity|]. congruence.
  - repeat split; auto. assert (In m (filter is_raw (w_slots w))) as Hi by (rewrite Hrs; left; reflexivity).
    apply filter_In in Hi. tauto.
Qed.

Theorem raw_never_with_others w ms : formats w = Some ms -> (exists m, In m ms /\ is_raw m = true) ->
  matches w = [] /\ Forall (fun m => is_raw m = true) ms.
Proof.
  intros Hf (m & Hin & Hr).
  assert (Hd : decided w = true).
  { destruct (decided w) eqn:Hd; [reflexivity|]. apply formats_none in Hd. congruence. }
  rewrite (formats_some w Hd) in Hf.
  destruct (matches w) as [|m1 ms1] eqn:Hm; inversion Hf as [Hms]; clear Hf.
  - split; [reflexivity|]. apply Forall_forall. intros x Hx. apply filter_In in Hx. tauto.
  - exfalso. destruct (matches_not_raw w m) as (H1 & _); [rewrite Hm, Hms; exact Hin|]. congruence.
Qed.

Theorem format_in_slots w m : format w = Ok (Some m) -> In m (w_slots w).
Proof.
  intros Hf. destruct (format_some_implies_unique_match w m Hf) as (_ & [Hm|(_ & Hrs)]).
  - apply (matches_not_raw w m). rewrite Hm. left; reflexivity.
  - assert (In m (filter is_raw (w_slots w))) as Hi by (rewrite Hrs; left; reflexivity).
    apply filter_In in Hi. tauto.
Qed.

(* without a raw inspector (allowed_formats without 'raw') and nothing matching: ImageFormatError *)
Theorem no_raw_no_match_raises w : decided w = true -> matches w = [] ->
  (forall s, In s (w_slots w) -> is_raw s = false) -> format w = Exn ImageFormatError.
Proof.
  intros Hd Hm Hno. rewrite format_spec, Hd, Hm.
  assert (filter is_raw (w_slots w) = []) as ->; [|reflexivity].
  induction (w_slots w) as [|s l IH]; [reflexivity|]. cbn [filter]. rewrite (Hno s (or_introl eq_refl)).
  apply IH. intros x Hx. apply Hno. now right.
Qed.

End FormatProofs.

Section InitProofs.
Variable I : Type.

Lemma mk_slots_names (factory : list (str * I)) allowed :
  map (@s_name I) (mk_slots I factory allowed) = filter (allowed_key allowed) (map fst factory).
Proof.
  unfold mk_slots. rewrite map_map. cbn [s_name].
  induction factory as [|p l IH]; [reflexivity|]. cbn [filter map]. destruct (allowed_key allowed (fst p)); cbn [map]; now rewrite IH.
Qed.

Lemma mk_slots_fresh (factory : list (str * I)) allowed s :
  In s (mk_slots I factory allowed) -> s_err s = false /\ In (s_name s, s_insp s) factory.
Proof.
  unfold mk_slots. intros H. apply in_map_iff in H. destruct H as (p & <- & Hp). apply filter_In in Hp.
  cbn. destruct p; cbn in *. tauto.
Qed.

(* allowed_formats_respected: with a non-empty allow-list every inspector of the wrapper
   carries an allowed name; None and [] allow everything *)
Theorem allowed_formats_respected (factory : list (str * I)) expected allowed s :
  In s (w_slots (mk_wrapper I factory expected allowed)) ->
  allowed <> [] -> In (s_name s) allowed.
Proof.
  cbn [mk_wrapper w_slots]. intros Hin Hne.
  assert (In (s_name s) (map (@s_name I) (mk_slots I factory allowed))) as Hn by now apply in_map.
  rewrite mk_slots_names in Hn. apply filter_In in Hn. destruct Hn as (_ & Hk).
  unfold allowed_key in Hk. destruct allowed as [|a l]; [congruence|].
  unfold memb in Hk. apply existsb_exists in Hk. destruct Hk as (x & Hx & Hb). apply beq_eq in Hb. now subst.
Qed.

(* with distinct names, the inspector carrying a given name splits the collection as the
   exact-abort theorems require *)
Lemma unique_name_split (ss : list (slot I)) s n :
  NoDup (map (@s_name I) ss) -> In s ss -> s_name s = n ->
  exists pre post, ss = pre ++ s :: post /\ nonexp I (Some n) pre /\ nonexp I (Some n) post.
Proof.
  intros Hnd Hin Hn. apply in_split in Hin. destruct Hin as (pre & post & ->). exists pre, post.
  split; [reflexivity|]. rewrite map_app in Hnd. cbn [map] in Hnd.
  assert (Hne : forall x, In x pre \/ In x post -> name_is (s_name x) (Some n) = false).
  { intros x Hx. cbn. destruct (beq (s_name x) n) eqn:Hb; [|reflexivity]. exfalso. apply beq_eq in Hb.
    apply NoDup_remove_2 in Hnd. apply Hnd. rewrite Hn, <- Hb. apply in_or_app.
    destruct Hx as [Hx|Hx]; [left|right]; now apply in_map. }
  split; apply Forall_forall; intros x Hx; apply Hne; auto.
Qed.

End InitProofs.

Section FreshProofs.
Variable I : Type.
Variable eat : I -> bytes -> I * option exn.
Variable finish : I -> I.
Variable complete : I -> bool.
Variable fmatch : I -> bool.
Variable sh : pc_shape.
Hypothesis Hsh : shape_okb sh = true.

(* InspectWrapper(source, expected_format=n, allowed_formats=allowed) over a table with
   distinct names in which n is present and allowed: the exact-abort theorem applies, with
   the fresh instance i0 of the expected format *)
Theorem expected_abort_exact_fresh (factory : list (str * I)) allowed n i0 cs :
  NoDup (map fst factory) -> In (n, i0) factory -> allowed_key allowed n = true ->
  exists w' tr,
    w_run_stop I eat finish complete fmatch sh (mk_wrapper I factory (Some n) allowed) (map InChunk cs) =
    match first_abort I eat complete fmatch i0 cs with
    | Some (j, a) => (w', tr, firstn j cs, Some (abort_exn a, Some (nth j cs [])), map InChunk (skipn (S j) cs))
    | None => (w', tr, cs, None, [])
    end.
Proof.
  intros Hnd Hin Hal.
  set (s := {| s_name := n; s_insp := i0; s_err := false |}).
  assert (Hs : In s (mk_slots I factory allowed)).
  { unfold mk_slots. apply in_map_iff. exists (n, i0). split; [reflexivity|]. apply filter_In. auto. }
  assert (Hnd' : NoDup (map (@s_name I) (mk_slots I factory allowed))).
  { rewrite mk_slots_names. apply NoDup_filter. exact Hnd. }
  destruct (unique_name_split I _ s n Hnd' Hs eq_refl) as (pre & post & Hsplit & Hpre & Hpost).
  exact (expected_abort_exact I eat finish complete fmatch sh Hsh (mk_wrapper I factory (Some n) allowed)
           n pre s post cs eq_refl Hsplit eq_refl eq_refl Hpre Hpost).
Qed.

End FreshProofs.

Section DetectProofs.
Variable I : Type.
Variable eat : I -> bytes -> I * option exn.
Variable finish : I -> I.
Variable complete : I -> bool.
Variable fmatch : I -> bool.
Variable sh : pc_shape.
Hypothesis Hsh : shape_okb sh = true.
Variable raw_nr raw_r : str.

Notation format_name := (format_name I complete fmatch raw_nr raw_r).
Notation detect_loop := (detect_loop I eat finish complete fmatch sh raw_nr raw_r).
Notation detect_file_format := (detect_file_format I eat finish complete fmatch sh raw_nr raw_r).

Lemma format_name_cases w :
  (exists nm, format_name w = Ok (Some nm)) \/ format_name w = Exn ImageFormatError \/
  (format_name w = Ok None /\ decided I complete raw_nr w = false).
Proof.
  unfold Wrap.format_name. rewrite format_spec. destruct (decided I complete raw_nr w); [|auto].
  destruct (matches I fmatch raw_nr w) as [|m [|m2 ms]]; eauto.
  destruct (filter (is_raw I raw_r) (w_slots w)) as [|r [|r2 rs]]; eauto.
Qed.

Lemma f_chunk_nil_eof s cs : (0 < cs)%Z -> f_chunk s cs = [] -> blen (f_data s) <= f_pos s.
Proof.
  intros Hcs H. apply (f_equal blen) in H. unfold f_chunk in H.
  destruct (cs <? 0)%Z eqn:Hn; [lia|]. rewrite blen_btake, blen_bskip in H. cbn in H. lia.
Qed.

Lemma f_chunk_len s cs : (0 < cs)%Z -> blen (f_chunk s cs) <= blen (f_data s) - f_pos s.
Proof.
  intros Hcs. unfold f_chunk. destruct (cs <? 0)%Z; [rewrite blen_bskip; lia|].
  rewrite blen_btake, blen_bskip. lia.
Qed.

(* the read loop with expected_format=None on an open file: reads never raise; the only
   exception is ImageFormatError from wrapper.format; leaving the loop without a result
   means EOF was reached (the fuel S (bytes left) is never exhausted) *)
Lemma detect_loop_spec : forall fuel cs w s, w_expected w = None -> f_closed s = false ->
  forall w' s' tr r, detect_loop fuel cs w s = (w', s', tr, r) ->
  w_expected w' = None /\ f_closed s' = false /\ f_data s' = f_data s /\ f_pos s <= f_pos s' /\
  match r with
  | Some (Exn e) => e = ImageFormatError
  | Some (Ok None) => False
  | Some (Ok (Some _)) => True
  | None => (0 < cs)%Z -> (N.to_nat (blen (f_data s) - f_pos s) < fuel)%nat -> blen (f_data s) <= f_pos s'
  end.
Proof.
  induction fuel as [|k IH]; intros cs w s He Hc w' s' tr r; cbn [Wrap.detect_loop].
  - intros H; inversion H; subst. repeat split; auto; try lia.
  - rewrite (w_read_open I eat finish complete fmatch sh) by assumption. cbn zeta.
    destruct (Wrap.w_step I eat finish complete fmatch sh w (InChunk (f_chunk s cs))) as [[w1 tr1] o] eqn:Hs.
    assert (Ho : o = OutChunk (f_chunk s cs)).
    { apply (w_step_no_expected I eat finish complete fmatch sh Hsh w _ w1 tr1 o); [intros x _; now rewrite He | exact Hs]. }
    pose proof (w_step_expected I eat finish complete fmatch sh Hsh _ _ _ _ _ Hs) as He1. rewrite He in He1.
    subst o. destruct (f_chunk s cs) as [|x t] eqn:Hch.
    + intros H; inversion H; subst. cbn [f_pos f_data f_closed]. repeat split; auto; try (cbn; lia).
      intros Hcs _. cbn [blen length]. pose proof (f_chunk_nil_eof s cs Hcs Hch). cbn. lia.
    + destruct (format_name_cases w1) as [(nm & Hf)|[Hf|(Hf & _)]]; rewrite Hf.
      * intros H; inversion H; subst. cbn [f_pos f_data f_closed]. repeat split; auto. lia.
      * intros H; inversion H; subst. cbn [f_pos f_data f_closed]. repeat split; auto. lia.
      * destruct (detect_loop k cs w1 _) as [[[w2 s2] tr2] r2] eqn:Hr.
        intros H; inversion H; subst.
        apply IH in Hr; [|assumption|reflexivity]. cbn [f_pos f_data f_closed] in Hr.
        destruct Hr as (H1 & H2 & H3 & H4 & H5). repeat split; auto; try lia.
        destruct r as [[[nm|]|e]|]; auto.
        intros Hcs Hfuel. apply H5; [assumption|].
        pose proof (f_chunk_len s cs Hcs) as Hl. rewrite Hch in Hl.
        assert (1 <= blen (x :: t)) by (rewrite blen_cons; lia). lia.
Qed.

(* detect_file_format_total: on every file content the function returns the NAME of an
   inspector or raises ImageFormatError; never None, never another exception; the file is
   closed and every inspector finished afterwards *)
Theorem detect_file_format_total cs (factory : list (str * I)) data : (0 < cs)%Z ->
  let '(w, s, tr, r) := detect_file_format cs factory data in
  ((exists nm, r = Ok (Some nm)) \/ r = Exn ImageFormatError) /\
  f_closed s = true /\ w_finished w = true /\ f_data s = data.
Proof.
  intros Hcs. unfold Wrap.detect_file_format.
  destruct (detect_loop _ cs _ _) as [[[w1 s1] tr1] r1] eqn:Hr.
  apply detect_loop_spec in Hr; [|reflexivity|reflexivity]. cbn [f_pos f_data f_closed] in Hr.
  destruct Hr as (H1 & H2 & H3 & H4 & H5). cbn [w_close_f].
  destruct r1 as [[[nm|]|e]|]; cbn [f_close f_closed f_data w_finished Wrap.finish_all].
  - repeat split; eauto.
  - contradiction.
  - subst e. repeat split; auto.
  - repeat split; auto.
    destruct (format_name_cases (Wrap.finish_all I finish w1)) as [(nm & Hf)|[Hf|(_ & Hd)]]; eauto.
    unfold decided in Hd. cbn [w_finished Wrap.finish_all] in Hd. rewrite orb_true_r in Hd. discriminate.
Qed.

End DetectProofs.
