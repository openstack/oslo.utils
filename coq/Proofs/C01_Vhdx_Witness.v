(* Proofs/C01_Vhdx_Witness.v — concrete streams: a well-formed image lies outside both zones; inside
   each zone there are two chunkings of the same bytes with different verdicts (findings F2, F4). *)
Require Import OV.Base.Bytes OV.Base.Py OV.Base.Insp_Struct OV.Gen.Insp_Consts OV.Model.Insp_Engine.
Require Import OV.Model.Insp_Vhdx OV.Model.Insp_All OV.Model.C01_Vhdx.
Require Import OV.Proofs.C01_Vhdx_Tables OV.Proofs.C01_Vhdx.
Open Scope N_scope.

(* the unrestricted statement (no zone hypotheses) — false for the code that exists *)
Definition vhdx_full_statement : Prop :=
  forall cs1 cs2, concat cs1 = concat cs2 -> verdict_of (run F_vhdx cs1) = verdict_of (run F_vhdx cs2).

Lemma cut_concat k (b : bytes) : concat [b] = concat [ntake k b; nskip k b].
Proof. cbn [concat]. rewrite !app_nil_r, ntake_btake, nskip_bskip. symmetry. apply btake_bskip_app. Qed.

(* The builders of Model/C01_Vhdx.v, left to right.  The images below are a few hundred bytes of tables in
   a few hundred KiB of zeros: what the specification and the inspector read of them is found by slicing the
   layout, and only the tables themselves are evaluated. *)
Lemma blen_zeros n : blen (vx_zeros n) = n.
Proof.
  assert (H : forall k, length (repeatN 0 k) = k) by (induction k; cbn [repeatN length]; congruence).
  unfold vx_zeros, blen. rewrite H. apply N2Nat.id.
Qed.

Lemma blen_pad n b : blen (vx_pad n b) = N.max n (blen b).
Proof. unfold vx_pad. rewrite blen_app, blen_zeros. lia. Qed.

Lemma pad_app n a x : vx_pad n (a ++ x) = a ++ vx_pad (n - blen a) x.
Proof. unfold vx_pad. rewrite <- app_assoc, blen_app. do 3 f_equal. lia. Qed.

Lemma ident_of_pad n x : prefixb VHDX_MAGIC (bslice 0 VX_IDENT_LEN (vx_pad n VHDX_MAGIC ++ x)) = true.
Proof.
  unfold vx_pad, bslice. rewrite bskip_0, <- app_assoc, prefixb_btake_le by (vm_compute; discriminate).
  apply prefixb_app.
Qed.

(* what is read of such an image: its length, the ident, the region table, everything from mo on — and, when
   the size item lies 64 KiB into the metadata region, the padded metadata table and the item *)
Lemma vx_image_reads rp mp sig mo io il payload tail :
  16 + 32 * le_val (bslice 8 4 (vx_rt rp mo)) <= blen (vx_rt rp mo) -> blen (vx_rt rp mo) <= VX_HDR_LEN -> VX_HDR_END <= mo ->
  let b := vx_image rp mp sig mo io il payload tail in
  let t := vx_mt mp sig io il in
  let m := vx_pad io t ++ payload ++ vx_zeros tail in
  blen b = mo + blen m /\ VX_HDR_END <= blen b /\
  prefixb VHDX_MAGIC (bslice 0 VX_IDENT_LEN b) = true /\
  vx_region_table (bslice VX_HDR_OFF VX_HDR_LEN b) = vx_region_table (vx_rt rp mo) /\
  (forall o l, bslice (mo + o) l b = bslice o l m) /\
  (io = VX_META_LEN -> blen t <= io -> bslice mo VX_META_LEN b = vx_pad io t /\ bslice (mo + io) (blen payload) b = payload).
Proof.
  intros Hcnt Hrt Hmo b t m. subst b. unfold vx_image.
  (* left to right: ident, zeros, region table at 192 KiB padded to 64 KiB, zeros up to mo, then m *)
  set (A0 := vx_pad VX_HDR_OFF VHDX_MAGIC). set (R := vx_pad VX_HDR_LEN (vx_rt rp mo)).
  assert (H0 : blen A0 = VX_HDR_OFF) by (subst A0; rewrite blen_pad; reflexivity).
  assert (HR : blen R = VX_HDR_LEN) by (subst R; rewrite blen_pad; lia).
  rewrite (pad_app VX_HDR_END), H0. change (VX_HDR_END - VX_HDR_OFF) with VX_HDR_LEN. fold R.
  change (vx_pad mo (A0 ++ R)) with ((A0 ++ R) ++ vx_zeros (mo - blen (A0 ++ R))).
  rewrite (blen_app A0 R), H0, HR. change (VX_HDR_OFF + VX_HDR_LEN) with VX_HDR_END.
  set (P := (A0 ++ R) ++ vx_zeros (mo - VX_HDR_END)).
  assert (HP : blen P = mo).
  { subst P. rewrite !blen_app, H0, HR, blen_zeros. unfold VX_HDR_END, VX_HDR_OFF, VX_HDR_LEN in *. lia. }
  rewrite (pad_app (mo + io)), HP. replace (mo + io - mo) with io by lia. rewrite <- app_assoc. fold t m.
  assert (Hm : forall o l, bslice (mo + o) l (P ++ m) = bslice o l m) by (intros o l; rewrite <- HP at 1; apply bslice_app_ge).
  split; [rewrite blen_app, HP; reflexivity|]. split; [rewrite blen_app, HP; lia|]. split; [|split; [|split]].
  - subst P A0. rewrite <- !app_assoc. apply ident_of_pad.
  - subst P. rewrite <- !app_assoc, <- H0, <- HR, bslice_seg. subst R. unfold vx_pad. apply region_table_app. exact Hcnt.
  - exact Hm.
  - intros -> Ht. assert (HT : blen (vx_pad VX_META_LEN t) = VX_META_LEN) by (rewrite blen_pad; lia). split.
    + pose proof (Hm 0 VX_META_LEN) as E. rewrite N.add_0_r in E. rewrite E. subst m. rewrite <- HT at 1. apply (bslice_seg []).
    + rewrite Hm. subst m. rewrite <- HT at 1. apply bslice_seg.
Qed.

Lemma padded_table n t :
  32 <= blen t -> vx_entries_size t <= blen t -> blen t <= n ->
  vx_meta_table (vx_pad n t) = vx_meta_table t /\ vx_entries_size (vx_pad n t) = vx_entries_size t /\
  bslice 0 8 (vx_pad n t) = bslice 0 8 t /\ blen (vx_pad n t) = n.
Proof.
  intros H32 Hes Hn. rewrite blen_pad. unfold vx_pad.
  rewrite meta_table_app, entries_size_prefix, bslice_app_le by lia. repeat split. lia.
Qed.

(* ---- a well-formed image, builder style: 2 foreign region entries, 3 foreign metadata entries,
   metadata at 260 KiB, the size item 64 KiB into the metadata region ---- *)
Definition wf_image : bytes := vx_image 2 3 VHDX_META_SIG 266240 65536 8 (le_enc 8 4294967297) 4096.

Lemma wf_image_reads :
  VX_HDR_END <= blen wf_image /\ prefixb VHDX_MAGIC (bslice 0 VX_IDENT_LEN wf_image) = true /\
  vx_region_table (bslice VX_HDR_OFF VX_HDR_LEN wf_image) = Ok (Some 266240) /\
  bslice 266240 VX_META_LEN wf_image = vx_pad 65536 (vx_mt 3 VHDX_META_SIG 65536 8) /\
  bslice (266240 + 65536) 8 wf_image = le_enc 8 4294967297.
Proof.
  unfold wf_image.
  destruct (vx_image_reads 2 3 VHDX_META_SIG 266240 65536 8 (le_enc 8 4294967297) 4096) as (_ & Hlen & Hid & Hrt & _ & Hfar);
    [vm_compute; discriminate ..|].
  destruct Hfar as [Hm Hv]; [reflexivity | vm_compute; discriminate |].
  split; [exact Hlen|]. split; [exact Hid|]. split; [rewrite Hrt; vm_compute; reflexivity|]. split; [exact Hm | exact Hv].
Qed.
Lemma wf_table :
  let t := vx_mt 3 VHDX_META_SIG 65536 8 in
  vx_meta_table (vx_pad 65536 t) = Ok (Some (65536, 8)) /\ vx_entries_size (vx_pad 65536 t) = 160 /\
  bslice 0 8 (vx_pad 65536 t) = VHDX_META_SIG /\ blen (vx_pad 65536 t) = 65536.
Proof.
  intros t. destruct (padded_table 65536 t) as (H1 & H2 & H3 & H4); [vm_compute; discriminate ..|].
  rewrite H1, H2, H3, H4. repeat split; vm_compute; reflexivity.
Qed.

Lemma wf_image_outside : zone_vhdx_backptr wf_image = false /\ zone_vhdx_metasig wf_image = false.
Proof.
  destruct wf_image_reads as (_ & _ & Hrt & Hm & _). destruct wf_table as (Hmt & Hes & Hsig & Hl).
  rewrite zone_backptr_eq, zone_metasig_eq, Hrt, Hm, Hmt, Hes, Hsig, Hl. split; apply andb_false_r.
Qed.

(* vx_image_back: ident, zeros up to mo, metadata table padded to io, payload, zeros up to 192 KiB, region
   table padded to 64 KiB, tail *)
Lemma vx_image_back_reads mo io il payload tail :
  io = VX_META_LEN ->
  blen VHDX_MAGIC <= mo -> blen (vx_mt 0 VHDX_META_SIG io il) <= io -> mo + io + blen payload <= VX_HDR_OFF ->
  16 + 32 * le_val (bslice 8 4 (vx_rt 0 mo)) <= blen (vx_rt 0 mo) -> blen (vx_rt 0 mo) <= VX_HDR_LEN ->
  let b := vx_image_back mo io il payload tail in
  blen b = VX_HDR_END + tail /\ prefixb VHDX_MAGIC (bslice 0 VX_IDENT_LEN b) = true /\
  vx_region_table (bslice VX_HDR_OFF VX_HDR_LEN b) = vx_region_table (vx_rt 0 mo) /\
  bslice mo VX_META_LEN b = vx_pad io (vx_mt 0 VHDX_META_SIG io il) /\
  bslice (mo + io) (blen payload) b = payload.
Proof.
  intros Hio Hmagic Hmt Hp Hcnt Hrt b. subst b. unfold vx_image_back.
  set (B0 := vx_pad mo VHDX_MAGIC). set (M := vx_pad io (vx_mt 0 VHDX_META_SIG io il)).
  set (Z := vx_zeros (VX_HDR_OFF - (mo + io) - blen payload)). set (R := vx_pad VX_HDR_LEN (vx_rt 0 mo)).
  assert (H0 : blen B0 = mo) by (subst B0; rewrite blen_pad; lia).
  assert (HM : blen M = io) by (subst M; rewrite blen_pad; lia).
  assert (HZ : blen Z = VX_HDR_OFF - (mo + io) - blen payload) by apply blen_zeros.
  assert (HR : blen R = VX_HDR_LEN) by (subst R; rewrite blen_pad; lia).
  rewrite (pad_app (mo + io)), H0. replace (mo + io - mo) with io by lia. fold M.
  rewrite (pad_app VX_HDR_OFF), (blen_app B0 M), H0, HM.
  change (vx_pad (VX_HDR_OFF - (mo + io)) payload) with (payload ++ Z).
  assert (H2 : blen ((B0 ++ M) ++ payload ++ Z) = VX_HDR_OFF) by (rewrite !blen_app, H0, HM, HZ; lia).
  rewrite (pad_app VX_HDR_END), H2. change (VX_HDR_END - VX_HDR_OFF) with VX_HDR_LEN. fold R. rewrite <- !app_assoc.
  split; [|split; [|split; [|split]]].
  - rewrite !blen_app, H0, HM, HZ, HR, blen_zeros. unfold VX_HDR_END, VX_HDR_OFF, VX_HDR_LEN in *. lia.
  - apply ident_of_pad.
  - pose proof (bslice_seg (B0 ++ M ++ payload ++ Z) R (vx_zeros tail)) as E.
    rewrite !blen_app, H0, HM, HZ, HR in E. replace (mo + (io + (blen payload + (VX_HDR_OFF - (mo + io) - blen payload)))) with VX_HDR_OFF in E by lia.
    rewrite <- !app_assoc in E. rewrite E. subst R. unfold vx_pad. apply region_table_app. exact Hcnt.
  - rewrite <- Hio, <- H0, <- HM at 1. apply bslice_seg.
  - pose proof (bslice_seg (B0 ++ M) payload (Z ++ R ++ vx_zeros tail)) as E.
    rewrite blen_app, H0, HM, <- app_assoc in E. exact E.
Qed.

(* ---- F2, first kind: the metadata region lies BEFORE the region table (offset 100000 < 256 KiB) ---- *)
Definition back_meta_image : bytes := vx_image_back 100000 65536 8 (le_enc 8 77) 16.
Definition back_meta_cs1 : list bytes := [back_meta_image].
Definition back_meta_cs2 : list bytes := [ntake 200000 back_meta_image; nskip 200000 back_meta_image].

Lemma back_meta_witness :
  concat back_meta_cs1 = concat back_meta_cs2 /\
  zone_vhdx_backptr (concat back_meta_cs1) = true /\ zone_vhdx_metasig (concat back_meta_cs1) = false /\
  verdict_of (run F_vhdx back_meta_cs1) = mkVerdict None (Ok true) true (Ok 77%Z) Pass /\
  verdict_of (run F_vhdx back_meta_cs2) = mkVerdict None (Ok true) false (Ok 0%Z) Refused.
Proof.
  unfold back_meta_cs1, back_meta_cs2. split; [exact (cut_concat 200000 back_meta_image)|].
  cbn [concat]. rewrite app_nil_r, ntake_btake, nskip_bskip. unfold back_meta_image.
  destruct (vx_image_back_reads 100000 65536 8 (le_enc 8 77) 16) as (Hlen & Hid & Hrt & Hm & Hv);
    [reflexivity | vm_compute; discriminate ..|].
  set (b := vx_image_back _ _ _ _ _) in *. clearbody b. change (blen (le_enc 8 77)) with 8 in Hv.
  assert (Hl : VX_HDR_END <= blen b) by lia. set (t := vx_mt 0 VHDX_META_SIG 65536 8) in *.
  assert (Rt : vx_region_table (vx_rt 0 100000) = Ok (Some 100000)) by (vm_compute; reflexivity). rewrite Rt in Hrt.
  destruct (padded_table 65536 t) as (T1 & _ & T3 & T4); [vm_compute; discriminate ..|].
  assert (Mt : vx_meta_table t = Ok (Some (65536, 8))) by (vm_compute; reflexivity). rewrite Mt in T1.
  split; [|split; [|split]].
  - rewrite zone_backptr_eq, Hrt, (proj2 (N.leb_le _ _) Hl). reflexivity.
  - rewrite zone_metasig_eq, Hrt, Hm, T3, T4, (proj2 (N.leb_le _ _) Hl). vm_compute. reflexivity.
  - rewrite vhdx_one_chunk, vhdx_spec_eq, (proj2 (N.ltb_ge _ _) Hl), Hrt, Hm, T1. cbv zeta. rewrite Hv.
    unfold vx_verdict'. rewrite Hid. reflexivity.
  - rewrite (backptr_meta_two_chunks b 200000 100000); [|reflexivity | exact Hl | exact Hrt | reflexivity].
    unfold vx_verdict'. rewrite Hid. reflexivity.
Qed.

(* ---- F2, second kind: the size item lies inside the entry table (item offset 40 < 32 + 32*1) ---- *)
Definition back_item_image : bytes := vx_image 0 0 VHDX_META_SIG 266240 40 8 [] 64.
Definition back_item_cs1 : list bytes := [back_item_image].
Definition back_item_cs2 : list bytes := [ntake 266290 back_item_image; nskip 266290 back_item_image].

Lemma back_item_witness :
  concat back_item_cs1 = concat back_item_cs2 /\
  zone_vhdx_backptr (concat back_item_cs1) = true /\ zone_vhdx_metasig (concat back_item_cs1) = false /\
  v_complete (verdict_of (run F_vhdx back_item_cs1)) = true /\
  v_complete (verdict_of (run F_vhdx back_item_cs2)) = false.
Proof.
  unfold back_item_cs1, back_item_cs2. split; [exact (cut_concat 266290 back_item_image)|].
  cbn [concat]. rewrite app_nil_r, ntake_btake, nskip_bskip. unfold back_item_image.
  destruct (vx_image_reads 0 0 VHDX_META_SIG 266240 40 8 [] 64) as (Hlen & Hl & _ & Hrt & Hm & _); [vm_compute; discriminate ..|].
  set (b := vx_image _ _ _ _ _ _ _ _) in *. clearbody b.
  (* all that follows the metadata offset: the 64-byte table and 64 zeros *)
  set (m := vx_pad 40 (vx_mt 0 VHDX_META_SIG 40 8) ++ [] ++ vx_zeros 64) in *.
  assert (Bm : blen m = 128) by (vm_compute; reflexivity). rewrite Bm in Hlen.
  assert (Rt : vx_region_table (vx_rt 0 266240) = Ok (Some 266240)) by (vm_compute; reflexivity). rewrite Rt in Hrt.
  specialize (Hm 0 VX_META_LEN). rewrite N.add_0_r in Hm.
  assert (Hmt : vx_meta_table (bslice 266240 VX_META_LEN b) = Ok (Some (40, 8))) by (rewrite Hm; vm_compute; reflexivity).
  split; [|split; [|split]].
  - rewrite zone_backptr_eq, Hrt, Hmt, Hm, (proj2 (N.leb_le _ _) Hl). vm_compute. reflexivity.
  - rewrite zone_metasig_eq, Hrt, Hm, (proj2 (N.leb_le _ _) Hl). vm_compute. reflexivity.
  - rewrite vhdx_one_chunk, vhdx_spec_eq, (proj2 (N.ltb_ge _ _) Hl), Hrt, Hmt. cbv zeta. unfold vx_verdict'. cbn [v_complete].
    rewrite blen_bslice, Hlen. vm_compute. reflexivity.
  - apply (backptr_item_two_chunks b 266290 266240 40 8); try assumption.
    + vm_compute; discriminate.
    + rewrite bslice_of_btake, Hm. vm_compute. reflexivity.
    + reflexivity.
    + rewrite Hlen. vm_compute; discriminate.
    + discriminate.
Qed.

(* ---- F4: 64 KiB of metadata region without the 'metadata' signature ---- *)
Definition bad_sig_image : bytes := vx_image 0 0 [109;101;116;97;100;97;116;98] 266240 65536 8 (le_enc 8 77) 16.
Definition bad_sig_cs1 : list bytes := [bad_sig_image].
Definition bad_sig_cs2 : list bytes := [ntake 270336 bad_sig_image; nskip 270336 bad_sig_image].

Lemma bad_sig_witness :
  concat bad_sig_cs1 = concat bad_sig_cs2 /\
  zone_vhdx_backptr (concat bad_sig_cs1) = false /\ zone_vhdx_metasig (concat bad_sig_cs1) = true /\
  verdict_of (run F_vhdx bad_sig_cs1) = mkVerdict (Some ImageFormatError) (Ok true) true (Ok 0%Z) Pass /\
  verdict_of (run F_vhdx bad_sig_cs2) = mkVerdict (Some ImageFormatError) (Ok true) false (Ok 0%Z) Refused.
Proof.
  unfold bad_sig_cs1, bad_sig_cs2. split; [exact (cut_concat 270336 bad_sig_image)|].
  cbn [concat]. rewrite app_nil_r, ntake_btake, nskip_bskip. unfold bad_sig_image.
  destruct (vx_image_reads 0 0 [109;101;116;97;100;97;116;98] 266240 65536 8 (le_enc 8 77) 16) as (_ & Hlen & Hid & Hrt & _ & Hfar);
    [vm_compute; discriminate ..|].
  destruct Hfar as [Hm _]; [reflexivity | vm_compute; discriminate |].
  set (b := vx_image _ _ _ _ _ _ _ _) in *. clearbody b. set (t := vx_mt 0 _ 65536 8) in *.
  assert (Rt : vx_region_table (vx_rt 0 266240) = Ok (Some 266240)) by (vm_compute; reflexivity). rewrite Rt in Hrt.
  destruct (padded_table 65536 t) as (T1 & _ & T3 & T4); [vm_compute; discriminate ..|].
  assert (Mt : vx_meta_table t = Exn ImageFormatError) by (vm_compute; reflexivity). rewrite Mt in T1.
  split; [|split; [|split]].
  - rewrite zone_backptr_eq, Hrt, Hm, T1. apply andb_false_r.
  - rewrite zone_metasig_eq, Hrt, Hm, T3, T4, (proj2 (N.leb_le _ _) Hlen). vm_compute. reflexivity.
  - rewrite vhdx_one_chunk, vhdx_spec_eq, (proj2 (N.ltb_ge _ _) Hlen), Hrt, Hm, T1, T4. unfold vx_verdict'. rewrite Hid. reflexivity.
  - (* the first chunk ends 4 KiB into the metadata region: the table's error is raised with the region incomplete *)
    assert (V : vhdx_spec (btake 270336 b) = mkVerdict (Some ImageFormatError) (Ok true) false (Ok 0%Z) Refused).
    { assert (Hl1 : VX_HDR_END <= blen (btake 270336 b)) by (rewrite blen_btake; apply N.min_glb; [vm_compute; discriminate | exact Hlen]).
      assert (M1 : vx_meta_table (btake (270336 - 266240) (vx_pad 65536 t)) = Exn ImageFormatError).
      { unfold vx_pad. rewrite btake_app_ge by (vm_compute; discriminate).
        rewrite meta_table_app by (vm_compute; discriminate). exact Mt. }
      rewrite vhdx_spec_eq, (proj2 (N.ltb_ge _ _) Hl1), bslice_btake_in, Hrt by (vm_compute; discriminate).
      rewrite bslice_of_btake, Hm, M1. unfold vx_verdict'. rewrite bslice_btake_in, Hid by (vm_compute; discriminate).
      rewrite blen_btake, T4. reflexivity. }
    rewrite raising_first_chunk; [exact V | rewrite V; discriminate].
Qed.
