(* Proofs/C02_Checks.v — the registered checks of every inspector in every reachable state;
   the gate at the interface level; null-check formats. *)
Require Import OV.Base.Bytes OV.Base.Py OV.Base.Insp_Struct OV.Gen.Insp_Consts OV.Model.Insp_Engine.
Require Import OV.Model.Insp_Raw OV.Model.Insp_Qcow2 OV.Model.Insp_Qed OV.Model.Insp_Vhd OV.Model.Insp_Vdi
               OV.Model.Insp_Iso OV.Model.Insp_Gpt OV.Model.Insp_Luks OV.Model.Insp_Vhdx OV.Model.Insp_Vmdk OV.Model.Insp_All.
Require Import OV.Proofs.Insp_All OV.Model.C02 OV.Proofs.C02_Engine.
Open Scope N_scope.

Lemma new_region_checks {X} n sp (s : ist X) : i_checks (fst (new_region n sp s)) = i_checks s.
Proof. unfold new_region. destruct (has_region n s); reflexivity. Qed.
Lemma delete_region_checks {X} n (s : ist X) : i_checks (fst (delete_region n s)) = i_checks s.
Proof. unfold delete_region. destruct (has_region n s); reflexivity. Qed.
Lemma add_check_extends {X} c (s : ist X) : extends (i_checks s) (i_checks (fst (add_check c s))).
Proof. unfold add_check. destruct (mem_cname c (i_checks s)); [apply extends_refl|]. exists [c]. reflexivity. Qed.

(* ---------- post_process / region_complete of the ten formats ---------- *)
Lemma qcow_rcomplete_checks n s : i_checks (fst (qcow_rcomplete n s)) = i_checks s.
Proof.
  unfold qcow_rcomplete. destruct (get_region R_header s); [|reflexivity].
  destruct (unpack _ _); [|reflexivity].
  match goal with |- context [qcow_match ?x] => destruct (qcow_match x) as [[|]|] end; reflexivity.
Qed.

Lemma vhdx_find_meta_entry_checks g s : i_checks (fst (vhdx_find_meta_entry g s)) = i_checks s.
Proof.
  unfold vhdx_find_meta_entry. destruct (get_region R_metadata s); [|reflexivity].
  destruct (flen _ <? _); [reflexivity|]. destruct (unpack _ _); [|reflexivity].
  destruct (negb _); [reflexivity|]. destruct (flen _ <? _); [reflexivity|]. destruct (_ <=? _); [reflexivity|].
  destruct (vhdx_mt_loop _ _ _) as [[[? ?]|]|]; reflexivity.
Qed.

Lemma vhdx_post_checks s : i_checks (fst (vhdx_post s)) = i_checks s.
Proof.
  unfold vhdx_post. destruct (get_region R_header s); [|reflexivity].
  destruct (rcomplete _ && _).
  - destruct (vhdx_find_meta_region s) as [[sp|]|]; try reflexivity. apply new_region_checks.
  - destruct (has_region R_metadata s && _); [|reflexivity].
    pose proof (vhdx_find_meta_entry_checks VHDX_GUID_VIRTUAL_DISK_SIZE s) as H.
    destruct (vhdx_find_meta_entry VHDX_GUID_VIRTUAL_DISK_SIZE s) as [s' [[sp|]|]]; cbn [fst] in *; try exact H.
    rewrite new_region_checks. exact H.
Qed.

Lemma vmdk_post_extends s : extends (i_checks s) (i_checks (fst (vmdk_post s))).
Proof.
  unfold vmdk_post. destruct (rget R_header (i_regs s)); [|apply extends_refl].
  destruct (negb (rcomplete r)); [apply extends_refl|].
  destruct (vmdk_parse_sparse s R_header 0) as [[[[[sig ver] dsec] dnum] gd]|]; [|apply extends_refl].
  destruct (negb (beq sig VMDK_MAGIC_PP)).
  { destruct (forallb ascii_text (r_data r)); [|apply extends_refl]. rewrite delete_region_checks. apply extends_refl. }
  destruct (negb _); [apply extends_refl|].
  (* the footer step *)
  assert (Hstep : forall s1 e1,
            (if (gd =? VMDK_GD_AT_END) && negb (has_region R_footer s)
             then match new_region R_footer (mkRspec true VMDK_FOOTER_LEN VMDK_FOOTER_LEN None) s with
                  | (s', Some e) => (s', Some e) | (s', None) => add_check K_footer s' end
             else (s, None)) = (s1, e1) -> extends (i_checks s) (i_checks s1)).
  { intros s1 e1. destruct ((gd =? VMDK_GD_AT_END) && negb (has_region R_footer s)).
    - pose proof (new_region_checks R_footer (mkRspec true VMDK_FOOTER_LEN VMDK_FOOTER_LEN None) s) as Hn.
      destruct (new_region R_footer _ s) as [s' [e|]]; cbn [fst] in Hn.
      + intros H. injection H as <- _. rewrite Hn. apply extends_refl.
      + intros H. pose proof (add_check_extends K_footer s') as Ha. rewrite H in Ha. cbn [fst] in Ha. rewrite <- Hn. exact Ha.
    - intros H. injection H as <- _. apply extends_refl. }
  destruct (if (gd =? VMDK_GD_AT_END) && negb (has_region R_footer s) then _ else _) as [s1 e1] eqn:E.
  specialize (Hstep s1 e1 eq_refl).
  destruct e1 as [e|]; [exact Hstep|].
  destruct (negb (dsec * VMDK_SECTOR_A =? VMDK_DESC_OFFSET)); [exact Hstep|].
  destruct (get_region R_descriptor s1) as [d|]; [|exact Hstep].
  destruct (r_off d =? 0); [|exact Hstep].
  pose proof (delete_region_checks R_descriptor s1) as Hd.
  destruct (delete_region R_descriptor s1) as [s2 [e|]]; cbn [fst] in Hd |- *; [rewrite Hd; exact Hstep|].
  rewrite new_region_checks, Hd. exact Hstep.
Qed.

Lemma vmdk_rcomplete_checks n s : i_checks (fst (vmdk_rcomplete n s)) = i_checks s.
Proof.
  unfold vmdk_rcomplete. destruct n; try reflexivity.
  unfold vmdk_parse_descriptor. destruct (get_region R_descriptor s); [|reflexivity].
  destruct (negb _); reflexivity.
Qed.

Lemma eq_extends a b : a = b -> extends b a -> True. Proof. trivial. Qed.

Lemma ufmt_post_checks f s : i_checks (fst (f_post (ufmt f) s)) = i_checks s.
Proof. destruct f; try reflexivity. apply vhdx_post_checks. Qed.
Lemma ufmt_rcomplete_checks f n s : i_checks (fst (f_rcomplete (ufmt f) n s)) = i_checks s.
Proof. destruct f; reflexivity. Qed.

(* the formats whose checks never change: exactly the initial list *)
Theorem checks_fixed f cs : f <> F_vmdk -> checks_of (fst (Insp_All.run f cs)) = init_checks f.
Proof.
  intros Hv. assert (Hq : f = F_qcow2 \/ f <> F_qcow2 /\ f_id (ufmt f) = f).
  { destruct f; try contradiction; try (right; split; [discriminate|reflexivity]). left. reflexivity. }
  destruct Hq as [->|[Hq Hid]].
  - rewrite run_qcow_fmt.
    pose proof (run_fmt_R qcow_fmt (fun a b => b = a) (fun l => eq_refl) (fun a b c H1 H2 => eq_trans H2 H1)
                  (fun s => eq_refl) qcow_rcomplete_checks cs) as H.
    destruct (run_fmt qcow_fmt cs) as [s e]. exact H.
  - rewrite run_unit_fmt by assumption.
    pose proof (run_fmt_R (ufmt f) (fun a b => b = a) (fun l => eq_refl) (fun a b c H1 H2 => eq_trans H2 H1)
                  (ufmt_post_checks f) (ufmt_rcomplete_checks f) cs) as H.
    destruct (run_fmt (ufmt f) cs) as [s e]. rewrite Hid in H. exact H.
Qed.

Theorem checks_of_run f cs : extends (init_checks f) (checks_of (fst (Insp_All.run f cs))).
Proof.
  assert (Hv : f = F_vmdk \/ f <> F_vmdk) by (destruct f; (left; reflexivity) || (right; discriminate)).
  destruct Hv as [->|Hv]; [|rewrite checks_fixed by exact Hv; apply extends_refl].
  rewrite run_vmdk_fmt.
  pose proof (run_fmt_R vmdk_fmt extends extends_refl extends_trans vmdk_post_extends
                (fun n s => eq_ind_r (extends (i_checks s)) (extends_refl _) (vmdk_rcomplete_checks n s)) cs) as H.
  destruct (run_fmt vmdk_fmt cs) as [s e]. exact H.
Qed.

(* ---------- the gate, at the interface level (any inspector object, reachable or not) ---------- *)
Theorem safety_pass_implies_gate i :
  safety i = Pass <->
  Insp_All.complete i = true /\ format_match i = Ok true /\ forall c, In c (checks_of i) -> check_of i c = Ok tt.
Proof. destruct i; apply safety_pass_iff. Qed.

Theorem check_exception_is_failure i c e :
  In c (checks_of i) -> check_of i c = Exn e -> safety i <> Pass.
Proof. destruct i; apply check_exception_fails. Qed.

Theorem check_exception_named i c e :
  Insp_All.complete i = true -> format_match i = Ok true -> In c (checks_of i) -> check_of i c = Exn e ->
  exists names, safety i = Fail names /\ In c names.
Proof. destruct i; apply check_exception_reported. Qed.

(* whatever exception class: SafetyCheck.__call__ turns it into SafetyViolation, never into a pass *)
Theorem call_check_never_passes_exception e : call_check (Exn e) = Exn SafetyViolation.
Proof. destruct e; reflexivity. Qed.

Theorem incomplete_never_passes i : Insp_All.complete i = false -> safety i = Refused.
Proof. destruct i; apply safety_incomplete_refused. Qed.
Theorem mismatch_never_passes i : format_match i = Ok false -> safety i = Refused.
Proof. destruct i; apply safety_mismatch_refused. Qed.

(* ---------- null-check formats: vhd, vhdx, vdi, iso, raw ---------- *)
Definition null_fmt (f : fmt_id) : bool := match f with F_vhd | F_vhdx | F_vdi | F_iso | F_raw => true | _ => false end.

Theorem null_check_formats_pass_iff f cs : null_fmt f = true ->
  let i := fst (Insp_All.run f cs) in
  safety i = Pass <-> Insp_All.complete i = true /\ format_match i = Ok true.
Proof.
  intros Hf i. rewrite safety_pass_implies_gate.
  assert (Hc : checks_of i = [K_null]).
  { subst i. rewrite checks_fixed by (destruct f; discriminate). destruct f; try discriminate; reflexivity. }
  split; [intros [H1 [H2 _]]; split; assumption|]. intros [H1 H2]. split; [exact H1|]. split; [exact H2|].
  intros c Hin. rewrite Hc in Hin. destruct Hin as [<-|[]].
  subst i. rewrite run_unit_fmt by (destruct f; discriminate). destruct (run_fmt (ufmt f) cs) as [s e]. cbn [fst check_of].
  destruct f; try discriminate; reflexivity.
Qed.
