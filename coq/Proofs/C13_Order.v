(* Proofs/C13_Order.v — the order-dependent clauses of C13, generically:
   (1) under [comp_facts] (Z and binary64 satisfy it): never negative, <= a non-negative maximum,
       leftover >= 0, expired <-> elapsed > duration;
   (2) under [clock_facts] on a good monotone clock: the clock distance is non-negative (so elapsed is
       max(0, now - started) with nothing to clamp but a zero), split elapsed values never decrease;
   (3) in every totally ordered abelian group: (1), (2) hold and the exact clauses: elapsed = now - started_at,
       = stopped_at - started_at, split lengths = successive differences. *)
From Coq Require Import List Bool Lia Sorting.Sorted PeanoNat.
Require Import OV.Base.Bytes OV.Base.Py OV.Base.C13_Types OV.Model.C13 OV.Model.C13_Order OV.Proofs.C13.
Import ListNotations.

Lemma monotone_uptob_spec {T} (leb : T -> T -> bool) clk n : monotone_uptob leb clk n = true <-> monotone_upto leb clk n.
Proof.
  unfold monotone_uptob, monotone_upto. rewrite forallb_forall. split.
  - intros H i Hi. apply H, in_seq. lia.
  - intros H i Hi. apply in_seq in Hi. apply H. lia.
Qed.

Section Comp.
Variable T : Type.
Variable N : num T.
Variable leb : T -> T -> bool.
Variable ok : T -> Prop.
Hypothesis CF : comp_facts N leb ok.
Variable clk : nat -> T.

Notation zero := (n_zero N).

Lemma pos0_ok e : pos0 T N e -> ok e.
Proof. intros [->|H]; [apply (cf_ok_zero _ _ _ CF)|apply (cf_gt_ok _ _ _ CF _ _ H)]. Qed.

Lemma pos0_nonneg e : pos0 T N e -> leb zero e = true.
Proof.
  intros [->|H]; [apply (cf_le_refl _ _ _ CF), (cf_ok_zero _ _ _ CF)|apply (cf_gt_le _ _ _ CF), H].
Qed.

(* a zero-or-positive value is not negative: e < 0 is false *)
Lemma pos0_not_neg e : pos0 T N e -> n_gtb N zero e = false.
Proof.
  intro H. destruct (n_gtb N zero e) eqn:E; [|reflexivity].
  apply (cf_gt_not_le _ _ _ CF) in E. rewrite (pos0_nonneg e H) in E. discriminate.
Qed.

Lemma elapsed_nonneg w t m c e : elapsed N clk w t m = (c, Ok e) -> leb zero e = true /\ ok e.
Proof. intro H. apply elapsed_pos0 in H. split; [apply pos0_nonneg, H|apply pos0_ok, H]. Qed.

Lemma max0_le m : ok m -> leb zero m = true -> leb (max0 N m) m = true.
Proof.
  intros Hm H0. destruct (max0_cases T N m) as [[_ ->]|[_ ->]]; [apply (cf_le_refl _ _ _ CF), Hm|exact H0].
Qed.

Lemma clamp_max_le m e : ok e -> ok m -> leb zero m = true -> leb (clamp_max N (Some m) e) m = true.
Proof.
  intros He Hm H0. destruct (clamp_max_cases T N m e) as [[H ->]|[H ->]].
  - apply (cf_not_gt_le _ _ _ CF); assumption.
  - apply max0_le; assumption.
Qed.

(* elapsed(maximum) never exceeds a comparable, non-negative maximum *)
Lemma elapsed_max_le w t m c e :
  elapsed N clk w t (Some m) = (c, Ok e) -> ok m -> leb zero m = true -> leb e m = true.
Proof.
  intros H Hm H0. destruct (elapsed_max T N clk w t m c e H) as (e0 & HE & ->).
  apply clamp_max_le; [|exact Hm|exact H0]. apply pos0_ok. eapply elapsed_pos0, HE.
Qed.

Lemma leftover_nonneg w t rn c z :
  leftover N clk w t rn = (c, Ok (Some z)) -> leb zero z = true /\ ok z.
Proof.
  intro H. apply leftover_pos0 in H. split; [apply pos0_nonneg, H|apply pos0_ok, H].
Qed.

(* expired <-> elapsed > duration <-> not (elapsed <= duration) *)
Lemma expired_iff w t d c e :
  w_state w <> SNone -> w_duration w = Some d -> elapsed N clk w t None = (c, Ok e) ->
  exists b, expired N clk w t = (c, Ok b) /\ b = n_gtb N e d /\ (ok d -> (b = true <-> leb e d = false)).
Proof.
  intros HS HD HE. pose proof (expired_spec T N clk w t HS) as H. rewrite HD in H. rewrite (H c e HE).
  eexists. split; [reflexivity|]. split; [reflexivity|]. intro Hd. split.
  - apply (cf_gt_not_le _ _ _ CF).
  - intro Hl. destruct (n_gtb N e d) eqn:E; [reflexivity|].
    rewrite (cf_not_gt_le _ _ _ CF e d) in Hl; [discriminate| |exact Hd|exact E].
    apply pos0_ok. eapply elapsed_pos0, HE.
Qed.

Lemma history_numbers_nonneg duration w0 ops :
  init N duration = Ok w0 ->
  Forall (fun cr => forall z, snd cr = Ok (VNum z) -> leb zero z = true /\ ok z) (trace N clk ops w0 0%nat).
Proof.
  intro Hi. eapply Forall_impl; [|apply (history_numbers_pos0 T N clk duration w0 ops Hi)].
  cbn. intros cr H z Hz. split; [apply pos0_nonneg|apply pos0_ok]; apply H, Hz.
Qed.

Lemma max0_mono x y : leb x y = true -> leb (max0 N x) (max0 N y) = true.
Proof.
  intro H. destruct (max0_cases T N x) as [[Hx ->]|[Hx ->]], (max0_cases T N y) as [[Hy ->]|[Hy ->]].
  - exact H.
  - rewrite (cf_lt_le_trans0 _ _ _ CF _ _ Hx H) in Hy. discriminate.
  - apply (cf_gt_le _ _ _ CF), Hy.
  - apply (cf_le_refl _ _ _ CF), (cf_ok_zero _ _ _ CF).
Qed.

Variable okc : T -> Prop.
Variable sub_ok : T -> T -> Prop.
Hypothesis KF : clock_facts N leb okc sub_ok.

Lemma monotone_le n : clock_ok okc sub_ok clk n -> monotone_upto leb clk n ->
  forall i j, (i <= j < n)%nat -> leb (clk i) (clk j) = true.
Proof.
  intros [Hok _] H i j [Hij Hj]. induction j as [|j IH].
  - assert (i = 0%nat) by lia. subst. apply (kf_le_refl _ _ _ _ KF), Hok. lia.
  - destruct (Nat.eq_dec i (S j)) as [->|Hne]; [apply (kf_le_refl _ _ _ _ KF), Hok; lia|].
    apply (kf_le_trans _ _ _ _ KF) with (b := clk j); try (apply Hok; lia); [apply IH; lia|apply H; lia].
Qed.

(* under a good monotone clock the distance from an earlier to a later reading is not negative *)
Lemma distance_nonneg n i j : clock_ok okc sub_ok clk n -> monotone_upto leb clk n -> (i <= j < n)%nat ->
  leb zero (n_sub N (clk j) (clk i)) = true.
Proof.
  intros HC HM Hij. pose proof (monotone_le n HC HM i j Hij) as Hle. destruct HC as [Hok Hsub].
  apply (kf_sub_nonneg _ _ _ _ KF); [apply Hok; lia|apply Hok; lia|apply Hsub; lia|exact Hle].
Qed.

(* later readings give larger elapsed values *)
Lemma delta_mono n i k k' : clock_ok okc sub_ok clk n -> monotone_upto leb clk n -> (i <= k)%nat -> (k <= k' < n)%nat ->
  leb (delta N (clk i) (clk k)) (delta N (clk i) (clk k')) = true.
Proof.
  intros HC HM Hik Hk. pose proof (monotone_le n HC HM k k' Hk) as Hle. destruct HC as [Hok Hsub].
  unfold delta. apply max0_mono. apply (kf_sub_mono _ _ _ _ KF); try (apply Hok; lia); try (apply Hsub; lia). exact Hle.
Qed.

Lemma sorted_elapsed i t ks :
  clock_ok okc sub_ok clk t -> monotone_upto leb clk t -> ticks_ok i t ks ->
  StronglySorted (fun a b => leb a b = true) (map (fun k => delta N (clk i) (clk k)) ks).
Proof.
  intros HC HM [Hs Hf]. induction Hs as [|a r Hs IH Ha]; [constructor|].
  inversion Hf as [|? ? Hat Hr]; subst. cbn [map]. constructor; [apply IH, Hr|].
  rewrite Forall_map. rewrite Forall_forall in *. intros k Hk.
  specialize (Ha k Hk). specialize (Hr k Hk). apply (delta_mono t); try assumption; lia.
Qed.

(* monotone clock => the elapsed values of the splits never decrease *)
Lemma splits_sorted w t :
  reachable N clk (w, t) -> clock_ok okc sub_ok clk t -> monotone_upto leb clk t ->
  StronglySorted (fun a b => leb a b = true) (map sp_elapsed (w_splits w)).
Proof.
  intros HR HC HM. destruct (splits_are_built T N clk w t HR) as [->|(i & ks & _ & _ & Hk & ->)]; [constructor|].
  rewrite build_elapsed. apply (sorted_elapsed i t); assumption.
Qed.

(* monotone clock => while running, now - started_at is not negative: elapsed = max(0.0, now - started_at) has
   nothing to clamp but a zero *)
Lemma running_distance_nonneg w t :
  reachable N clk (w, t) -> w_state w = SStarted -> clock_ok okc sub_ok clk (S t) -> monotone_upto leb clk (S t) ->
  exists s, w_started w = Some s /\ leb zero (n_sub N (clk t) s) = true /\
            forall m, elapsed N clk w t m = ((w, S t), Ok (clamp_max N m (max0 N (n_sub N (clk t) s)))).
Proof.
  intros HR HS HC HM. destruct (elapsed_running T N clk w t HR HS) as (i & Hi & Hst & HE).
  exists (clk i). split; [exact Hst|]. split; [apply (distance_nonneg (S t)); try assumption; lia|exact HE].
Qed.

Lemma stopped_distance_nonneg w t :
  reachable N clk (w, t) -> w_state w = SStopped -> clock_ok okc sub_ok clk t -> monotone_upto leb clk t ->
  exists s p, w_started w = Some s /\ w_stopped w = Some p /\ leb zero (n_sub N p s) = true /\
              forall m, elapsed N clk w t m = ((w, t), Ok (clamp_max N m (max0 N (n_sub N p s)))).
Proof.
  intros HR HS HC HM. destruct (elapsed_stopped T N clk w t HR HS) as (i & j & Hij & Hst & Hsp & HE).
  exists (clk i), (clk j). split; [exact Hst|]. split; [exact Hsp|].
  split; [apply (distance_nonneg t); try assumption; lia|exact HE].
Qed.

End Comp.

Section Group.
Variable T : Type.
Variable zero : T.
Variable add : T -> T -> T.
Variable opp : T -> T.
Variable le : T -> T -> Prop.
Variable N : num T.
Hypothesis OG : ordered_group zero add opp le N.
Variable clk : nat -> T.

(* <= as the operations compute it *)
Definition g_leb (a b : T) : bool := negb (n_gtb N a b).
Notation sub := (n_sub N).
Definition anyT (x : T) : Prop := True.
Definition any2 (x y : T) : Prop := True.

Lemma g_leb_le a b : g_leb a b = true <-> le a b.
Proof.
  unfold g_leb. rewrite <- (og_gtb _ _ _ _ _ OG). destruct (n_gtb N a b); cbn; split; congruence.
Qed.

Lemma g_leb_zero x : g_leb (n_zero N) x = true -> le zero x.
Proof. intro H. apply g_leb_le in H. rewrite (og_zero _ _ _ _ _ OG) in H. exact H. Qed.

Lemma gtb_nle a b : n_gtb N a b = true <-> ~ le a b.
Proof.
  rewrite <- (og_gtb _ _ _ _ _ OG). destruct (n_gtb N a b); split; congruence.
Qed.

Lemma nle_le a b : ~ le a b -> le b a.
Proof. intro H. destruct (og_le_total _ _ _ _ _ OG a b); tauto. Qed.

Lemma opp_zero : opp zero = zero.
Proof.
  pose proof (og_add_opp _ _ _ _ _ OG zero) as H.
  rewrite (og_add_comm _ _ _ _ _ OG), (og_add_zero _ _ _ _ _ OG) in H. exact H.
Qed.

Lemma sub_self a : sub a a = zero.
Proof. rewrite (og_sub _ _ _ _ _ OG). apply (og_add_opp _ _ _ _ _ OG). Qed.

Lemma sub_zero a : sub a zero = a.
Proof. rewrite (og_sub _ _ _ _ _ OG), opp_zero. apply (og_add_zero _ _ _ _ _ OG). Qed.

Lemma sub_le_mono a b s : le a b -> le (sub a s) (sub b s).
Proof. intro H. rewrite !(og_sub _ _ _ _ _ OG). apply (og_add_le _ _ _ _ _ OG), H. Qed.

Lemma le_sub_nonneg a b : le a b -> le zero (sub b a).
Proof. intro H. rewrite <- (sub_self a). apply sub_le_mono, H. Qed.

Lemma group_comp_facts : comp_facts N g_leb anyT.
Proof.
  constructor; unfold anyT; auto.
  - intros a _. apply g_leb_le, (og_le_refl _ _ _ _ _ OG).
  - intros a b _ _ H. unfold g_leb. rewrite H. reflexivity.
  - intros a b H. unfold g_leb. rewrite H. reflexivity.
  - intros a b H. apply g_leb_le, nle_le, gtb_nle, H.
  - intros x y Hx Hxy. apply gtb_nle. apply gtb_nle in Hx. apply g_leb_le in Hxy.
    rewrite (og_zero _ _ _ _ _ OG) in *. intro Hy. apply Hx. eapply (og_le_trans _ _ _ _ _ OG); eassumption.
Qed.

Lemma group_clock_facts : clock_facts N g_leb anyT any2.
Proof.
  constructor.
  - intros a _. apply g_leb_le, (og_le_refl _ _ _ _ _ OG).
  - intros a b c _ _ _ H1 H2. apply g_leb_le. apply g_leb_le in H1, H2. eapply (og_le_trans _ _ _ _ _ OG); eassumption.
  - intros a b s _ _ _ _ _ H. apply g_leb_le, sub_le_mono, g_leb_le, H.
  - intros a b _ _ _ H. apply g_leb_le. rewrite (og_zero _ _ _ _ _ OG). apply le_sub_nonneg, g_leb_le, H.
Qed.

Lemma any_clock_ok n : clock_ok anyT any2 clk n.
Proof. split; intros; exact I. Qed.

Ltac solve_facts :=
  first [apply group_comp_facts | apply group_clock_facts | apply any_clock_ok | eassumption | exact I | lia].

(* max(0, x) = x for x >= 0 *)
Lemma max0_id x : le zero x -> max0 N x = x.
Proof.
  intro H. destruct (max0_cases T N x) as [[_ ->]|[Hx ->]]; [reflexivity|].
  rewrite (og_zero _ _ _ _ _ OG) in *. apply (og_gtb _ _ _ _ _ OG) in Hx.
  apply (og_le_antisym _ _ _ _ _ OG); assumption.
Qed.

Lemma le_max0 x : le x (max0 N x).
Proof.
  destruct (max0_cases T N x) as [[_ ->]|[Hx ->]]; [apply (og_le_refl _ _ _ _ _ OG)|].
  rewrite (og_zero _ _ _ _ _ OG) in *. apply (og_gtb _ _ _ _ _ OG), Hx.
Qed.

Lemma max0_nonneg x : le zero (max0 N x).
Proof.
  apply g_leb_zero. eapply pos0_nonneg; [solve_facts|apply max0_pos0].
Qed.

Lemma delta_exact a b : le a b -> delta N a b = sub b a.
Proof. intro H. apply max0_id, le_sub_nonneg, H. Qed.

(* elapsed is never negative *)
Lemma g_elapsed_nonneg w t m c e : elapsed N clk w t m = (c, Ok e) -> le zero e.
Proof.
  intro H. eapply elapsed_nonneg in H; [|apply group_comp_facts]. apply g_leb_zero, H.
Qed.

(* while running under a monotonic clock: exactly now - started_at *)
Lemma g_elapsed_running w t :
  reachable N clk (w, t) -> w_state w = SStarted ->
  exists s, w_started w = Some s /\
    (forall m, elapsed N clk w t m = ((w, S t), Ok (clamp_max N m (max0 N (sub (clk t) s))))) /\
    (monotone_upto g_leb clk (S t) -> le zero (sub (clk t) s) /\ elapsed N clk w t None = ((w, S t), Ok (sub (clk t) s))).
Proof.
  intros HR HS. destruct (elapsed_running T N clk w t HR HS) as (i & Hi & Hst & HE).
  exists (clk i). split; [exact Hst|]. split; [exact HE|]. intro HM.
  assert (HL : le zero (sub (clk t) (clk i))) by (apply g_leb_zero; eapply distance_nonneg with (n := S t); solve_facts).
  split; [exact HL|]. rewrite HE. unfold clamp_max, delta. rewrite (max0_id _ HL). reflexivity.
Qed.

(* while stopped: exactly stopped_at - started_at *)
Lemma g_elapsed_stopped w t :
  reachable N clk (w, t) -> w_state w = SStopped ->
  exists s p, w_started w = Some s /\ w_stopped w = Some p /\
    (forall m, elapsed N clk w t m = ((w, t), Ok (clamp_max N m (max0 N (sub p s))))) /\
    (monotone_upto g_leb clk t -> le zero (sub p s) /\ elapsed N clk w t None = ((w, t), Ok (sub p s))).
Proof.
  intros HR HS. destruct (elapsed_stopped T N clk w t HR HS) as (i & j & Hij & Hst & Hsp & HE).
  exists (clk i), (clk j). split; [exact Hst|]. split; [exact Hsp|]. split; [exact HE|]. intro HM.
  assert (HL : le zero (sub (clk j) (clk i))) by (apply g_leb_zero; eapply distance_nonneg with (n := t); solve_facts).
  split; [exact HL|]. rewrite HE. unfold clamp_max, delta. rewrite (max0_id _ HL). reflexivity.
Qed.

(* elapsed(maximum): cut at the maximum; never above max(0, maximum); never above a non-negative maximum *)
Lemma g_elapsed_max w t m c e :
  elapsed N clk w t (Some m) = (c, Ok e) ->
  exists e0, elapsed N clk w t None = (c, Ok e0) /\
             e = (if g_leb e0 m then e0 else max0 N m) /\ le e (max0 N m) /\ (le zero m -> le e m).
Proof.
  intro H. destruct (elapsed_max T N clk w t m c e H) as (e0 & HE & Hc). exists e0. split; [exact HE|].
  split; [rewrite Hc; unfold clamp_max, g_leb; destruct (n_gtb N e0 m); reflexivity|].
  split.
  - rewrite Hc. destruct (clamp_max_cases T N m e0) as [[Hg ->]|[Hg ->]]; [|apply (og_le_refl _ _ _ _ _ OG)].
    apply (og_le_trans _ _ _ _ _ OG) with (b := m); [apply (og_gtb _ _ _ _ _ OG), Hg|apply le_max0].
  - intro Hm. apply g_leb_le. eapply elapsed_max_le; [apply group_comp_facts|exact H|exact I|].
    apply g_leb_le. rewrite (og_zero _ _ _ _ _ OG). exact Hm.
Qed.

(* expired <-> elapsed > duration *)
Lemma g_expired_iff w t d c e :
  w_state w <> SNone -> w_duration w = Some d -> elapsed N clk w t None = (c, Ok e) ->
  exists b, expired N clk w t = (c, Ok b) /\ (b = true <-> ~ le e d).
Proof.
  intros HS HD HE. pose proof (expired_spec T N clk w t HS) as H. rewrite HD in H. rewrite (H c e HE).
  eexists. split; [reflexivity|]. apply gtb_nle.
Qed.

(* leftover = max(0, duration - elapsed) >= 0 *)
Lemma g_leftover_nonneg w t rn c z : leftover N clk w t rn = (c, Ok (Some z)) -> le zero z.
Proof.
  intro H. eapply leftover_nonneg in H; [|apply group_comp_facts]. apply g_leb_zero, H.
Qed.

Lemma clamped_sorted_diffs l : forall p,
  clamped_diffs_from N (Some p) l -> StronglySorted (fun a b => g_leb a b = true) (p :: map sp_elapsed l) -> diffs_from N p l.
Proof.
  induction l as [|x r IH]; intros p HC HS; [exact I|].
  cbn [clamped_diffs_from diffs_from map] in *. destruct HC as [HL HC].
  inversion HS as [|? ? HS' Hall]; subst. inversion Hall as [|? ? Hpx _]; subst.
  split; [rewrite HL; apply delta_exact, g_leb_le, Hpx|]. apply IH; [exact HC|exact HS'].
Qed.

(* under a monotonic clock the splits have non-decreasing elapsed values and lengths equal to the successive
   differences (the first one counted from zero) *)
Lemma g_splits_monotone w t :
  reachable N clk (w, t) -> monotone_upto g_leb clk t ->
  StronglySorted le (map sp_elapsed (w_splits w)) /\ diffs_from N zero (w_splits w).
Proof.
  intros HR HM.
  assert (HS : StronglySorted (fun a b => g_leb a b = true) (map sp_elapsed (w_splits w)))
    by (eapply splits_sorted with (t := t); solve_facts).
  destruct (splits_clamped T N clk w t HR) as [HC HP].
  split.
  - clear HC HP. induction HS as [|a r HS IH Ha]; constructor; [exact IH|].
    eapply Forall_impl; [|exact Ha]. intros b Hb. apply g_leb_le, Hb.
  - destruct (w_splits w) as [|x r]; [exact I|].
    cbn [clamped_diffs_from diffs_from map] in *. destruct HC as [HL HC].
    split; [rewrite HL, sub_zero; reflexivity|].
    apply clamped_sorted_diffs; assumption.
Qed.

Lemma g_history_numbers_nonneg duration w0 ops :
  init N duration = Ok w0 ->
  Forall (fun cr => forall z, snd cr = Ok (VNum z) -> le zero z) (trace N clk ops w0 0%nat).
Proof.
  intro Hi. eapply Forall_impl; [|eapply history_numbers_nonneg; [apply group_comp_facts|exact Hi]].
  cbn. intros cr H z Hz. apply g_leb_zero, (H z Hz).
Qed.

End Group.
