(* Proofs/C14_Final.v — validate_integer in terms of the declarative literal grammar, and
   is_valid_boolstr for all strings. *)
From Coq Require Import String.
Require Import OV.Base.Bytes OV.Base.Py OV.Base.PyInt OV.Base.Str.
Require Import OV.Model.C14_Py OV.Gen.C14 OV.Model.C14.
Require Import OV.Proofs.C14_IntGrammar OV.Proofs.C14_Bool OV.Proofs.C14_Num.
Open Scope Z_scope.

(* validate_integer returns z exactly when str(value) is an integer literal denoting z and z is within the bounds *)
Lemma validate_integer_literal lim v lo hi z :
  validate_integer lim v lo hi = Ok z <->
  (exists s, py_str lim v = Ok s /\ int_literal lim s z) /\
  (forall m, lo = Some m -> m <= z) /\ (forall m, hi = Some m -> z <= m).
Proof.
  rewrite validate_integer_ok. unfold int_of_text. split.
  - intros (H & Hlo & Hhi). split; [|split; assumption].
    destruct (py_str lim v) as [s|e]; [|discriminate]. exists s. split; [reflexivity|].
    apply int_parse_iff_literal. exact H.
  - intros ((s & Hs & Hl) & Hlo & Hhi). rewrite Hs. split; [apply int_parse_iff_literal; exact Hl|split; assumption].
Qed.

(* is_valid_boolstr, all strings: valid exactly when str.lower() of the text is in the generated tuples *)
Lemma is_valid_boolstr_in lim s :
  (is_valid_boolstr lim (PStr s) = Ok true <-> In (py_lower s) (TRUE_STRINGS ++ FALSE_STRINGS)) /\
  (is_valid_boolstr lim (PStr s) = Ok false <-> ~ In (py_lower s) (TRUE_STRINGS ++ FALSE_STRINGS)).
Proof.
  rewrite is_valid_boolstr_spec. unfold all_words. rewrite <- mem_str_In.
  destruct (mem_str (py_lower s) (TRUE_STRINGS ++ FALSE_STRINGS)); intuition congruence.
Qed.

(* for any value: through str(value) *)
Lemma is_valid_boolstr_value lim v s : py_str lim v = Ok s ->
  is_valid_boolstr lim v = Ok (mem_str (py_lower s) (TRUE_STRINGS ++ FALSE_STRINGS)).
Proof. intros H. unfold is_valid_boolstr, bind. rewrite H. reflexivity. Qed.
