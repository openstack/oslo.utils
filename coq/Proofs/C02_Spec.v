(* Proofs/C02_Spec.v — the one statement for all static formats; concrete clean and unsafe images. *)
Require Import OV.Base.Bytes OV.Base.Py OV.Base.Insp_Struct OV.Gen.Insp_Consts OV.Model.Insp_Engine OV.Model.Insp_All.
Require Import OV.Model.C02 OV.Proofs.C02_Static
               OV.Proofs.C02_Gpt OV.Proofs.C02_Qcow.
Open Scope N_scope.

(* one statement for the eight static formats: the verdict of safety_check() after ANY chunking of the bytes
   is the declarative predicate of the whole byte string *)
Theorem static_safeb_correct f cs v :
  all_bytes (concat cs) = true -> static_safeb f (concat cs) = Some v ->
  (safety (fst (Insp_All.run f cs)) = Pass <-> v = true).
Proof.
  intros Hb Hs. destruct f; cbn [static_safeb] in Hs; try discriminate; injection Hs as <-.
  - split; [reflexivity|intros _; apply raw_pass].
  - apply qcow2_pass_okb. exact Hb.
  - apply vhd_pass_okb.
  - apply vdi_pass_okb.
  - split; [intros H; exfalso; revert H; apply qed_never_passes|discriminate].
  - apply iso_pass_okb.
  - apply gpt_pass_okb.
  - apply luks_pass_okb.
Qed.

(* chunking independence of the safety verdict for the static formats is a corollary *)
Corollary static_pass_chunking_independent f cs cs' :
  concat cs = concat cs' -> all_bytes (concat cs) = true -> static_safeb f (concat cs) <> None ->
  (safety (fst (Insp_All.run f cs)) = Pass <-> safety (fst (Insp_All.run f cs')) = Pass).
Proof.
  intros He Hb Hs. destruct (static_safeb f (concat cs)) as [v|] eqn:E; [|congruence].
  rewrite (static_safeb_correct f cs v Hb E).
  rewrite He in Hb, E. rewrite (static_safeb_correct f cs' v Hb E). reflexivity.
Qed.

(* non-vacuity: concrete clean images *)
Definition zpad (n : nat) (b : bytes) : bytes := b ++ repeatN 0 (n - length b).
Definition ex_qcow2 : bytes := zpad 512 (qcow2_magic ++ [0; 0; 0; 3] ++ repeatN 0 16 ++ [0; 0; 0; 0; 0; 16; 0; 0] ++ repeatN 0 40 ++ [0; 0; 0; 0; 0; 0; 0; 11]).
Example ex_qcow2_safe : qcow2_safeb ex_qcow2 = true /\ all_bytes ex_qcow2 = true.
Proof. split; vm_compute; reflexivity. Qed.
Definition ex_luks : bytes := zpad 600 (luks_magic ++ [0; 1]).
Example ex_luks_safe : luks_safeb ex_luks = true. Proof. vm_compute. reflexivity. Qed.
Definition ex_gpt : bytes := repeatN 0 446 ++ [0; 0; 2; 0; 238; 255; 255; 255; 1; 0; 0; 0; 255; 255; 255; 255] ++ repeatN 0 48 ++ [85; 170].
Example ex_gpt_safe : gpt_safeb ex_gpt = true. Proof. vm_compute. reflexivity. Qed.
Definition ex_mbr : bytes := repeatN 0 446 ++ [128; 32; 33; 0; 131; 254; 255; 255; 0; 8; 0; 0; 0; 32; 3; 0] ++ repeatN 0 48 ++ [85; 170] ++ repeatN 7 100.
Example ex_mbr_safe : gpt_safeb ex_mbr = true. Proof. vm_compute. reflexivity. Qed.
Definition ex_vhd : bytes := zpad 512 vhd_magic.
Example ex_vhd_ok : vhd_okb ex_vhd = true. Proof. vm_compute. reflexivity. Qed.
Definition ex_vdi : bytes := zpad 512 (repeatN 60 64 ++ [127; 16; 218; 190]).
Example ex_vdi_ok : vdi_okb ex_vdi = true. Proof. vm_compute. reflexivity. Qed.
(* unsafe instances for the corollaries' hypotheses *)
Definition ex_qcow2_bit37 : bytes := zpad 512 (qcow2_magic ++ [0; 0; 0; 3] ++ repeatN 0 64 ++ [0; 0; 0; 32; 0; 0; 0; 0]).
Example ex_qcow2_bit37_unknown : qcow2_version ex_qcow2_bit37 = 3 /\ N.testbit (qcow2_incompat ex_qcow2_bit37) 37 = true /\ all_bytes ex_qcow2_bit37 = true.
Proof. repeat split; vm_compute; reflexivity. Qed.
Definition ex_qcow2_v0 : bytes := zpad 512 qcow2_magic.
Example ex_qcow2_v0_version : qcow2_version ex_qcow2_v0 = 0. Proof. vm_compute. reflexivity. Qed.
