(* Proofs/C01_Vhdx.v — C01 for VHDXInspector: outside the two known-finding zones the verdict of a
   run is the whole-buffer function [vhdx_spec] of the concatenated bytes, for ALL chunk lists. *)
Require Import OV.Base.Bytes OV.Base.Py OV.Base.Insp_Struct OV.Gen.Insp_Consts OV.Model.Insp_Engine.
Require Import OV.Model.Insp_Vhdx OV.Model.Insp_All OV.Model.C01_Vhdx.
Require Import OV.Proofs.Insp_Static OV.Proofs.Insp_All.
Require Import OV.Proofs.C01_Vhdx_Tables OV.Proofs.C01_Vhdx_Step.
Open Scope N_scope.

(* the two tables of a stream, and the size of the metadata entry table *)
Notation rt_of st := (vx_region_table (bslice VX_HDR_OFF VX_HDR_LEN st)) (only parsing).
Notation mt_of mo st := (vx_meta_table (bslice mo VX_META_LEN st)) (only parsing).
Notation esz_of mo st := (vx_entries_size (bslice mo VX_META_LEN st)) (only parsing).

Lemma VX_META_LEN_val : VX_META_LEN = 65536.
Proof. reflexivity. Qed.

Definition vx_verdict' (b : bytes) (e : option exn) (complete : bool) (vs : res Z) : verdict :=
  let fm := prefixb VHDX_MAGIC (bslice 0 VX_IDENT_LEN b) in
  mkVerdict e (Ok fm) complete vs (if complete then (if fm then Pass else Refused) else Refused).

Lemma vx_verdict_eq b e c vs : vx_verdict b e c vs = vx_verdict' b e c vs.
Proof. unfold vx_verdict, vx_verdict'. rewrite nslice_bslice. reflexivity. Qed.

Definition vds_size (vds : bytes) : res Z := do x <- unpack sf_vhdx_vds vds; Ok (Z.of_N (sint sf_vhdx_vds 0 x)).

Lemma vhdx_spec_eq b :
  vhdx_spec b =
  if blen b <? VX_HDR_END then vx_verdict' b None false (Ok 0%Z)
  else match rt_of b with
  | Exn e => vx_verdict' b (Some e) true (Ok 0%Z)
  | Ok None => vx_verdict' b None true (Ok 0%Z)
  | Ok (Some mo) =>
    match mt_of mo b with
    | Exn e => vx_verdict' b (Some e) (blen (bslice mo VX_META_LEN b) =? VX_META_LEN) (Ok 0%Z)
    | Ok None => vx_verdict' b None (blen (bslice mo VX_META_LEN b) =? VX_META_LEN) (Ok 0%Z)
    | Ok (Some (io, il)) =>
      let have := blen (bslice (mo + io) il b) =? il in
      vx_verdict' b None have (if have then vds_size (bslice (mo + io) il b) else Ok 0%Z)
    end
  end.
Proof.
  unfold vhdx_spec. rewrite flen_blen, nslice_bslice, !vx_verdict_eq.
  destruct (blen b <? VX_HDR_END); [reflexivity|].
  destruct (vx_region_table (bslice VX_HDR_OFF VX_HDR_LEN b)) as [[mo|]|e]; try (rewrite ?vx_verdict_eq; reflexivity).
  rewrite nslice_bslice, flen_blen.
  destruct (vx_meta_table (bslice mo VX_META_LEN b)) as [[[io il]|]|e]; rewrite ?vx_verdict_eq; try reflexivity.
  cbv zeta. rewrite ?vx_verdict_eq, !nslice_bslice, !flen_blen. reflexivity.
Qed.

Definition good (b : bytes) : Prop := zone_vhdx_backptr b = false /\ zone_vhdx_metasig b = false.

Lemma zone_backptr_eq b :
  zone_vhdx_backptr b =
  (VX_HDR_END <=? blen b) &&
  match rt_of b with
  | Ok (Some mo) => (mo <? VX_HDR_END) || match mt_of mo b with Ok (Some (io, _)) => io <? esz_of mo b | _ => false end
  | _ => false
  end.
Proof.
  unfold zone_vhdx_backptr. cbv zeta. rewrite flen_blen, nslice_bslice.
  destruct (rt_of b) as [[mo|]|e]; try reflexivity. rewrite nslice_bslice. reflexivity.
Qed.

Lemma zone_metasig_eq b :
  zone_vhdx_metasig b =
  (VX_HDR_END <=? blen b) &&
  match rt_of b with
  | Ok (Some mo) => (32 <=? blen (bslice mo VX_META_LEN b)) && negb (beq (bslice 0 8 (bslice mo VX_META_LEN b)) VHDX_META_SIG)
  | _ => false
  end.
Proof.
  unfold zone_vhdx_metasig. cbv zeta. rewrite flen_blen, nslice_bslice.
  destruct (rt_of b) as [[mo|]|e]; try reflexivity. rewrite !nslice_bslice, flen_blen. reflexivity.
Qed.

Lemma good_forward b mo :
  good b -> VX_HDR_END <= blen b -> rt_of b = Ok (Some mo) ->
  VX_HDR_END <= mo /\
  (forall io il, mt_of mo b = Ok (Some (io, il)) -> esz_of mo b <= io) /\
  (forall e, mt_of mo b <> Exn e).
Proof.
  intros [Hb Hs] Hlen Hrt. rewrite zone_backptr_eq, Hrt in Hb. rewrite zone_metasig_eq, Hrt in Hs.
  replace (VX_HDR_END <=? blen b) with true in * by lia. rewrite andb_true_l in Hb, Hs.
  apply orb_false_iff in Hb. destruct Hb as [Hmo Hio].
  split; [lia|]. split.
  - intros io il Hmt. rewrite Hmt in Hio. lia.
  - intros e Hmt.
    destruct (meta_table_exn _ _ Hmt) as [H32 Hsig].
    { rewrite blen_bslice. lia. }
    rewrite Hsig in Hs. cbn [negb] in Hs. rewrite andb_true_r in Hs. lia.
Qed.

Lemma rt_of_app st x : VX_HDR_END <= blen st -> rt_of (st ++ x) = rt_of st.
Proof. intros H. rewrite bslice_app_le; [reflexivity|]. unfold VX_HDR_OFF, VX_HDR_LEN, VX_HDR_END in *. lia. Qed.

Lemma mt_of_app mo st x :
  (mt_of mo st = Ok None /\
   (blen (bslice mo VX_META_LEN st) < 32 \/ (32 <= blen (bslice mo VX_META_LEN st) /\ blen (bslice mo VX_META_LEN st) < esz_of mo st)))
  \/ mt_of mo (st ++ x) = mt_of mo st.
Proof.
  destruct (bslice_app_grows mo VX_META_LEN st x) as [y Hy]. rewrite Hy. apply meta_table_prefix.
Qed.

Lemma esz_of_app mo st x : 32 <= blen (bslice mo VX_META_LEN st) -> esz_of mo (st ++ x) = esz_of mo st.
Proof.
  intros H. destruct (bslice_app_grows mo VX_META_LEN st x) as [y Hy]. rewrite Hy. apply entries_size_prefix. exact H.
Qed.

(* something decided on a prefix stays decided *)
Lemma mt_of_decided mo st x r : mt_of mo st = r -> r <> Ok None -> mt_of mo (st ++ x) = r.
Proof.
  intros H Hn. destruct (mt_of_app mo st x) as [[H0 _]|H1]; [congruence|]. rewrite H1. exact H.
Qed.

Definition vfin (skel : skeleton) (st : bytes) : ist unit :=
  mkIst (blen st) (fill_regs 0 skel st) (length skel) true [K_null] tt.

Lemma finish_vst skel st : Insp_Engine.finish (vst skel st) = vfin skel st.
Proof. unfold Insp_Engine.finish, vst, vfin. cbn [i_pos i_regs i_next i_checks i_ext]. rewrite finish_fill. reflexivity. Qed.

Definition vhdx_verdict (s : ist unit) (e : option exn) : verdict := verdict_of (I_unit F_vhdx s, e).

Definition rcomp (off len : N) (st : bytes) : bool := blen (bslice off len st) =? len.

Lemma rcomplete_mk id off len st :
  rcomplete (mkRegion id false off len None (bslice off len st) false) = rcomp off len st.
Proof. unfold rcomplete, base_complete, rcomp. cbn [r_end r_min r_len r_data]. rewrite flen_blen. apply N.eqb_sym. Qed.

Lemma rcomp_true off len st : off + len <= blen st -> rcomp off len st = true.
Proof. intros H. unfold rcomp. rewrite blen_bslice. lia. Qed.

Lemma complete_SK0 st : Insp_Engine.complete (vfin SK0 st) = (VX_HDR_END <=? blen st).
Proof.
  unfold Insp_Engine.complete, vfin, SK0. cbn [i_regs fill_regs forallb snd rs_off rs_len].
  rewrite !rcomplete_mk. unfold rcomp. rewrite !blen_bslice.
  unfold VX_IDENT_LEN, VX_HDR_LEN, VX_HDR_OFF, VX_HDR_END.
  destruct (262144 <=? blen st) eqn:H; lia.
Qed.

Lemma complete_SK1 mo L st : VX_HDR_END <= blen st ->
  Insp_Engine.complete (vfin (SK1 mo L) st) = rcomp mo L st.
Proof.
  intros H. unfold Insp_Engine.complete, vfin, SK1, SK0. cbn [app i_regs fill_regs forallb snd rs_off rs_len].
  rewrite !rcomplete_mk. rewrite !rcomp_true by (unfold VX_IDENT_LEN, VX_HDR_LEN, VX_HDR_OFF, VX_HDR_END in *; lia).
  cbn [andb]. apply andb_true_r.
Qed.

Lemma complete_SK2 mo L vo il st : VX_HDR_END <= blen st -> mo + L <= blen st ->
  Insp_Engine.complete (vfin (SK2 mo L vo il) st) = rcomp vo il st.
Proof.
  intros H HL. unfold Insp_Engine.complete, vfin, SK2, SK1, SK0. cbn [app i_regs fill_regs forallb snd rs_off rs_len].
  rewrite !rcomplete_mk. rewrite !rcomp_true by (unfold VX_IDENT_LEN, VX_HDR_LEN, VX_HDR_OFF, VX_HDR_END in *; lia).
  cbn [andb]. apply andb_true_r.
Qed.

(* the verdict of a finished VHDX inspector state: complete, signature, the one null check *)
Lemma verdict_vfin skel st e fm c vs :
  f_match vhdx_fmt (vfin skel st) = Ok fm -> Insp_Engine.complete (vfin skel st) = c -> f_vsize vhdx_fmt (vfin skel st) = vs ->
  vhdx_verdict (vfin skel st) e = mkVerdict e (Ok fm) c vs (if c then (if fm then Pass else Refused) else Refused).
Proof.
  intros Hm Hc Hv. unfold vhdx_verdict, verdict_of. cbn [fst snd format_match complete virtual_size safety ufmt].
  unfold safety_check. rewrite Hm, Hc, Hv. destruct c, fm; reflexivity.
Qed.

Lemma verdict_SK0 st e : vhdx_verdict (vfin SK0 st) e = vx_verdict' st e (VX_HDR_END <=? blen st) (Ok 0%Z).
Proof. unfold vx_verdict'. apply verdict_vfin; [reflexivity | apply complete_SK0 | reflexivity]. Qed.

(* metadata region capturing (or frozen by the metadata table's ImageFormatError) *)
Lemma verdict_SK1 mo st e :
  VX_HDR_END <= blen st ->
  vhdx_verdict (vfin (SK1 mo VX_META_LEN) st) e = vx_verdict' st e (blen (bslice mo VX_META_LEN st) =? VX_META_LEN) (Ok 0%Z).
Proof.
  intros H.
  assert (A1 : f_match vhdx_fmt (vfin (SK1 mo VX_META_LEN) st) = Ok (prefixb VHDX_MAGIC (bslice 0 VX_IDENT_LEN st))) by reflexivity.
  assert (A3 : f_vsize vhdx_fmt (vfin (SK1 mo VX_META_LEN) st) = Ok 0%Z) by reflexivity.
  rewrite (verdict_vfin (SK1 mo VX_META_LEN) st e _ _ _ A1 (complete_SK1 mo VX_META_LEN st H) A3). reflexivity.
Qed.

(* virtual_size once the size item's region exists (finished or not) *)
Lemma vsize_SK2 mo L vo il st fin :
  vhdx_vsize (mkIst (blen st) (fill_regs 0 (SK2 mo L vo il) st) 4 fin [K_null] tt)
  = if rcomp vo il st then vds_size (bslice vo il st) else Ok 0%Z.
Proof.
  unfold vhdx_vsize.
  change (has_region R_vds (mkIst (blen st) (fill_regs 0 (SK2 mo L vo il) st) 4 fin [K_null] tt)) with true. cbn [negb].
  change (get_region R_vds (mkIst (blen st) (fill_regs 0 (SK2 mo L vo il) st) 4 fin [K_null] tt))
    with (Ok (A:=region) (mkRegion 3 false vo il None (bslice vo il st) false)).
  cbn [bind]. rewrite rcomplete_mk. destruct (rcomp vo il st); reflexivity.
Qed.

(* [tracked st skel]: the skeleton is the one the tables of the stream [st] call for *)
Inductive tracked (st : bytes) : skeleton -> Prop :=
| T_early : blen st < VX_HDR_END -> tracked st SK0
| T_none : VX_HDR_END <= blen st -> rt_of st = Ok None -> tracked st SK0
| T_meta mo : VX_HDR_END <= blen st -> rt_of st = Ok (Some mo) -> mt_of mo st = Ok None ->
              tracked st (SK1 mo VX_META_LEN)
| T_vds mo L io il : VX_HDR_END <= blen st -> rt_of st = Ok (Some mo) -> mt_of mo st = Ok (Some (io, il)) ->
              mo + L <= blen st -> tracked st (SK2 mo L (mo + io) il).

(* the verdict of a tracked state after finish is the specification of the stream *)
Lemma verdict_tracked st skel : tracked st skel -> vhdx_verdict (vfin skel st) None = vhdx_spec st.
Proof.
  intros HT. rewrite vhdx_spec_eq. destruct HT as [H|H Hrt|mo H Hrt Hmt|mo L io il H Hrt Hmt HL].
  - replace (blen st <? VX_HDR_END) with true by lia. rewrite verdict_SK0. replace (VX_HDR_END <=? blen st) with false by lia. reflexivity.
  - replace (blen st <? VX_HDR_END) with false by lia. rewrite Hrt, verdict_SK0. replace (VX_HDR_END <=? blen st) with true by lia. reflexivity.
  - replace (blen st <? VX_HDR_END) with false by lia. rewrite Hrt, Hmt. apply verdict_SK1. exact H.
  - replace (blen st <? VX_HDR_END) with false by lia. rewrite Hrt, Hmt. cbv zeta. unfold vx_verdict'.
    assert (A1 : f_match vhdx_fmt (vfin (SK2 mo L (mo + io) il) st) = Ok (prefixb VHDX_MAGIC (bslice 0 VX_IDENT_LEN st))) by reflexivity.
    rewrite (verdict_vfin (SK2 mo L (mo + io) il) st None _ _ _ A1 (complete_SK2 mo L (mo + io) il st H HL)
               (vsize_SK2 mo L (mo + io) il st true)). reflexivity.
Qed.

Lemma bslice_found_len mo st io il :
  mt_of mo st = Ok (Some (io, il)) ->
  mo + blen (bslice mo VX_META_LEN st) <= blen st /\ esz_of mo st <= blen (bslice mo VX_META_LEN st).
Proof.
  intros H. destruct (meta_table_found _ _ _ H) as (H32 & Hes & _).
  split; [|exact Hes]. rewrite blen_bslice in *. lia.
Qed.

(* what one chunk does to a tracked state when the whole stream [st ++ c ++ rest] is outside the zones:
   either a tracked state of [st ++ c], or the region-table error with the state it leaves *)
Lemma step_tracked st skel c rest :
  tracked st skel -> good (st ++ c ++ rest) ->
  (exists skel', eat_chunk vhdx_fmt (vst skel st) c = (vst skel' (st ++ c), None) /\ tracked (st ++ c) skel')
  \/ (exists e, eat_chunk vhdx_fmt (vst skel st) c = (vst SK0 (st ++ c), Some e) /\
                VX_HDR_END <= blen (st ++ c) /\ rt_of (st ++ c) = Exn e).
Proof.
  intros HT Hgood. rewrite app_assoc in Hgood.
  (* facts about the prefix st ++ c inherited from the whole stream *)
  assert (Hfw : forall mo, VX_HDR_END <= blen (st ++ c) -> rt_of (st ++ c) = Ok (Some mo) ->
                VX_HDR_END <= mo /\
                (forall io il, mt_of mo (st ++ c) = Ok (Some (io, il)) -> esz_of mo (st ++ c) <= io) /\
                (forall e, mt_of mo (st ++ c) <> Exn e)).
  { intros mo Hl Hrt.
    assert (Hl' : VX_HDR_END <= blen ((st ++ c) ++ rest)) by (rewrite blen_app; lia).
    assert (Hrt' : rt_of ((st ++ c) ++ rest) = Ok (Some mo)) by (rewrite rt_of_app by exact Hl; exact Hrt).
    destruct (good_forward _ mo Hgood Hl' Hrt') as (G1 & G2 & G3).
    split; [exact G1|]. split.
    - intros io il Hmt.
      assert (Hmt' : mt_of mo ((st ++ c) ++ rest) = Ok (Some (io, il))) by (apply mt_of_decided; [exact Hmt | discriminate]).
      specialize (G2 io il Hmt'). destruct (bslice_found_len _ _ _ _ Hmt) as [_ Hes].
      rewrite esz_of_app in G2; [exact G2|]. pose proof (entries_size_ge (bslice mo VX_META_LEN (st ++ c))). lia.
    - intros e Hmt. apply (G3 e). apply mt_of_decided; [exact Hmt | discriminate]. }
  (* the outcome once the metadata region exists *)
  assert (Hafter : forall mo, VX_HDR_END <= blen (st ++ c) -> rt_of (st ++ c) = Ok (Some mo) ->
            exists skel', after_meta mo VX_META_LEN (st ++ c) = (vst skel' (st ++ c), None) /\ tracked (st ++ c) skel').
  { intros mo Hl Hrt. destruct (Hfw mo Hl Hrt) as (_ & _ & G3). unfold after_meta.
    destruct (mt_of mo (st ++ c)) as [[[io il]|]|e] eqn:Hmt.
    - eexists. split; [reflexivity|]. destruct (bslice_found_len _ _ _ _ Hmt) as [HL _].
      apply T_vds; assumption.
    - eexists. split; [reflexivity|]. apply T_meta; assumption.
    - exfalso. exact (G3 e eq_refl). }
  assert (Hbl : blen (st ++ c) = blen st + blen c) by apply blen_app.
  destruct HT as [H|H Hrt|mo H Hrt Hmt|mo L io il H Hrt Hmt HL].
  - (* header not complete before this chunk *)
    rewrite eat_chunk_SK0.
    + destruct (blen (st ++ c) <? VX_HDR_END) eqn:Hh.
      * left. exists SK0. split; [reflexivity|]. apply T_early. lia.
      * destruct (rt_of (st ++ c)) as [[mo|]|e] eqn:Hrt.
        -- left. apply Hafter; [lia | reflexivity].
        -- left. exists SK0. split; [reflexivity|]. apply T_none; [lia | exact Hrt].
        -- right. exists e. split; [reflexivity|]. split; [lia | reflexivity].
    + intros mo Hrt Hl. destruct (Hfw mo Hl Hrt) as (G1 & _ & _).
      split; [lia|]. intros io il _. lia.
  - (* header complete, no metadata entry: nothing ever changes *)
    assert (Hrt' : rt_of (st ++ c) = Ok None) by (rewrite rt_of_app by exact H; exact Hrt).
    rewrite eat_chunk_SK0.
    + replace (blen (st ++ c) <? VX_HDR_END) with false by lia. rewrite Hrt'.
      left. exists SK0. split; [reflexivity|]. apply T_none; [lia | exact Hrt'].
    + intros mo Hrt2 _. congruence.
  - (* metadata region capturing *)
    assert (Hl : VX_HDR_END <= blen (st ++ c)) by lia.
    assert (Hrt' : rt_of (st ++ c) = Ok (Some mo)) by (rewrite rt_of_app by exact H; exact Hrt).
    rewrite eat_chunk_SK1; [left; apply Hafter; assumption|].
    intros io il Hmt'.
    destruct (Hfw mo Hl Hrt') as (G1 & G2 & _). specialize (G2 io il Hmt').
    destruct (bslice_found_len _ _ _ _ Hmt') as [_ Hes'].
    pose proof (entries_size_ge (bslice mo VX_META_LEN (st ++ c))) as Hge.
    (* before the chunk the table was not decided: fewer than entries_size bytes of it had arrived *)
    destruct (mt_of_app mo st c) as [[_ Hshort]|Hsame]; [|rewrite Hmt in Hsame; congruence].
    rewrite blen_bslice in Hshort. pose proof VX_META_LEN_val as HML.
    destruct Hshort as [Hs|[Hs1 Hs2]].
    + lia.
    + rewrite <- (esz_of_app mo st c) in Hs2 by (rewrite blen_bslice; lia).
      rewrite blen_bslice in Hes'. lia.
  - (* everything found *)
    rewrite eat_chunk_SK2. left. eexists. split; [reflexivity|].
    apply T_vds; [lia | rewrite rt_of_app by exact H; exact Hrt | apply mt_of_decided; [exact Hmt | discriminate] | lia].
Qed.

(* the region-table ImageFormatError ends the run; what it leaves is what the specification says *)
Lemma verdict_rt_error st x e :
  VX_HDR_END <= blen st -> rt_of st = Exn e -> vhdx_verdict (vfin SK0 st) (Some e) = vhdx_spec (st ++ x).
Proof.
  intros Hl Hrt. rewrite vhdx_spec_eq.
  assert (E : (blen (st ++ x) <? VX_HDR_END) = false) by (rewrite blen_app; lia).
  rewrite E, rt_of_app, Hrt, verdict_SK0 by exact Hl. replace (VX_HDR_END <=? blen st) with true by lia.
  unfold vx_verdict'. rewrite bslice_app_le by (unfold VX_IDENT_LEN, VX_HDR_END in *; lia). reflexivity.
Qed.

(* a run from a tracked state, inside a stream that is outside the zones as a whole: tracked states all the way,
   or the region-table error *)
Lemma eat_all_tracked : forall cs st skel rest,
  tracked st skel -> good (st ++ concat cs ++ rest) ->
  (exists skel', eat_all vhdx_fmt (vst skel st) cs = (vst skel' (st ++ concat cs), None) /\ tracked (st ++ concat cs) skel')
  \/ (exists e st' y, eat_all vhdx_fmt (vst skel st) cs = (vst SK0 st', Some e) /\ st' ++ y = st ++ concat cs /\
                      VX_HDR_END <= blen st' /\ rt_of st' = Exn e).
Proof.
  induction cs as [|c t IH]; intros st skel rest HT Hgood; cbn [eat_all concat] in *.
  - left. exists skel. rewrite app_nil_r. split; [reflexivity | exact HT].
  - rewrite <- app_assoc in Hgood.
    destruct (step_tracked st skel c (concat t ++ rest) HT Hgood) as [(skel' & He & HT')|(e & He & Hl & Hrt)]; rewrite He.
    + rewrite app_assoc. apply (IH _ _ rest); [exact HT' | rewrite <- app_assoc; exact Hgood].
    + right. exists e, (st ++ c), (concat t). split; [reflexivity|]. split; [symmetry; apply app_assoc|]. split; assumption.
Qed.

Lemma verdict_run cs :
  verdict_of (run F_vhdx cs) = let '(s, e) := eat_all vhdx_fmt (vst SK0 []) cs in vhdx_verdict (Insp_Engine.finish s) e.
Proof.
  unfold run. cbn [init ufmt]. rewrite eat_list_unit. cbn [ufmt]. rewrite vhdx_init.
  destruct (eat_all vhdx_fmt (vst SK0 []) cs) as [s e]. reflexivity.
Qed.

(* vhdx_refines_spec: for ALL byte strings outside the two zones and ALL chunk lists *)
Theorem vhdx_refines_spec b cs :
  zone_vhdx_backptr b = false -> zone_vhdx_metasig b = false -> concat cs = b ->
  verdict_of (run F_vhdx cs) = vhdx_spec b.
Proof.
  intros Hb Hs Hc. subst b. rewrite verdict_run.
  destruct (eat_all_tracked cs [] SK0 []) as [(skel' & E & HT')|(e & st' & y & E & Hy & Hl & Hrt)];
    [apply T_early; reflexivity | rewrite app_nil_r; exact (conj Hb Hs) | |]; rewrite E, finish_vst; cbn [app] in *.
  - apply verdict_tracked. exact HT'.
  - rewrite <- Hy. apply verdict_rt_error; assumption.
Qed.

(* nothing lies before the first chunk: every pointer it reveals is a forward pointer *)
Lemma eat_first_chunk c :
  eat_chunk vhdx_fmt (vst SK0 []) c =
  if blen c <? VX_HDR_END then (vst SK0 c, None)
  else match rt_of c with
       | Exn e => (vst SK0 c, Some e)
       | Ok None => (vst SK0 c, None)
       | Ok (Some mo) => after_meta mo VX_META_LEN c
       end.
Proof.
  apply (eat_chunk_SK0 [] c). intros mo _ _. change (blen []) with 0. split; [lia | intros; lia].
Qed.

(* the specification is what the inspector says when it is given the whole stream at once — for EVERY byte
   string, inside the zones too *)
Theorem vhdx_one_chunk b : verdict_of (run F_vhdx [b]) = vhdx_spec b.
Proof.
  rewrite verdict_run. cbn [eat_all]. rewrite eat_first_chunk.
  destruct (blen b <? VX_HDR_END) eqn:Hl.
  - rewrite finish_vst. apply verdict_tracked, T_early. lia.
  - destruct (rt_of b) as [[mo|]|e] eqn:Hrt.
    + unfold after_meta. destruct (mt_of mo b) as [[[io il]|]|e] eqn:Hmt; rewrite finish_vst.
      * destruct (bslice_found_len _ _ _ _ Hmt) as [HL _]. apply verdict_tracked, T_vds; [lia | exact Hrt | exact Hmt | exact HL].
      * apply verdict_tracked, T_meta; [lia | exact Hrt | exact Hmt].
      * rewrite vhdx_spec_eq, Hl, Hrt, Hmt. apply verdict_SK1. lia.
    + rewrite finish_vst. apply verdict_tracked, T_none; [lia | exact Hrt].
    + rewrite finish_vst. rewrite <- (app_nil_r b) at 2. apply verdict_rt_error; [lia | exact Hrt].
Qed.

(* a region that was created behind the reading position stays empty, so the inspector never completes *)
Lemma complete_fresh skel st n sp :
  rs_end sp = false -> rs_min sp = None -> rs_len sp <> 0 ->
  Insp_Engine.complete (Insp_Engine.finish (fresh_st skel st n sp)) = false.
Proof.
  intros He Hmin Hl. unfold Insp_Engine.complete, Insp_Engine.finish, fresh_st. cbn [i_regs].
  rewrite map_app, forallb_app. destruct sp as [e o l m]. cbn [rs_end rs_min rs_len] in He, Hmin, Hl. subst e m.
  assert (R : rcomplete (region_of_spec (length skel) (mkRspec false o l None)) = false).
  { unfold rcomplete, base_complete, region_of_spec. cbn [r_end r_min r_len r_data rs_end rs_off rs_len rs_min].
    change (flen []) with 0. lia. }
  cbn [map forallb fst snd]. change (r_end (region_of_spec (length skel) (mkRspec false o l None))) with false.
  cbv iota. rewrite R. apply andb_false_r.
Qed.

Lemma verdict_stale_meta st sp :
  rs_end sp = false -> rs_min sp = None -> rs_len sp <> 0 ->
  vhdx_verdict (Insp_Engine.finish (fresh_st SK0 st R_metadata sp)) None = vx_verdict' st None false (Ok 0%Z).
Proof.
  intros He Hmin Hl. unfold vhdx_verdict, verdict_of, vx_verdict'. cbn [fst snd format_match complete virtual_size safety ufmt].
  unfold safety_check. rewrite complete_fresh by assumption. reflexivity.
Qed.

(* finding F2, first kind: the stream is cut before the end of the region table, and the metadata region it
   announces starts before the cut *)
Theorem backptr_meta_two_chunks b k mo :
  k < VX_HDR_END -> VX_HDR_END <= blen b -> rt_of b = Ok (Some mo) -> mo < k ->
  verdict_of (run F_vhdx [btake k b; bskip k b]) = vx_verdict' b None false (Ok 0%Z).
Proof.
  intros Hk Hl Hrt Hmo. rewrite verdict_run. cbn [eat_all]. rewrite eat_first_chunk.
  replace (blen (btake k b) <? VX_HDR_END) with true by (rewrite blen_btake; lia).
  rewrite (eat_chunk_stale_meta (btake k b) (bskip k b) mo); rewrite ?btake_bskip_app; try assumption.
  - apply verdict_stale_meta; [reflexivity | reflexivity | discriminate].
  - rewrite blen_btake. lia.
Qed.

(* finding F2, second kind: the cut falls inside the metadata entry table, and the size item lies before the cut *)
Theorem backptr_item_two_chunks b k mo io il :
  VX_HDR_END <= k -> rt_of b = Ok (Some mo) -> mt_of mo (btake k b) = Ok None -> mt_of mo b = Ok (Some (io, il)) ->
  mo + io < k -> k <= blen b -> il <> 0 ->
  v_complete (verdict_of (run F_vhdx [btake k b; bskip k b])) = false.
Proof.
  intros Hk Hrt Hmt1 Hmt Hio Hkb Hil. rewrite verdict_run. cbn [eat_all]. rewrite eat_first_chunk.
  replace (blen (btake k b) <? VX_HDR_END) with false by (rewrite blen_btake; lia).
  rewrite bslice_btake_in, Hrt by (unfold VX_HDR_OFF, VX_HDR_LEN, VX_HDR_END in *; lia).
  unfold after_meta. rewrite Hmt1.
  rewrite (eat_chunk_stale_vds mo VX_META_LEN (btake k b) (bskip k b) io il); rewrite ?btake_bskip_app;
    [| exact Hmt | rewrite blen_btake; lia].
  apply complete_fresh; [reflexivity | reflexivity | exact Hil].
Qed.

(* a chunk that raises is the last one fed (finding F4: the verdict is that of the stream cut there) *)
Lemma run_raises f c t : snd (run f [c]) <> None -> run f (c :: t) = run f [c].
Proof.
  unfold run. cbn [eat_list]. destruct (eat (init f) c) as [i [e|]]; [reflexivity|].
  intros H. exfalso. apply H. reflexivity.
Qed.

Theorem raising_first_chunk c t : v_exn (vhdx_spec c) <> None -> verdict_of (run F_vhdx (c :: t)) = vhdx_spec c.
Proof.
  intros H. rewrite run_raises; [apply vhdx_one_chunk|].
  change (v_exn (verdict_of (run F_vhdx [c])) <> None). rewrite vhdx_one_chunk. exact H.
Qed.
