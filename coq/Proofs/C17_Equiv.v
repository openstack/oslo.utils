(* Proofs/C17_Equiv.v — translator tie: the functions regenerated statement by statement from
   oslo_utils/versionutils.py (Gen/C17_Code.v) equal the hand-written model the theorems are about. *)
Require Import OV.Base.Bytes OV.Base.Py OV.Base.PyInt OV.Base.Str OV.Base.Regex OV.Base.C17_Py.
Require Import OV.Gen.Versionutils OV.Gen.C17_Code OV.Model.C17 OV.Model.C17_Spec.
Require Import OV.Proofs.C17_PredRe OV.Proofs.C17_Pred.
Open Scope Z_scope.

Lemma map_res_int l : map_res (fun part => py_int_res part) l = match map_opt py_int l with Some v => Ok v | None => Exn ValueError end.
Proof.
  induction l as [|x l IH]; [reflexivity|]. cbn [map_res map_opt]. unfold py_int_res at 1.
  destruct (py_int x); [|reflexivity]. rewrite IH. destruct (map_opt py_int l); reflexivity.
Qed.

Theorem gen_convert_version_to_tuple_equiv s :
  gen_convert_version_to_tuple s = match version_to_tuple s with Some v => Ok v | None => Exn ValueError end.
Proof.
  unfold gen_convert_version_to_tuple, version_to_tuple, strip_suffix. change gen_re_1 with suffix_re.
  change [TGrp 1] with suffix_repl. change 46%N with version_sep. rewrite map_res_int.
  destruct (map_opt py_int _); reflexivity.
Qed.

Theorem gen_convert_version_to_int_str_equiv s : gen_convert_version_to_int_str s = convert_version_to_int_str s.
Proof.
  unfold gen_convert_version_to_int_str, convert_version_to_int_str. rewrite gen_convert_version_to_tuple_equiv.
  destruct (version_to_tuple s) as [v|]; [|reflexivity]. destruct v as [|x t]; reflexivity.
Qed.

Theorem gen_convert_version_to_int_tuple_equiv v : gen_convert_version_to_int_tuple v = tuple_to_int v.
Proof. unfold gen_convert_version_to_int_tuple. destruct v as [|x t]; reflexivity. Qed.

Theorem gen_is_compatible_equiv (V : Type) (vparse : str -> option V) (vle : V -> V -> bool) (major : V -> Z) req cur sm :
  gen_is_compatible vparse vle major req cur sm = is_compatible_str V vparse vle major req cur sm.
Proof.
  unfold gen_is_compatible, is_compatible_str, vparse_res, is_compatible.
  destruct (vparse req) as [r|]; [|reflexivity]. destruct (vparse cur) as [c|]; [|reflexivity].
  destruct sm; cbn [andb]; [|reflexivity]. destruct (negb (major r =? major c)); reflexivity.
Qed.

Lemma assoc_b_str {A} k (l : list (str * A)) : assoc_b k l = assoc_str k l.
Proof. induction l as [|[k' v] l IH]; [reflexivity|]. cbn [assoc_b assoc_str]. rewrite IH. reflexivity. Qed.

Lemma cmp_apply_holds (V : Type) (vle veq : V -> V -> bool) o a b : cmp_apply vle veq o a b = cmp_holds V vle veq o a b.
Proof. destruct o; reflexivity. Qed.

Section PredEquiv.
  Variable V : Type.
  Variable vparse : str -> option V.
  Variable vle veq : V -> V -> bool.

  (* the operator text kept by the implementation, looked up in the table *)
  Definition conv_pred (p : option bytes * V) : option (cmpop * V) :=
    match assoc_opt (fst p) comp_map with Some o => Some (o, snd p) | None => None end.

  Lemma gen_parse_predicate_part part :
    match parse_predicate part with
    | None => gen_parse_predicate vparse part = Exn ValueError
    | Some (op, ver) =>
        (vparse ver = None /\ gen_parse_predicate vparse part = Exn ValueError) \/
        (exists v k, vparse ver = Some v /\ gen_parse_predicate vparse part = Ok (Some k, v) /\ assoc_b k comp_map = Some op)
    end.
  Proof.
    unfold gen_parse_predicate. change gen_re_2 with predicate_re.
    rewrite parse_predicate_eq, re_match_predicate. unfold psplit.
    destruct (pred_split pred_ws pred_ops pred_nw part) as [[[[[a1 o] a2] ver] a3]|] eqn:E; [|reflexivity].
    destruct (pred_split_sound _ _ _ _ _ _ _ _ _ E) as (-> & Ho & _).
    destruct (ops_are_keys o Ho) as [op Hop]. rewrite Hop.
    destruct (pred_groups_text a1 o a2 ver a3) as [G1 G2]. cbn [pred_groups snd] in G1, G2.
    cbn [option_map pred_groups]. unfold group_of. cbn [snd]. rewrite G1, G2.
    unfold vparse_opt, vparse_res. destruct (vparse ver) as [v|].
    - right. exists v, o. split; [reflexivity|]. split; [reflexivity|]. rewrite assoc_b_str. exact Hop.
    - left. split; reflexivity.
  Qed.

  Definition init_of_parts (parts : list str) : res (list (cmpop * V)) :=
    match map_opt parse_predicate parts with
    | None => Exn ValueError
    | Some l => match map_opt (parse_version_of V vparse) l with Some l' => Ok l' | None => Exn ValueError end
    end.

  Lemma init_of_parts_cases parts : (exists l, init_of_parts parts = Ok l) \/ init_of_parts parts = Exn ValueError.
  Proof.
    unfold init_of_parts. destruct (map_opt parse_predicate parts); [|right; reflexivity].
    destruct (map_opt _ l); [left; eauto|right; reflexivity].
  Qed.

  Lemma init_parts_equiv parts :
    init_of_parts parts =
    match map_res (fun pred => gen_parse_predicate vparse pred) parts with
    | Exn e => Exn e
    | Ok l => match map_opt conv_pred l with Some l' => Ok l' | None => Exn KeyError end
    end.
  Proof.
    induction parts as [|p t IH]; [reflexivity|].
    cbn [map_res]. pose proof (gen_parse_predicate_part p) as Hp.
    unfold init_of_parts in *. cbn [map_opt].
    destruct (parse_predicate p) as [[op ver]|].
    - destruct Hp as [[Hv ->]|[v [k [Hv [-> Hk]]]]].
      + destruct (map_opt parse_predicate t) as [r|]; [|reflexivity].
        cbn [map_opt]. unfold parse_version_of at 1. cbn [snd]. rewrite Hv. reflexivity.
      + match goal with |- context [map_res ?f t] => destruct (map_res f t) as [l|e] end.
        * cbn [map_opt]. unfold conv_pred at 1. cbn [fst snd assoc_opt]. rewrite Hk.
          destruct (map_opt parse_predicate t) as [r|].
          -- cbn [map_opt]. unfold parse_version_of at 1. cbn [fst snd]. rewrite Hv.
             destruct (map_opt (parse_version_of V vparse) r) as [r'|]; destruct (map_opt conv_pred l) as [l'|]; congruence.
          -- destruct (map_opt conv_pred l); congruence.
        * destruct (map_opt parse_predicate t) as [r|]; [|exact IH].
          cbn [map_opt]. unfold parse_version_of at 1. cbn [fst snd]. rewrite Hv.
          destruct (map_opt (parse_version_of V vparse) r); [discriminate|exact IH].
    - rewrite Hp. reflexivity.
  Qed.

  Theorem gen_predicate_init_equiv s :
    predicate_init V vparse s =
    match gen_predicate_init vparse s with
    | Exn e => Exn e
    | Ok l => match map_opt conv_pred l with Some l' => Ok l' | None => Exn KeyError end
    end.
  Proof.
    unfold gen_predicate_init. change (predicate_init V vparse s) with (init_of_parts (split_char 44%N s)).
    rewrite init_parts_equiv. match goal with |- context [map_res ?f ?x] => destruct (map_res f x) end; reflexivity.
  Qed.

  Lemma gen_loop_sat vs v l : forall l', map_opt conv_pred l = Some l' ->
    gen_satisfied_by_loop1 vle veq vs v l = Ok (if satisfied_by V vle veq l' v then None else Some false).
  Proof.
    induction l as [|[c x] l IH]; intros l' H; cbn [map_opt] in H.
    - injection H as <-. reflexivity.
    - unfold conv_pred at 1 in H. cbn [fst snd] in H. destruct (assoc_opt c comp_map) as [o|] eqn:Eo; [|discriminate].
      destruct (map_opt conv_pred l) as [r|]; [|discriminate]. injection H as <-.
      cbn [gen_satisfied_by_loop1]. rewrite Eo, cmp_apply_holds. unfold satisfied_by. cbn [forallb fst snd].
      destruct (cmp_holds V vle veq o v x); cbn [negb andb]; [|reflexivity]. apply IH. reflexivity.
  Qed.

  Theorem gen_satisfied_by_equiv l l' vs : map_opt conv_pred l = Some l' ->
    gen_satisfied_by vparse vle veq l vs = predicate_satisfied_by V vparse vle veq l' vs.
  Proof.
    intros H. unfold gen_satisfied_by, predicate_satisfied_by, vparse_res. destruct (vparse vs) as [v|]; [|reflexivity].
    rewrite (gen_loop_sat vs v l l' H). destruct (satisfied_by V vle veq l' v); reflexivity.
  Qed.
End PredEquiv.
