(* Proofs/C17_PredRe.v — what re.match(PREDICATE, s) computes, for every regex of the shape
        ^ W* (o1|o2|...|on) W* (N+) W* $        with literal alternatives o_i
   ([pred_re]): a complete functional description [pred_split] of the backtracking matcher's
   answer, groups included.  Side conditions ([pred_ok]): every alternative is non-empty and
   starts outside W, W and N are disjoint, '\n' is in W.  [pred_parts] reads W, the o_i and N
   off a regex of that shape. *)
Require Import OV.Base.Bytes OV.Base.PyInt OV.Base.Regex.
Require Import OV.Proofs.C04_Regex OV.Proofs.C17_Regex.
Open Scope N_scope.

Fixpoint cset_eqb (a b : cset) : bool :=
  match a, b with
  | [], [] => true
  | (x, y) :: a', (u, v) :: b' => (x =? u) && (y =? v) && cset_eqb a' b'
  | _, _ => false
  end.

Definition pred_parts (r : re) : option (cset * list str * cset) :=
  match r with
  | Seq Bol (Seq (Rep w1 0%nat None) (Seq (Group 1%nat a) (Seq (Rep w2 0%nat None)
      (Seq (Group 2%nat (Rep n 1%nat None)) (Seq (Rep w3 0%nat None) Eol))))) =>
      match alts_of a with
      | Some l => if cset_eqb w1 w2 && cset_eqb w1 w3 then Some (w1, l, n) else None
      | None => None
      end
  | _ => None
  end.

Definition pred_ok (ws : cset) (ops : list str) (nw : cset) : bool :=
  forallb (fun o => match o with [] => false | c :: _ => negb (cmem c ws) end) ops
  && cset_disj ws nw && cmem 10 ws.

Lemma first_some_ext {A B} (f g : A -> option B) l : (forall a, In a l -> f a = g a) -> first_some f l = first_some g l.
Proof.
  induction l as [|x l IH]; intros H; [reflexivity|]. cbn [first_some]. rewrite (H x (or_introl eq_refl)).
  destruct (g x); [reflexivity|]. apply IH. intros a Ha. apply H. right. exact Ha.
Qed.

Lemma first_some_in {A B} (f : A -> option B) l y : first_some f l = Some y -> exists a, In a l /\ f a = Some y.
Proof.
  induction l as [|x l IH]; [discriminate|]. cbn [first_some]. destruct (f x) eqn:E.
  - intros H. injection H as <-. exists x. split; [left; reflexivity|exact E].
  - intros H. destruct (IH H) as [a [Ha Hf]]. exists a. split; [right; exact Ha|exact Hf].
Qed.

Lemma first_some_map {A B C} (f : A -> option B) (h : B -> C) l :
  first_some (fun a => option_map h (f a)) l = option_map h (first_some f l).
Proof. induction l as [|x l IH]; [reflexivity|]. cbn [first_some]. destruct (f x); [reflexivity|exact IH]. Qed.

Lemma first_some_find {A B} (P : A -> bool) (F : A -> option B) l a x :
  find P l = Some a -> F a = Some x -> first_some (fun o => if P o then F o else None) l = Some x.
Proof.
  induction l as [|y l IH]; [discriminate|]. cbn [find first_some]. destruct (P y) eqn:E.
  - intros H. injection H as ->. intros ->. reflexivity.
  - intros H Hx. apply IH; assumption.
Qed.

Lemma first_some_some {A B} (f : A -> option B) l a : In a l -> f a <> None -> first_some f l <> None.
Proof.
  induction l as [|y l IH]; [intros []|]. cbn [first_some]. intros [->|Hin] Hf.
  - destruct (f a); [discriminate|congruence].
  - destruct (f y); [discriminate|]. apply IH; assumption.
Qed.

Definition pred_re (ws : cset) (a : re) (nw : cset) : re :=
  Seq Bol (Seq (Rep ws 0%nat None) (Seq (Group 1%nat a) (Seq (Rep ws 0%nat None)
    (Seq (Group 2%nat (Rep nw 1%nat None)) (Seq (Rep ws 0%nat None) Eol))))).
(* the alternation in group 1 of a regex of that shape *)
Definition pred_alt (r : re) : re :=
  match r with Seq Bol (Seq _ (Seq (Group _ a) _)) => a | _ => Bol end.

Section Pred.
Variables (ws : cset) (alt : re) (ops : list str) (nw : cset).
Hypothesis Halt : alts_of alt = Some ops.
Hypothesis Hok : pred_ok ws ops nw = true.

Lemma ok_op o : In o ops -> exists c t, o = c :: t /\ cmem c ws = false.
Proof.
  intros Hin. unfold pred_ok in Hok. apply andb_true_iff in Hok. destruct Hok as [H _]. apply andb_true_iff in H. destruct H as [H _].
  rewrite forallb_forall in H. specialize (H o Hin). destruct o as [|c t]; [discriminate|].
  exists c, t. split; [reflexivity|]. apply negb_true_iff in H. exact H.
Qed.
Lemma ok_disj c : cmem c ws = true -> cmem c nw = false.
Proof.
  unfold pred_ok in Hok. apply andb_true_iff in Hok. destruct Hok as [H _]. apply andb_true_iff in H. destruct H as [_ H].
  apply cset_disj_sound. exact H.
Qed.
Lemma ok_disj' c : cmem c nw = true -> cmem c ws = false.
Proof. intros H. destruct (cmem c ws) eqn:E; [|reflexivity]. rewrite (ok_disj c E) in H. discriminate. Qed.
Lemma ok_nl : cmem 10 ws = true.
Proof. unfold pred_ok in Hok. apply andb_true_iff in Hok. destruct Hok as [_ H]. exact H. Qed.

(* ---------- a greedy repeat whose continuation fails on every string starting inside the class ---------- *)
Lemma m_rep_greedy R cs mn s p g (k : cont R) :
  (forall c t q, cmem c cs = true -> k (c :: t) q g = None) ->
  m R (Rep cs mn None) s p g k =
    if Nat.leb mn (length (fst (span_cs cs s))) then k (snd (span_cs cs s)) (p + blen (fst (span_cs cs s))) g else None.
Proof.
  intros Hk. destruct (span_cs_spec cs s) as (E & A & B).
  set (v := fst (span_cs cs s)) in *. set (rest := snd (span_cs cs s)) in *.
  rewrite E at 1. destruct (Nat.leb mn (length v)) eqn:L.
  - apply Nat.leb_le in L. apply m_rep_exact; auto. intros j Hj.
    destruct (skipn j (v ++ rest)) as [|c t] eqn:Es.
    + exfalso. assert (length (skipn j (v ++ rest)) = 0%nat) by (rewrite Es; reflexivity).
      rewrite skipn_length, app_length in H. lia.
    + apply Hk. assert (Hc : nth_error (v ++ rest) j = Some c) by (rewrite <- hd_skipn, Es; reflexivity).
      rewrite nth_error_app1 in Hc by lia. apply nth_error_In in Hc.
      unfold all_in in A. rewrite forallb_forall in A. auto.
  - apply Nat.leb_gt in L. apply m_rep_short; auto.
Qed.

Lemma span_cs_hd cs c t : cmem c cs = false -> span_cs cs (c :: t) = ([], c :: t).
Proof. intros H. cbn [span_cs]. rewrite H. reflexivity. Qed.

Lemma span_cs_app cs v rest : all_in cs v = true -> hd_notin cs rest = true -> span_cs cs (v ++ rest) = (v, rest).
Proof.
  induction v as [|c v IH]; intros A B.
  - cbn [app]. destruct rest as [|c t]; [reflexivity|]. apply span_cs_hd. cbn [hd_notin] in B. apply negb_true_iff in B. exact B.
  - cbn [all_in forallb] in A. apply andb_true_iff in A. destruct A as [A1 A2].
    cbn [app span_cs]. rewrite A1, (IH A2 B). reflexivity.
Qed.

Definition Kf : cont (N * groups) := fun _ p' g' => Some (p', g').
Definition tail_okb (s : str) : bool := match snd (span_cs ws s) with [] => true | _ => false end.

Lemma eol_fail2 R a b t q g (k : cont R) : m R Eol (a :: b :: t) q g k = None.
Proof.
  (* `$` tests for [] and [10]; against a list of two or more the test for 10 is a match on the bits of a *)
  cbn [m]. destruct a as [|pa]; [reflexivity|]. do 4 (try (destruct pa as [pa|pa|]; try reflexivity)).
Qed.
Lemma eol_fail1 R c q g (k : cont R) : c <> 10 -> m R Eol [c] q g k = None.
Proof. intros H. rewrite <- (app_nil_l [c]). cbn [m app]. rewrite (eol_case [c]). cbn [eol_ok]. replace (c =? 10) with false by lia. reflexivity. Qed.

Lemma m_Rep_unfold R cs mn mx s p g (k : cont R) :
  m R (Rep cs mn mx) s p g k = if Nat.ltb (run_len cs s mx) mn then None else try_counts R s p g k mn (run_len cs s mx).
Proof. reflexivity. Qed.

Lemma tail_eval s p g :
  m _ (Rep ws 0 None) s p g (fun s' p' g' => m _ Eol s' p' g' Kf) = if tail_okb s then Some (p + blen s, g) else None.
Proof.
  destruct (span_cs_spec ws s) as (E & A & B). unfold tail_okb.
  set (v := fst (span_cs ws s)) in *. set (rest := snd (span_cs ws s)) in *. rewrite E at 1.
  destruct rest as [|c t] eqn:Er.
  - rewrite (m_rep_max _ ws 0 None v [] p g _ (p + blen s, g)); auto; [lia|].
    cbn [m Kf]. rewrite E, app_nil_r. reflexivity.
  - cbn [hd_notin] in B. apply negb_true_iff in B.
    rewrite m_Rep_unfold. rewrite (C04_Regex.run_len_exact ws v (c :: t) None A eq_refl) by (left; cbn [hd_notin]; rewrite B; reflexivity).
    cbn [Nat.ltb Nat.leb]. apply try_counts_none; [lia|]. intros j Hj.
    destruct (Nat.eq_dec j (length v)) as [->|Hne].
    + rewrite skipn_app_exact. cbv beta. destruct t as [|c2 t]; [apply eol_fail1|apply eol_fail2].
      intros ->. rewrite ok_nl in B. discriminate.
    + rewrite skipn_app. replace (j - length v)%nat with 0%nat by lia. cbn [skipn].
      destruct (skipn j v) as [|x y] eqn:Es.
      * exfalso. assert (length (skipn j v) = 0%nat) by (rewrite Es; reflexivity). rewrite skipn_length in H. lia.
      * cbv beta. destruct y; cbn [app]; apply eol_fail2.
Qed.

(* ---------- W* (N+) W* $  after the operator ---------- *)
Definition split_after_op (s : str) : option (str * str * str) :=
  let a2 := fst (span_cs ws s) in let s2 := snd (span_cs ws s) in
  let ver := fst (span_cs nw s2) in let a3 := snd (span_cs nw s2) in
  match ver with [] => None | _ => if tail_okb a3 then Some (a2, ver, a3) else None end.

Definition K_after : cont (N * groups) :=
  fun s p g => m _ (Rep ws 0 None) s p g (fun s1 p1 g1 =>
    m _ (Group 2 (Rep nw 1 None)) s1 p1 g1 (fun s2 p2 g2 =>
      m _ (Seq (Rep ws 0 None) Eol) s2 p2 g2 Kf)).

Lemma ver_eval s p g :
  m _ (Group 2 (Rep nw 1 None)) s p g (fun s2 p2 g2 => m _ (Seq (Rep ws 0 None) Eol) s2 p2 g2 Kf) =
  let ver := fst (span_cs nw s) in let a3 := snd (span_cs nw s) in
  match ver with [] => None | _ => if tail_okb a3 then Some (p + blen ver + blen a3, (2%nat, (p, p + blen ver)) :: g) else None end.
Proof.
  change (m _ (Group 2 (Rep nw 1 None)) s p g (fun s2 p2 g2 => m _ (Seq (Rep ws 0 None) Eol) s2 p2 g2 Kf))
    with (m _ (Rep nw 1 None) s p g (fun s2 p2 g2 => m _ (Rep ws 0 None) s2 p2 ((2%nat, (p, p2)) :: g2) (fun s' p' g' => m _ Eol s' p' g' Kf))).
  rewrite m_rep_greedy.
  - cbv zeta. destruct (fst (span_cs nw s)) as [|c v]; [reflexivity|]. cbn [length Nat.leb]. apply tail_eval.
  - intros c t q Hc. rewrite tail_eval. unfold tail_okb. rewrite span_cs_hd by (apply ok_disj', Hc). reflexivity.
Qed.

Lemma after_eval s p g : K_after s p g =
  match split_after_op s with
  | Some (a2, ver, a3) => Some (p + blen a2 + blen ver + blen a3, (2%nat, (p + blen a2, p + blen a2 + blen ver)) :: g)
  | None => None
  end.
Proof.
  unfold K_after. rewrite m_rep_greedy.
  - cbn [Nat.leb]. rewrite ver_eval. unfold split_after_op. cbv zeta.
    destruct (fst (span_cs nw (snd (span_cs ws s)))); [reflexivity|].
    destruct (tail_okb _); reflexivity.
  - intros c t q Hc. rewrite ver_eval, span_cs_hd by (apply ok_disj, Hc). reflexivity.
Qed.

Definition pred_split (s : str) : option (str * str * str * str * str) :=
  let a1 := fst (span_cs ws s) in let s1 := snd (span_cs ws s) in
  first_some (fun o => if prefixb o s1 then
                         match split_after_op (skipn (length o) s1) with
                         | Some (a2, ver, a3) => Some (a1, o, a2, ver, a3)
                         | None => None
                         end
                       else None) ops.

Definition pred_groups (d : str * str * str * str * str) : N * groups :=
  match d with (a1, o, a2, ver, a3) =>
    (blen a1 + blen o + blen a2 + blen ver + blen a3,
     [(2%nat, (blen a1 + blen o + blen a2, blen a1 + blen o + blen a2 + blen ver)); (1%nat, (blen a1, blen a1 + blen o))])
  end.

(* the two groups of a match are the operator and the version text *)
Lemma pred_groups_text a1 o a2 ver a3 :
  group_text (a1 ++ o ++ a2 ++ ver ++ a3) (snd (pred_groups (a1, o, a2, ver, a3))) 1 = Some o /\
  group_text (a1 ++ o ++ a2 ++ ver ++ a3) (snd (pred_groups (a1, o, a2, ver, a3))) 2 = Some ver.
Proof.
  unfold group_text. cbn [pred_groups snd gget Nat.eqb]. split.
  - rewrite <- blen_app, (slice_mid a1 o (a2 ++ ver ++ a3)). reflexivity.
  - replace (a1 ++ o ++ a2 ++ ver ++ a3) with ((a1 ++ o ++ a2) ++ ver ++ a3) by (rewrite <- !app_assoc; reflexivity).
    replace (blen a1 + blen o + blen a2) with (blen (a1 ++ o ++ a2)) by (rewrite !blen_app; apply N.add_assoc).
    rewrite <- blen_app, (slice_mid (a1 ++ o ++ a2) ver a3). reflexivity.
Qed.

Theorem re_match_pred s : re_match (pred_re ws alt nw) s = option_map pred_groups (pred_split s).
Proof.
  unfold pred_re, re_match, match_at.
  change (m _ (Seq Bol ?x) s 0 [] ?k) with (m _ x s 0 [] k).
  change (m (N * groups) (Seq (Rep ws 0 None) (Seq (Group 1 alt) (Seq (Rep ws 0 None) (Seq (Group 2 (Rep nw 1 None)) (Seq (Rep ws 0 None) Eol))))) s 0 [] (fun _ p' g' => Some (p', g')))
    with (m (N * groups) (Rep ws 0 None) s 0 [] (fun s1 p1 g1 => m _ alt s1 p1 g1 (fun s2 p2 g2 => K_after s2 p2 ((1%nat, (p1, p2)) :: g2)))).
  rewrite m_rep_greedy.
  - cbn [Nat.leb]. rewrite (m_alts _ alt ops) by exact Halt. unfold pred_split. cbv zeta.
    rewrite <- first_some_map. apply first_some_ext. intros o Ho. unfold alt_k.
    destruct (prefixb o (snd (span_cs ws s))); [|reflexivity].
    rewrite after_eval. destruct (split_after_op _) as [[[a2 ver] a3]|]; [|reflexivity].
    cbn [option_map pred_groups]. rewrite !N.add_0_l. reflexivity.
  - intros c t q Hc. rewrite (m_alts _ alt ops) by exact Halt. apply first_some_none. intros o Ho. unfold alt_k.
    destruct (ok_op o Ho) as [x [y [-> Hx]]]. rewrite prefixb_false_hd; [reflexivity|]. intros ->. congruence.
Qed.

Lemma split_after_op_sound s a2 ver a3 : split_after_op s = Some (a2, ver, a3) ->
  s = a2 ++ ver ++ a3 /\ all_in ws a2 = true /\ all_in nw ver = true /\ ver <> [] /\ all_in ws a3 = true.
Proof.
  unfold split_after_op. cbv zeta.
  destruct (span_cs_spec ws s) as (E1 & A1 & B1). destruct (span_cs_spec nw (snd (span_cs ws s))) as (E2 & A2 & B2).
  destruct (fst (span_cs nw (snd (span_cs ws s)))) as [|c v] eqn:Ev; [discriminate|].
  unfold tail_okb. destruct (span_cs_spec ws (snd (span_cs nw (snd (span_cs ws s))))) as (E3 & A3 & B3).
  destruct (snd (span_cs ws (snd (span_cs nw (snd (span_cs ws s)))))) eqn:Et; [|discriminate].
  intros H. injection H as <- <- <-. rewrite app_nil_r in E3.
  split; [rewrite E1 at 1; f_equal; exact E2|]. split; [exact A1|]. split; [exact A2|]. split; [discriminate|].
  rewrite E3. exact A3.
Qed.

Lemma split_after_op_complete a2 ver a3 :
  all_in ws a2 = true -> all_in nw ver = true -> ver <> [] -> all_in ws a3 = true ->
  split_after_op (a2 ++ ver ++ a3) = Some (a2, ver, a3).
Proof.
  intros A2 Av Nv A3. unfold split_after_op. cbv zeta.
  assert (H1 : hd_notin ws (ver ++ a3) = true).
  { destruct ver as [|c v]; [congruence|]. cbn [app hd_notin]. cbn [all_in forallb] in Av. apply andb_true_iff in Av.
    rewrite (ok_disj' c) by apply Av. reflexivity. }
  assert (H2 : hd_notin nw a3 = true).
  { destruct a3 as [|c v]; [reflexivity|]. cbn [hd_notin]. cbn [all_in forallb] in A3. apply andb_true_iff in A3.
    rewrite (ok_disj c) by apply A3. reflexivity. }
  rewrite (span_cs_app ws a2 (ver ++ a3) A2 H1). cbn [fst snd].
  rewrite (span_cs_app nw ver a3 Av H2). cbn [fst snd].
  destruct ver as [|c v]; [congruence|]. unfold tail_okb.
  rewrite <- (app_nil_r a3) at 1. rewrite (span_cs_app ws a3 [] A3 eq_refl). reflexivity.
Qed.

Lemma pred_split_sound s a1 o a2 ver a3 : pred_split s = Some (a1, o, a2, ver, a3) ->
  s = a1 ++ o ++ a2 ++ ver ++ a3 /\ In o ops /\ all_in ws a1 = true /\ all_in ws a2 = true /\
  all_in nw ver = true /\ ver <> [] /\ all_in ws a3 = true.
Proof.
  unfold pred_split. cbv zeta. destruct (span_cs_spec ws s) as (E1 & A1 & _).
  set (s1 := snd (span_cs ws s)) in *. set (v1 := fst (span_cs ws s)) in *. clearbody s1 v1.
  intros H. apply first_some_in in H. destruct H as [x [Hx H]].
  destruct (prefixb x s1) eqn:P; [|discriminate].
  destruct (split_after_op (skipn (length x) s1)) as [[[b2 bv] b3]|] eqn:Sp; [|discriminate].
  injection H as <- <- <- <- <-. apply split_after_op_sound in Sp. destruct Sp as (E & R).
  apply prefixb_spec in P. destruct P as [t Ht]. rewrite Ht, skipn_app_exact in E. subst t.
  split; [rewrite E1, Ht; reflexivity|]. split; [exact Hx|]. split; [exact A1|exact R].
Qed.

Lemma hd_notin_op o rest : In o ops -> hd_notin ws (o ++ rest) = true.
Proof. intros Ho. destruct (ok_op o Ho) as [c [t [-> Hc]]]. cbn [app hd_notin]. rewrite Hc. reflexivity. Qed.

(* the parser's answer on a well-formed part *)
Theorem pred_split_complete a1 o a2 ver a3 :
  all_in ws a1 = true -> all_in ws a2 = true -> all_in nw ver = true -> ver <> [] -> all_in ws a3 = true ->
  find (fun x => prefixb x (o ++ a2 ++ ver ++ a3)) ops = Some o ->
  pred_split (a1 ++ o ++ a2 ++ ver ++ a3) = Some (a1, o, a2, ver, a3).
Proof.
  intros A1 A2 Av Nv A3 Hf. unfold pred_split. cbv zeta.
  assert (Ho : In o ops) by (apply find_some in Hf; apply Hf).
  rewrite (span_cs_app ws a1 _ A1 (hd_notin_op o _ Ho)). cbn [fst snd].
  apply (first_some_find (fun x => prefixb x (o ++ a2 ++ ver ++ a3))
           (fun x => match split_after_op (skipn (length x) (o ++ a2 ++ ver ++ a3)) with
                     | Some (b2, bv, b3) => Some (a1, x, b2, bv, b3) | None => None end) ops o); [exact Hf|].
  rewrite skipn_app_exact, split_after_op_complete by assumption. reflexivity.
Qed.

(* exactly which strings the pattern accepts *)
Theorem pred_split_accepts s :
  pred_split s <> None <->
  exists a1 o a2 ver a3, s = a1 ++ o ++ a2 ++ ver ++ a3 /\ In o ops /\ all_in ws a1 = true /\ all_in ws a2 = true /\
                         all_in nw ver = true /\ ver <> [] /\ all_in ws a3 = true.
Proof.
  split.
  - destruct (pred_split s) as [[[[[a1 o] a2] ver] a3]|] eqn:E; [|congruence]. intros _.
    exists a1, o, a2, ver, a3. apply pred_split_sound. exact E.
  - intros (a1 & o & a2 & ver & a3 & -> & Ho & A1 & A2 & Av & Nv & A3). unfold pred_split. cbv zeta.
    rewrite (span_cs_app ws a1 _ A1 (hd_notin_op o _ Ho)). cbn [fst snd].
    apply (first_some_some _ ops o Ho). rewrite prefixb_app, skipn_app_exact, split_after_op_complete by assumption. discriminate.
Qed.

(* no operator of the table after the leading blanks *)
Theorem reject_no_operator s :
  (forall o, In o ops -> prefixb o (snd (span_cs ws s)) = false) -> pred_split s = None.
Proof. intros H. unfold pred_split. cbv zeta. apply first_some_none. intros o Ho. rewrite (H o Ho). reflexivity. Qed.

Lemma split_after_blank a2 : all_in ws a2 = true -> split_after_op a2 = None.
Proof.
  intros A. unfold split_after_op. cbv zeta. rewrite <- (app_nil_r a2).
  rewrite (span_cs_app ws a2 [] A eq_refl). reflexivity.
Qed.

(* nothing after the operator (when no other operator of the table is a prefix of "o blanks") *)
Theorem reject_empty_version a1 o a2 :
  all_in ws a1 = true -> In o ops -> all_in ws a2 = true ->
  (forall x, In x ops -> prefixb x (o ++ a2) = true -> x = o) ->
  pred_split (a1 ++ o ++ a2) = None.
Proof.
  intros A1 Ho A2 Hu. unfold pred_split. cbv zeta.
  rewrite (span_cs_app ws a1 _ A1 (hd_notin_op o _ Ho)). cbn [fst snd].
  apply first_some_none. intros x Hx. destruct (prefixb x (o ++ a2)) eqn:P; [|reflexivity].
  rewrite (Hu x Hx P), skipn_app_exact, split_after_blank by exact A2. reflexivity.
Qed.

Lemma span_stops cs z : hd_notin cs z = true -> forall x, exists x1 x2, x = x1 ++ x2 /\ span_cs cs (x ++ z) = (x1, x2 ++ z).
Proof.
  intros Hz. induction x as [|c x IH].
  - exists [], []. split; [reflexivity|]. cbn [app]. destruct z as [|c t]; [reflexivity|].
    apply span_cs_hd. cbn [hd_notin] in Hz. apply negb_true_iff in Hz. exact Hz.
  - destruct IH as [x1 [x2 [E S]]]. cbn [app span_cs]. destruct (cmem c cs) eqn:Ec.
    + exists (c :: x1), x2. split; [cbn [app]; f_equal; exact E|]. rewrite S. reflexivity.
    + exists [], (c :: x). split; reflexivity.
Qed.

Lemma no_split_inner y' c w v2 a3 :
  cmem c nw = true -> w <> [] -> all_in ws w = true -> v2 <> [] -> all_in nw v2 = true ->
  split_after_op (y' ++ [c] ++ w ++ v2 ++ a3) = None.
Proof.
  intros Hc Nw Aw N2 A2. unfold split_after_op. cbv zeta.
  assert (Hw : hd_notin nw (w ++ v2 ++ a3) = true).
  { destruct w as [|x w]; [congruence|]. cbn [app hd_notin]. cbn [all_in forallb] in Aw. apply andb_true_iff in Aw.
    rewrite (ok_disj x) by apply Aw. reflexivity. }
  assert (H2 : hd_notin ws (v2 ++ a3) = true).
  { destruct v2 as [|x v]; [congruence|]. cbn [app hd_notin]. cbn [all_in forallb] in A2. apply andb_true_iff in A2.
    rewrite (ok_disj' x) by apply A2. reflexivity. }
  assert (H1 : hd_notin ws ([c] ++ w ++ v2 ++ a3) = true) by (cbn [app hd_notin]; rewrite (ok_disj' c Hc); reflexivity).
  destruct (span_stops ws _ H1 y') as [x1 [x2 [E1 S1]]]. rewrite S1. cbn [fst snd].
  replace (x2 ++ [c] ++ w ++ v2 ++ a3) with ((x2 ++ [c]) ++ w ++ v2 ++ a3) by (rewrite <- app_assoc; reflexivity).
  destruct (span_stops nw _ Hw (x2 ++ [c])) as [u1 [u2 [E2 S2]]]. rewrite S2. cbn [fst snd].
  destruct u1 as [|d u1]; [reflexivity|].
  replace (u2 ++ w ++ v2 ++ a3) with ((u2 ++ w) ++ v2 ++ a3) by (rewrite <- app_assoc; reflexivity).
  destruct (span_stops ws _ H2 (u2 ++ w)) as [t1 [t2 [E3 S3]]]. unfold tail_okb. rewrite S3. cbn [snd].
  destruct t2; destruct v2; try congruence; reflexivity.
Qed.

(* blanks inside the version text (when no operator of the table swallows the first fragment) *)
Theorem reject_inner_space a1 o a2 v1 w v2 a3 :
  all_in ws a1 = true -> In o ops -> v1 <> [] -> all_in nw v1 = true ->
  w <> [] -> all_in ws w = true -> v2 <> [] -> all_in nw v2 = true ->
  (forall x, In x ops -> prefixb x (o ++ a2 ++ v1 ++ w ++ v2 ++ a3) = true -> (length x < length (o ++ a2 ++ v1))%nat) ->
  pred_split (a1 ++ o ++ a2 ++ v1 ++ w ++ v2 ++ a3) = None.
Proof.
  intros A1 Ho N1 Av1 Nw Aw N2 Av2 Hlen. unfold pred_split. cbv zeta.
  rewrite (span_cs_app ws a1 _ A1 (hd_notin_op o _ Ho)). cbn [fst snd].
  apply first_some_none. intros x Hx. destruct (prefixb x (o ++ a2 ++ v1 ++ w ++ v2 ++ a3)) eqn:P; [|reflexivity].
  specialize (Hlen x Hx P). destruct (exists_last N1) as [v1' [c ->]].
  assert (Hc : cmem c nw = true).
  { unfold all_in in Av1. rewrite forallb_forall in Av1. apply Av1. apply in_or_app. right. left. reflexivity. }
  (* x ends inside "o a2 v1'": what follows it still holds the last character of v1, then the blank *)
  assert (Hle : (length x <= length (o ++ a2 ++ v1'))%nat).
  { replace (o ++ a2 ++ v1' ++ [c]) with ((o ++ a2 ++ v1') ++ [c]) in Hlen by (rewrite <- !app_assoc; reflexivity).
    rewrite app_length, Nat.add_1_r in Hlen. apply Nat.lt_succ_r, Hlen. }
  replace (o ++ a2 ++ (v1' ++ [c]) ++ w ++ v2 ++ a3) with ((o ++ a2 ++ v1') ++ [c] ++ w ++ v2 ++ a3) in P |- *
    by (rewrite <- !app_assoc; reflexivity).
  rewrite (prefixb_short x _ _ P Hle), <- app_assoc, skipn_app_exact. rewrite no_split_inner by assumption. reflexivity.
Qed.
End Pred.
