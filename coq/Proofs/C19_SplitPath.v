(* Proofs/C19_SplitPath.v — split_path: str.split characterisation, the contract,
   and the tie to the statement-level translation of the source. *)
From Coq Require Import String.
Require Import OV.Base.Bytes OV.Base.Py OV.Base.Str OV.Base.C19_PyList.
Require Import OV.Gen.C19_SplitPath OV.Model.C19 OV.Model.C19_Spec OV.Proofs.C11_Split.
Open Scope Z_scope.

(* the first piece of a split with a limit continues what has been accumulated *)
Lemma split_max_aux_head c s : forall cur k, exists h r, split_char_max_aux c s cur k = (rev cur ++ h) :: r.
Proof.
  induction s as [|x t IH]; intros cur k; cbn [split_char_max_aux].
  - exists [], []. rewrite app_nil_r. reflexivity.
  - destruct k as [|k']; [eauto|]. destruct (x =? c)%N.
    + exists [], (split_char_max_aux c t [] k'). rewrite app_nil_r. reflexivity.
    + destruct (IH (x :: cur) (S k')) as (h & r & ->). exists (x :: h), r. cbn [rev]. rewrite <- app_assoc. reflexivity.
Qed.

(* split with a limit, in terms of the unlimited split: the first k pieces and
   then the unsplit remainder *)
Lemma split_max_aux_spec c s : forall cur k,
  split_char_max_aux c s cur k =
  if (length (split_char_aux c s cur) <=? S k)%nat then split_char_aux c s cur
  else firstn k (split_char_aux c s cur) ++ [join [c] (skipn k (split_char_aux c s cur))].
Proof.
  induction s as [|x t IH]; intros cur k; [reflexivity|].
  destruct k as [|k'].
  - (* no split left: one piece, the whole text *)
    cbn [split_char_max_aux firstn skipn app]. rewrite join_split_aux.
    pose proof (join_split_aux c (x :: t) cur) as Hj. pose proof (split_aux_nonnil c (x :: t) cur) as Hn.
    destruct (split_char_aux c (x :: t) cur) as [|h [|h2 r]]; [congruence|cbn in Hj; subst h|]; reflexivity.
  - cbn [split_char_max_aux split_char_aux]. destruct (x =? c)%N; [|apply IH].
    rewrite IH. cbn [length]. change (S ?n <=? S ?m)%nat with (n <=? m)%nat.
    destruct (length (split_char_aux c t []) <=? S k')%nat; reflexivity.
Qed.

Lemma split_char_max_spec c s k :
  split_char_max c s k =
  if (length (split_char c s) <=? S k)%nat then split_char c s
  else firstn k (split_char c s) ++ [join [c] (skipn k (split_char c s))].
Proof. apply split_max_aux_spec. Qed.

Lemma llen_cons {A} (x : A) l : llen (x :: l) = 1 + llen l.
Proof. unfold llen. cbn [length]. lia. Qed.
Lemma llen_nonneg {A} (l : list A) : 0 <= llen l.
Proof. unfold llen. lia. Qed.

Lemma lslice_from1 {A} (x : A) l h : 1 <= h ->
  lslice (Some 1) (Some h) (x :: l) = firstn (Z.to_nat (h - 1)) l.
Proof.
  intros Hh. unfold lslice, norm_idx. rewrite llen_cons. pose proof (llen_nonneg l) as Hl.
  replace (1 <? 0) with false by lia. replace (h <? 0) with false by lia.
  replace (Z.max 0 (Z.min (1 + llen l) 1)) with 1 by lia.
  change (Z.to_nat 1) with 1%nat. cbn [skipn].
  destruct (Z_le_gt_dec h (1 + llen l)) as [Hle|Hgt].
  - replace (Z.max 0 (Z.min (1 + llen l) h)) with h by lia. reflexivity.
  - replace (Z.max 0 (Z.min (1 + llen l) h)) with (1 + llen l) by lia.
    unfold llen in *. rewrite !firstn_all2 by lia. reflexivity.
Qed.

Definition nonnil (s : str) : bool := negb (is_nil s).
Lemma str_in_nil l : str_in [] l = negb (forallb nonnil l).
Proof. unfold str_in. induction l as [|s l IH]; [reflexivity|]. cbn [existsb forallb]. rewrite IH.
  destruct s; reflexivity. Qed.
Lemma forallb_nonnil l : forallb nonnil l = true <-> Forall (fun s => s <> []) l.
Proof. rewrite forallb_forall, Forall_forall. split; intros H s Hs; specialize (H s Hs).
  - destruct s; [discriminate|discriminate].
  - destruct s; [congruence|reflexivity]. Qed.

(* what split_path does with the pieces, as a function of them (split_path_unfold), so that it can
   be evaluated on pieces given otherwise than by py_split1 *)
Definition sp_post (minsegs M : Z) (rwl : bool) (segs : list str) : res (list (option str)) :=
  let count := llen segs in
  let bad :=
    str_truth (hd [] segs)
    || (count <? minsegs + 1)
    || (count >? (if rwl then M + 1 else M + 2))
    || str_in [] (lslice (Some 1) (Some (minsegs + 1)) segs)
    || (negb rwl && (count =? M + 2) && str_truth (nth (Z.to_nat (M + 1)) segs [])) in
  if bad then Exn ValueError
  else let keep := lslice (Some 1) (Some (M + 1)) segs in
       Ok (pad_none keep (M - llen keep)).

Lemma split_path_unfold path minsegs maxsegs rwl :
  split_path path minsegs maxsegs rwl =
  let M := eff_max minsegs maxsegs in
  if minsegs >? M then Exn ValueError
  else sp_post minsegs M rwl (py_split1 path slash (if rwl then M else M + 1)).
Proof. reflexivity. Qed.

(* segs = '' :: L  (the path starts with the separator) *)
Lemma sp_post_eval (m Mn : nat) rwl (L : list str) : (1 <= m <= Mn)%nat ->
  sp_post (Z.of_nat m) (Z.of_nat Mn) rwl ([] :: L) =
  if (length L <? m)%nat
     || (if rwl then Mn <? length L else S Mn <? length L)%nat
     || negb (forallb nonnil (firstn m L))
     || (negb rwl && (length L =? S Mn)%nat && str_truth (nth Mn L []))
  then Exn ValueError
  else Ok (padded Mn (firstn Mn L)).
Proof.
  intros Hm. unfold sp_post. cbn [hd str_truth orb]. rewrite llen_cons. unfold llen.
  rewrite !lslice_from1 by lia.
  replace (Z.to_nat (Z.of_nat m + 1 - 1)) with m by lia.
  replace (Z.to_nat (Z.of_nat Mn + 1 - 1)) with Mn by lia.
  replace (Z.to_nat (Z.of_nat Mn + 1)) with (S Mn) by lia. cbn [nth].
  rewrite str_in_nil.
  replace (1 + Z.of_nat (length L) <? Z.of_nat m + 1) with (length L <? m)%nat
    by (destruct (Nat.ltb_spec (length L) m); lia).
  replace (1 + Z.of_nat (length L) >? (if rwl then Z.of_nat Mn + 1 else Z.of_nat Mn + 2))
    with (if rwl then Mn <? length L else S Mn <? length L)%nat
    by (destruct rwl; [destruct (Nat.ltb_spec Mn (length L))|destruct (Nat.ltb_spec (S Mn) (length L))]; lia).
  replace (1 + Z.of_nat (length L) =? Z.of_nat Mn + 2) with (length L =? S Mn)%nat
    by (destruct (Nat.eqb_spec (length L) (S Mn)); lia).
  match goal with |- (if ?b then _ else _) = _ => destruct b; [reflexivity|] end.
  unfold pad_none, padded. do 3 f_equal. lia.
Qed.

Definition decl_result (m Mn : nat) (rwl : bool) (P : list str) : res (list (option str)) :=
  match decl_lead rwl Mn P with
  | Some lead => if (m <=? length lead)%nat && forallb nonnil (firstn m lead)
                 then Ok (padded Mn lead) else Exn ValueError
  | None => Exn ValueError
  end.

Lemma nth_last_len {A} (l : list A) k d d' : length l = S k -> nth k l d = last l d'.
Proof.
  revert k. induction l as [|x l IH]; intros k H; [discriminate|].
  destruct l as [|y l'].
  - cbn in H. assert (k = 0)%nat by lia. subst. reflexivity.
  - destruct k as [|k]; [cbn in H; lia|]. change (last (x :: y :: l') d') with (last (y :: l') d').
    change (nth (S k) (x :: y :: l') d) with (nth k (y :: l') d). apply IH. cbn in *; lia.
Qed.

Lemma join_two_nonnil c (l : list str) : (2 <= length l)%nat -> join [c] l <> [].
Proof. destruct l as [|x [|y r]]; cbn [length]; try lia. intros _. rewrite join_cons.
  destruct x; discriminate. Qed.

Ltac nat_bools :=
  repeat match goal with
  | |- context [Nat.ltb ?a ?b] => destruct (Nat.ltb_spec a b); try lia
  | |- context [Nat.leb ?a ?b] => destruct (Nat.leb_spec a b); try lia
  | |- context [Nat.eqb ?a ?b] => destruct (Nat.eqb_spec a b); try lia
  end;
  cbn [orb andb negb];
  try match goal with |- context [forallb ?f ?l] => destruct (forallb f l) end;
  cbn [orb andb negb]; try reflexivity.

Lemma split_slash (m Mn : nat) rwl body : (1 <= m <= Mn)%nat ->
  sp_post (Z.of_nat m) (Z.of_nat Mn) rwl
          (py_split1 (slash :: body) slash (if rwl then Z.of_nat Mn else Z.of_nat Mn + 1))
  = decl_result m Mn rwl (split_char slash body).
Proof.
  intros Hm. unfold py_split1.
  replace ((if rwl then Z.of_nat Mn else Z.of_nat Mn + 1) <? 0) with false by (destruct rwl; lia).
  rewrite split_char_max_spec, split_cons_sep.
  set (P := split_char slash body). pose proof (split_nonnil slash body) as HP. fold P in HP.
  assert (Hn : (1 <= length P)%nat) by (destruct P; [congruence|cbn; lia]).
  unfold decl_result, decl_lead. cbn [length].
  destruct rwl.
  - rewrite Nat2Z.id.
    change (S (length P) <=? S Mn)%nat with (length P <=? Mn)%nat.
    destruct (Nat.leb_spec (length P) Mn) as [Hle|Hgt].
    + rewrite sp_post_eval by exact Hm. cbn [negb andb orb].
      rewrite (@firstn_all2 _ Mn P) by lia. nat_bools.
    + destruct Mn as [|M']; [lia|]. cbn [firstn skipn app].
      replace (S M' - 1)%nat with M' by lia.
      set (L := firstn M' P ++ [join [slash] (skipn M' P)]).
      assert (HL : length L = S M').
      { unfold L. rewrite app_length, firstn_length. cbn [length]. lia. }
      rewrite sp_post_eval by exact Hm. rewrite HL. cbn [negb andb orb].
      rewrite (@firstn_all2 _ (S M') L) by lia. nat_bools.
  - replace (Z.to_nat (Z.of_nat Mn + 1)) with (S Mn) by lia.
    change (S (length P) <=? S (S Mn))%nat with (length P <=? S Mn)%nat.
    destruct (Nat.leb_spec (length P) (S Mn)) as [Hle|Hgt].
    + rewrite sp_post_eval by exact Hm. cbn [negb andb].
      destruct (Nat.leb_spec (length P) Mn) as [Hle2|Hgt2].
      * rewrite (@firstn_all2 _ Mn P) by lia. nat_bools.
      * assert (He : length P = S Mn) by lia. rewrite He, Nat.eqb_refl. cbn [andb].
        rewrite (nth_last_len P Mn [] [1%N]) by exact He.
        destruct (last P [1%N]) as [|z zs] eqn:El; cbn [is_nil str_truth andb].
        -- rewrite firstn_length, firstn_firstn, He.
           replace (Nat.min Mn (S Mn)) with Mn by lia. replace (Nat.min m Mn) with m by lia. nat_bools.
        -- nat_bools.
    + cbn [firstn skipn app].
      set (L := firstn Mn P ++ [join [slash] (skipn Mn P)]).
      assert (HL : length L = S Mn).
      { unfold L. rewrite app_length, firstn_length. cbn [length]. lia. }
      rewrite sp_post_eval by exact Hm. rewrite HL, Nat.eqb_refl. cbn [negb andb].
      assert (Hnth : nth Mn L [] = join [slash] (skipn Mn P)).
      { unfold L. rewrite app_nth2; rewrite firstn_length; [|lia].
        replace (Mn - Nat.min Mn (length P))%nat with 0%nat by lia. reflexivity. }
      rewrite Hnth.
      assert (Hj : join [slash] (skipn Mn P) <> []).
      { apply join_two_nonnil. rewrite skipn_length. lia. }
      destruct (join [slash] (skipn Mn P)); [congruence|]. cbn [str_truth].
      rewrite orb_true_r. nat_bools.
Qed.

(* paths that do not start with '/' *)
Lemma split_noslash (m : nat) M rwl path k : (1 <= m)%nat ->
  (forall body, path <> slash :: body) ->
  sp_post (Z.of_nat m) M rwl (split_char_max slash path k) = Exn ValueError.
Proof.
  intros Hm Hns. destruct path as [|x t].
  - unfold sp_post. cbn [split_char_max split_char_max_aux rev hd str_truth orb]. unfold llen. cbn [length].
    replace (Z.of_nat 1 <? Z.of_nat m + 1) with true by lia. reflexivity.
  - assert (Hx : (x =? slash)%N = false).
    { apply N.eqb_neq. intros ->. apply (Hns t). reflexivity. }
    assert (Hhd : exists h r, split_char_max slash (x :: t) k = (x :: h) :: r).
    { unfold split_char_max. destruct k as [|k']; cbn [split_char_max_aux rev app]; [eauto|]. rewrite Hx.
      apply (split_max_aux_head slash t [x]). }
    destruct Hhd as (h & r & ->). unfold sp_post. reflexivity.
Qed.

(* what "the segments" are: '/'-free pieces whose '/'-join is the text, and the only such *)
Lemma segments_join body : join [slash] (segments body) = body.
Proof. apply join_split. Qed.
Lemma segments_no_slash body : Forall (fun p => ~ In slash p) (segments body).
Proof. apply split_fields. Qed.
Lemma segments_unique body l :
  l <> [] -> Forall (fun p => ~ In slash p) l -> join [slash] l = body -> l = segments body.
Proof. intros Hn Hf <-. symmetry. apply split_join; assumption. Qed.

Lemma decl_lead_sound rwl M P lead : decl_lead rwl M P = Some lead -> leading rwl M P lead.
Proof.
  unfold decl_lead. destruct (Nat.leb_spec (length P) M) as [Hle|Hgt].
  - intros [= <-]. apply lead_all. exact Hle.
  - destruct rwl.
    + intros [= <-]. apply lead_rest; [reflexivity|lia].
    + destruct (Nat.eqb_spec (length P) (S M)) as [He|Hne]; cbn [andb]; [|discriminate].
      destruct (last P [1%N]) as [|z zs] eqn:El; cbn [is_nil]; [|discriminate].
      intros [= <-]. apply lead_trailing; [reflexivity| |rewrite firstn_length; lia].
      rewrite <- (firstn_skipn M P) at 1. f_equal.
      assert (Hs : length (skipn M P) = 1%nat) by (rewrite skipn_length; lia).
      destruct (skipn M P) as [|s [|s2 r]] eqn:Es; cbn in Hs; try lia.
      f_equal. rewrite <- (firstn_skipn M P), Es, last_last in El. exact El.
Qed.

Lemma decl_lead_complete rwl M P lead : leading rwl M P lead -> decl_lead rwl M P = Some lead.
Proof.
  intros H. unfold decl_lead. destruct H as [Hle|Hr Hgt|Hr l HP Hl].
  - destruct (Nat.leb_spec (length P) M); [reflexivity|lia].
  - destruct (Nat.leb_spec (length P) M); [lia|]. rewrite Hr. reflexivity.
  - assert (Hn : length P = S M) by (rewrite HP, app_length; cbn [length]; lia).
    destruct (Nat.leb_spec (length P) M); [lia|]. rewrite Hr, Hn, Nat.eqb_refl.
    rewrite HP, last_last. cbn [andb is_nil]. rewrite firstn_app, firstn_all2 by lia.
    replace (M - length l)%nat with 0%nat by lia. cbn [firstn]. rewrite app_nil_r. reflexivity.
Qed.

Lemma leading_length rwl M P lead : (1 <= M)%nat -> leading rwl M P lead -> (length lead <= M)%nat.
Proof.
  intros HM H. destruct H as [Hle|Hr Hgt|Hr l HP Hl]; [exact Hle| |apply Nat.eq_le_incl; exact Hl].
  rewrite app_length, firstn_length. cbn [length]. lia.
Qed.

(* every outcome is a list or ValueError, for all arguments whatsoever *)
Theorem split_path_total path minsegs maxsegs rwl :
  (exists r, split_path path minsegs maxsegs rwl = Ok r) \/
  split_path path minsegs maxsegs rwl = Exn ValueError.
Proof.
  rewrite split_path_unfold. cbv zeta.
  destruct (minsegs >? eff_max minsegs maxsegs); [right; reflexivity|].
  unfold sp_post. cbv zeta.
  match goal with |- context [if ?b then Exn ValueError else _] => destruct b end;
    [right; reflexivity|left; eexists; reflexivity].
Qed.

(* the contract *)
Theorem split_path_spec path minsegs maxsegs rwl r : 1 <= minsegs ->
  let M := eff_max minsegs maxsegs in
  split_path path minsegs maxsegs rwl = Ok r <->
  (minsegs <= M /\
   exists lead, accepted path (Z.to_nat minsegs) (Z.to_nat M) rwl lead /\ r = padded (Z.to_nat M) lead).
Proof.
  intros Hmin M. rewrite split_path_unfold. cbv zeta. fold M.
  destruct (Z.gtb_spec minsegs M) as [Hgt|Hle].
  { split; [discriminate|intros [H _]; lia]. }
  set (m := Z.to_nat minsegs). set (Mn := Z.to_nat M).
  assert (Hm : (1 <= m <= Mn)%nat) by lia.
  replace minsegs with (Z.of_nat m) by lia. replace M with (Z.of_nat Mn) by lia.
  assert (Hsplit : forall s k, 0 <= k -> py_split1 s slash k = split_char_max slash s (Z.to_nat k)).
  { intros s k Hk. unfold py_split1. replace (k <? 0) with false by lia. reflexivity. }
  destruct path as [|x body].
  - (* the empty path *)
    rewrite Hsplit by (destruct rwl; lia). rewrite (split_noslash m) by (try lia; discriminate).
    split; [discriminate|]. intros (_ & lead & (body & Hb & _) & _). discriminate.
  - destruct (N.eqb_spec x slash) as [->|Hx].
    + rewrite split_slash by exact Hm. unfold decl_result. fold (segments body).
      split.
      * destruct (decl_lead rwl Mn (segments body)) as [lead|] eqn:Ed; [|discriminate].
        destruct (Nat.leb_spec m (length lead)) as [Hml|]; cbn [andb]; [|discriminate].
        destruct (forallb nonnil (firstn m lead)) eqn:Ef; [|discriminate].
        intros [= <-]. split; [lia|]. exists lead. split; [|reflexivity].
        exists body. split; [reflexivity|]. apply decl_lead_sound in Ed.
        split; [exact Ed|]. split.
        -- split; [exact Hml|]. apply (leading_length rwl Mn (segments body)); [lia|exact Ed].
        -- apply forallb_nonnil. exact Ef.
      * intros (_ & lead & (body' & Hb & Hlead & Hlen & Hne) & ->).
        injection Hb as <-. rewrite (decl_lead_complete _ _ _ _ Hlead).
        destruct (Nat.leb_spec m (length lead)); [|lia]. cbn [andb].
        apply forallb_nonnil in Hne. rewrite Hne. reflexivity.
    + rewrite Hsplit by (destruct rwl; lia).
      rewrite (split_noslash m) by (try lia; intros b [= E _]; congruence).
      split; [discriminate|]. intros (_ & lead & (body' & Hb & _) & _). congruence.
Qed.

(* exactly maxsegs entries *)
Lemma padded_length M lead : (length lead <= M)%nat -> length (padded M lead) = M.
Proof. intros H. unfold padded. rewrite app_length, map_length, repeat_length. lia. Qed.

Theorem split_path_length path minsegs maxsegs rwl r : 1 <= minsegs ->
  split_path path minsegs maxsegs rwl = Ok r -> llen r = eff_max minsegs maxsegs.
Proof.
  intros Hmin H. apply split_path_spec in H; [|exact Hmin].
  destruct H as (Hle & lead & (body & _ & _ & Hlen & _) & ->).
  unfold llen. rewrite padded_length by lia. lia.
Qed.

(* minsegs > maxsegs *)
Lemma minsegs_gt_maxsegs_ValueError path minsegs maxsegs rwl :
  minsegs > eff_max minsegs maxsegs -> split_path path minsegs maxsegs rwl = Exn ValueError.
Proof. intros H. unfold split_path. destruct (minsegs >? eff_max minsegs maxsegs) eqn:E; [reflexivity|lia]. Qed.

(* every other path *)
Theorem split_path_rejects path minsegs maxsegs rwl : 1 <= minsegs ->
  (forall lead, ~ accepted path (Z.to_nat minsegs) (Z.to_nat (eff_max minsegs maxsegs)) rwl lead) ->
  split_path path minsegs maxsegs rwl = Exn ValueError.
Proof.
  intros Hmin Hno. destruct (split_path_total path minsegs maxsegs rwl) as [[r Hr]|He]; [|exact He].
  apply split_path_spec in Hr; [|exact Hmin]. destruct Hr as (_ & lead & Ha & _). destruct (Hno lead Ha).
Qed.

(* ------------------------------------------------------------------ the tie to the source:
   the statement-by-statement translation of split_path (regenerated from /repo on
   every run) is the model, for all arguments; in particular the two list indexings
   of the source can never raise IndexError. *)
Lemma py_split1_nonnil s c k : py_split1 s c k <> [].
Proof. unfold py_split1. destruct (k <? 0).
  - apply split_nonnil.
  - destruct (split_max_aux_head c s [] (Z.to_nat k)) as (h & r & E). unfold split_char_max. rewrite E. discriminate. Qed.

Lemma lidx_0 (l : list str) : l <> [] -> lidx l 0 = Ok (hd [] l).
Proof. destruct l as [|x l]; [congruence|]. intros _. unfold lidx. rewrite llen_cons.
  pose proof (llen_nonneg l). replace (0 <? 0) with false by lia. cbn [orb].
  replace (1 + llen l <=? 0) with false by lia. reflexivity. Qed.

Lemma lidx_guarded (l : list str) M : l <> [] ->
  res_and (Ok (llen l =? M + 1)) (res_map str_truth (lidx l M)) =
  Ok ((llen l =? M + 1) && str_truth (nth (Z.to_nat M) l [])).
Proof.
  intros Hl. destruct (Z.eqb_spec (llen l) (M + 1)) as [He|Hne]; [|reflexivity].
  cbn [res_and andb]. unfold lidx.
  assert (0 < llen l) by (destruct l; [congruence|rewrite llen_cons; pose proof (llen_nonneg l); lia]).
  replace (M <? 0) with false by lia. replace (M <? 0) with false by lia. cbn [orb].
  replace (llen l <=? M) with false by lia.
  rewrite (nth_error_nth' l []) by (unfold llen in *; lia). reflexivity.
Qed.

Lemma res_or_Ok a b : res_or (Ok a) (Ok b) = Ok (a || b).
Proof. destruct a; reflexivity. Qed.

Theorem gen_split_path_equiv path minsegs maxsegs rwl :
  gen_split_path path minsegs maxsegs rwl = split_path path minsegs maxsegs rwl.
Proof.
  rewrite split_path_unfold. unfold gen_split_path, eff_max. cbv zeta.
  (* the three ways of fixing the bound lead to the same text; then both modes *)
  destruct maxsegs as [sm|]; [destruct (sm =? 0)|].
  all: match goal with |- (if ?c then _ else _) = _ => destruct c; [reflexivity|] end.
  all: unfold sp_post, slash; cbv zeta; destruct rwl.
  all: match goal with |- context [lidx (py_split1 ?p ?c ?k) 0] =>
         pose proof (py_split1_nonnil p c k) as Hn; set (segs := py_split1 p c k) in * end.
  all: rewrite lidx_0, ?lidx_guarded by exact Hn; cbn [res_map negb andb].
  all: rewrite !res_or_Ok, ?orb_false_r, !orb_assoc, ?Z.add_simpl_r, <- ?Z.add_assoc.
  all: reflexivity.
Qed.

(* non-vacuity / docstring examples *)
Example split_path_examples :
  gen_split_path (lit "/a") 1 None false = Ok [Some (lit "a")] /\
  gen_split_path (lit "/a") 1 (Some 2) false = Ok [Some (lit "a"); None] /\
  gen_split_path (lit "/a/c") 1 (Some 2) false = Ok [Some (lit "a"); Some (lit "c")] /\
  gen_split_path (lit "/a/c/o/r") 1 (Some 3) true = Ok [Some (lit "a"); Some (lit "c"); Some (lit "o/r")] /\
  gen_split_path (lit "/a/c/") 1 (Some 2) false = Ok [Some (lit "a"); Some (lit "c")] /\
  gen_split_path (lit "/a/") 1 (Some 2) false = Ok [Some (lit "a"); Some []] /\
  gen_split_path (lit "/a/c//") 1 (Some 2) false = Exn ValueError /\
  gen_split_path (lit "a/c") 1 (Some 2) false = Exn ValueError /\
  gen_split_path (lit "//c") 1 (Some 2) false = Exn ValueError /\
  gen_split_path (lit "/a") 3 (Some 2) false = Exn ValueError.
Proof. vm_compute. repeat split; reflexivity. Qed.
Example accepted_example :
  accepted (lit "/a/c/o/r") 1 3 true [lit "a"; lit "c"; lit "o/r"].
Proof.
  exists (lit "a/c/o/r"). split; [reflexivity|]. split.
  - change (segments (lit "a/c/o/r")) with [lit "a"; lit "c"; lit "o"; lit "r"].
    apply (lead_rest true 3 [lit "a"; lit "c"; lit "o"; lit "r"]); [reflexivity|cbn; lia].
  - split; [cbn; lia|]. repeat constructor; discriminate.
Qed.
(* outside the range of the property (minsegs < 1) the reading "starts with '/'" fails:
   the empty path is accepted with minsegs = 0 *)
Example split_path_minsegs0_witness : gen_split_path [] 0 None false = Ok [].
Proof. vm_compute. reflexivity. Qed.
