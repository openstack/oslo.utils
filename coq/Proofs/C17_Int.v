(* Proofs/C17_Int.v — exactly which strings int() accepts: py_int s <> None <-> int_literal s *)
Require Import OV.Base.Bytes OV.Base.PyInt OV.Base.Str OV.Gen.Unicode OV.Model.C17_Spec.
Open Scope N_scope.

(* ---------- facts read off the generated Unicode tables ---------- *)
Lemma not_digit_us : is_digit 95 = false. Proof. vm_compute. reflexivity. Qed.
Lemma not_digit_plus : is_digit 43 = false. Proof. vm_compute. reflexivity. Qed.
Lemma not_digit_minus : is_digit 45 = false. Proof. vm_compute. reflexivity. Qed.
Lemma not_space_plus : int_space 43 = false. Proof. vm_compute. reflexivity. Qed.
Lemma not_space_minus : int_space 45 = false. Proof. vm_compute. reflexivity. Qed.

Lemma digit_ne_us c : is_digit c = true -> (c =? 95) = false.
Proof. intros H. destruct (c =? 95) eqn:E; [|reflexivity]. apply N.eqb_eq in E. subst. rewrite not_digit_us in H. discriminate. Qed.

Lemma digit_ne c x : is_digit c = true -> is_digit x = false -> (c =? x) = false.
Proof. intros H Hx. destruct (c =? x) eqn:E; [|reflexivity]. apply N.eqb_eq in E. subst. congruence. Qed.

Lemma is_digit_val c : is_digit c = true -> exists d, digit_val c = Some d.
Proof. unfold is_digit. destruct (digit_val c) as [d|]; [eauto|discriminate]. Qed.

Lemma int_body_cons c b : is_digit c = true -> int_body b -> int_body (c :: b).
Proof.
  intros Hc Hb. inversion Hb as [d [Hne Hd]|d b' [Hne Hd] Hb']; subst.
  - apply ib_one. split; [discriminate|constructor; assumption].
  - change (c :: d ++ 95 :: b') with ((c :: d) ++ 95 :: b'). apply ib_more; [|exact Hb'].
    split; [discriminate|constructor; assumption].
Qed.

Lemma digits_us_sound s : forall acc b n, digits_us s acc b = Some n ->
  (b = false -> int_body s) /\ (b = true -> s = [] \/ int_body s \/ exists b', s = 95 :: b' /\ int_body b').
Proof.
  induction s as [|c t IH]; intros acc b n H; cbn [digits_us] in H.
  - destruct b; [|discriminate]. split; [discriminate|]. intros _. left. reflexivity.
  - destruct (c =? 95) eqn:E.
    + apply N.eqb_eq in E. subst c. destruct b; [|discriminate].
      destruct (IH _ _ _ H) as [I _]. split; [discriminate|]. intros _. right. right. exists t. split; [reflexivity|apply I; reflexivity].
    + destruct (digit_val c) as [d|] eqn:D; [|discriminate].
      assert (Hc : is_digit c = true) by (unfold is_digit; rewrite D; reflexivity).
      destruct (IH _ _ _ H) as [_ I]. specialize (I eq_refl).
      assert (B : int_body (c :: t)).
      { destruct I as [->|[I|[b' [-> I]]]].
        - apply ib_one. split; [discriminate|constructor; [exact Hc|constructor]].
        - apply int_body_cons; assumption.
        - change (c :: 95 :: b') with ([c] ++ 95 :: b'). apply ib_more; [|exact I].
          split; [discriminate|constructor; [exact Hc|constructor]]. }
      split; intros _; [exact B|right; left; exact B].
Qed.

Lemma digits_run d : Forall (fun c => is_digit c = true) d -> d <> [] ->
  forall acc b, exists acc', forall rest, digits_us (d ++ rest) acc b = digits_us rest acc' true.
Proof.
  induction 1 as [|c d Hc Hd IH]; intros Hne acc b; [congruence|].
  destruct (is_digit_val c Hc) as [v Hv].
  destruct d as [|c2 d].
  - exists (acc * 10 + v). intros rest. cbn [app digits_us]. rewrite (digit_ne_us c Hc), Hv. reflexivity.
  - destruct (IH ltac:(discriminate) (acc * 10 + v) true) as [acc' IH'].
    exists acc'. intros rest. cbn [app digits_us]. rewrite (digit_ne_us c Hc), Hv. apply IH'.
Qed.

Lemma digits_us_complete s : int_body s -> forall acc b, exists n, digits_us s acc b = Some n.
Proof.
  induction 1 as [d [Hne Hd]|d b' [Hne Hd] Hb IH]; intros acc b.
  - destruct (digits_run d Hd Hne acc b) as [acc' H]. exists acc'. rewrite <- (app_nil_r d), H. reflexivity.
  - destruct (digits_run d Hd Hne acc b) as [acc' H]. rewrite H. cbn [digits_us N.eqb Pos.eqb]. apply IH.
Qed.

Lemma all_int_space_forallb w : all_int_space w <-> forallb int_space w = true.
Proof. unfold all_int_space. rewrite Forall_forall, forallb_forall. reflexivity. Qed.

Lemma istrip_decomp s : exists w1 w2, s = w1 ++ istrip s ++ w2 /\ all_int_space w1 /\ all_int_space w2.
Proof.
  rewrite istrip_is_by. destruct (strip_by_split int_space s) as (w1 & w2 & E & S1 & S2).
  exists w1, w2. rewrite !all_int_space_forallb. auto.
Qed.

Lemma int_body_first b : int_body b -> exists c t, b = c :: t /\ is_digit c = true.
Proof.
  intros H. destruct H as [d [Hne Hd]|d b' [Hne Hd] _]; destruct d as [|c d]; try congruence;
    inversion Hd; subst; eexists _, _; (split; [reflexivity|assumption]).
Qed.

Lemma int_body_last b : int_body b -> exists t y, b = t ++ [y] /\ is_digit y = true.
Proof.
  induction 1 as [d [Hne Hd]|d b' _ _ IH].
  - destruct (exists_last Hne) as [t [y ->]]. exists t, y. split; [reflexivity|].
    rewrite Forall_forall in Hd. apply Hd. apply in_or_app. right. left. reflexivity.
  - destruct IH as [t [y [-> Hy]]]. exists (d ++ 95 :: t), y. split; [rewrite <- app_assoc; reflexivity|exact Hy].
Qed.

Theorem py_int_accepts s : py_int s <> None <-> int_literal s.
Proof.
  split.
  - intros H. destruct (istrip_decomp s) as [w1 [w2 [E [S1 S2]]]]. unfold py_int in H.
    destruct (istrip s) as [|c t] eqn:Ec; [congruence|].
    destruct (c =? 43) eqn:E43; [|destruct (c =? 45) eqn:E45].
    + apply N.eqb_eq in E43. subst c. destruct (digits_us t 0 false) as [n|] eqn:D; [|cbn in H; congruence].
      exists w1, [43], t, w2. repeat split; auto; [right; left; reflexivity|].
      apply (digits_us_sound _ _ _ _ D). reflexivity.
    + apply N.eqb_eq in E45. subst c. destruct (digits_us t 0 false) as [n|] eqn:D; [|cbn in H; congruence].
      exists w1, [45], t, w2. repeat split; auto; [right; right; reflexivity|].
      apply (digits_us_sound _ _ _ _ D). reflexivity.
    + destruct (digits_us (c :: t) 0 false) as [n|] eqn:D; [|cbn in H; congruence].
      exists w1, [], (c :: t), w2. repeat split; auto; [left; reflexivity|].
      apply (digits_us_sound _ _ _ _ D). reflexivity.
  - intros (w1 & sg & b & w2 & -> & S1 & S2 & Hsg & Hb).
    destruct (int_body_first b Hb) as [c [t [Eb Hc]]]. destruct (int_body_last b Hb) as [t' [y [Eb' Hy]]].
    assert (Hcore : istrip (w1 ++ (sg ++ b) ++ w2) = sg ++ b).
    { rewrite istrip_is_by. apply all_int_space_forallb in S1, S2.
      apply (strip_by_unique int_space w1 _ w2 0 S1 S2).
      - rewrite Eb. destruct sg; discriminate.
      - rewrite Eb. destruct Hsg as [->|[->| ->]]; [apply digit_not_space, Hc|apply not_space_plus|apply not_space_minus].
      - rewrite Eb', app_assoc, last_last. apply digit_not_space, Hy. }
    rewrite <- app_assoc in Hcore. unfold py_int. rewrite Hcore.
    destruct Hsg as [->|[->| ->]]; cbn [app].
    + rewrite Eb.
      rewrite (digit_ne c 43 Hc not_digit_plus), (digit_ne c 45 Hc not_digit_minus).
      rewrite <- Eb. destruct (digits_us_complete b Hb 0 false) as [n ->]. discriminate.
    + cbn [N.eqb Pos.eqb]. destruct (digits_us_complete b Hb 0 false) as [n ->]. discriminate.
    + cbn [N.eqb Pos.eqb]. destruct (digits_us_complete b Hb 0 false) as [n ->]. discriminate.
Qed.

Corollary py_int_rejects s : py_int s = None <-> ~ int_literal s.
Proof.
  rewrite <- py_int_accepts. destruct (py_int s) as [z|].
  - split; [discriminate|]. intros H. exfalso. apply H. discriminate.
  - split; [intros _ H; apply H; reflexivity|reflexivity].
Qed.

(* a trailing newline does not change the value *)
Lemma ilstrip_app_nl s : ilstrip (s ++ [10]) = match ilstrip s with [] => [] | l => l ++ [10] end.
Proof.
  induction s as [|c t IH]; [reflexivity|]. cbn [app ilstrip]. destruct (int_space c); [exact IH|reflexivity].
Qed.

Lemma py_int_trailing_nl s : py_int (s ++ [10]) = py_int s.
Proof.
  unfold py_int, istrip, irstrip. f_equal. rewrite ilstrip_app_nl.
  destruct (ilstrip s) as [|c t]; [reflexivity|].
  rewrite rev_app_distr. cbn [rev app ilstrip]. reflexivity.
Qed.
