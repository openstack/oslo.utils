(* Proofs/C16_Utf16.v — the UTF-16 and UTF-32 codec models of Model/C16_Codecs.v
   (little / big endian, and the BOM-writing variants), for every text of any length:
     * decode (encode t) = t for every surrogate-free t, under any error policies;
     * an error policy matters only when there is an error;
     * for the BOM-less variants a strictly decodable byte string is exactly the encoding
       of its text (encode (decode b) = b);
   plus small helpers shared with Proofs/C16_Codecs.v. *)
From Coq Require Import String.
Require Import OV.Base.Bytes OV.Base.PyInt OV.Base.Str OV.Base.C16_Py.
Require Import OV.Gen.C16_Aliases OV.Model.C16 OV.Model.C16_Codecs.
Open Scope N_scope.

Ltac Zify.zify_post_hook ::= Z.div_mod_to_equations.

Lemma cmap_ok {A B} (f : A -> B) r y : cmap f r = COk y -> exists x, r = COk x /\ y = f x.
Proof. destruct r as [x|e]; cbn; intros H; [injection H as <-; eauto|discriminate]. Qed.

Lemma policy_strict : policy_of strict_name = Strict.
Proof. reflexivity. Qed.

(* [injection] would start computing the additions to literals inside the two sides *)
Lemma some_inj {A} (x y : A) : Some x = Some y -> x = y.
Proof. congruence. Qed.

Lemma valid_text_cons c t : valid_text (c :: t) = scalar c && valid_text t.
Proof. reflexivity. Qed.

Lemma all_bytes_cons x b : all_bytes (x :: b) = true -> x < 256 /\ all_bytes b = true.
Proof. intros H. apply andb_true_iff in H. unfold is_byte in H. split; [lia|apply H]. Qed.

Lemma all_bytes_skipn k b : all_bytes b = true -> all_bytes (skipn k b) = true.
Proof.
  revert b. induction k as [|k IH]; intros [|x b] H; try exact H. apply IH. apply (all_bytes_cons _ _ H).
Qed.

(* ================= UTF-16 ================= *)

(* a code unit and its two bytes: base-256 digits, in either order *)
Lemma unit_bytes_val le u : exists b0 b1, unit_bytes le u = [b0; b1] /\ unit_val le b0 b1 = u.
Proof.
  assert (H : u mod 256 + 256 * (u / 256) = u) by lia.
  destruct le; unfold unit_bytes, unit_val; do 2 eexists; (split; [reflexivity|exact H]).
Qed.

Lemma unit_bytes_of_val le b0 b1 : b0 < 256 -> b1 < 256 -> unit_bytes le (unit_val le b0 b1) = [b0; b1].
Proof.
  intros H0 H1.
  assert (Hm : forall x y, x < 256 -> (x + 256 * y) mod 256 = x) by (intros; lia).
  assert (Hd : forall x y, x < 256 -> (x + 256 * y) / 256 = y) by (intros; lia).
  destruct le; unfold unit_bytes, unit_val; rewrite Hm, Hd by assumption; reflexivity.
Qed.

(* the decoder on one non-surrogate unit, and on a surrogate pair *)
Lemma utf16_dec_single le p u rest : is_low u = false -> is_high u = false ->
  utf16_dec le p (unit_bytes le u ++ rest) = cmap (cons u) (utf16_dec le p rest).
Proof.
  intros Hl Hh. destruct (unit_bytes_val le u) as (b0 & b1 & -> & Hv).
  cbn [app utf16_dec]. rewrite Hv, Hl, Hh. reflexivity.
Qed.

Lemma utf16_dec_pair le p u1 u2 rest : is_high u1 = true -> is_low u2 = true ->
  utf16_dec le p (unit_bytes le u1 ++ unit_bytes le u2 ++ rest) =
  cmap (cons (65536 + (u1 - 55296) * 1024 + (u2 - 56320))) (utf16_dec le p rest).
Proof.
  intros Hh Hl. destruct (unit_bytes_val le u1) as (b0 & b1 & -> & Hv1).
  destruct (unit_bytes_val le u2) as (b2 & b3 & -> & Hv2).
  cbn [app utf16_dec]. rewrite Hv1, Hv2, Hh, Hl.
  replace (is_low u1) with false by (unfold is_low, is_high in *; lia). reflexivity.
Qed.

Lemma utf16_dec_enc1 le c bs : utf16_enc1 le c = Some bs ->
  forall p rest, utf16_dec le p (bs ++ rest) = cmap (cons c) (utf16_dec le p rest).
Proof.
  unfold utf16_enc1. intros H p rest. destruct (scalar c) eqn:Es; [|discriminate].
  unfold scalar in Es. destruct (c <? 65536) eqn:E; apply some_inj in H; subst bs.
  - apply utf16_dec_single; unfold is_low, is_high; lia.
  - rewrite <- app_assoc, utf16_dec_pair; [|unfold is_high; lia|unfold is_low; lia].
    f_equal. f_equal. lia.
Qed.

(* the encoder on the value of a non-surrogate unit, and of a surrogate pair, made of bytes *)
Lemma utf16_enc1_single le b0 b1 : b0 < 256 -> b1 < 256 ->
  is_low (unit_val le b0 b1) = false -> is_high (unit_val le b0 b1) = false ->
  utf16_enc1 le (unit_val le b0 b1) = Some [b0; b1].
Proof.
  intros H0 H1 Hl Hh. rewrite <- (unit_bytes_of_val le b0 b1 H0 H1).
  assert (Hlt : unit_val le b0 b1 < 65536) by (destruct le; unfold unit_val; lia). set (u := unit_val le b0 b1) in *.
  unfold utf16_enc1, scalar. unfold is_low in Hl. unfold is_high in Hh.
  replace ((u <? 55296) || ((57343 <? u) && (u <? 1114112))) with true by lia.
  replace (u <? 65536) with true by lia. reflexivity.
Qed.

Lemma utf16_enc1_pair le b0 b1 b2 b3 : b0 < 256 -> b1 < 256 -> b2 < 256 -> b3 < 256 ->
  is_high (unit_val le b0 b1) = true -> is_low (unit_val le b2 b3) = true ->
  utf16_enc1 le (65536 + (unit_val le b0 b1 - 55296) * 1024 + (unit_val le b2 b3 - 56320)) = Some [b0; b1; b2; b3].
Proof.
  intros H0 H1 H2 H3 Hh Hl.
  change [b0; b1; b2; b3] with ([b0; b1] ++ [b2; b3]).
  rewrite <- (unit_bytes_of_val le b0 b1 H0 H1), <- (unit_bytes_of_val le b2 b3 H2 H3).
  set (u1 := unit_val le b0 b1) in *. set (u2 := unit_val le b2 b3) in *.
  unfold is_high in Hh. unfold is_low in Hl. unfold utf16_enc1, scalar.
  set (c := 65536 + (u1 - 55296) * 1024 + (u2 - 56320)).
  assert (Hc : 65536 <= c < 1114112) by (subst c; lia).
  replace ((c <? 55296) || ((57343 <? c) && (c <? 1114112))) with true by lia.
  replace (c <? 65536) with false by lia.
  replace (55296 + (c - 65536) / 1024) with u1 by (subst c; lia).
  replace (56320 + (c - 65536) mod 1024) with u2 by (subst c; lia). reflexivity.
Qed.

Lemma utf16_enc1_scalar le c : scalar c = match utf16_enc1 le c with Some _ => true | None => false end.
Proof. unfold utf16_enc1. destruct (scalar c); [destruct (c <? 65536)|]; reflexivity. Qed.

Theorem utf16_roundtrip le t : valid_text t = true ->
  exists b, (forall p, utf16_enc le p t = COk b) /\ (forall p, utf16_dec le p b = COk t).
Proof.
  induction t as [|c t IH]; intros H.
  - exists []. split; reflexivity.
  - rewrite valid_text_cons, (utf16_enc1_scalar le) in H. apply andb_true_iff in H. destruct H as [Hc Ht].
    destruct (IH Ht) as (b & He & Hd). destruct (utf16_enc1 le c) as [bs|] eqn:Hbs; [|discriminate].
    exists (bs ++ b). split; intros p.
    + cbn [utf16_enc]. rewrite Hbs, He. reflexivity.
    + rewrite (utf16_dec_enc1 le c bs Hbs), Hd. reflexivity.
Qed.

Lemma utf16_enc_strict_valid le s : forall b, utf16_enc le Strict s = COk b -> valid_text s = true.
Proof.
  induction s as [|c t IH]; intros b H; [reflexivity|]. cbn [utf16_enc] in H.
  rewrite valid_text_cons, (utf16_enc1_scalar le). destruct (utf16_enc1 le c) as [bs|]; [|discriminate].
  destruct (cmap_ok _ _ _ H) as (b' & E & _). exact (IH _ E).
Qed.

(* strict decoding: no error branch was taken *)
Theorem utf16_dec_strict_canonical le : forall b t,
  utf16_dec le Strict b = COk t ->
  (forall p, utf16_dec le p b = COk t) /\
  (all_bytes b = true -> valid_text t = true /\ utf16_enc le Strict t = COk b).
Proof.
  enough (G : forall b t, utf16_dec le Strict b = COk t ->
            (forall p, utf16_dec le p b = COk t) /\ (all_bytes b = true -> utf16_enc le Strict t = COk b)).
  { intros b t H. destruct (G b t H) as [Hp He]. split; [exact Hp|]. intros Hb.
    split; [exact (utf16_enc_strict_valid _ _ _ (He Hb))|exact (He Hb)]. }
  induction b as [b IH] using strong_list_ind. intros t H.
  destruct b as [|b0 [|b1 r1]]; [injection H as <-; split; reflexivity|discriminate|].
  cbn [utf16_dec] in H.
  destruct (is_low (unit_val le b0 b1)) eqn:El; [discriminate|].
  destruct (is_high (unit_val le b0 b1)) eqn:Eh.
  - destruct r1 as [|b2 [|b3 r3]]; [discriminate|discriminate|].
    destruct (is_low (unit_val le b2 b3)) eqn:El2; [|discriminate].
    destruct (cmap_ok _ _ _ H) as (t' & E & ->).
    destruct (IH r3 ltac:(cbn [length]; lia) t' E) as [Hp He]. split.
    + intros p. cbn [utf16_dec]. rewrite El, Eh, El2, (Hp p). reflexivity.
    + intros Hb. apply all_bytes_cons in Hb as [H0 Hb]. apply all_bytes_cons in Hb as [H1 Hb].
      apply all_bytes_cons in Hb as [H2 Hb]. apply all_bytes_cons in Hb as [H3 Hb].
      cbn [utf16_enc]. rewrite (utf16_enc1_pair le b0 b1 b2 b3), (He Hb) by assumption. reflexivity.
  - destruct (cmap_ok _ _ _ H) as (t' & E & ->).
    destruct (IH r1 ltac:(cbn [length]; lia) t' E) as [Hp He]. split.
    + intros p. cbn [utf16_dec]. rewrite El, Eh, (Hp p). reflexivity.
    + intros Hb. apply all_bytes_cons in Hb as [H0 Hb]. apply all_bytes_cons in Hb as [H1 Hb].
      cbn [utf16_enc]. rewrite (utf16_enc1_single le b0 b1), (He Hb) by assumption. reflexivity.
Qed.

(* ---------- 'utf-16' with BOM ---------- *)
Lemma utf16_bom_dec_bom p rest :
  utf16_bom_dec p (unit_bytes native_le 65279 ++ rest) = utf16_dec native_le p rest.
Proof. destruct native_le; reflexivity. Qed.

Theorem utf16_bom_roundtrip t : valid_text t = true ->
  exists b, (forall p, utf16_bom_enc p t = COk b) /\ (forall p, utf16_bom_dec p b = COk t).
Proof.
  intros H. destruct (utf16_roundtrip native_le t H) as (b & He & Hd).
  exists (unit_bytes native_le 65279 ++ b). split; intros p.
  - unfold utf16_bom_enc. rewrite He. reflexivity.
  - rewrite utf16_bom_dec_bom. apply Hd.
Qed.

(* the BOM decoder is a BOM-less decoder, of some byte order, on the input or on what follows its BOM *)
Lemma utf16_bom_dec_strict b t : utf16_bom_dec Strict b = COk t ->
  (forall p, utf16_bom_dec p b = COk t) /\ (all_bytes b = true -> valid_text t = true).
Proof.
  enough (E : exists le k, forall p, utf16_bom_dec p b = utf16_dec le p (skipn k b)).
  { destruct E as (le & k & E). rewrite E. intros H. destruct (utf16_dec_strict_canonical le _ t H) as [Hp Hc].
    split; [intros p; rewrite E; apply Hp|intros Hb; apply Hc, all_bytes_skipn, Hb]. }
  unfold utf16_bom_dec. destruct b as [|b0 [|b1 r]]; try (exists native_le, 0%nat; reflexivity).
  destruct ((b0 =? 255) && (b1 =? 254)); [exists true, 2%nat; reflexivity|].
  destruct ((b0 =? 254) && (b1 =? 255)); [exists false, 2%nat; reflexivity|exists native_le, 0%nat; reflexivity].
Qed.

(* ================= UTF-32 ================= *)

Lemma u32_bytes_val le c : exists b0 b1 b2 b3, u32_bytes le c = [b0; b1; b2; b3] /\ u32_val le b0 b1 b2 b3 = c.
Proof.
  assert (H : c mod 256 + 256 * ((c / 256) mod 256) + 65536 * ((c / 65536) mod 256) + 16777216 * (c / 16777216) = c) by lia.
  destruct le; unfold u32_bytes, u32_val; do 4 eexists; (split; [reflexivity|exact H]).
Qed.

Lemma u32_bytes_of_val le b0 b1 b2 b3 : b0 < 256 -> b1 < 256 -> b2 < 256 -> b3 < 256 ->
  u32_bytes le (u32_val le b0 b1 b2 b3) = [b0; b1; b2; b3].
Proof.
  assert (D : forall x0 x1 x2 x3, x0 < 256 -> x1 < 256 -> x2 < 256 -> x3 < 256 ->
    u32_bytes true (x0 + 256 * x1 + 65536 * x2 + 16777216 * x3) = [x0; x1; x2; x3]).
  { intros. unfold u32_bytes. f_equal; [lia|f_equal; [lia|f_equal; [lia|f_equal; lia]]]. }
  intros H0 H1 H2 H3. destruct le; unfold u32_val; [exact (D b0 b1 b2 b3 H0 H1 H2 H3)|].
  (* big endian: the same number, its little-endian bytes reversed *)
  change (rev (u32_bytes true (b3 + 256 * b2 + 65536 * b1 + 16777216 * b0)) = [b0; b1; b2; b3]).
  rewrite D by assumption. reflexivity.
Qed.

Lemma utf32_dec_enc1 le p c rest : scalar c = true ->
  utf32_dec le p (u32_bytes le c ++ rest) = cmap (cons c) (utf32_dec le p rest).
Proof.
  intros Hs. destruct (u32_bytes_val le c) as (b0 & b1 & b2 & b3 & -> & Hv).
  cbn [app utf32_dec]. rewrite Hv, Hs. reflexivity.
Qed.

Theorem utf32_roundtrip le t : valid_text t = true ->
  exists b, (forall p, utf32_enc le p t = COk b) /\ (forall p, utf32_dec le p b = COk t).
Proof.
  induction t as [|c t IH]; intros H.
  - exists []. split; reflexivity.
  - rewrite valid_text_cons in H. apply andb_true_iff in H. destruct H as [Hc Ht].
    destruct (IH Ht) as (b & He & Hd).
    exists (u32_bytes le c ++ b). split; intros p.
    + cbn [utf32_enc]. rewrite Hc, He. reflexivity.
    + rewrite (utf32_dec_enc1 le p c b Hc), Hd. reflexivity.
Qed.

Lemma utf32_enc_strict_valid le s : forall b, utf32_enc le Strict s = COk b -> valid_text s = true.
Proof.
  induction s as [|c t IH]; intros b H; [reflexivity|]. cbn [utf32_enc] in H.
  rewrite valid_text_cons. destruct (scalar c); [|discriminate].
  destruct (cmap_ok _ _ _ H) as (b' & E & _). exact (IH _ E).
Qed.

Theorem utf32_dec_strict_canonical le : forall b t,
  utf32_dec le Strict b = COk t ->
  (forall p, utf32_dec le p b = COk t) /\
  (all_bytes b = true -> valid_text t = true /\ utf32_enc le Strict t = COk b).
Proof.
  induction b as [b IH] using strong_list_ind. intros t H.
  destruct b as [|b0 [|b1 [|b2 [|b3 r3]]]]; try discriminate.
  { injection H as <-. split; [reflexivity|split; reflexivity]. }
  cbn [utf32_dec] in H. destruct (scalar (u32_val le b0 b1 b2 b3)) eqn:Es; [|discriminate].
  destruct (cmap_ok _ _ _ H) as (t' & E & ->).
  destruct (IH r3 ltac:(cbn [length]; lia) t' E) as [Hp Hc]. split.
  - intros p. cbn [utf32_dec]. rewrite Es, (Hp p). reflexivity.
  - intros Hb. apply all_bytes_cons in Hb as [H0 Hb]. apply all_bytes_cons in Hb as [H1 Hb].
    apply all_bytes_cons in Hb as [H2 Hb]. apply all_bytes_cons in Hb as [H3 Hb].
    destruct (Hc Hb) as [Hv He]. split.
    + rewrite valid_text_cons, Es, Hv. reflexivity.
    + cbn [utf32_enc]. rewrite Es, He, u32_bytes_of_val by assumption. reflexivity.
Qed.

(* ---------- 'utf-32' with BOM ---------- *)
Lemma utf32_bom_dec_bom p rest :
  utf32_bom_dec p (u32_bytes native_le 65279 ++ rest) = utf32_dec native_le p rest.
Proof. destruct native_le; reflexivity. Qed.

Theorem utf32_bom_roundtrip t : valid_text t = true ->
  exists b, (forall p, utf32_bom_enc p t = COk b) /\ (forall p, utf32_bom_dec p b = COk t).
Proof.
  intros H. destruct (utf32_roundtrip native_le t H) as (b & He & Hd).
  exists (u32_bytes native_le 65279 ++ b). split; intros p.
  - unfold utf32_bom_enc. rewrite He. reflexivity.
  - rewrite utf32_bom_dec_bom. apply Hd.
Qed.

Lemma utf32_bom_dec_strict b t : utf32_bom_dec Strict b = COk t ->
  (forall p, utf32_bom_dec p b = COk t) /\ (all_bytes b = true -> valid_text t = true).
Proof.
  enough (E : exists le k, forall p, utf32_bom_dec p b = utf32_dec le p (skipn k b)).
  { destruct E as (le & k & E). rewrite E. intros H. destruct (utf32_dec_strict_canonical le _ t H) as [Hp Hc].
    split; [intros p; rewrite E; apply Hp|intros Hb; apply Hc, all_bytes_skipn, Hb]. }
  unfold utf32_bom_dec. destruct b as [|b0 [|b1 [|b2 [|b3 r]]]]; try (exists native_le, 0%nat; reflexivity).
  destruct ((b0 =? 255) && (b1 =? 254) && (b2 =? 0) && (b3 =? 0)); [exists true, 4%nat; reflexivity|].
  destruct ((b0 =? 0) && (b1 =? 0) && (b2 =? 254) && (b3 =? 255)); [exists false, 4%nat; reflexivity|exists native_le, 0%nat; reflexivity].
Qed.

(* ================= single-byte codecs given by a decoding table ================= *)

Definition charmap_repr (tbl : list (option N)) (t : str) : bool :=
  forallb (fun c => match find_index c tbl 0 with Some _ => true | None => false end) t.

Lemma find_index_get c tbl : forall i b, find_index c tbl i = Some b -> i <= b /\ table_get tbl (b - i) = Some c.
Proof.
  induction tbl as [|[x|] r IH]; intros i b H; cbn [find_index] in H; [discriminate| |].
  - destruct (x =? c) eqn:E.
    + injection H as <-. apply N.eqb_eq in E. subst x. split; [lia|].
      unfold table_get. replace (N.to_nat (i - i)) with 0%nat by lia. reflexivity.
    + destruct (IH _ _ H) as [Hle Hg]. split; [lia|].
      unfold table_get in *. replace (N.to_nat (b - i)) with (S (N.to_nat (b - (i + 1)))) by lia. exact Hg.
  - destruct (IH _ _ H) as [Hle Hg]. split; [lia|].
    unfold table_get in *. replace (N.to_nat (b - i)) with (S (N.to_nat (b - (i + 1)))) by lia. exact Hg.
Qed.

Theorem charmap_roundtrip tbl t : charmap_repr tbl t = true ->
  exists b, (forall p, charmap_enc tbl p t = COk b) /\ (forall p, charmap_dec tbl p b = COk t).
Proof.
  induction t as [|c t IH]; intros H.
  - exists []. split; reflexivity.
  - unfold charmap_repr in H. cbn [forallb] in H. apply andb_true_iff in H. destruct H as [Hc Ht].
    destruct (IH Ht) as (b & He & Hd).
    destruct (find_index c tbl 0) as [x|] eqn:E; [|discriminate].
    exists (x :: b). split; intros p.
    + cbn [charmap_enc]. rewrite E, He. reflexivity.
    + cbn [charmap_dec]. destruct (find_index_get _ _ _ _ E) as [_ Hg]. rewrite N.sub_0_r in Hg.
      rewrite Hg, Hd. reflexivity.
Qed.

Lemma charmap_enc_strict_valid tbl s : forall b, charmap_enc tbl Strict s = COk b -> charmap_repr tbl s = true.
Proof.
  induction s as [|c t IH]; intros b H; [reflexivity|]. cbn [charmap_enc] in H.
  unfold charmap_repr in *. cbn [forallb]. destruct (find_index c tbl 0) as [x|]; [|discriminate].
  destruct (cmap_ok _ _ _ H) as (b' & E' & _). exact (IH _ E').
Qed.

(* every defined byte is the first byte of its character (decidable; computed for the generated tables) *)
Definition table_inj (tbl : list (option N)) : bool :=
  forallb (fun i => match table_get tbl i with
                    | Some c => match find_index c tbl 0 with Some j => j =? i | None => false end
                    | None => true
                    end) (map N.of_nat (seq 0 (length tbl))).

Lemma table_get_range tbl b c : table_get tbl b = Some c -> In b (map N.of_nat (seq 0 (length tbl))).
Proof.
  unfold table_get. intros H. rewrite <- (N2Nat.id b). apply in_map. apply in_seq.
  split; [lia|]. cbn. destruct (Nat.lt_ge_cases (N.to_nat b) (length tbl)) as [Hl|Hl]; [exact Hl|].
  rewrite nth_overflow in H by exact Hl. discriminate.
Qed.

Theorem charmap_dec_strict_canonical tbl : forall b t,
  charmap_dec tbl Strict b = COk t ->
  (forall p, charmap_dec tbl p b = COk t) /\
  (table_inj tbl = true -> charmap_repr tbl t = true /\ charmap_enc tbl Strict t = COk b).
Proof.
  induction b as [|x r IH]; intros t H.
  - injection H as <-. split; [reflexivity|split; reflexivity].
  - cbn [charmap_dec] in H. destruct (table_get tbl x) as [c|] eqn:E; [|discriminate].
    destruct (cmap_ok _ _ _ H) as (t' & E' & ->). destruct (IH _ E') as [Hp Hc]. split.
    + intros p. cbn [charmap_dec]. rewrite E, (Hp p). reflexivity.
    + intros Hi. destruct (Hc Hi) as [Hv He].
      pose proof (proj1 (forallb_forall _ _) Hi x (table_get_range _ _ _ E)) as Hx. cbv beta in Hx. rewrite E in Hx.
      destruct (find_index c tbl 0) as [j|] eqn:Ej; [|discriminate]. apply N.eqb_eq in Hx. subst j. split.
      * unfold charmap_repr in *. cbn [forallb]. rewrite Ej, Hv. reflexivity.
      * cbn [charmap_enc]. rewrite Ej, He. reflexivity.
Qed.

Lemma cp1252_table_inj : table_inj OV.Gen.C16_Charmaps.cp1252_table = true.
Proof. vm_compute. reflexivity. Qed.
Lemma koi8r_table_inj : table_inj OV.Gen.C16_Charmaps.koi8r_table = true.
Proof. vm_compute. reflexivity. Qed.
