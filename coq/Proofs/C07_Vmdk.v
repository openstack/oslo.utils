(* Proofs/C07_Vmdk.v — C07 for the VMDK inspector: for a well-formed hosted sparse extent, every chunking ends
   with virtual_size = capacity * 512, and every prefix shorter than header + descriptor reports 0.
   The run of the inspector is the one analysed in Proofs/C01_Vmdk_Run.v (vmdk_eat_all); what is added here is
   that the fields wf_vmdk fixes are the ones the inspector reads. *)
From Coq Require Import String.
Require Import OV.Model.C01_Vmdk OV.Proofs.Insp_All OV.Proofs.C01_Vmdk_Base OV.Proofs.C01_Vmdk_Step OV.Proofs.C01_Vmdk_Run
               OV.Proofs.C07_Engine.
Require Import OV.Base.Bytes OV.Base.Py OV.Base.PyInt OV.Base.Str OV.Base.Insp_Struct OV.Gen.Insp_Consts
               OV.Model.Insp_Engine OV.Model.Insp_All OV.Model.Insp_Vmdk OV.Model.C07.
Open Scope N_scope.

Lemma find_from_shift sub s i : find_from sub s i = option_map (fun j => i + j) (find_from sub s 0).
Proof.
  revert i. induction s as [|x s IH]; intros i; cbn [find_from].
  - destruct (prefixb sub []); cbn [option_map]; [f_equal; lia|reflexivity].
  - destruct (prefixb sub (x :: s)); cbn [option_map]; [f_equal; lia|].
    rewrite (IH (i + 1)), (IH (0 + 1)). destruct (find_from sub s 0); cbn [option_map]; [f_equal; lia|reflexivity].
Qed.

(* the text of a descriptor, as the inspector cuts it (desc_data.index(b'\x00')) and as the specification does *)
Lemma upto_nul_spec d : C01_Vmdk.upto_nul d = upto_nul d.
Proof.
  rewrite upto_nul_cut0. induction d as [|x d IH]; [reflexivity|].
  cbn [cut0 upto_nul]. rewrite N.eqb_sym, IH. reflexivity.
Qed.

(* _parse_descriptor's createType extraction agrees with the specification's [declared_type] whenever the latter
   is defined (a closing quote within 63 characters) *)
Lemma vmdk_type_of_declared d ty :
  declared_type d = Some ty -> vmdk_type_of (lower_ascii (upto_nul d)) = ty /\ lower_ascii (upto_nul d) <> [].
Proof.
  unfold declared_type, vmdk_type_of. set (t := lower_ascii (upto_nul d)).
  change VMDK_CREATETYPE with SPEC_VMDK_KEY. change VMDK_QUOTE with [34]. intros H.
  destruct (find SPEC_VMDK_KEY t) as [i|] eqn:Fi; [|discriminate]. split.
  - rewrite flen_blen. unfold find_at. rewrite find_from_shift.
    unfold find in H. destruct (find_from [34] (bskip (i + blen SPEC_VMDK_KEY) t) 0) as [j|] eqn:Fj; [|discriminate].
    cbn [option_map]. destruct (j <? 64) eqn:Ej; [|discriminate]. injection H as <-.
    change VMDK_TYPE_CAP with 64.
    replace ((Z.of_N (i + blen SPEC_VMDK_KEY + j) - Z.of_N (i + blen SPEC_VMDK_KEY) <? Z.of_N 64)%Z) with true by lia.
    rewrite zslice_range by lia. rewrite !N2Z.id. unfold bsub. f_equal. lia.
  - intros Ht. rewrite Ht in Fi. vm_compute in Fi. discriminate.
Qed.

Lemma prefix_bslice p w o L : is_prefix p w = true -> o + L <= blen p -> bslice o L p = bslice o L w.
Proof.
  unfold is_prefix. intros Hp H. apply prefixb_spec in Hp. destruct Hp as [t ->].
  unfold bslice. destruct (N.eq_dec L 0) as [->|HL]; [rewrite !btake_0; reflexivity|].
  rewrite bskip_app_le by lia. symmetry. apply btake_app_le. rewrite blen_bskip. lia.
Qed.

Lemma is_prefix_take a b : is_prefix a b = true -> a = btake (blen a) b.
Proof.
  unfold is_prefix. intros H. apply prefixb_spec in H. destruct H as [t ->].
  rewrite btake_app_le by lia. symmetry. apply btake_all. lia.
Qed.

Lemma full_iff_reached (o L n : N) : 1 <= L -> (L =? N.min L (n - o)) = (o + L <=? n).
Proof. intros H. destruct (o + L <=? n) eqn:E; [apply N.leb_le in E; apply N.eqb_eq|apply N.leb_gt in E; apply N.eqb_neq]; lia. Qed.

Section VmdkImage.
Variables (w : bytes) (sectors version desc_num : N).
Hypothesis Hsec : sectors < 2 ^ 64.
Hypothesis Hdn : desc_num < 2 ^ 64.
Hypothesis Hwf : wf_vmdk sectors version desc_num w = true.
Let ds := vmdk_desc_size desc_num.
Let D := bslice 512 ds w.

(* the conjuncts of wf_vmdk *)
Lemma wf_parts :
  bslice 0 4 w = SPEC_VMDK_MAGIC /\ bslice 4 4 w = le_enc 4 version /\ (version = 1 \/ version = 2 \/ version = 3) /\
  bslice 12 8 w = le_enc 8 sectors /\ bslice 28 8 w = le_enc 8 1 /\ bslice 36 8 w = le_enc 8 desc_num /\
  1 <= desc_num /\ 512 + ds <= blen w /\ wf_vmdk_desc D = true.
Proof.
  pose proof Hwf as W. unfold wf_vmdk in W. fold ds in W. fold D in W.
  repeat (apply andb_true_iff in W; destruct W as [W ?]).
  rewrite prefixb_btake in W.
  repeat match goal with H : beq _ _ = true |- _ => apply beq_eq in H end.
  repeat split; try assumption; try lia.
Qed.

Lemma ds_bounds : 512 <= ds /\ ds <= 1048575.
Proof. destruct wf_parts as (_ & _ & _ & _ & _ & _ & H & _). unfold ds, vmdk_desc_size, SPEC_VMDK_DESC_CAP. lia. Qed.

Lemma prefix_field b i off len v :
  is_prefix b w = true -> 64 <= blen b ->
  nth i (sf_fields sf_vmdk_sparse) (0, 0) = (off, len) -> off + len <= 64 ->
  bslice off len w = le_enc (N.to_nat len) v -> v < 256 ^ len ->
  sint sf_vmdk_sparse i (vh b) = v.
Proof.
  intros Hp Hl Hn Ho Hw Hv. rewrite (int_vh b i off len Hn Ho Hl), (prefix_bslice b w off len Hp) by lia.
  rewrite Hw. apply le_val_enc. rewrite N2Nat.id. exact Hv.
Qed.

Lemma prefix_header b :
  is_prefix b w = true -> 64 <= blen b ->
  hdr_sig_ok (vh b) = true /\ hdr_ver_ok (vh b) = true /\ hdr_loc_ok (vh b) = true /\ hdr_dsz (vh b) = ds.
Proof.
  intros Hp Hl. destruct wf_parts as (M & V & Vr & _ & DS & DN & _).
  unfold hdr_sig_ok, hdr_ver_ok, hdr_loc_ok, hdr_dsz.
  rewrite sig_vh. change (btake 4 b) with (bslice 0 4 b). rewrite (prefix_bslice b w 0 4 Hp), M by lia.
  rewrite (prefix_field b 1 4 4 version Hp Hl eq_refl ltac:(lia) V) by (destruct Vr as [->|[->| ->]]; reflexivity).
  rewrite (prefix_field b 5 28 8 1 Hp Hl eq_refl ltac:(lia) DS) by reflexivity.
  rewrite (prefix_field b 6 36 8 desc_num Hp Hl eq_refl ltac:(lia) DN) by exact Hdn.
  split; [reflexivity|]. split; [destruct Vr as [->|[->| ->]]; reflexivity|]. split; [reflexivity|].
  (* name the constants first: left folded, the conversion unfolds N.min on both sides before comparing them *)
  unfold ds, vmdk_desc_size, VMDK_SECTOR_B, VMDK_DESC_MAX_SIZE, SPEC_VMDK_DESC_CAP. reflexivity.
Qed.

(* virtual_size's own reading of the header: capacity in sectors *)
Lemma prefix_sectors b : is_prefix b w = true -> 64 <= blen b -> vh_sectors b = sectors.
Proof.
  intros Hp Hl. destruct wf_parts as (_ & _ & _ & S & _).
  unfold vh_sectors, sint, sraw. cbn [sf_vmdk_vs sf_big sf_fields nth].
  change (btake VMDK_VS_SLICE b) with (bslice 0 44 b). rewrite bslice_bslice, N.add_0_l by lia.
  rewrite (prefix_bslice b w 12 8 Hp), S by lia. apply le_val_enc. exact Hsec.
Qed.

(* the provisional descriptor region (offset 0, min_length 4) of a sparse image never yields a createType *)
Definition provisional_ok (x : vx) : Prop := v_vmdktype x = VMDK_NOTFOUND.

(* the attributes set by the real descriptor *)
Definition vx_final : vx := mkVx (Some (lower_ascii (upto_nul D))) (vmdk_type_of (lower_ascii (upto_nul D))).

Lemma parse_real xe : parse_ext D xe = vx_final.
Proof.
  destruct wf_parts as (_ & _ & _ & _ & _ & _ & _ & _ & Wd).
  unfold wf_vmdk_desc in Wd. apply andb_true_iff in Wd. destruct Wd as [Wa _].
  unfold parse_ext, parse_desc. rewrite upto_nul_spec.
  change (forallb is_ascii (upto_nul D)) with (forallb (fun c => c <? 128) (upto_nul D)). rewrite Wa. reflexivity.
Qed.

Lemma vx_final_ok : desc_text_truthy vx_final = true /\ mem_str (v_vmdktype vx_final) VMDK_SUBFORMATS = true.
Proof.
  destruct wf_parts as (_ & _ & _ & _ & _ & _ & _ & _ & Wd).
  unfold wf_vmdk_desc in Wd. apply andb_true_iff in Wd. destruct Wd as [_ Wt].
  destruct (declared_type D) as [ty|] eqn:Ed; [|discriminate].
  destruct (vmdk_type_of_declared D ty Ed) as [H1 H2].
  unfold vx_final, desc_text_truthy. cbn [v_desc_text v_vmdktype]. rewrite H1. split.
  - destruct (lower_ascii (upto_nul D)); [contradiction|reflexivity].
  - exact Wt.
Qed.

Definition ext_ok (b : bytes) (x : vx) : Prop :=
  if blen b <? 512 + ds then provisional_ok x else x = vx_final.

Lemma ext_ok_provisional b x : blen b < 512 + ds -> provisional_ok x -> ext_ok b x.
Proof. intros H P. unfold ext_ok. replace (blen b <? 512 + ds) with true by lia. exact P. Qed.

(* the run invariant of C01_Vmdk_Run, read on a prefix of the image *)
Lemma ext_inv_ok b x : is_prefix b w = true -> ext_inv ds (bslice 512 ds b) x -> ext_ok b x.
Proof.
  intros Hp. pose proof ds_bounds as [B1 _]. unfold ext_inv.
  rewrite blen_bslice, (full_iff_reached 512 ds (blen b)) by lia.
  destruct (512 + ds <=? blen b) eqn:E.
  - intros (xe & _ & ->). unfold ext_ok. replace (blen b <? 512 + ds) with false by lia.
    rewrite (prefix_bslice b w 512 ds Hp) by lia. apply parse_real.
  - apply ext_ok_provisional. lia.
Qed.

Definition vmdk_size_at (b : bytes) : res Z :=
  if blen b <? 512 + ds then Ok 0%Z else Ok (Z.of_N (sectors * 512)).

Lemma vsize_ext_ok b h x :
  is_prefix b w = true -> C01_Vmdk_Base.is_prefix h b -> 64 <= blen h -> ext_ok b x -> vsize_of x h = vmdk_size_at b.
Proof.
  intros Hp Hh Hl. unfold ext_ok, vmdk_size_at. destruct (blen b <? 512 + ds); [apply vsize_of_early|].
  intros ->. destruct vx_final_ok as [T1 T2].
  assert (Hb : 64 <= blen b) by (apply is_prefix_len in Hh; lia).
  unfold vx_final in *. rewrite (vsize_of_parsed b h _ _ Hh Hl). cbn [v_vmdktype] in T2. rewrite T2.
  unfold desc_text_truthy in T1. cbn [v_desc_text] in T1.
  destruct (lower_ascii (upto_nul D)); [discriminate|]. rewrite (prefix_sectors b Hp Hb). reflexivity.
Qed.

(* every chunking of a prefix of the image: no exception, and the size before and after finish() *)
Lemma vmdk_prefix_run cs :
  is_prefix (concat cs) w = true ->
  exists s, eat_all vmdk_fmt (init_ist vmdk_fmt) cs = (s, None) /\
            vmdk_vsize s = vmdk_size_at (concat cs) /\ vmdk_vsize (Insp_Engine.finish s) = vmdk_size_at (concat cs).
Proof.
  set (b := concat cs). intros Hp. pose proof ds_bounds as [B1 _].
  assert (Hw : 64 <= blen w) by (destruct wf_parts as (_ & _ & _ & _ & _ & _ & _ & L & _); lia).
  destruct (prefix_header w (is_prefix_refl w) Hw) as (Ws & Wv & _).
  destruct (vmdk_eat_all b cs eq_refl) as (s & e & He & Hend).
  { apply (noct_prefix b w); [apply prefixb_spec; exact Hp|]. apply valid_noct. rewrite (valid_vh w Hw), Ws, Wv. reflexivity. }
  { intros Hl Hs. destruct (prefix_header b Hp Hl) as (Hs' & _). congruence. }
  destruct Hend as [d x Hl Hx | st h d x Hh Hl _ _ Hbad | st h d x Hh Hl _ _ _ _ Ho | foot h x Hh Hl _ _ _ _ _ Hxi].
  - exists (S0 b d x). split; [exact He|].
    unfold vmdk_size_at. replace (blen b <? 512 + ds) with true by lia. split; apply vsize_early; exact Hx.
  - exfalso. destruct (prefix_header b Hp) as (Hs & Hv & _); [apply is_prefix_len in Hh; lia|]. rewrite Hs, Hv in Hbad. discriminate.
  - exfalso. destruct (prefix_header b Hp) as (_ & _ & Ho' & _); [apply is_prefix_len in Hh; lia|]. congruence.
  - destruct (prefix_header b Hp) as (_ & _ & _ & Hds); [apply is_prefix_len in Hh; lia|]. rewrite Hds in *.
    eexists. split; [exact He|]. rewrite <- (vsize_ext_ok b h x Hp Hh Hl (ext_inv_ok b x Hp Hxi)). apply vsize_S1.
Qed.
End VmdkImage.

Lemma vsize_vmdk_prefix_lemma w sectors version desc_num cs :
  sectors < 2 ^ 64 -> desc_num < 2 ^ 64 -> wf_vmdk sectors version desc_num w = true ->
  is_prefix (concat cs) w = true ->
  quiet F_vmdk cs /\
  vsize_now F_vmdk cs = (if blen (concat cs) <? vmdk_known_at desc_num then Ok 0%Z else Ok (Z.of_N (sectors * 512))) /\
  vsize_end F_vmdk cs = (if blen (concat cs) <? vmdk_known_at desc_num then Ok 0%Z else Ok (Z.of_N (sectors * 512))).
Proof.
  intros Hs Hd Hwf Hp. destruct (vmdk_prefix_run w sectors version desc_num Hs Hd Hwf cs Hp) as (s & E & V1 & V2).
  unfold quiet, vsize_now, vsize_end, run. fold (feed F_vmdk cs).
  unfold feed. change (init F_vmdk) with (I_vmdk (init_ist vmdk_fmt)). rewrite eat_list_vmdk, E.
  cbn [fst snd finish virtual_size f_vsize vmdk_fmt]. repeat split; assumption.
Qed.

Lemma vsize_vmdk_wellformed_lemma sectors version desc_num b cs :
  sectors < 2 ^ 64 -> desc_num < 2 ^ 64 -> wf_vmdk sectors version desc_num b = true -> concat cs = b ->
  quiet F_vmdk cs /\ vsize_end F_vmdk cs = Ok (Z.of_N (sectors * 512)).
Proof.
  intros Hs Hd Hwf Hc.
  destruct (vsize_vmdk_prefix_lemma b sectors version desc_num cs Hs Hd Hwf) as (Q & _ & V).
  { rewrite Hc. apply is_prefix_refl. }
  split; [exact Q|]. rewrite V, Hc.
  destruct (wf_parts b sectors version desc_num Hs Hd Hwf) as (_ & _ & _ & _ & _ & _ & _ & L & _).
  unfold vmdk_known_at. replace (blen b <? 512 + vmdk_desc_size desc_num) with false by lia. reflexivity.
Qed.

Lemma vsize_zero_while_unknown_vmdk_lemma w sectors version desc_num cs :
  sectors < 2 ^ 64 -> desc_num < 2 ^ 64 -> wf_vmdk sectors version desc_num w = true ->
  is_prefix (concat cs) w = true -> blen (concat cs) < vmdk_known_at desc_num ->
  quiet F_vmdk cs /\ vsize_now F_vmdk cs = Ok 0%Z /\ vsize_end F_vmdk cs = Ok 0%Z.
Proof.
  intros Hs Hd Hwf Hp Hl.
  destruct (vsize_vmdk_prefix_lemma w sectors version desc_num cs Hs Hd Hwf Hp) as (Q & V1 & V2).
  rewrite V1, V2. replace (blen (concat cs) <? vmdk_known_at desc_num) with true by lia. repeat split; assumption.
Qed.
