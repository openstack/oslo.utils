(* Proofs/C15_Str.v — facts about split/count/in on character lists used by the
   parse_host_port and urlsplit proofs. *)
Require Import OV.Base.Bytes OV.Base.Py OV.Base.PyInt OV.Base.Str OV.Base.C15_PyVal.
Require Import OV.Model.C15 OV.Proofs.C11_Split.
Open Scope N_scope.

Lemma has_char_cons c x t : has_char c (x :: t) = (x =? c) || has_char c t.
Proof. reflexivity. Qed.

Lemma has_char_app c a b : has_char c (a ++ b) = has_char c a || has_char c b.
Proof.
  unfold has_char. induction a as [|x a IH]; [reflexivity|].
  cbn [app memN]. rewrite IH. apply orb_assoc.
Qed.

Lemma count_char_app c a b : (count_char c (a ++ b) = count_char c a + count_char c b)%Z.
Proof. induction a as [|x a IH]; cbn [app count_char]; [reflexivity|]. rewrite IH. lia. Qed.

Lemma count_char_nonneg c s : (0 <= count_char c s)%Z.
Proof. induction s as [|x s IH]; cbn [count_char]; [lia|]. destruct (x =? c); lia. Qed.

Lemma count_char_0 c s : has_char c s = false <-> count_char c s = 0%Z.
Proof.
  induction s as [|x s IH]; [cbn; tauto|].
  rewrite has_char_cons. cbn [count_char]. pose proof (count_char_nonneg c s).
  destruct (x =? c); cbn [orb]; [split; [discriminate|lia]|].
  rewrite IH. split; lia.
Qed.

Lemma count_char_pos c s : has_char c s = true -> (1 <= count_char c s)%Z.
Proof.
  intros H. pose proof (count_char_nonneg c s).
  destruct (Z.eq_dec (count_char c s) 0) as [E|E]; [|lia].
  apply count_char_0 in E. congruence.
Qed.

Lemma has_char_false c s : has_char c s = false <-> ~ In c s.
Proof. unfold has_char. rewrite <- memN_In. destruct (memN c s); split; congruence. Qed.

(* split_char (Proofs/C11_Split.v, with the boolean membership test) *)

Lemma split_char_two c a b : has_char c a = false -> has_char c b = false ->
  split_char c (a ++ c :: b) = [a; b].
Proof. intros Ha Hb. apply has_char_false in Ha, Hb. rewrite split_app, !split_notin by assumption. reflexivity. Qed.

Lemma split_char_two_inv c s h p : split_char c s = [h; p] ->
  s = h ++ c :: p /\ has_char c h = false /\ has_char c p = false.
Proof.
  intros E. pose proof (join_split c s) as J. pose proof (split_fields c s) as F. rewrite E in J, F.
  split; [symmetry; exact J|]. inversion F as [|? ? Fh F']. inversion F' as [|? ? Fp _].
  split; apply has_char_false; assumption.
Qed.

(* number of fields = number of separators + 1 *)
Lemma split_aux_length c s cur :
  Z.of_nat (length (split_char_aux c s cur)) = (1 + count_char c s)%Z.
Proof.
  revert cur. induction s as [|x s IH]; intros cur; cbn [split_char_aux count_char]; [reflexivity|].
  destruct (x =? c).
  - cbn [length]. rewrite Nat2Z.inj_succ, IH. lia.
  - rewrite IH. lia.
Qed.
Lemma split_char_length c s : Z.of_nat (length (split_char c s)) = (1 + count_char c s)%Z.
Proof. apply split_aux_length. Qed.

Lemma has_char_rev c l : has_char c (rev l) = has_char c l.
Proof.
  induction l as [|y l IH]; [reflexivity|]. cbn [rev]. rewrite has_char_app, IH, has_char_cons.
  cbn [has_char memN]. rewrite orb_false_r. apply orb_comm.
Qed.

(* ---- split_char_max with maxsplit 1 ---- *)

Lemma split_max1_aux c s cur :
  split_char_max_aux c s cur 1 =
  match cut_at c s with Some (a, b) => [rev cur ++ a; b] | None => [rev cur ++ s] end.
Proof.
  revert cur. induction s as [|x s IH]; intros cur; cbn [split_char_max_aux cut_at].
  - rewrite app_nil_r. reflexivity.
  - destruct (x =? c).
    + rewrite app_nil_r. destruct s; reflexivity.
    + rewrite IH. destruct (cut_at c s) as [[a b]|]; cbn [rev]; rewrite <- app_assoc; reflexivity.
Qed.

Lemma cut_at_has c s : has_char c s = match cut_at c s with Some _ => true | None => false end.
Proof.
  induction s as [|x s IH]; [reflexivity|]. rewrite has_char_cons. cbn [cut_at].
  destruct (x =? c); [reflexivity|]. cbn [orb]. rewrite IH. destruct (cut_at c s) as [[a b]|]; reflexivity.
Qed.

Lemma cut_at_spec c s a b : cut_at c s = Some (a, b) -> s = a ++ c :: b /\ has_char c a = false.
Proof.
  revert a b. induction s as [|x s IH]; intros a b H; cbn [cut_at] in H; [discriminate|].
  destruct (x =? c) eqn:E.
  - inversion H; subst. apply N.eqb_eq in E. subst. split; reflexivity.
  - destruct (cut_at c s) as [[a' b']|]; [|discriminate]. inversion H; subst.
    destruct (IH _ _ eq_refl) as [-> Ha]. split; [reflexivity|].
    rewrite has_char_cons, E, Ha. reflexivity.
Qed.

Lemma cut_at_app_skip c u v : has_char c u = false ->
  cut_at c (u ++ v) = match cut_at c v with Some (a, b) => Some (u ++ a, b) | None => None end.
Proof.
  intros H. induction u as [|x u IH]; cbn [app cut_at].
  - destruct (cut_at c v) as [[a b]|]; reflexivity.
  - rewrite has_char_cons in H. apply orb_false_iff in H. destruct H as [Hx Hu].
    rewrite Hx, (IH Hu). destruct (cut_at c v) as [[a b]|]; reflexivity.
Qed.

(* ---- rsplit with maxsplit 1 / the last occurrence ---- *)

Lemma rsplit_max1 c s :
  rsplit_char_max c s 1 = match rcut_at c s with Some (a, b) => [a; b] | None => [s] end.
Proof.
  unfold rsplit_char_max, rcut_at, split_char_max. rewrite split_max1_aux. cbn [rev app].
  destruct (cut_at c (rev s)) as [[a b]|]; cbn [rev app map]; [reflexivity|].
  rewrite rev_involutive. reflexivity.
Qed.

Lemma rcut_at_has c s : has_char c s = match rcut_at c s with Some _ => true | None => false end.
Proof.
  unfold rcut_at. rewrite <- has_char_rev, cut_at_has.
  destruct (cut_at c (rev s)) as [[a b]|]; reflexivity.
Qed.

Lemma rcut_at_spec c s a b : rcut_at c s = Some (a, b) -> s = a ++ c :: b /\ has_char c b = false.
Proof.
  unfold rcut_at. destruct (cut_at c (rev s)) as [[a' b']|] eqn:E; [|discriminate].
  intros H. inversion H; subst. destruct (cut_at_spec _ _ _ _ E) as [Hs Ha].
  split; [|rewrite has_char_rev; exact Ha].
  rewrite <- (rev_involutive s), Hs, rev_app_distr. cbn [rev]. rewrite <- app_assoc. reflexivity.
Qed.

(* a tail without the separator does not move the last occurrence *)
Lemma rcut_at_app_tail c x y : has_char c y = false ->
  rcut_at c (x ++ y) = match rcut_at c x with Some (a, b) => Some (a, b ++ y) | None => None end.
Proof.
  intros H. unfold rcut_at. rewrite rev_app_distr, cut_at_app_skip by (rewrite has_char_rev; exact H).
  destruct (cut_at c (rev x)) as [[a b]|]; [|reflexivity].
  rewrite rev_app_distr, rev_involutive. reflexivity.
Qed.

Lemma rcut_at_last c a b : has_char c b = false -> rcut_at c (a ++ c :: b) = Some (a, b).
Proof.
  intros H. change (a ++ c :: b) with (a ++ [c] ++ b). rewrite app_assoc, rcut_at_app_tail by exact H.
  unfold rcut_at. rewrite rev_app_distr. cbn [rev app cut_at]. rewrite N.eqb_refl.
  rewrite rev_involutive. reflexivity.
Qed.

Lemma digits_no_char c s : all_ascii_digits s = true -> (c < 48 \/ 57 < c) -> has_char c s = false.
Proof.
  intros H Hc. induction s as [|x s IH]; [reflexivity|].
  cbn [all_ascii_digits forallb] in H. apply andb_true_iff in H. destruct H as [Hx Hs].
  rewrite has_char_cons, (IH Hs). unfold ascii_digit in Hx.
  replace (x =? c) with false by lia. reflexivity.
Qed.

Lemma dec_of_Z_no_char c z : c <> 45 -> (c < 48 \/ 57 < c) -> has_char c (dec_of_Z z) = false.
Proof.
  intros H45 Hc. destruct z as [|p|p]; unfold dec_of_Z.
  - rewrite has_char_cons. replace (48 =? c) with false by lia. reflexivity.
  - apply digits_no_char; [apply dec_of_N_digits|exact Hc].
  - rewrite has_char_cons. replace (45 =? c) with false by lia.
    apply digits_no_char; [apply dec_of_N_digits|exact Hc].
Qed.
