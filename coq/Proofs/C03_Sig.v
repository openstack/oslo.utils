(* Proofs/C03_Sig.v — "format names a specific format only if that format's signature is present":
   a declarative predicate [sigb f b] on the bytes per format (magic at its offset, stream long
   enough), and
     static formats (raw, qcow2, qed, vhd, vdi, iso, gpt, luks): format_match of the final state
       spec_state f b (C01 static refinement) IS sigb f b — for all byte strings;
     vhdx, vmdk: in every reachable state on stream st, format_match implies sigb f st, and sigb is
       monotone under extension of the stream for these two (prefix properties). *)
Require Import OV.Base.Bytes OV.Base.Py OV.Base.PyInt OV.Base.Str OV.Base.Insp_Struct.
Require Import OV.Gen.Insp_Consts OV.Model.Insp_Engine.
Require Import OV.Model.Insp_Raw OV.Model.Insp_Qcow2 OV.Model.Insp_Qed OV.Model.Insp_Vhd OV.Model.Insp_Vdi
               OV.Model.Insp_Iso OV.Model.Insp_Gpt OV.Model.Insp_Luks OV.Model.Insp_Vhdx OV.Model.Insp_Vmdk OV.Model.Insp_All.
Require Import OV.Model.C03 OV.Model.C01_Vmdk.
Require Import OV.Proofs.Insp_Engine OV.Proofs.Insp_FmtOk OV.Proofs.Insp_Static OV.Proofs.Insp_StaticQcow OV.Proofs.Insp_All.
Require Import OV.Proofs.C03_Engine OV.Proofs.C03_Total OV.Proofs.C01_Vmdk_Base OV.Proofs.C02_Static OV.Proofs.C02_Gpt.
Open Scope N_scope.

(* the stream fills every region created by _initialize (512 bytes for qcow2/qed/vdi/gpt,
   32768+2048 for iso, ...): generated from the source, see the Examples in Properties/C03.v *)
Definition long_enough (f : fmt_id) (b : bytes) : bool :=
  forallb (fun p => rs_off (snd p) + rs_len (snd p) <=? blen b) (init_regions f).

(* offset of the ISO volume descriptor (region 'header') *)
Definition iso_hdr : N := rs_off (spec_of F_iso R_header).
(* number of leading bytes the VMDK inspector looks at before it decides between sparse header and
   text descriptor (min_length of region 'header') *)
Definition vmdk_text_len : N := match rs_min (spec_of F_vmdk R_header) with Some m => m | None => rs_len (spec_of F_vmdk R_header) end.
Definition text_head (b : bytes) : bool := (vmdk_text_len <=? blen b) && forallb ascii_text (btake vmdk_text_len b).
(* the literal createtype=<dquote> occurs, case-insensitively, before the first NUL byte *)
Definition occ (b : bytes) : bool := occursb VMDK_CREATETYPE (lower_ascii (upto_nul b)).

Definition sigb (f : fmt_id) (b : bytes) : bool :=
  match f with
  | F_raw => true
  | F_qcow2 => long_enough F_qcow2 b && prefixb QCOW_MAGIC b
  | F_qed => long_enough F_qed b && prefixb QED_MAGIC b
  | F_vhd => prefixb VHD_MAGIC b
  | F_vhdx => prefixb VHDX_MAGIC b
  | F_vmdk => prefixb VMDK_MAGIC b || (text_head b && occ b)   (* second disjunct: text-descriptor mode, inside zone F1 *)
  | F_vdi => long_enough F_vdi b && (le_val (bsub VDI_SIG_LO VDI_SIG_HI b) =? VDI_SIG)
  | F_iso => long_enough F_iso b && mem_str (bsub (iso_hdr + ISO_SIG_LO) (iso_hdr + ISO_SIG_HI) b) [ISO_SIG_A; ISO_SIG_B; ISO_SIG_C]
  | F_gpt => long_enough F_gpt b && (le_val (bsub GPT_SIG_LO GPT_SIG_HI b) =? GPT_MBR_SIGNATURE)
             && negb ((bnth GPT_FAT_NUM_IDX b =? GPT_FAT_NUM) && (bnth GPT_FAT_MEDIA_IDX b =? GPT_MEDIA_TYPE_FDISK))
  | F_luks => beq (btake LUKS_MAGIC_TAKE b) LUKS_MAGIC
  end.

Lemma bsub_btake lo hi n s : hi <= n -> bsub lo hi (btake n s) = bsub lo hi s.
Proof.
  intros H. unfold bsub. rewrite bskip_btake, btake_btake. f_equal. lia.
Qed.

Lemma bsub_bslice lo hi off len s : hi <= len -> bsub lo hi (bslice off len s) = bsub (off + lo) (off + hi) s.
Proof.
  intros H. unfold bslice. rewrite bsub_btake by exact H. unfold bsub. rewrite bskip_bskip. f_equal. lia.
Qed.

Lemma rcomplete_mk id off len d : rcomplete (mkRegion id false off len None d false) = (len =? flen d).
Proof. reflexivity. Qed.

Lemma full_window off len b : 0 < len -> (len =? flen (bslice off len b)) = (off + len <=? blen b).
Proof.
  intros Hl. rewrite flen_blen, blen_bslice.
  destruct (off + len <=? blen b) eqn:H; [apply N.leb_le in H; apply N.eqb_eq; lia | apply N.leb_gt in H; apply N.eqb_neq; lia].
Qed.

(* complete of the final state = the stream fills every region *)
Lemma complete_fill k l b :
  forallb (fun p => 0 <? rs_len (snd p)) l = true ->
  forallb (fun p : rname * region => rcomplete (snd p)) (fill_regs k l b) = forallb (fun p => rs_off (snd p) + rs_len (snd p) <=? blen b) l.
Proof.
  revert k. induction l as [|[n sp] t IH]; intros k H; [reflexivity|].
  cbn [forallb fill_regs snd] in *. apply andb_true_iff in H. destruct H as [H1 H2]. apply N.ltb_lt in H1.
  rewrite rcomplete_mk, full_window by exact H1. rewrite IH by exact H2. reflexivity.
Qed.

Lemma complete_ideal_long {X} (F : fmt X) b fin x :
  forallb (fun p => 0 <? rs_len (snd p)) (init_regions (f_id F)) = true ->
  Insp_Engine.complete (ideal F b fin x) = long_enough (f_id F) b.
Proof. intros H. unfold Insp_Engine.complete, ideal, long_enough. cbn [i_regs]. apply complete_fill. exact H. Qed.

(* ------------------------------------------------------------------ static formats: format_match of the final state is sigb *)
Notation smatch f b := (cmatch (spec_state f b)).

Lemma smatch_raw b : smatch F_raw b = sigb F_raw b.
Proof. reflexivity. Qed.

Lemma single_long f b off len n :
  init_regions f = [(n, mkRspec false off len None)] -> long_enough f b = (off + len <=? blen b).
Proof. intros H. unfold long_enough. rewrite H. cbn [forallb snd rs_off rs_len]. apply andb_true_r. Qed.

Lemma smatch_qed b : smatch F_qed b = sigb F_qed b.
Proof.
  unfold cmatch, spec_state, spec_unit. cbn [format_match ufmt f_match qed_fmt]. unfold qed_match.
  unfold ideal, get_region. cbn [i_regs f_id qed_fmt init_regions fill_regs rget rname_beq fst snd rs_off rs_len]. cbn [bind]. rewrite rcomplete_mk, full_window by reflexivity.
  cbn [sigb]. rewrite (single_long F_qed b _ _ _ eq_refl).
  destruct (_ <=? blen b) eqn:Hl; cbn [negb andb]; [|reflexivity].
  cbn [r_data]. unfold bslice. rewrite bskip_0. apply prefixb_btake_le. vm_compute. discriminate.
Qed.

Lemma smatch_vhd b : smatch F_vhd b = sigb F_vhd b.
Proof.
  unfold cmatch, spec_state, spec_unit. cbn [format_match ufmt f_match vhd_fmt]. unfold vhd_match.
  rewrite vhd_state. cbn [get_region i_regs rget rname_beq fst snd]. cbn [bind r_data sigb].
  unfold bslice. rewrite bskip_0. apply prefixb_btake_le. vm_compute. discriminate.
Qed.

Lemma smatch_luks b : smatch F_luks b = sigb F_luks b.
Proof.
  unfold cmatch, spec_state, spec_unit. cbn [format_match ufmt f_match luks_fmt]. unfold luks_match.
  rewrite luks_state. cbn [get_region i_regs rget rname_beq fst snd]. cbn [bind r_data sigb].
  unfold bslice. rewrite bskip_0, ntake_btake, btake_btake. f_equal.
Qed.

Lemma smatch_vdi b : smatch F_vdi b = sigb F_vdi b.
Proof.
  unfold cmatch, spec_state, spec_unit. cbn [format_match ufmt f_match vdi_fmt]. unfold vdi_match.
  rewrite vdi_state. cbn [get_region i_regs rget rname_beq fst snd]. cbn [bind]. rewrite rcomplete_mk, full_window by reflexivity.
  cbn [sigb]. rewrite (single_long F_vdi b _ _ _ eq_refl).
  destruct (_ <=? blen b) eqn:Hl; cbn [negb andb]; [|reflexivity]. apply N.leb_le in Hl.
  cbn [r_data]. rewrite unpack_nsub_ok; [|reflexivity|].
  2:{ rewrite flen_blen, blen_bslice. unfold VDI_SIG_HI. lia. }
  cbn [bind]. f_equal. unfold sint, sraw. cbn [sf_big sf_vdi_sig sf_fields nth].
  rewrite nsub_bsub, bsub_bslice by (unfold VDI_SIG_HI; lia). rewrite !N.add_0_l.
  f_equal. unfold bslice. rewrite bskip_0. apply btake_all. unfold bsub. rewrite blen_btake. unfold VDI_SIG_HI, VDI_SIG_LO. lia.
Qed.

Lemma smatch_gpt b : smatch F_gpt b = sigb F_gpt b.
Proof.
  unfold cmatch, spec_state, spec_unit. cbn [format_match ufmt f_match gpt_fmt sigb]. rewrite gpt_state.
  rewrite (single_long F_gpt b _ _ _ eq_refl). destruct (_ <=? blen b) eqn:Hl.
  - apply N.leb_le in Hl. rewrite gpt_match_state by lia. reflexivity.
  - unfold gpt_match, gst. cbn [get_region i_regs rget rname_beq fst snd bind].
    rewrite rcomplete_mk, full_window, Hl by reflexivity. reflexivity.
Qed.

Lemma smatch_iso b : smatch F_iso b = sigb F_iso b.
Proof.
  unfold cmatch, spec_state, spec_unit. cbn [format_match ufmt f_match iso_fmt]. unfold iso_match.
  rewrite complete_ideal_long by reflexivity. cbn [f_id iso_fmt sigb].
  destruct (long_enough F_iso b) eqn:Hl; cbn [negb andb]; [|reflexivity].
  rewrite iso_state. cbn [get_region i_regs rget rname_beq fst snd]. cbn [bind r_data].
  rewrite nsub_bsub, bsub_bslice by (unfold ISO_SIG_HI; lia). reflexivity.
Qed.

(* ---------- qcow2: the magic is read from qemu_header_info, filled by region_complete *)
Definition qmagic (b : bytes) : bytes := sraw sf_qcow_hdr 0 (ntake QCOW_HDR_SLICE (bslice 0 qcow_hdr_len b)).

Lemma qext_magic b : rcomplete (qR b) = true ->
  match qext b with Some h => beq (q_magic h) QCOW_MAGIC | None => false end = beq (qmagic b) QCOW_MAGIC.
Proof.
  intros Hc. unfold qext. cbv zeta. rewrite complete_ideal, Hc. unfold qcow_rcomplete.
  assert (Hg : forall x, get_region R_header (ideal qcow_fmt b false x) = Ok (qR b)).
  { intros x. unfold get_region, ideal. cbn [i_regs]. rewrite qcow_fill. reflexivity. }
  rewrite Hg.
  assert (Hu : unpack sf_qcow_hdr (ntake QCOW_HDR_SLICE (r_data (qR b))) = Ok (ntake QCOW_HDR_SLICE (r_data (qR b)))).
  { unfold unpack. rewrite flen_blen, ntake_btake, blen_btake, qcow_slice_size.
    cbn [qR r_data]. rewrite (qR_complete_len b Hc).
    replace (N.min QCOW_HDR_SLICE qcow_hdr_len =? QCOW_HDR_SLICE) with true; [reflexivity|].
    symmetry. apply N.eqb_eq. pose proof qcow_slice_le. lia. }
  rewrite Hu. unfold qcow_match.
  assert (Hg2 : forall x, get_region R_header (set_ext (ideal qcow_fmt b false None) x) = Ok (qR b)).
  { intros x. unfold get_region, ideal. cbn [set_ext i_regs]. rewrite qcow_fill. reflexivity. }
  rewrite Hg2. cbn [bind]. rewrite Hc. cbn [negb set_ext i_ext q_magic].
  fold (qmagic b). cbn [qR r_data]. fold (qmagic b).
  destruct (beq (qmagic b) QCOW_MAGIC) eqn:Hm; cbn [fst set_ext i_ext q_magic]; [exact Hm | reflexivity].
Qed.

Lemma qmagic_prefix b : qcow_hdr_len <= blen b -> beq (qmagic b) QCOW_MAGIC = prefixb QCOW_MAGIC b.
Proof.
  intros Hl. unfold qmagic, sraw. cbn [sf_qcow_hdr sf_fields nth].
  rewrite ntake_btake. unfold bslice. rewrite !bskip_0, !btake_btake.
  rewrite prefixb_btake.
  replace (N.min (N.min 4 QCOW_HDR_SLICE) qcow_hdr_len) with (blen QCOW_MAGIC); [reflexivity|].
  vm_compute. reflexivity.
Qed.

Lemma qR_incomplete_short b : rcomplete (qR b) = false -> (0 + qcow_hdr_len <=? blen b) = false.
Proof.
  intros Hc. unfold rcomplete, base_complete, qR in Hc. cbn [r_end r_min r_len r_data] in Hc.
  rewrite flen_blen, blen_bslice in Hc. apply N.eqb_neq in Hc.
  assert (Hpos : 0 < qcow_hdr_len) by (vm_compute; reflexivity).
  apply N.leb_gt; lia.
Qed.

Lemma qcow_final_region b : get_region R_header (ideal qcow_fmt b true (qext b)) = Ok (qR b).
Proof. unfold get_region, ideal. cbn [i_regs]. rewrite qcow_fill. reflexivity. Qed.

Lemma smatch_qcow2_complete b : rcomplete (qR b) = true -> smatch F_qcow2 b = sigb F_qcow2 b.
Proof.
  intros Hc. unfold cmatch, spec_state. cbn [format_match f_match qcow_fmt]. unfold qcow_match.
  rewrite qcow_final_region. cbn [bind sigb]. rewrite (single_long F_qcow2 b 0 qcow_hdr_len R_header qcow_init_regions).
  rewrite Hc. cbn [negb ideal i_ext]. rewrite (qext_magic b Hc).
  pose proof (qR_complete_len b Hc) as Hlen. rewrite blen_bslice in Hlen.
  assert (Hl : qcow_hdr_len <= blen b) by lia.
  replace (0 + qcow_hdr_len <=? blen b) with true by (symmetry; apply N.leb_le; lia).
  cbn [andb]. apply qmagic_prefix. exact Hl.
Qed.

Lemma smatch_qcow2_incomplete b : rcomplete (qR b) = false -> smatch F_qcow2 b = sigb F_qcow2 b.
Proof.
  intros Hc. unfold cmatch, spec_state. cbn [format_match f_match qcow_fmt]. unfold qcow_match.
  rewrite qcow_final_region. cbn [bind sigb]. rewrite (single_long F_qcow2 b 0 qcow_hdr_len R_header qcow_init_regions).
  rewrite Hc, (qR_incomplete_short b Hc). reflexivity.
Qed.

Lemma smatch_qcow2 b : smatch F_qcow2 b = sigb F_qcow2 b.
Proof.
  destruct (rcomplete (qR b)) eqn:Hc; [apply smatch_qcow2_complete | apply smatch_qcow2_incomplete]; exact Hc.
Qed.

(* C03_format_implies_signature, static formats: on the final state of the inspector (the C01 static
   refinement) format_match IS the signature predicate of the content *)
Theorem static_match_is_signature f b : is_static f = true -> cmatch (spec_state f b) = sigb f b.
Proof.
  intros H. destruct f; try discriminate H.
  - apply smatch_raw. - apply smatch_qcow2. - apply smatch_vhd. - apply smatch_vdi. - apply smatch_qed.
  - apply smatch_iso. - apply smatch_gpt. - apply smatch_luks.
Qed.

Lemma prefixb_of_btake p n s : prefixb p (btake n s) = true -> prefixb p s = true.
Proof.
  intros H. apply prefixb_spec in H. destruct H as [t Ht]. apply prefixb_spec.
  exists (t ++ bskip n s). rewrite app_assoc, <- Ht. symmetry. apply btake_bskip_app.
Qed.

Lemma text_head_app st t : text_head st = true -> text_head (st ++ t) = true.
Proof.
  unfold text_head. intros H. apply andb_true_iff in H. destruct H as [H1 H2]. apply N.leb_le in H1.
  apply andb_true_iff. split; [apply N.leb_le; rewrite blen_app; lia|]. rewrite btake_app_le by exact H1. exact H2.
Qed.

(* the vmdk signature is a property of the head of the stream: it survives extension *)
Lemma occ_prefix p b : is_prefix p b -> occ p = true -> occ b = true.
Proof.
  intros Hp H. destruct (occ b) eqn:Hb; [reflexivity|]. pose proof (noct_prefix p b Hp Hb) as Hn. unfold noct in Hn. unfold occ in H. congruence.
Qed.
Lemma type_found_occ d : vmdk_type_of (lower_ascii (upto_nul d)) <> VMDK_NOTFOUND -> occ d = true.
Proof. intros H. destruct (occ d) eqn:Ho; [reflexivity|]. exfalso. apply H. apply noct_type. exact Ho. Qed.

Lemma sigb_vmdk_app st t : sigb F_vmdk st = true -> sigb F_vmdk (st ++ t) = true.
Proof.
  cbn [sigb]. intros H. apply orb_true_iff in H. apply orb_true_iff.
  destruct H as [H|H]; [left; apply prefixb_app_l; exact H|]. right. apply andb_true_iff in H. destruct H as [H1 H2].
  rewrite (text_head_app _ _ H1). apply (occ_prefix st); [exists t; reflexivity | exact H2].
Qed.

Theorem vhdx_match_signature st s :
  reach vhdx_fmt st s -> f_match vhdx_fmt s = Ok true -> sigb F_vhdx st = true.
Proof.
  intros Hr Hm.
  destruct (reach_get vhdx_fmt R_ident st s (keeps_vhdx R_ident ltac:(discriminate)) ltac:(init_stays) Hr) as (r & Hg & Hrg & He & Ho & _).
  pose proof (reach_Inv K_fixed vhdx_fmt st s vhdx_fmt_ok Hr) as HI.
  destruct (Inv_region_RI _ _ _ _ _ HI Hrg) as [(_ & Hsl & _) _].
  cbn [f_match vhdx_fmt] in Hm. unfold vhdx_match in Hm. rewrite Hg in Hm. cbn [bind] in Hm.
  assert (Hp : prefixb VHDX_MAGIC (r_data r) = true) by congruence.
  cbn [sigb]. rewrite Hsl in Hp. rewrite Ho in Hp. change (rs_off (spec_of (f_id vhdx_fmt) R_ident)) with 0 in Hp.
  unfold bslice in Hp. rewrite bskip_0 in Hp. eapply prefixb_of_btake. exact Hp.
Qed.

(* the header region, while it exists, sits at offset 0 and holds the head of the stream; it is
   deleted only when what it holds (at least vmdk_text_len bytes) is printable ASCII *)
Definition VH (st : bytes) (s : ist vx) : Prop :=
  i_pos s = blen st /\ NoDup (map fst (i_regs s)) /\
  match rget R_header (i_regs s) with
  | Some h => r_end h = false /\ r_off h = 0 /\ r_min h = Some vmdk_text_len /\ RI st (i_fin s) h
  | None => text_head st = true
  end.

Lemma VH_regs st (s s' : ist vx) :
  VH st s -> i_pos s' = i_pos s -> i_fin s' = i_fin s -> NoDup (map fst (i_regs s')) ->
  rget R_header (i_regs s') = rget R_header (i_regs s) -> VH st s'.
Proof. intros (H1 & H2 & H3) Hp Hf Hn Hr. unfold VH. rewrite Hp, Hf, Hr. auto. Qed.

Lemma VH_new_region st (s s' : ist vx) n sp e : n <> R_header -> VH st s -> new_region n sp s = (s', e) -> VH st s'.
Proof.
  intros Hn H Hnr. unfold new_region, has_region, rhas in Hnr.
  destruct (rget n (i_regs s)) eqn:Hg; inversion Hnr; subst; [exact H|].
  destruct H as (H1 & H2 & H3). unfold VH. cbn [i_pos i_regs i_fin]. split; [exact H1|]. split.
  - rewrite map_app. cbn [map fst]. apply NoDup_snoc; [exact H2 | apply rget_None_notin; exact Hg].
  - destruct (rget R_header (i_regs s)) as [h|] eqn:Hh.
    + rewrite (rget_app_some _ _ _ _ Hh). exact H3.
    + rewrite (rget_app_none _ _ _ Hh). cbn [rget]. destruct (rname_beq n R_header) eqn:Hb; [|exact H3].
      apply rname_beq_eq in Hb. contradiction.
Qed.

Lemma VH_delete_other st (s s' : ist vx) n e : n <> R_header -> VH st s -> delete_region n s = (s', e) -> VH st s'.
Proof.
  intros Hn H Hd. unfold delete_region in Hd. destruct (has_region n s); inversion Hd; subst; [|exact H].
  eapply VH_regs; [exact H|reflexivity|reflexivity| |].
  - cbn [set_regs i_regs]. apply rdel_NoDup. apply H.
  - cbn [set_regs i_regs]. apply rget_rdel_other. congruence.
Qed.

Lemma VH_add_check st (s s' : ist vx) k e : VH st s -> add_check k s = (s', e) -> VH st s'.
Proof.
  intros H Ha. unfold add_check in Ha. destruct (mem_cname k (i_checks s)); inversion Ha; subst; [exact H|].
  eapply VH_regs; [exact H|reflexivity|reflexivity|apply H|reflexivity].
Qed.

Lemma forallb_firstn_of {A} (f : A -> bool) n m (l : list A) :
  (n <= m)%nat -> forallb f (firstn m l) = true -> forallb f (firstn n l) = true.
Proof.
  intros Hnm H. replace (firstn n l) with (firstn n (firstn m l)) by (rewrite firstn_firstn; f_equal; lia).
  rewrite forallb_forall in *. intros x Hx. apply H. rewrite <- (firstn_skipn n (firstn m l)). apply in_or_app. left. exact Hx.
Qed.

(* deleting the header: what it held was text, and it held at least vmdk_text_len bytes *)
Lemma VH_delete_header st (s s' : ist vx) h e :
  VH st s -> rget R_header (i_regs s) = Some h -> rcomplete h = true -> forallb ascii_text (r_data h) = true ->
  delete_region R_header s = (s', e) -> VH st s'.
Proof.
  intros H Hh Hc Ht Hd. unfold delete_region, has_region, rhas in Hd. rewrite Hh in Hd. inversion Hd; subst.
  destruct H as (H1 & H2 & H3). rewrite Hh in H3. destruct H3 as (He & Ho & Hm & (Hlen & Hsl & _)).
  unfold VH. cbn [set_regs i_pos i_regs i_fin]. split; [exact H1|]. split; [apply rdel_NoDup; exact H2|].
  rewrite (rget_rdel_same _ _ H2).
  unfold rcomplete, base_complete in Hc. rewrite He, Hm, flen_blen in Hc. apply N.leb_le in Hc.
  rewrite Ho in Hsl. unfold bslice in Hsl. rewrite bskip_0 in Hsl.
  assert (Hle : blen (r_data h) <= blen st).
  { rewrite Hsl at 1. rewrite blen_btake. lia. }
  unfold text_head. apply andb_true_iff. split; [apply N.leb_le; lia|].
  rewrite Hsl in Ht. unfold btake in *. eapply forallb_firstn_of; [|exact Ht]. lia.
Qed.

Lemma vmdk_min_is_text_len : rs_min (spec_of F_vmdk R_header) = Some vmdk_text_len.
Proof. reflexivity. Qed.

Lemma VH_post st : forall (s s' : ist vx) e, VH st s -> vmdk_post s = (s', e) -> VH st s'.
Proof.
  intros s s' e H Hp. apply (acts_pres vmdk_creates vmdk_deletes (fun _ => False) (VH st)) with (s := s); [| | | |exact (vmdk_post_acts s s' e Hp)|exact H].
  - intros n sp s0 s1 e0 Hq H0. apply VH_new_region; [|exact H0]. destruct Hq as [[-> _]|[-> _]]; discriminate.
  - intros n s0 s1 e0 [[-> (h & Hh & Hc & _ & Ht)]|[-> _]] H0.
    + apply (VH_delete_header _ _ _ _ _ H0 Hh Hc Ht).
    + apply VH_delete_other; [discriminate | exact H0].
  - intros k s0 s1 e0. apply VH_add_check.
  - intros n m s0 [].
Qed.

Lemma VH_rcomplete st n (s s' : ist vx) e : VH st s -> vmdk_rcomplete n s = (s', e) -> VH st s'.
Proof.
  intros H Hc. unfold vmdk_rcomplete, vmdk_parse_descriptor in Hc.
  destruct n; try (inversion Hc; subst; exact H).
  destruct (get_region R_descriptor s); [|inversion Hc; subst; exact H].
  destruct (negb _); inversion Hc; subst; [exact H|].
  eapply VH_regs; [exact H|reflexivity|reflexivity|apply H|reflexivity].
Qed.

(* a plain region keeps its place under capture, and what it holds stays a slice of the stream: at the first
   capture of a chunk, and at the further captures of the same chunk *)
Lemma cap1_RI_first st c n r : r_end r = false -> RI st false r ->
  let r' := snd (cap1 [] c (blen (st ++ c)) (n, r)) in
  r_end r' = false /\ r_off r' = r_off r /\ r_min r' = r_min r /\ RI (st ++ c) false r'.
Proof.
  intros He HR. destruct (cap1_fixed [] c (blen (st ++ c)) n r He) as (G1 & G2 & _ & G4 & _).
  split; [exact G1|]. split; [exact G2|]. split; [exact G4|]. rewrite cap1_all. cbn [snd]. apply rcapture_RI_first. exact HR.
Qed.
Lemma cap1_RI_again st c only n r : r_end r = false -> RI (st ++ c) false r ->
  let r' := snd (cap1 only c (blen (st ++ c)) (n, r)) in
  r_end r' = false /\ r_off r' = r_off r /\ r_min r' = r_min r /\ RI (st ++ c) false r'.
Proof.
  intros He HR. destruct (cap1_fixed only c (blen (st ++ c)) n r He) as (G1 & G2 & _ & G4 & _).
  split; [exact G1|]. split; [exact G2|]. split; [exact G4|]. unfold cap1.
  destruct (match only with [] => false | _ :: _ => negb (mem_rname n only) end); [exact HR|].
  rewrite He. cbn [orb]. destruct (negb (rcomplete r)); cbn [snd]; [|exact HR].
  unfold rcapture. rewrite He. apply cap_fixed_RI; assumption.
Qed.

Lemma VH_first st (s0 : ist vx) c : VH st s0 -> i_fin s0 = false ->
  VH (st ++ c) (set_regs (set_pos s0 (i_pos s0 + flen c)) (capture_regs [] c (i_pos s0 + flen c) (i_regs s0))).
Proof.
  intros (H1 & H2 & H3) Hfin. unfold VH. cbn [set_regs set_pos i_pos i_regs i_fin].
  rewrite flen_blen, H1, <- blen_app. split; [reflexivity|]. split; [rewrite capture_regs_names; exact H2|].
  rewrite rget_capture. destruct (rget R_header (i_regs s0)) as [h|]; cbn [option_map]; [|apply text_head_app; exact H3].
  destruct H3 as (He0 & Ho & Hm & HR). rewrite Hfin in *.
  destruct (cap1_RI_first st c R_header h He0 HR) as (G1 & G2 & G3 & G4). rewrite G2, G3. auto.
Qed.

Lemma VH_finished st (s0 : ist vx) c : VH st s0 -> i_fin s0 = true -> VH (st ++ c) (set_pos s0 (i_pos s0 + flen c)).
Proof.
  intros (H1 & H2 & H3) Hfin. unfold VH. cbn [set_pos i_pos i_regs i_fin].
  rewrite flen_blen, H1, <- blen_app. split; [reflexivity|]. split; [exact H2|].
  destruct (rget R_header (i_regs s0)) as [h|].
  - destruct H3 as (He0 & Ho & Hm & HR). split; [exact He0|]. split; [exact Ho|]. split; [exact Hm|].
    rewrite Hfin in *. apply RI_ext_fin. exact HR.
  - apply text_head_app. exact H3.
Qed.

Lemma VH_cap st c (s0 : ist vx) only : VH (st ++ c) s0 -> i_fin s0 = false ->
  VH (st ++ c) (set_regs s0 (capture_regs only c (i_pos s0) (i_regs s0))).
Proof.
  intros (H1 & H2 & H3) Hfin. unfold VH. cbn [set_regs i_pos i_regs i_fin].
  split; [exact H1|]. split; [rewrite capture_regs_names; exact H2|].
  rewrite rget_capture. destruct (rget R_header (i_regs s0)) as [h|]; cbn [option_map]; [|exact H3].
  destruct H3 as (He0 & Ho & Hm & HR). rewrite Hfin, H1 in *.
  destruct (cap1_RI_again st c only R_header h He0 HR) as (G1 & G2 & G3 & G4). rewrite G2, G3. auto.
Qed.

Lemma VH_eat st (s s' : ist vx) c e : VH st s -> eat_chunk vmdk_fmt s c = (s', e) -> VH (st ++ c) s'.
Proof.
  intros H He. refine (pres_eat_chunk vmdk_fmt c (VH st) (VH (st ++ c)) _ _ _ _ _ s s' e H He).
  - intros s0. apply VH_first.
  - intros s0. apply VH_finished.
  - intros s0 only. apply VH_cap.
  - intros s0 s1 e0 H0 Hp. eapply VH_post; eauto.
  - intros n s0 s1 e0 H0 Hc. eapply VH_rcomplete; eauto.
Qed.

Lemma VH_finish st (s : ist vx) : VH st s -> VH st (Insp_Engine.finish s).
Proof.
  intros (H1 & H2 & H3). unfold VH, Insp_Engine.finish. cbn [i_pos i_regs i_fin]. split; [exact H1|]. split.
  - rewrite map_map. cbn [fst]. exact H2.
  - rewrite rget_finish. destruct (rget R_header (i_regs s)) as [h|]; cbn [option_map]; [|exact H3].
    destruct H3 as (He0 & Ho & Hm & HR). rewrite He0. split; [exact He0|]. split; [exact Ho|]. split; [exact Hm|].
    eapply RI_to_fin. exact HR.
Qed.

Lemma VH_init : VH [] (init_ist vmdk_fmt).
Proof.
  unfold VH. split; [reflexivity|]. split; [cbn; repeat constructor; cbn; intuition discriminate|].
  cbn. split; [reflexivity|]. split; [reflexivity|]. split; [reflexivity|]. apply RI_fresh. discriminate.
Qed.

Lemma reach_VH st s : reach vmdk_fmt st s -> VH st s.
Proof.
  intros Hr. induction Hr as [|st s c s' e Hr IH He|st s Hr IH].
  - exact VH_init.
  - eapply VH_eat; eauto.
  - apply VH_finish. exact IH.
Qed.

(* ---------- the text-descriptor branch: vmdktype comes from a descriptor region at offset 0 *)
(* the descriptor region is still the one _initialize created (offset 0): whatever was parsed from it is a
   prefix of the stream, so a vmdktype other than 'formatnotfound' means createtype=<dquote> occurs *)
Definition desc0 (st : bytes) (s : ist vx) : Prop :=
  exists d, rget R_descriptor (i_regs s) = Some d /\ r_end d = false /\ r_off d = 0 /\ RI st (i_fin s) d /\
            (v_vmdktype (i_ext s) = VMDK_NOTFOUND \/ occ st = true).
(* ... which it is until the header is found complete with the KDMV signature *)
Definition VT (st : bytes) (s : ist vx) : Prop := desc0 st s \/ hdr_kdmv s.

Lemma desc0_regs st (s s' : ist vx) :
  rget R_descriptor (i_regs s') = rget R_descriptor (i_regs s) -> i_fin s' = i_fin s -> i_ext s' = i_ext s -> desc0 st s -> desc0 st s'.
Proof. intros Hr Hf Hx (d & Hd & H). exists d. rewrite Hr, Hf, Hx. auto. Qed.

Lemma desc0_new_region st (s s' : ist vx) n sp e : desc0 st s -> new_region n sp s = (s', e) -> desc0 st s'.
Proof.
  intros (d & Hd & H) Hn. unfold new_region in Hn. destruct (has_region n s); inversion Hn; subst; [exists d; auto|].
  exists d. cbn [i_regs i_fin i_ext]. rewrite (rget_app_some _ _ _ _ Hd). auto.
Qed.

Lemma VT_post st : forall (s s' : ist vx) e, VT st s -> vmdk_post s = (s', e) -> VT st s'.
Proof.
  intros s s' e H Hp. apply (acts_pres vmdk_creates vmdk_deletes (fun _ => False) (VT st)) with (s := s); [| | | |exact (vmdk_post_acts s s' e Hp)|exact H].
  - intros n sp s0 s1 e0 _ [Hd|K] Hn; [left; eapply desc0_new_region; eauto | right; eapply hdr_kdmv_new_region; eauto].
  - intros n s0 s1 e0 [[-> (h & Hh & _ & Hk & _)]|[-> K]] H0 Hdel.
    + (* the header goes: it was not KDMV, and the descriptor is another region *)
      destruct H0 as [Hd|(h' & Hh' & _ & Hk')]; [left | rewrite Hh in Hh'; congruence].
      unfold delete_region in Hdel. destruct (has_region R_header s0); inversion Hdel; subst; [|exact Hd].
      apply (desc0_regs st s0); [|reflexivity|reflexivity|exact Hd]. cbn [set_regs i_regs]. apply rget_rdel_other. discriminate.
    + right. eapply hdr_kdmv_delete; [|exact K|exact Hdel]. discriminate.
  - intros k s0 s1 e0 [Hd|K] Ha; [left | right; eapply hdr_kdmv_add_check; eauto].
    unfold add_check in Ha. destruct (mem_cname k (i_checks s0)); inversion Ha; subst; exact Hd.
  - intros n m s0 [].
Qed.

Lemma VT_rcomplete st n (s s' : ist vx) e : VT st s -> vmdk_rcomplete n s = (s', e) -> VT st s'.
Proof.
  intros Hc H. unfold vmdk_rcomplete, vmdk_parse_descriptor in H.
  destruct n; try (inversion H; subst; exact Hc).
  unfold get_region in H. destruct (rget R_descriptor (i_regs s)) as [d0|] eqn:Hd0; [|inversion H; subst; exact Hc].
  destruct (negb _); inversion H; subst; [exact Hc|].
  destruct Hc as [(d & Hd & He0 & Ho & HR & _)|Hk]; [left | right; exact Hk].
  rewrite Hd0 in Hd. inversion Hd; subst d0. exists d. cbn [set_ext i_regs i_fin i_ext v_vmdktype].
  split; [exact Hd0|]. split; [exact He0|]. split; [exact Ho|]. split; [exact HR|].
  fold (upto_nul (r_data d)).
  destruct (beq (vmdk_type_of (lower_ascii (upto_nul (r_data d)))) VMDK_NOTFOUND) eqn:Hb; [left; apply beq_eq; exact Hb|].
  right. apply (occ_prefix (r_data d)).
  - destruct HR as (_ & Hsl & _). rewrite Ho in Hsl. unfold bslice in Hsl. rewrite bskip_0 in Hsl. rewrite Hsl. apply is_prefix_btake.
  - apply type_found_occ. intros Heq. rewrite Heq, beq_refl in Hb. discriminate.
Qed.

Lemma VH_hdr_end st (s : ist vx) h : VH st s -> rget R_header (i_regs s) = Some h -> r_end h = false.
Proof. intros (_ & _ & H) Hh. rewrite Hh in H. apply H. Qed.

Lemma hdr_kdmv_capture (s0 : ist vx) only c pos :
  (forall h, rget R_header (i_regs s0) = Some h -> r_end h = false) ->
  hdr_kdmv s0 -> hdr_kdmv (set_regs s0 (capture_regs only c pos (i_regs s0))).
Proof.
  intros He (h & Hh & Hc & Hk). exists h. cbn [set_regs i_regs]. rewrite rget_capture, Hh. cbn [option_map].
  rewrite (cap1_complete only c pos R_header h (He h Hh) Hc). auto.
Qed.

Lemma VT_eat st (s s' : ist vx) c e : VH st s -> VT st s -> eat_chunk vmdk_fmt s c = (s', e) -> VH (st ++ c) s' /\ VT (st ++ c) s'.
Proof.
  intros HV HT He.
  refine (pres_eat_chunk vmdk_fmt c (fun s => VH st s /\ VT st s) (fun s => VH (st ++ c) s /\ VT (st ++ c) s) _ _ _ _ _ s s' e (conj HV HT) He).
  - intros s0 [V0 Hc] Hfin. split; [apply VH_first; assumption|].
    destruct Hc as [(d & Hd & He0 & Ho & HR & Hv)|Hk].
    + left. unfold desc0. cbn [set_regs set_pos i_regs i_fin i_ext]. rewrite rget_capture, Hd. cbn [option_map].
      destruct V0 as (Hpos & _). rewrite Hfin in *. rewrite flen_blen, Hpos, <- blen_app.
      destruct (cap1_RI_first st c R_descriptor d He0 HR) as (G1 & G2 & _ & G4). eexists. split; [reflexivity|].
      rewrite G2. split; [exact G1|]. split; [exact Ho|]. split; [exact G4|].
      destruct Hv as [Hv|Hv]; [left; exact Hv | right; apply (occ_prefix st); [exists c; reflexivity | exact Hv]].
    + right. apply (hdr_kdmv_capture (set_pos s0 (i_pos s0 + flen c))); [exact (fun h => VH_hdr_end _ _ h V0) | exact Hk].
  - intros s0 [V0 Hc] Hfin. split; [apply VH_finished; assumption|].
    destruct Hc as [(d & Hd & He0 & Ho & HR & Hv)|Hk]; [left|right; exact Hk].
    exists d. cbn [set_pos i_regs i_fin i_ext]. split; [exact Hd|]. split; [exact He0|]. split; [exact Ho|]. split.
    + rewrite Hfin in *. apply RI_ext_fin. exact HR.
    + destruct Hv as [Hv|Hv]; [left; exact Hv | right; apply (occ_prefix st); [exists c; reflexivity | exact Hv]].
  - intros s0 only [V0 Hc] Hfin. split; [apply VH_cap; assumption|].
    destruct Hc as [(d & Hd & He0 & Ho & HR & Hv)|Hk];
      [left|right; apply hdr_kdmv_capture; [exact (fun h => VH_hdr_end _ _ h V0) | exact Hk]].
    unfold desc0. cbn [set_regs i_regs i_fin i_ext]. rewrite rget_capture, Hd. cbn [option_map].
    destruct V0 as (Hpos & _). rewrite Hfin, Hpos in *.
    destruct (cap1_RI_again st c only R_descriptor d He0 HR) as (G1 & G2 & _ & G4). eexists. split; [reflexivity|].
    rewrite G2. auto.
  - intros s0 s1 e0 [V0 T0] Hp. split; [eapply VH_post; eauto | eapply VT_post; eauto].
  - intros n s0 s1 e0 [V0 T0] Hc. split; [eapply VH_rcomplete; eauto | eapply VT_rcomplete; eauto].
Qed.

Lemma VT_finish st (s : ist vx) : VH st s -> VT st s -> VT st (Insp_Engine.finish s).
Proof.
  intros HV [(d & Hd & He0 & Ho & HR & Hv)|(h & Hh & Hcm & Hk)].
  - left. exists d. unfold Insp_Engine.finish. cbn [i_regs i_fin i_ext]. rewrite rget_finish, Hd. cbn [option_map].
    split; [rewrite He0; reflexivity|]. split; [exact He0|]. split; [exact Ho|]. split; [eapply RI_to_fin; exact HR | exact Hv].
  - right. exists h. unfold Insp_Engine.finish. cbn [i_regs]. rewrite rget_finish, Hh. cbn [option_map].
    rewrite (VH_hdr_end _ _ _ HV Hh). auto.
Qed.

Lemma VT_init : VT [] (init_ist vmdk_fmt).
Proof.
  left. eexists. split; [vm_compute; reflexivity|]. cbn [r_end r_off i_fin i_ext init_ist f_ext0 vmdk_fmt v_vmdktype].
  split; [reflexivity|]. split; [reflexivity|]. split; [|left; reflexivity].
  unfold RI. cbn [r_data r_len r_off r_end]. rewrite blen_nil. split; [lia|]. split; [reflexivity | discriminate].
Qed.

Lemma reach_VT st s : reach vmdk_fmt st s -> VH st s /\ VT st s.
Proof.
  intros Hr. induction Hr as [|st s c s' e Hr IH He|st s Hr IH].
  - split; [exact VH_init | exact VT_init].
  - destruct IH as [HV HT]. eapply VT_eat; eauto.
  - destruct IH as [HV HT]. split; [apply VH_finish; exact HV | apply VT_finish; assumption].
Qed.

(* C03_format_implies_signature, vmdk: format_match in a reachable state means KDMV at offset 0, or the
   text-descriptor mode (zone F1): the first 64 bytes are printable ASCII AND createtype=<dquote> occurs before the
   first NUL byte of the stream (that is what vmdktype != 'formatnotfound' requires) *)
Theorem vmdk_match_signature st s :
  reach vmdk_fmt st s -> f_match vmdk_fmt s = Ok true -> sigb F_vmdk st = true.
Proof.
  intros Hr Hm. destruct (reach_VT st s Hr) as [(_ & _ & H3) HT].
  cbn [f_match vmdk_fmt] in Hm. unfold vmdk_match in Hm. cbn [sigb]. apply orb_true_iff.
  destruct (rget R_header (i_regs s)) as [h|] eqn:Hh.
  - left. assert (Hp : prefixb VMDK_MAGIC (r_data h) = true) by congruence. destruct H3 as (_ & Ho & _ & (_ & Hsl & _)).
    rewrite Hsl, Ho in Hp. unfold bslice in Hp. rewrite bskip_0 in Hp. eapply prefixb_of_btake. exact Hp.
  - right. rewrite H3. cbn [andb].
    destruct HT as [(d & _ & _ & _ & _ & Hv)|(h & Hh' & _)]; [|rewrite Hh in Hh'; discriminate].
    destruct Hv as [Hv|Hv]; [|exact Hv]. exfalso.
    assert (Hn : negb (beq (v_vmdktype (i_ext s)) VMDK_NOTFOUND) = true) by congruence.
    rewrite Hv, beq_refl in Hn. discriminate.
Qed.
