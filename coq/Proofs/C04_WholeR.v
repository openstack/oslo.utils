(* One lemma ([whole_*_step]) per way a key and its value are rendered in a message (k = v, k 'v', <k>v</k>,
   --k v, ...): on surrounding text around one such rendering, mask_password puts the mask in the place of the
   value and changes nothing else - for every key of the table and every value, mask and surrounding text of
   the character classes stated.  The pattern that belongs to the rendering is followed through the message;
   that no other pattern of the key matches anywhere is decided on the shape of the message by the abstract
   matcher, once per key ([checks_*], vm_compute). *)
From Coq Require Import String.
Require Import OV.Base.Bytes OV.Base.PyInt OV.Base.Str OV.Base.Regex OV.Base.C04_Tmpl.
Require Import OV.Gen.Unicode OV.Gen.C04_Sanitize OV.Gen.C04_Concrete OV.Model.C04 OV.Model.C04_Spec.
Require Import OV.Proofs.C04_Regex OV.Proofs.C04 OV.Proofs.C04_Quote OV.Proofs.C04_Abs OV.Proofs.C04_Render OV.Proofs.C04_Whole.
Open Scope N_scope.

(* surrounding text: any code points except quotes, '-', '<', '=', '>' *)
Definition ctx_char (c : N) : bool :=
  valid_cp c && negb (is_quote c) && negb (c =? 45) && negb ((60 <=? c) && (c <=? 62)).
Definition ctx_cs : cset := [(0, 33); (35, 38); (40, 44); (46, 59); (63, 1114111)].
Lemma ctx_in c : ctx_char c = true -> cmem c ctx_cs = true.
Proof. unfold ctx_char, valid_cp, is_quote, ctx_cs. cbn [cmem]. intros H. lia. Qed.

Definition kcs_of (k : str) : list cset := map (ci_lookup gen_ci_table) k.
Definition pats (k : str) : list re := gen_tp2 k ++ gen_tp1 k ++ gen_tpw k.
Definition dig_cs : cset := [(48, 57)].

(* the j-th cannot match from inside pre, nor anywhere in post *)
Definition check_self (k : str) (AR : asub) (j : nat) : bool :=
  match nth_error (pats k) j with
  | Some rj => negb (am (kcs_of k) 200 rj (ARun ctx_cs true :: AR ++ [ARun ctx_cs false]) (fun _ => true)) &&
               negb (may_match_somewhere (kcs_of k) 200 rj [ARun ctx_cs false])
  | None => false
  end.

Lemma check_self_spec k AR j rj : check_self k AR j = true -> nth_error (pats k) j = Some rj ->
  am (kcs_of k) 200 rj (ARun ctx_cs true :: AR ++ [ARun ctx_cs false]) (fun _ => true) = false /\
  may_match_somewhere (kcs_of k) 200 rj [ARun ctx_cs false] = false.
Proof.
  unfold check_self. intros H E. rewrite E in H. apply andb_true_iff in H. destruct H as [H1 H2].
  apply negb_true_iff in H1, H2. split; assumption.
Qed.

Lemma map_fst_tagged k s : map fst (tagged k s) = pats k.
Proof. unfold tagged, pats. rewrite !map_app, !map_map. cbn [fst]. rewrite !map_id. reflexivity. Qed.

Lemma gen_key_ok k : In k gen_keys -> k <> [] /\ forallb key_char k = true.
Proof.
  intros Hin. destruct keys_cover_spec as [_ H]. rewrite Forall_forall in H. specialize (H k Hin).
  unfold key_ok in H. apply andb_true_iff in H. destruct H as [H1 H2]. split; [|exact H2].
  intros ->. discriminate.
Qed.

Lemma ctx_all s : forallb ctx_char s = true -> all_in ctx_cs s = true.
Proof. apply all_in_impl. exact ctx_in. Qed.

Definition shape_of (AR : asub) : asub := ARun ctx_cs false :: AR ++ [ARun ctx_cs false].

Fixpoint check_ex_go (kcs : list cset) (A : asub) (ex : list nat) (i : nat) (l : list re) : bool :=
  match l with
  | [] => true
  | r :: t => (if existsb (Nat.eqb i) ex then true else negb (may_match_key kcs 200 r A)) && check_ex_go kcs A ex (S i) t
  end.
Definition check_ex (k : str) (A : asub) (ex : list nat) : bool := check_ex_go (kcs_of k) A ex 0 (pats k).

Lemma check_ex_go_spec kcs A ex : forall l i0, check_ex_go kcs A ex i0 l = true ->
  forall i r, nth_error l i = Some r -> ~ In (i0 + i)%nat ex -> may_match_somewhere kcs 200 r A = false.
Proof.
  induction l as [|r0 l IH]; intros i0 H i r Hi Hne; [destruct i; discriminate|].
  cbn [check_ex_go] in H. apply andb_true_iff in H. destruct H as [H1 H2]. destruct i as [|i].
  - cbn in Hi. inversion Hi; subst. rewrite Nat.add_0_r in Hne.
    destruct (existsb (Nat.eqb i0) ex) eqn:E.
    + exfalso. apply Hne. apply existsb_exists in E. destruct E as (x & Hx & Ex). apply Nat.eqb_eq in Ex. subst. exact Hx.
    + apply negb_true_iff in H1. rewrite <- (may_match_key_eq kcs 197). exact H1.
  - apply (IH (S i0) H2 i r Hi). replace (S i0 + i)%nat with (i0 + S i)%nat by lia. exact Hne.
Qed.

Lemma ex_none k A ex x secret : k <> [] -> check_ex k A ex = true -> conc gen_ci_table k A x ->
  forall i r t, nth_error (tagged k secret) i = Some (r, t) -> ~ In i ex -> re_sub r t x = x.
Proof.
  intros Hk Hc HA i r t Hi Hne. apply re_sub_none. intros a b q E.
  assert (Hr : nth_error (pats k) i = Some r).
  { rewrite <- (map_fst_tagged k secret). rewrite nth_error_map, Hi. reflexivity. }
  pose proof (check_ex_go_spec _ _ _ _ 0%nat Hc i r Hr Hne) as Hm.
  exact (abs_no_match gen_ci_table k Hk 200 r A x Hm HA a b q E).
Qed.

(* pattern j rewrites m to m1; the later patterns listed in ex find m1 and leave it as it is; the patterns listed in
   ex0 leave both m and m1 as they are for a reason of their own; no other pattern of the key can match anywhere in a
   message of the shape *)
Lemma whole_frame_ex k j ex0 ex rj tj AR m m1 mask :
  In k gen_keys -> nth_error (tagged k mask) j = Some (rj, tj) ->
  check_ex k (shape_of AR) (j :: ex0 ++ ex) = true ->
  conc gen_ci_table k (shape_of AR) m -> conc gen_ci_table k (shape_of AR) m1 ->
  re_sub rj tj m = m1 ->
  Forall (fun i => i <> j /\ exists r t, nth_error (tagged k mask) i = Some (r, t) /\ re_sub r t m = m /\ re_sub r t m1 = m1) ex0 ->
  Forall (fun i => (j < i)%nat /\ exists r t, nth_error (tagged k mask) i = Some (r, t) /\ re_sub r t m1 = m1) ex ->
  occursb k (lower m) = true -> others_absent k m = true -> others_absent k m1 = true ->
  mask_password m mask = m1.
Proof.
  intros Hin Hj Hco Cv Cm Hd Hex0 Hex Hocc Hav Ham. destruct (gen_key_ok k Hin) as [Hne Hk]. rewrite Forall_forall in Hex0, Hex.
  assert (Ho : forall i r t x, nth_error (tagged k mask) i = Some (r, t) -> i <> j -> ~ In i ex0 -> ~ In i ex ->
            conc gen_ci_table k (shape_of AR) x -> re_sub r t x = x).
  { intros i r t x Hi N0 N1 N2 Cx. apply (ex_none k _ _ _ mask Hne Hco Cx i r t Hi).
    intros [E|E]; [congruence|]. apply in_app_or in E. tauto. }
  apply (mask_password_one_key k _ _ mask Hin Hocc Hav Ham).
  apply (sub_all_one (tagged k mask) j _ _ rj tj Hj Hd).
  - intros i r t Hi Hlt. destruct (in_dec Nat.eq_dec i ex0) as [E|E].
    + destruct (Hex0 i E) as (_ & r' & t' & Hi' & Hfix & _). rewrite Hi in Hi'. inversion Hi'; subst. exact Hfix.
    + apply (Ho i r t m Hi); [lia|exact E| |exact Cv]. intros E1. destruct (Hex i E1) as [Hji _]. lia.
  - intros i r t Hi Hlt. destruct (in_dec Nat.eq_dec i ex0) as [E|E].
    + destruct (Hex0 i E) as (_ & r' & t' & Hi' & _ & Hfix). rewrite Hi in Hi'. inversion Hi'; subst. exact Hfix.
    + destruct (in_dec Nat.eq_dec i ex) as [E1|E1].
      * destruct (Hex i E1) as (_ & r' & t' & Hi' & Hfix). rewrite Hi in Hi'. inversion Hi'; subst. exact Hfix.
      * apply (Ho i r t m1 Hi); [lia|exact E|exact E1|exact Cm].
Qed.

Lemma whole_frame2 k j j2 rj tj r2 tt2 AR m m1 mask :
  In k gen_keys -> (j < j2)%nat -> nth_error (tagged k mask) j = Some (rj, tj) -> nth_error (tagged k mask) j2 = Some (r2, tt2) ->
  check_ex k (shape_of AR) [j; j2] = true ->
  conc gen_ci_table k (shape_of AR) m -> conc gen_ci_table k (shape_of AR) m1 ->
  re_sub rj tj m = m1 -> re_sub r2 tt2 m1 = m1 ->
  occursb k (lower m) = true -> others_absent k m = true -> others_absent k m1 = true ->
  mask_password m mask = m1.
Proof.
  intros Hin Hlt Hj Hj2 Hco Cv Cm Hd Hd2. apply (whole_frame_ex k j [] [j2] rj tj AR m m1 mask Hin Hj Hco Cv Cm Hd); [constructor|].
  constructor; [|constructor]. split; [exact Hlt|]. exists r2, tt2. split; assumption.
Qed.

Lemma whole_frame k j rj tj AR m m1 mask :
  In k gen_keys -> nth_error (tagged k mask) j = Some (rj, tj) ->
  check_ex k (shape_of AR) [j] = true ->
  conc gen_ci_table k (shape_of AR) m -> conc gen_ci_table k (shape_of AR) m1 ->
  re_sub rj tj m = m1 ->
  occursb k (lower m) = true -> others_absent k m = true -> others_absent k m1 = true ->
  mask_password m mask = m1.
Proof. intros Hin Hj Hco Cv Cm Hd. apply (whole_frame_ex k j [] [] rj tj AR m m1 mask Hin Hj Hco Cv Cm Hd); constructor. Qed.

(* the second conjunct (the suffixes that start inside pre: first run non-empty) and the third are the
   concretisations on which [check_self] has been run, see [self_nomatch] *)
Definition parts (k : str) (AR : asub) (pre S post : str) : Prop :=
  conc gen_ci_table k (shape_of AR) (pre ++ S) /\
  (forall a' b', pre = a' ++ b' -> b' <> [] -> conc gen_ci_table k (ARun ctx_cs true :: AR ++ [ARun ctx_cs false]) (b' ++ S)) /\
  conc gen_ci_table k [ARun ctx_cs false] post.

Lemma parts_of_segments k pre Lmid post des whole : k <> [] ->
  let L := (ARun ctx_cs false, pre) :: Lmid ++ [(ARun ctx_cs false, post)] in
  whole = flat L -> only_at gen_ci_table k whole des = true ->
  Forall (seg_valid gen_ci_table k) L -> (forall i, In i des -> In i (key_offsets 0 L)) ->
  parts k (map fst Lmid) pre (flat (Lmid ++ [(ARun ctx_cs false, post)])) post.
Proof.
  intros Hne L E Ho HV Hd.
  destruct (conc_parts gen_ci_table k Hne ctx_cs false pre Lmid ctx_cs false post whole E HV) as (C1 & C2 & C3).
  { intros a b Eab Hp. apply Hd. exact (only_at_spec _ _ _ _ Ho a b Eab Hp). }
  split; [|split; [|exact C3]].
  - unfold shape_of. rewrite E in C1. unfold L in C1. rewrite flat_cons in C1. cbn [map fst snd] in C1. rewrite map_app in C1. exact C1.
  - intros a' b' E1 Hb. specialize (C2 a' b' E1 Hb). rewrite map_app in C2. exact C2.
Qed.

Definition nomatch_pre (r : re) (pre S : str) : Prop :=
  forall a' b' q, pre = a' ++ b' -> b' <> [] -> match_at r (b' ++ S) q = None.
Definition nomatch_post (r : re) (post : str) : Prop :=
  forall a' b' q, post = a' ++ b' -> match_at r b' q = None.

Lemma self_nomatch k AR j rj pre S post : In k gen_keys ->
  check_self k AR j = true -> nth_error (pats k) j = Some rj ->
  (forall a' b', pre = a' ++ b' -> b' <> [] -> conc gen_ci_table k (ARun ctx_cs true :: AR ++ [ARun ctx_cs false]) (b' ++ S)) ->
  conc gen_ci_table k [ARun ctx_cs false] post ->
  nomatch_pre rj pre S /\ nomatch_post rj post.
Proof.
  intros Hin Hcs Hrj Cpre Cpost. destruct (gen_key_ok k Hin) as [Hne _].
  destruct (check_self_spec k _ j _ Hcs Hrj) as [Hs1 Hs2]. split.
  - intros a' b' q E Hb. apply (am_none gen_ci_table k 200 _ _ _ q Hne Hs1). apply (Cpre a' b' E Hb).
  - intros a' b' q E. exact (abs_no_match gen_ci_table k Hne 200 _ _ post Hs2 Cpost a' b' q E).
Qed.

Ltac valid_segs Hl :=
  repeat constructor; cbn [fst snd]; try assumption; try discriminate;
  try (eexists; split; [reflexivity|first [assumption|reflexivity]]).

(* k = v (bare value): _FORMAT_PATTERNS_1[0] *)
Definition shapeR_bare (kcs : list cset) : asub :=
  [AKey kcs; ARun dig_cs false; ARun py_space false; AOne [(61, 61)]; ARun py_space false; ARun cs_bare true].

(* the value class has no quote character: the eight patterns that end in a quote are left out of the abstract check *)
Lemma checks_bare : forallb (fun k => check_ex k (shape_of (shapeR_bare (kcs_of k))) [10; 0; 1; 2; 3; 6; 7; 8; 11]%nat && check_self k (shapeR_bare (kcs_of k)) 10) gen_keys = true.
Proof. vm_compute. reflexivity. Qed.

Definition msg_bare (pre K d w1 w2 x post : str) : str := pre ++ K ++ d ++ w1 ++ 61 :: w2 ++ x ++ post.

Lemma whole_bare_step k K d w1 w2 v mask pre post :
  In k gen_keys -> casing_of k K -> forallb ascii_digit d = true ->
  forallb is_space w1 = true -> forallb is_space w2 = true ->
  forallb bare_char v = true -> (1 <= length v)%nat -> forallb bare_char mask = true -> (1 <= length mask)%nat ->
  forallb ctx_char pre = true -> forallb ctx_char post = true -> hd_notin cs_bare post = true ->
  only_at gen_ci_table k (msg_bare pre K d w1 w2 v post) [length pre] = true ->
  only_at gen_ci_table k (msg_bare pre K d w1 w2 mask post) [length pre] = true ->
  others_absent k (msg_bare pre K d w1 w2 v post) = true ->
  others_absent k (msg_bare pre K d w1 w2 mask post) = true ->
  mask_password (msg_bare pre K d w1 w2 v post) mask = msg_bare pre K d w1 w2 mask post.
Proof.
  intros Hin Hcase Hd Hw1 Hw2 Hv Hlv Hmk Hlm Hpre Hpost Hhd Hov Hom Hav Ham.
  destruct (gen_key_ok k Hin) as [Hne Hk].
  pose proof (casing_ok_of k K Hk Hcase) as HK. pose proof (digits_in d Hd) as Hd'.
  pose proof (spaces_in _ Hw1) as Hw1'. pose proof (spaces_in _ Hw2) as Hw2'.
  pose proof (all_in_impl _ _ _ bare_in Hv) as Hv'. pose proof (all_in_impl _ _ _ bare_in Hmk) as Hmk'.
  pose proof (ctx_all _ Hpre) as Hpre'. pose proof (ctx_all _ Hpost) as Hpost'.
  pose proof checks_bare as Hch. rewrite forallb_forall in Hch. specialize (Hch k Hin).
  apply andb_true_iff in Hch. destruct Hch as [Hco Hcs].
  assert (Parts : forall x, forallb bare_char x = true -> (1 <= length x)%nat ->
            only_at gen_ci_table k (msg_bare pre K d w1 w2 x post) [length pre] = true ->
            parts k (shapeR_bare (kcs_of k)) pre (K ++ d ++ w1 ++ 61 :: w2 ++ x ++ post) post).
  { intros x Hx Hlx Hox. pose proof (all_in_impl _ _ _ bare_in Hx) as Hx'.
    apply (parts_of_segments k pre
                  [(AKey (kcs_of k), K); (ARun dig_cs false, d); (ARun py_space false, w1); (AOne [(61, 61)], [61]);
                   (ARun py_space false, w2); (ARun cs_bare true, x)]
                  post [length pre] (msg_bare pre K d w1 w2 x post) Hne eq_refl Hox).
    - repeat constructor; cbn [fst snd]; try assumption; try (intros _; destruct x; [inversion Hlx|discriminate]); try discriminate.
      exists 61. split; reflexivity.
    - intros i Hi. cbn [key_offsets fst snd is_key app Nat.add]. exact Hi. }
  destruct (Parts v Hv Hlv Hov) as (Cv & Cpre & Cpost). destruct (Parts mask Hmk Hlm Hom) as (Cm & _ & _).
  destruct (self_nomatch k _ 10 (gen_tp1_0 k) pre _ post Hin Hcs eq_refl Cpre Cpost) as [Npre Npost].
  assert (NQ : forall r t x, (1 <= min_q cs_quotes r)%nat -> all_in cs_bare x = true ->
            re_sub r t (msg_bare pre K d w1 w2 x post) = msg_bare pre K d w1 w2 x post).
  { intros r t x Hr Hx. apply re_sub_none, (too_few_quotes cs_quotes). eapply Nat.lt_le_trans; [|exact Hr]. unfold msg_bare.
    rewrite countq_app, (countq_none cs_quotes _ _ Hpre' ltac:(vmr)), countq_app, (countq_casing _ _ Hk HK).
    rewrite countq_app, (countq_none cs_quotes _ _ Hd' ltac:(vmr)), countq_app, (countq_none cs_quotes _ _ Hw1' ltac:(vmr)).
    rewrite (countq_cons_n cs_quotes 61 _ eq_refl), countq_app, (countq_none cs_quotes _ _ Hw2' ltac:(vmr)).
    rewrite countq_app, (countq_none cs_quotes _ _ Hx ltac:(vmr)), (countq_none cs_quotes _ _ Hpost' ltac:(vmr)). apply le_n. }
  unfold msg_bare in NQ |- *.
  apply (whole_frame_ex k 10 [0; 1; 2; 3; 6; 7; 8; 11]%nat [] (gen_tp1_0 k) (t1 mask) (shapeR_bare (kcs_of k)) _ _ mask Hin eq_refl Hco Cv Cm);
    [| |apply Forall_nil|apply (key_occurs k K pre _ Hk Hcase)|exact Hav|exact Ham].
  2:{ repeat (apply Forall_cons;
                [split; [discriminate|]; eexists _, _; split; [reflexivity|]; split; apply NQ; try assumption;
                 cbv [gen_tp2_0 gen_tp2_1 gen_tp2_2 gen_tp2_3 gen_tp2_6 gen_tp2_7 gen_tp2_8 gen_tpw_0];
                 apply closing_quote_needed; reflexivity|]).
      apply Forall_nil. }
  replace (pre ++ K ++ d ++ w1 ++ 61 :: w2 ++ mask ++ post) with (pre ++ (K ++ d ++ w1 ++ 61 :: w2) ++ mask ++ post) by norm_app2.
  eapply (gm_sub_one_ctx gen_ci_table (gen_tp1_0 k) pre _ (K ++ d ++ w1 ++ 61 :: w2) v post mask);
    [cbv [gen_tp1_0]; gm_go|norm_app2|norm_app2| |cbn [gget Nat.eqb app]; reflexivity|norm_app2|exact Npre|exact Npost].
  destruct v; [inversion Hlv|]. destruct K, d, w1; discriminate.
Qed.

(* k 'v' (white space, then a quoted value): _FORMAT_PATTERNS_2[3] *)
Definition shapeR_kq (kcs : list cset) : asub :=
  [AKey kcs; ARun dig_cs false; ARun py_space true; AOne cs_quotes; ARun cs_quoted false; AOne cs_quotes].
Lemma checks_kq : forallb (fun k => check_ex k (shape_of (shapeR_kq (kcs_of k))) [3]%nat && check_self k (shapeR_kq (kcs_of k)) 3) gen_keys = true.
Proof. vm_compute. reflexivity. Qed.

Definition msg_kq (pre K d w1 : str) (q1 : N) (x : str) (q2 : N) (post : str) : str := pre ++ K ++ d ++ w1 ++ q1 :: x ++ q2 :: post.

Lemma whole_kq_step k K d w1 q1 q2 v mask pre post :
  In k gen_keys -> casing_of k K -> forallb ascii_digit d = true ->
  forallb is_space w1 = true -> (1 <= length w1)%nat -> is_quote q1 = true -> is_quote q2 = true ->
  forallb quoted_char v = true -> forallb quoted_char mask = true ->
  forallb ctx_char pre = true -> forallb ctx_char post = true ->
  only_at gen_ci_table k (msg_kq pre K d w1 q1 v q2 post) [length pre] = true ->
  only_at gen_ci_table k (msg_kq pre K d w1 q1 mask q2 post) [length pre] = true ->
  others_absent k (msg_kq pre K d w1 q1 v q2 post) = true ->
  others_absent k (msg_kq pre K d w1 q1 mask q2 post) = true ->
  mask_password (msg_kq pre K d w1 q1 v q2 post) mask = msg_kq pre K d w1 q1 mask q2 post.
Proof.
  intros Hin Hcase Hd Hw1 Hl1 Hq1 Hq2 Hv Hmk Hpre Hpost Hov Hom Hav Ham.
  destruct (gen_key_ok k Hin) as [Hne Hk].
  pose proof (casing_ok_of k K Hk Hcase) as HK. pose proof (digits_in d Hd) as Hd'.
  pose proof (spaces_in _ Hw1) as Hw1'. pose proof (quote_in _ Hq1) as Hq1'. pose proof (quote_in _ Hq2) as Hq2'.
  pose proof (all_in_impl _ _ _ quoted_in Hv) as Hv'. pose proof (all_in_impl _ _ _ quoted_in Hmk) as Hmk'.
  pose proof (ctx_all _ Hpre) as Hpre'. pose proof (ctx_all _ Hpost) as Hpost'.
  pose proof checks_kq as Hch. rewrite forallb_forall in Hch. specialize (Hch k Hin).
  apply andb_true_iff in Hch. destruct Hch as [Hco Hcs].
  assert (Parts : forall x, all_in cs_quoted x = true ->
            only_at gen_ci_table k (msg_kq pre K d w1 q1 x q2 post) [length pre] = true ->
            parts k (shapeR_kq (kcs_of k)) pre (K ++ d ++ w1 ++ q1 :: x ++ q2 :: post) post).
  { intros x Hx' Hox.
    apply (parts_of_segments k pre
                  [(AKey (kcs_of k), K); (ARun dig_cs false, d); (ARun py_space true, w1); (AOne cs_quotes, [q1]);
                   (ARun cs_quoted false, x); (AOne cs_quotes, [q2])]
                  post [length pre] (msg_kq pre K d w1 q1 x q2 post) Hne eq_refl Hox).
    - valid_segs Hl1. intros _. destruct w1; [inversion Hl1|discriminate].
    - intros i Hi. cbn [key_offsets fst snd is_key app Nat.add]. exact Hi. }
  destruct (Parts v Hv' Hov) as (Cv & Cpre & Cpost). destruct (Parts mask Hmk' Hom) as (Cm & _ & _).
  destruct (self_nomatch k _ 3 (gen_tp2_3 k) pre _ post Hin Hcs eq_refl Cpre Cpost) as [Npre Npost].
  unfold msg_kq.
  apply (whole_frame k 3 (gen_tp2_3 k) (t2 mask) (shapeR_kq (kcs_of k)) _ _ mask Hin eq_refl Hco Cv Cm);
    [|apply (key_occurs k K pre _ Hk Hcase)|exact Hav|exact Ham].
  replace (pre ++ K ++ d ++ w1 ++ q1 :: mask ++ q2 :: post) with (pre ++ (K ++ d ++ w1 ++ [q1]) ++ mask ++ [q2] ++ post) by norm_app2.
  eapply (gm_sub_two_ctx gen_ci_table (gen_tp2_3 k) pre _ (K ++ d ++ w1 ++ [q1]) v [q2] post mask);
    [cbv [gen_tp2_3]; gm_go|norm_app2|norm_app2| |cbn [gget Nat.eqb app]; reflexivity|norm_app2
    |cbn [gget Nat.eqb app]; reflexivity|norm_app2|norm_app2|exact Npre|exact Npost].
  destruct K, d, w1; discriminate.
Qed.

(* <k>v</k>: _FORMAT_PATTERNS_2[5] *)
Definition shapeR_xml (kcs : list cset) : asub :=
  [AOne [(60, 60)]; AKey kcs; ARun dig_cs false; AOne [(62, 62)]; ARun cs_xml false; AOne [(60, 60)]; AOne [(47, 47)];
   AKey kcs; ARun dig_cs false; AOne [(62, 62)]].
Lemma checks_xml : forallb (fun k => check_ex k (shape_of (shapeR_xml (kcs_of k))) [5]%nat && check_self k (shapeR_xml (kcs_of k)) 5) gen_keys = true.
Proof. vm_compute. reflexivity. Qed.

Definition msg_xml (pre K d x K' d' post : str) : str := pre ++ 60 :: K ++ d ++ 62 :: x ++ 60 :: 47 :: K' ++ d' ++ 62 :: post.
Definition xml_offsets (pre K d x : str) : list nat :=
  [(length pre + 1)%nat; (length pre + 1 + length K + length d + 1 + length x + 2)%nat].

Lemma whole_xml_step k K d K' d' v mask pre post :
  In k gen_keys -> casing_of k K -> forallb ascii_digit d = true -> casing_of k K' -> forallb ascii_digit d' = true ->
  forallb xml_char v = true -> forallb xml_char mask = true ->
  forallb ctx_char pre = true -> forallb ctx_char post = true ->
  only_at gen_ci_table k (msg_xml pre K d v K' d' post) (xml_offsets pre K d v) = true ->
  only_at gen_ci_table k (msg_xml pre K d mask K' d' post) (xml_offsets pre K d mask) = true ->
  others_absent k (msg_xml pre K d v K' d' post) = true ->
  others_absent k (msg_xml pre K d mask K' d' post) = true ->
  mask_password (msg_xml pre K d v K' d' post) mask = msg_xml pre K d mask K' d' post.
Proof.
  intros Hin Hcase Hd Hcase2 Hd2 Hv Hmk Hpre Hpost Hov Hom Hav Ham.
  destruct (gen_key_ok k Hin) as [Hne Hk].
  pose proof (casing_ok_of k K Hk Hcase) as HK. pose proof (digits_in d Hd) as Hd'.
  pose proof (casing_ok_of k K' Hk Hcase2) as HK2. pose proof (digits_in d' Hd2) as Hd2'.
  pose proof (all_in_impl _ _ _ xml_in Hv) as Hv'. pose proof (all_in_impl _ _ _ xml_in Hmk) as Hmk'.
  pose proof (ctx_all _ Hpre) as Hpre'. pose proof (ctx_all _ Hpost) as Hpost'.
  pose proof checks_xml as Hch. rewrite forallb_forall in Hch. specialize (Hch k Hin).
  apply andb_true_iff in Hch. destruct Hch as [Hco Hcs].
  assert (Parts : forall x, all_in cs_xml x = true ->
            only_at gen_ci_table k (msg_xml pre K d x K' d' post) (xml_offsets pre K d x) = true ->
            parts k (shapeR_xml (kcs_of k)) pre (60 :: K ++ d ++ 62 :: x ++ 60 :: 47 :: K' ++ d' ++ 62 :: post) post).
  { intros x Hx' Hox.
    apply (parts_of_segments k pre
                  [(AOne [(60, 60)], [60]); (AKey (kcs_of k), K); (ARun dig_cs false, d); (AOne [(62, 62)], [62]); (ARun cs_xml false, x);
                   (AOne [(60, 60)], [60]); (AOne [(47, 47)], [47]); (AKey (kcs_of k), K'); (ARun dig_cs false, d'); (AOne [(62, 62)], [62])]
                  post (xml_offsets pre K d x) (msg_xml pre K d x K' d' post) Hne eq_refl Hox).
    - valid_segs Hne.
    - intros i Hi. cbn [key_offsets fst snd is_key app].
      clear - Hi. unfold xml_offsets in Hi. destruct Hi as [Hi|[Hi|[]]]; [left|right; left]; rewrite <- Hi; cbn [length]; lia. }
  destruct (Parts v Hv' Hov) as (Cv & Cpre & Cpost). destruct (Parts mask Hmk' Hom) as (Cm & _ & _).
  destruct (self_nomatch k _ 5 (gen_tp2_5 k) pre _ post Hin Hcs eq_refl Cpre Cpost) as [Npre Npost].
  unfold msg_xml.
  apply (whole_frame k 5 (gen_tp2_5 k) (t2 mask) (shapeR_xml (kcs_of k)) _ _ mask Hin eq_refl Hco Cv Cm);
    [| |exact Hav|exact Ham].
  2:{ replace (pre ++ 60 :: K ++ d ++ 62 :: v ++ 60 :: 47 :: K' ++ d' ++ 62 :: post)
        with ((pre ++ [60]) ++ K ++ (d ++ 62 :: v ++ 60 :: 47 :: K' ++ d' ++ 62 :: post)) by norm_app2.
      apply (key_occurs k K _ _ Hk Hcase). }
  - replace (pre ++ 60 :: K ++ d ++ 62 :: mask ++ 60 :: 47 :: K' ++ d' ++ 62 :: post)
      with (pre ++ (60 :: K ++ d ++ [62]) ++ mask ++ (60 :: 47 :: K' ++ d' ++ [62]) ++ post) by norm_app2.
    eapply (gm_sub_two_ctx gen_ci_table (gen_tp2_5 k) pre _ (60 :: K ++ d ++ [62]) v (60 :: 47 :: K' ++ d' ++ [62]) post mask);
      [cbv [gen_tp2_5]; gm_go|norm_app2|norm_app2|discriminate|cbn [gget Nat.eqb app]; reflexivity|norm_app2
      |cbn [gget Nat.eqb app]; reflexivity|norm_app2|norm_app2|exact Npre|exact Npost].
Qed.

(* k --flag v: _FORMAT_PATTERNS_2[9] *)
Definition shapeR_cmd2 (kcs : list cset) : asub :=
  [AKey kcs; ARun dig_cs false; ARun py_space false; AOne [(45, 45)]; ARun [(45, 45)] false; ARun cs_flag true;
   ARun py_space true; ARun cs_nonspace true; ARun py_space false].
Lemma checks_cmd2 : forallb (fun k => check_ex k (shape_of (shapeR_cmd2 (kcs_of k))) [9]%nat && check_self k (shapeR_cmd2 (kcs_of k)) 9) gen_keys = true.
Proof. vm_compute. reflexivity. Qed.

Definition msg_cmd2 (pre K d w1 dash fl w2 x w3 post : str) : str := pre ++ K ++ d ++ w1 ++ 45 :: dash ++ fl ++ w2 ++ x ++ w3 ++ post.

Lemma whole_cmd2_step k K d w1 dash fl w2 w3 v mask pre post :
  In k gen_keys -> casing_of k K -> forallb ascii_digit d = true ->
  forallb is_space w1 = true -> (dash = [] \/ dash = [45]) -> all_in cs_flag fl = true -> (1 <= length fl)%nat ->
  forallb is_space w2 = true -> (1 <= length w2)%nat -> forallb is_space w3 = true ->
  forallb nonspace_char v = true -> (1 <= length v)%nat -> forallb nonspace_char mask = true -> (1 <= length mask)%nat ->
  forallb ctx_char pre = true -> forallb ctx_char post = true ->
  hd_notin cs_nonspace (w3 ++ post) = true -> hd_notin py_space post = true ->
  only_at gen_ci_table k (msg_cmd2 pre K d w1 dash fl w2 v w3 post) [length pre] = true ->
  only_at gen_ci_table k (msg_cmd2 pre K d w1 dash fl w2 mask w3 post) [length pre] = true ->
  others_absent k (msg_cmd2 pre K d w1 dash fl w2 v w3 post) = true ->
  others_absent k (msg_cmd2 pre K d w1 dash fl w2 mask w3 post) = true ->
  mask_password (msg_cmd2 pre K d w1 dash fl w2 v w3 post) mask = msg_cmd2 pre K d w1 dash fl w2 mask w3 post.
Proof.
  intros Hin Hcase Hd Hw1 Hdash Hfl Hlf Hw2 Hl2 Hw3 Hv Hlv Hmk Hlm Hpre Hpost Hh1 Hh2 Hov Hom Hav Ham.
  destruct (gen_key_ok k Hin) as [Hne Hk].
  pose proof (casing_ok_of k K Hk Hcase) as HK. pose proof (digits_in d Hd) as Hd'.
  pose proof (spaces_in _ Hw1) as Hw1'. pose proof (spaces_in _ Hw2) as Hw2'. pose proof (spaces_in _ Hw3) as Hw3'.
  assert (Hdash' : all_in [(45, 45)] dash = true) by (destruct Hdash as [-> | ->]; reflexivity).
  assert (Hdl : (length dash <= 1)%nat) by (destruct Hdash as [-> | ->]; cbn; repeat constructor).
  pose proof (all_in_impl _ _ _ nonspace_in Hv) as Hv'. pose proof (all_in_impl _ _ _ nonspace_in Hmk) as Hmk'.
  pose proof (ctx_all _ Hpre) as Hpre'. pose proof (ctx_all _ Hpost) as Hpost'.
  pose proof checks_cmd2 as Hch. rewrite forallb_forall in Hch. specialize (Hch k Hin).
  apply andb_true_iff in Hch. destruct Hch as [Hco Hcs].
  assert (Parts : forall x, all_in cs_nonspace x = true -> (1 <= length x)%nat ->
            only_at gen_ci_table k (msg_cmd2 pre K d w1 dash fl w2 x w3 post) [length pre] = true ->
            parts k (shapeR_cmd2 (kcs_of k)) pre (K ++ d ++ w1 ++ 45 :: dash ++ fl ++ w2 ++ x ++ w3 ++ post) post).
  { intros x Hx' Hlx Hox.
    apply (parts_of_segments k pre
                  [(AKey (kcs_of k), K); (ARun dig_cs false, d); (ARun py_space false, w1); (AOne [(45, 45)], [45]); (ARun [(45, 45)] false, dash);
                   (ARun cs_flag true, fl); (ARun py_space true, w2); (ARun cs_nonspace true, x); (ARun py_space false, w3)]
                  post [length pre] (msg_cmd2 pre K d w1 dash fl w2 x w3 post) Hne eq_refl Hox).
    - valid_segs Hne; intros _.
      + destruct fl; [inversion Hlf|discriminate].
      + destruct w2; [inversion Hl2|discriminate].
      + destruct x; [inversion Hlx|discriminate].
    - intros i Hi. cbn [key_offsets fst snd is_key app Nat.add]. exact Hi. }
  destruct (Parts v Hv' Hlv Hov) as (Cv & Cpre & Cpost). destruct (Parts mask Hmk' Hlm Hom) as (Cm & _ & _).
  destruct (self_nomatch k _ 9 (gen_tp2_9 k) pre _ post Hin Hcs eq_refl Cpre Cpost) as [Npre Npost].
  unfold msg_cmd2.
  apply (whole_frame k 9 (gen_tp2_9 k) (t2 mask) (shapeR_cmd2 (kcs_of k)) _ _ mask Hin eq_refl Hco Cv Cm);
    [|apply (key_occurs k K pre _ Hk Hcase)|exact Hav|exact Ham].
  replace (pre ++ K ++ d ++ w1 ++ 45 :: dash ++ fl ++ w2 ++ mask ++ w3 ++ post)
    with (pre ++ (K ++ d ++ w1 ++ 45 :: dash ++ fl ++ w2) ++ mask ++ w3 ++ post) by norm_app2.
  eapply (gm_sub_two_ctx gen_ci_table (gen_tp2_9 k) pre _ (K ++ d ++ w1 ++ 45 :: dash ++ fl ++ w2) v w3 post mask);
    [cbv [gen_tp2_9]; gm_go|norm_app2|norm_app2| |cbn [gget Nat.eqb app]; reflexivity|norm_app2
    |cbn [gget Nat.eqb app]; reflexivity|norm_app2|norm_app2|exact Npre|exact Npost].
  destruct K, d, w1; discriminate.
Qed.

(* --k v (the value does not start with '-'): _FORMAT_PATTERNS_2[4] *)
Definition cs_dd_nodash : cset := filter (fun r => negb ((fst r =? 45) && (snd r =? 45)))
  (flat_map (fun r : N * N => if (fst r <=? 45) && (45 <=? snd r) then [(fst r, 44); (46, snd r)] else [r]) cs_dd).
Lemma dd_nodash_in c : dd_char c = true -> c <> 45 -> cmem c cs_dd_nodash = true.
Proof.
  unfold dd_char, bare_char, valid_cp. intros H Hc. apply andb_true_iff in H. destruct H as [H He].
  apply andb_true_iff in H. destruct H as [H Hq]. apply andb_true_iff in H. destruct H as [Hv Hs]. apply N.leb_le in Hv.
  by_cover (py_space ++ cs_quotes ++ [(61, 61)] ++ [(45, 45)]). rewrite !cmem_app, is_quote_cmem, !cmem_single in Hcov.
  unfold is_space in Hs. apply negb_true_iff in Hs, Hq, He. rewrite Hs, Hq, He in Hcov.
  replace (c =? 45) with false in Hcov by lia. rewrite !orb_false_r in Hcov. exact Hcov.
Qed.

Definition shapeR_dd (kcs : list cset) : asub :=
  [AOne [(45, 45)]; AOne [(45, 45)]; AKey kcs; ARun dig_cs false; ARun py_space true; AOne cs_dd_nodash; ARun cs_dd false; ARun py_space false].
Lemma checks_dd : forallb (fun k => check_ex k (shape_of (shapeR_dd (kcs_of k))) [4]%nat && check_self k (shapeR_dd (kcs_of k)) 4) gen_keys = true.
Proof. vm_compute. reflexivity. Qed.

Definition msg_dd (pre K d w1 x w2 post : str) : str := pre ++ [45; 45] ++ K ++ d ++ w1 ++ x ++ w2 ++ post.

Lemma whole_dd_step k K d w1 w2 v mask pre post :
  In k gen_keys -> casing_of k K -> forallb ascii_digit d = true ->
  forallb is_space w1 = true -> (1 <= length w1)%nat -> forallb is_space w2 = true ->
  forallb dd_char v = true -> (1 <= length v)%nat -> hd_notin [(45, 45)] v = true ->
  forallb dd_char mask = true -> (1 <= length mask)%nat -> hd_notin [(45, 45)] mask = true ->
  forallb ctx_char pre = true -> forallb ctx_char post = true ->
  hd_notin cs_dd (w2 ++ post) = true -> hd_notin py_space post = true ->
  only_at gen_ci_table k (msg_dd pre K d w1 v w2 post) [(length pre + 2)%nat] = true ->
  only_at gen_ci_table k (msg_dd pre K d w1 mask w2 post) [(length pre + 2)%nat] = true ->
  others_absent k (msg_dd pre K d w1 v w2 post) = true ->
  others_absent k (msg_dd pre K d w1 mask w2 post) = true ->
  mask_password (msg_dd pre K d w1 v w2 post) mask = msg_dd pre K d w1 mask w2 post.
Proof.
  intros Hin Hcase Hd Hw1 Hl1 Hw2 Hv Hlv Hvd Hmk Hlm Hmd Hpre Hpost Hh1 Hh2 Hov Hom Hav Ham.
  destruct (gen_key_ok k Hin) as [Hne Hk].
  pose proof (casing_ok_of k K Hk Hcase) as HK. pose proof (digits_in d Hd) as Hd'.
  pose proof (spaces_in _ Hw1) as Hw1'. pose proof (spaces_in _ Hw2) as Hw2'.
  pose proof (all_in_impl _ _ _ dd_in Hv) as Hv'. pose proof (all_in_impl _ _ _ dd_in Hmk) as Hmk'.
  pose proof (ctx_all _ Hpre) as Hpre'. pose proof (ctx_all _ Hpost) as Hpost'.
  pose proof checks_dd as Hch. rewrite forallb_forall in Hch. specialize (Hch k Hin).
  apply andb_true_iff in Hch. destruct Hch as [Hco Hcs].
  assert (Parts : forall x, forallb dd_char x = true -> (1 <= length x)%nat -> hd_notin [(45, 45)] x = true ->
            only_at gen_ci_table k (msg_dd pre K d w1 x w2 post) [(length pre + 2)%nat] = true ->
            parts k (shapeR_dd (kcs_of k)) pre ([45; 45] ++ K ++ d ++ w1 ++ x ++ w2 ++ post) post).
  { intros x Hx Hlx Hxd Hox. destruct x as [|x0 x']; [inversion Hlx|].
    cbn [forallb] in Hx. apply andb_true_iff in Hx. destruct Hx as [Hx0 Hx'].
    assert (Hx0' : cmem x0 cs_dd_nodash = true).
    { apply dd_nodash_in; [exact Hx0|]. cbn [hd_notin cmem] in Hxd. intros ->. discriminate. }
    pose proof (all_in_impl _ _ _ dd_in Hx') as Hx''.
    apply (parts_of_segments k pre
                  [(AOne [(45, 45)], [45]); (AOne [(45, 45)], [45]); (AKey (kcs_of k), K); (ARun dig_cs false, d); (ARun py_space true, w1);
                   (AOne cs_dd_nodash, [x0]); (ARun cs_dd false, x'); (ARun py_space false, w2)]
                  post [(length pre + 2)%nat] (msg_dd pre K d w1 (x0 :: x') w2 post) Hne eq_refl Hox).
    - valid_segs Hne. intros _. destruct w1; [inversion Hl1|discriminate].
    - intros i Hi. cbn [key_offsets fst snd is_key app].
      clear - Hi. destruct Hi as [Hi|[]]. left. rewrite <- Hi. cbn [length]. lia. }
  destruct (Parts v Hv Hlv Hvd Hov) as (Cv & Cpre & Cpost). destruct (Parts mask Hmk Hlm Hmd Hom) as (Cm & _ & _).
  destruct (self_nomatch k _ 4 (gen_tp2_4 k) pre _ post Hin Hcs eq_refl Cpre Cpost) as [Npre Npost].
  unfold msg_dd.
  apply (whole_frame k 4 (gen_tp2_4 k) (t2 mask) (shapeR_dd (kcs_of k)) _ _ mask Hin eq_refl Hco Cv Cm);
    [| |exact Hav|exact Ham].
  2:{ replace (pre ++ [45; 45] ++ K ++ d ++ w1 ++ v ++ w2 ++ post) with ((pre ++ [45; 45]) ++ K ++ (d ++ w1 ++ v ++ w2 ++ post)) by norm_app2.
      apply (key_occurs k K _ _ Hk Hcase). }
  replace (pre ++ [45; 45] ++ K ++ d ++ w1 ++ mask ++ w2 ++ post)
    with (pre ++ ([45; 45] ++ K ++ d ++ w1) ++ mask ++ w2 ++ post) by (rewrite <- !app_assoc; reflexivity).
  eapply (gm_sub_two_ctx gen_ci_table (gen_tp2_4 k) pre _ ([45; 45] ++ K ++ d ++ w1) v w2 post mask);
    [cbv [gen_tp2_4]; gm_go|rewrite <- !app_assoc; reflexivity|rewrite <- !app_assoc; reflexivity|discriminate
    |cbn [gget Nat.eqb app]; reflexivity|norm_app2
    |cbn [gget Nat.eqb app]; reflexivity|norm_app2|norm_app2|exact Npre|exact Npost].
Qed.

(* '…k': u'v' (non-empty prefix inside the key string): _FORMAT_PATTERNS_2[7] *)
Definition cs_u : cset := [(85, 85); (117, 117)].
Definition shapeR_jp (kcs : list cset) : asub :=
  [AOne cs_quotes; ARun cs_quoted true; AKey kcs; ARun dig_cs false; AOne cs_quotes; ARun py_space false; AOne [(58, 58)];
   ARun py_space false; ARun cs_u false; AOne cs_quotes; ARun cs_quoted false; AOne cs_quotes].
(* the wildcard pattern (index 11) is left out of the abstract check, which is dear on this shape: it needs five
   quote characters and the message has four *)
Lemma wildcard_needs_quotes k : (5 <= min_q cs_quotes (gen_tpw_0 k))%nat.
Proof.
  cbv [gen_tpw_0]. cbn [min_q]. change (cset_incl [(34, 34); (39, 39)] cs_quotes) with true. cbv iota.
  match goal with |- context [min_q ?Q (keyseq ?t k ?r)] => pose proof (min_q_keyseq Q t k r) as H; change (min_q Q r) with 3%nat in H end.
  lia.
Qed.

Lemma checks_jp : forallb (fun k => check_ex k (shape_of (shapeR_jp (kcs_of k))) [7; 11]%nat && check_self k (shapeR_jp (kcs_of k)) 7) gen_keys = true.
Proof. vm_compute. reflexivity. Qed.

Definition msg_jp (pre : str) (q1 : N) (pfx K d : str) (q2 : N) (w1 w2 u : str) (q3 : N) (x : str) (q4 : N) (post : str) : str :=
  pre ++ q1 :: pfx ++ K ++ d ++ q2 :: w1 ++ 58 :: w2 ++ u ++ q3 :: x ++ q4 :: post.

Lemma whole_jp_step k K d q1 pfx q2 w1 w2 u q3 q4 v mask pre post :
  In k gen_keys -> casing_of k K -> forallb ascii_digit d = true ->
  is_quote q1 = true -> is_quote q2 = true -> is_quote q3 = true -> is_quote q4 = true ->
  forallb quoted_char pfx = true -> (1 <= length pfx)%nat ->
  forallb is_space w1 = true -> forallb is_space w2 = true -> opt_u u ->
  forallb quoted_char v = true -> forallb quoted_char mask = true ->
  forallb ctx_char pre = true -> forallb ctx_char post = true ->
  only_at gen_ci_table k (msg_jp pre q1 pfx K d q2 w1 w2 u q3 v q4 post) [(length pre + 1 + length pfx)%nat] = true ->
  only_at gen_ci_table k (msg_jp pre q1 pfx K d q2 w1 w2 u q3 mask q4 post) [(length pre + 1 + length pfx)%nat] = true ->
  others_absent k (msg_jp pre q1 pfx K d q2 w1 w2 u q3 v q4 post) = true ->
  others_absent k (msg_jp pre q1 pfx K d q2 w1 w2 u q3 mask q4 post) = true ->
  mask_password (msg_jp pre q1 pfx K d q2 w1 w2 u q3 v q4 post) mask = msg_jp pre q1 pfx K d q2 w1 w2 u q3 mask q4 post.
Proof.
  intros Hin Hcase Hd Hq1 Hq2 Hq3 Hq4 Hp Hlp Hw1 Hw2 Hu Hv Hmk Hpre Hpost Hov Hom Hav Ham.
  destruct (gen_key_ok k Hin) as [Hne Hk].
  pose proof (casing_ok_of k K Hk Hcase) as HK. pose proof (digits_in d Hd) as Hd'.
  pose proof (spaces_in _ Hw1) as Hw1'. pose proof (spaces_in _ Hw2) as Hw2'.
  pose proof (quote_in _ Hq1) as Hq1'. pose proof (quote_in _ Hq2) as Hq2'.
  pose proof (quote_in _ Hq3) as Hq3'. pose proof (quote_in _ Hq4) as Hq4'.
  pose proof (all_in_impl _ _ _ quoted_in Hp) as Hp'.
  pose proof (all_in_impl _ _ _ quoted_in Hv) as Hv'. pose proof (all_in_impl _ _ _ quoted_in Hmk) as Hmk'.
  destruct (opt_u_in u Hu) as [Hu' Hul].
  pose proof (ctx_all _ Hpre) as Hpre'. pose proof (ctx_all _ Hpost) as Hpost'.
  pose proof checks_jp as Hch. rewrite forallb_forall in Hch. specialize (Hch k Hin).
  apply andb_true_iff in Hch. destruct Hch as [Hco Hcs].
  assert (Parts : forall x, all_in cs_quoted x = true ->
            only_at gen_ci_table k (msg_jp pre q1 pfx K d q2 w1 w2 u q3 x q4 post) [(length pre + 1 + length pfx)%nat] = true ->
            parts k (shapeR_jp (kcs_of k)) pre (q1 :: pfx ++ K ++ d ++ q2 :: w1 ++ 58 :: w2 ++ u ++ q3 :: x ++ q4 :: post) post).
  { intros x Hx' Hox.
    apply (parts_of_segments k pre
                  [(AOne cs_quotes, [q1]); (ARun cs_quoted true, pfx); (AKey (kcs_of k), K); (ARun dig_cs false, d); (AOne cs_quotes, [q2]);
                   (ARun py_space false, w1); (AOne [(58, 58)], [58]); (ARun py_space false, w2); (ARun cs_u false, u); (AOne cs_quotes, [q3]);
                   (ARun cs_quoted false, x); (AOne cs_quotes, [q4])]
                  post [(length pre + 1 + length pfx)%nat] (msg_jp pre q1 pfx K d q2 w1 w2 u q3 x q4 post) Hne eq_refl Hox).
    - valid_segs Hne. intros _. destruct pfx; [inversion Hlp|discriminate].
    - intros i Hi. cbn [key_offsets fst snd is_key app].
      clear - Hi. destruct Hi as [Hi|[]]. left. rewrite <- Hi. cbn [length]. lia. }
  destruct (Parts v Hv' Hov) as (Cv & Cpre & Cpost). destruct (Parts mask Hmk' Hom) as (Cm & _ & _).
  destruct (self_nomatch k _ 7 (gen_tp2_7 k) pre _ post Hin Hcs eq_refl Cpre Cpost) as [Npre Npost].
  unfold msg_jp.
  apply (whole_frame2 k 7 11 (gen_tp2_7 k) (t2 mask) (gen_tpw_0 k) tw (shapeR_jp (kcs_of k)) _ _ mask Hin ltac:(repeat constructor) eq_refl eq_refl Hco Cv Cm);
    [| | |exact Hav|exact Ham].
  2:{ apply re_sub_none, (too_few_quotes cs_quotes). eapply Nat.lt_le_trans; [|apply wildcard_needs_quotes].
      rewrite countq_app, (countq_none cs_quotes _ _ Hpre' ltac:(vmr)), (countq_cons_q cs_quotes _ _ Hq1'), countq_app, (countq_none cs_quotes _ _ Hp' ltac:(vmr)).
      rewrite countq_app, (countq_casing _ _ Hk HK), countq_app, (countq_none cs_quotes _ _ Hd' ltac:(vmr)), (countq_cons_q cs_quotes _ _ Hq2').
      rewrite countq_app, (countq_none cs_quotes _ _ Hw1' ltac:(vmr)), (countq_cons_n cs_quotes 58 _ eq_refl), countq_app, (countq_none cs_quotes _ _ Hw2' ltac:(vmr)).
      rewrite countq_app, (countq_none cs_quotes _ _ Hu' ltac:(vmr)), (countq_cons_q cs_quotes _ _ Hq3'), countq_app, (countq_none cs_quotes _ _ Hmk' ltac:(vmr)).
      rewrite (countq_cons_q cs_quotes _ _ Hq4'), (countq_none cs_quotes _ _ Hpost' ltac:(vmr)). apply le_n. }
  2:{ replace (pre ++ q1 :: pfx ++ K ++ d ++ q2 :: w1 ++ 58 :: w2 ++ u ++ q3 :: v ++ q4 :: post)
        with ((pre ++ q1 :: pfx) ++ K ++ (d ++ q2 :: w1 ++ 58 :: w2 ++ u ++ q3 :: v ++ q4 :: post)) by norm_app2.
      apply (key_occurs k K _ _ Hk Hcase). }
  exact (tp2_7_in_context k K d q1 pfx q2 w1 w2 u q3 q4 v mask pre post Hk HK Hd' Hq1' Hq2' Hq3' Hq4' Hp' Hw1' Hw2' Hu' Hul Hv' Npre Npost).
Qed.

(* k = "v" (both quotes double) / k = 'v' (both single): patterns 2[0] then 2[1] resp. 2[2] *)
Definition shapeR_eq (q : N) (kcs : list cset) : asub :=
  [AKey kcs; ARun dig_cs false; ARun py_space false; AOne [(61, 61)]; ARun py_space false; AOne [(q, q)]; ARun cs_quoted false; AOne [(q, q)]].
Definition eq_second (q : N) : nat := if q =? 34 then 1%nat else 2%nat.
Lemma checks_eq : forallb (fun q => forallb (fun k =>
    check_ex k (shape_of (shapeR_eq q (kcs_of k))) [0%nat; eq_second q] && check_self k (shapeR_eq q (kcs_of k)) 0 &&
    check_self k (shapeR_eq q (kcs_of k)) (eq_second q)) gen_keys) [34; 39] = true.
Proof. vm_compute. reflexivity. Qed.

Definition msg_eq (pre K d w1 w2 : str) (q : N) (x : str) (post : str) : str := pre ++ K ++ d ++ w1 ++ 61 :: w2 ++ q :: x ++ q :: post.

Lemma whole_eq_step k K d w1 w2 q v mask pre post :
  In k gen_keys -> casing_of k K -> forallb ascii_digit d = true ->
  forallb is_space w1 = true -> forallb is_space w2 = true -> (q = 34 \/ q = 39) ->
  forallb quoted_char v = true -> forallb quoted_char mask = true ->
  forallb ctx_char pre = true -> forallb ctx_char post = true ->
  only_at gen_ci_table k (msg_eq pre K d w1 w2 q v post) [length pre] = true ->
  only_at gen_ci_table k (msg_eq pre K d w1 w2 q mask post) [length pre] = true ->
  others_absent k (msg_eq pre K d w1 w2 q v post) = true ->
  others_absent k (msg_eq pre K d w1 w2 q mask post) = true ->
  mask_password (msg_eq pre K d w1 w2 q v post) mask = msg_eq pre K d w1 w2 q mask post.
Proof.
  intros Hin Hcase Hd Hw1 Hw2 Hq Hv Hmk Hpre Hpost Hov Hom Hav Ham.
  destruct (gen_key_ok k Hin) as [Hne Hk].
  pose proof (casing_ok_of k K Hk Hcase) as HK. pose proof (digits_in d Hd) as Hd'.
  pose proof (spaces_in _ Hw1) as Hw1'. pose proof (spaces_in _ Hw2) as Hw2'.
  pose proof (all_in_impl _ _ _ quoted_in Hv) as Hv'. pose proof (all_in_impl _ _ _ quoted_in Hmk) as Hmk'.
  pose proof (ctx_all _ Hpre) as Hpre'. pose proof (ctx_all _ Hpost) as Hpost'.
  assert (Hqin : In q [34; 39]) by (destruct Hq as [-> | ->]; [left|right; left]; reflexivity).
  pose proof checks_eq as Hch. rewrite forallb_forall in Hch. specialize (Hch q Hqin). rewrite forallb_forall in Hch. specialize (Hch k Hin).
  apply andb_true_iff in Hch. destruct Hch as [Hch Hcs2]. apply andb_true_iff in Hch. destruct Hch as [Hco Hcs].
  assert (Hqq : cmem q cs_quotes = true) by (destruct Hq as [-> | ->]; reflexivity).
  assert (Hq1 : cmem q [(q, q)] = true) by (cbn [cmem]; rewrite !N.leb_refl; reflexivity).
  assert (Parts : forall x, all_in cs_quoted x = true ->
            only_at gen_ci_table k (msg_eq pre K d w1 w2 q x post) [length pre] = true ->
            parts k (shapeR_eq q (kcs_of k)) pre (K ++ d ++ w1 ++ 61 :: w2 ++ q :: x ++ q :: post) post).
  { intros x Hx' Hox.
    apply (parts_of_segments k pre
                  [(AKey (kcs_of k), K); (ARun dig_cs false, d); (ARun py_space false, w1); (AOne [(61, 61)], [61]); (ARun py_space false, w2);
                   (AOne [(q, q)], [q]); (ARun cs_quoted false, x); (AOne [(q, q)], [q])]
                  post [length pre] (msg_eq pre K d w1 w2 q x post) Hne eq_refl Hox).
    - valid_segs Hne.
    - intros i Hi. cbn [key_offsets fst snd is_key app Nat.add]. exact Hi. }
  destruct (Parts v Hv' Hov) as (Cv & Cpre & Cpost). destruct (Parts mask Hmk' Hom) as (Cm & Cpre1 & _).
  destruct (self_nomatch k _ 0 (gen_tp2_0 k) pre _ post Hin Hcs eq_refl Cpre Cpost) as [Npre Npost].
  unfold msg_eq.
  (* the first pattern, on the message; the second, on the masked message *)
  assert (D1 : forall x, all_in cs_quoted x = true -> nomatch_pre (gen_tp2_0 k) pre (K ++ d ++ w1 ++ 61 :: w2 ++ q :: x ++ q :: post) ->
           re_sub (gen_tp2_0 k) (t2 mask) (pre ++ K ++ d ++ w1 ++ 61 :: w2 ++ q :: x ++ q :: post)
           = pre ++ K ++ d ++ w1 ++ 61 :: w2 ++ q :: mask ++ q :: post).
  { intros x Hx' Np.
    replace (pre ++ K ++ d ++ w1 ++ 61 :: w2 ++ q :: mask ++ q :: post) with (pre ++ (K ++ d ++ w1 ++ 61 :: w2 ++ [q]) ++ mask ++ [q] ++ post) by norm_app2.
    eapply (gm_sub_two_ctx gen_ci_table (gen_tp2_0 k) pre _ (K ++ d ++ w1 ++ 61 :: w2 ++ [q]) x [q] post mask);
      [cbv [gen_tp2_0]; gm_go|norm_app2|norm_app2| |cbn [gget Nat.eqb app]; reflexivity|norm_app2
      |cbn [gget Nat.eqb app]; reflexivity|norm_app2|norm_app2|exact Np|exact Npost].
    destruct K, d, w1; discriminate. }
  destruct Hq as [-> | ->].
  - (* double quotes: 2[0] then 2[1] *)
    destruct (self_nomatch k _ 1 (gen_tp2_1 k) pre _ post Hin Hcs2 eq_refl Cpre1 Cpost) as [Npre2 Npost2].
    apply (whole_frame2 k 0 1 (gen_tp2_0 k) (t2 mask) (gen_tp2_1 k) (t2 mask) (shapeR_eq 34 (kcs_of k)) _ _ mask Hin ltac:(repeat constructor) eq_refl eq_refl Hco Cv Cm);
      [exact (D1 v Hv' Npre)| |apply (key_occurs k K pre _ Hk Hcase)|exact Hav|exact Ham].
    pose proof (all_in_impl dq_char cs_dq mask dq_in) as Hdq.
    assert (Hmdq : all_in cs_dq mask = true).
    { apply Hdq. rewrite forallb_forall in Hmk |- *. intros c Hc. specialize (Hmk c Hc). unfold quoted_char, dq_char, is_quote in *.
      apply andb_true_iff in Hmk. destruct Hmk as [H1 H2]. rewrite H1. apply negb_true_iff in H2. apply orb_false_iff in H2. destruct H2 as [H2 _]. rewrite H2. reflexivity. }
    replace (pre ++ K ++ d ++ w1 ++ 61 :: w2 ++ 34 :: mask ++ 34 :: post) with (pre ++ (K ++ d ++ w1 ++ 61 :: w2 ++ [34]) ++ mask ++ [34] ++ post) at 2 by norm_app2.
    eapply (gm_sub_two_ctx gen_ci_table (gen_tp2_1 k) pre _ (K ++ d ++ w1 ++ 61 :: w2 ++ [34]) mask [34] post mask);
      [cbv [gen_tp2_1]; gm_go|norm_app2|norm_app2| |cbn [gget Nat.eqb app]; reflexivity|norm_app2
      |cbn [gget Nat.eqb app]; reflexivity|norm_app2|norm_app2|exact Npre2|exact Npost2].
    destruct K, d, w1; discriminate.
  - (* single quotes: 2[0] then 2[2] *)
    destruct (self_nomatch k _ 2 (gen_tp2_2 k) pre _ post Hin Hcs2 eq_refl Cpre1 Cpost) as [Npre2 Npost2].
    apply (whole_frame2 k 0 2 (gen_tp2_0 k) (t2 mask) (gen_tp2_2 k) (t2 mask) (shapeR_eq 39 (kcs_of k)) _ _ mask Hin ltac:(repeat constructor) eq_refl eq_refl Hco Cv Cm);
      [exact (D1 v Hv' Npre)| |apply (key_occurs k K pre _ Hk Hcase)|exact Hav|exact Ham].
    pose proof (all_in_impl sq_char cs_sq mask sq_in) as Hsq.
    assert (Hmsq : all_in cs_sq mask = true).
    { apply Hsq. rewrite forallb_forall in Hmk |- *. intros c Hc. specialize (Hmk c Hc). unfold quoted_char, sq_char, is_quote in *.
      apply andb_true_iff in Hmk. destruct Hmk as [H1 H2]. rewrite H1. apply negb_true_iff in H2. apply orb_false_iff in H2. destruct H2 as [_ H2]. rewrite H2. reflexivity. }
    replace (pre ++ K ++ d ++ w1 ++ 61 :: w2 ++ 39 :: mask ++ 39 :: post) with (pre ++ (K ++ d ++ w1 ++ 61 :: w2 ++ [39]) ++ mask ++ [39] ++ post) at 2 by norm_app2.
    eapply (gm_sub_two_ctx gen_ci_table (gen_tp2_2 k) pre _ (K ++ d ++ w1 ++ 61 :: w2 ++ [39]) mask [39] post mask);
      [cbv [gen_tp2_2]; gm_go|norm_app2|norm_app2| |cbn [gget Nat.eqb app]; reflexivity|norm_app2
      |cbn [gget Nat.eqb app]; reflexivity|norm_app2|norm_app2|exact Npre2|exact Npost2].
    destruct K, d, w1; discriminate.
Qed.

(* "k": "v" / 'k' : 'v' (dict / JSON style): patterns 2[6] then 2[7] *)
Definition shapeR_json (kcs : list cset) : asub :=
  [AOne cs_quotes; AKey kcs; ARun dig_cs false; AOne cs_quotes; ARun py_space false; AOne [(58, 58)]; ARun py_space false;
   AOne cs_quotes; ARun cs_quoted false; AOne cs_quotes].
Lemma checks_json : forallb (fun k => check_ex k (shape_of (shapeR_json (kcs_of k))) [6; 7; 11]%nat &&
    check_self k (shapeR_json (kcs_of k)) 6 && check_self k (shapeR_json (kcs_of k)) 7) gen_keys = true.
Proof. vm_compute. reflexivity. Qed.

Definition msg_json (pre : str) (q1 : N) (K d : str) (q2 : N) (w1 w2 : str) (q3 : N) (x : str) (q4 : N) (post : str) : str :=
  pre ++ q1 :: K ++ d ++ q2 :: w1 ++ 58 :: w2 ++ q3 :: x ++ q4 :: post.

Lemma whole_json_step k K d q1 q2 w1 w2 q3 q4 v mask pre post :
  In k gen_keys -> casing_of k K -> forallb ascii_digit d = true ->
  is_quote q1 = true -> is_quote q2 = true -> is_quote q3 = true -> is_quote q4 = true ->
  forallb is_space w1 = true -> forallb is_space w2 = true ->
  forallb quoted_char v = true -> forallb quoted_char mask = true ->
  forallb ctx_char pre = true -> forallb ctx_char post = true ->
  only_at gen_ci_table k (msg_json pre q1 K d q2 w1 w2 q3 v q4 post) [(length pre + 1)%nat] = true ->
  only_at gen_ci_table k (msg_json pre q1 K d q2 w1 w2 q3 mask q4 post) [(length pre + 1)%nat] = true ->
  others_absent k (msg_json pre q1 K d q2 w1 w2 q3 v q4 post) = true ->
  others_absent k (msg_json pre q1 K d q2 w1 w2 q3 mask q4 post) = true ->
  mask_password (msg_json pre q1 K d q2 w1 w2 q3 v q4 post) mask = msg_json pre q1 K d q2 w1 w2 q3 mask q4 post.
Proof.
  intros Hin Hcase Hd Hq1 Hq2 Hq3 Hq4 Hw1 Hw2 Hv Hmk Hpre Hpost Hov Hom Hav Ham.
  destruct (gen_key_ok k Hin) as [Hne Hk].
  pose proof (casing_ok_of k K Hk Hcase) as HK. pose proof (digits_in d Hd) as Hd'.
  pose proof (spaces_in _ Hw1) as Hw1'. pose proof (spaces_in _ Hw2) as Hw2'.
  pose proof (quote_in _ Hq1) as Hq1'. pose proof (quote_in _ Hq2) as Hq2'.
  pose proof (quote_in _ Hq3) as Hq3'. pose proof (quote_in _ Hq4) as Hq4'.
  pose proof (all_in_impl _ _ _ quoted_in Hv) as Hv'. pose proof (all_in_impl _ _ _ quoted_in Hmk) as Hmk'.
  pose proof (ctx_all _ Hpre) as Hpre'. pose proof (ctx_all _ Hpost) as Hpost'.
  pose proof checks_json as Hch. rewrite forallb_forall in Hch. specialize (Hch k Hin).
  apply andb_true_iff in Hch. destruct Hch as [Hch Hcs2]. apply andb_true_iff in Hch. destruct Hch as [Hco Hcs].
  assert (Parts : forall x, all_in cs_quoted x = true ->
            only_at gen_ci_table k (msg_json pre q1 K d q2 w1 w2 q3 x q4 post) [(length pre + 1)%nat] = true ->
            parts k (shapeR_json (kcs_of k)) pre (q1 :: K ++ d ++ q2 :: w1 ++ 58 :: w2 ++ q3 :: x ++ q4 :: post) post).
  { intros x Hx' Hox.
    apply (parts_of_segments k pre
                  [(AOne cs_quotes, [q1]); (AKey (kcs_of k), K); (ARun dig_cs false, d); (AOne cs_quotes, [q2]);
                   (ARun py_space false, w1); (AOne [(58, 58)], [58]); (ARun py_space false, w2); (AOne cs_quotes, [q3]);
                   (ARun cs_quoted false, x); (AOne cs_quotes, [q4])]
                  post [(length pre + 1)%nat] (msg_json pre q1 K d q2 w1 w2 q3 x q4 post) Hne eq_refl Hox).
    - valid_segs Hne.
    - intros i Hi. cbn [key_offsets fst snd is_key app].
      clear - Hi. destruct Hi as [Hi|[]]. left. rewrite <- Hi. cbn [length]. lia. }
  destruct (Parts v Hv' Hov) as (Cv & Cpre & Cpost). destruct (Parts mask Hmk' Hom) as (Cm & Cpre1 & _).
  destruct (self_nomatch k _ 6 (gen_tp2_6 k) pre _ post Hin Hcs eq_refl Cpre Cpost) as [Npre Npost].
  destruct (self_nomatch k _ 7 (gen_tp2_7 k) pre _ post Hin Hcs2 eq_refl Cpre1 Cpost) as [Npre2 Npost2].
  unfold msg_json.
  apply (whole_frame_ex k 6 [] [7; 11]%nat (gen_tp2_6 k) (t2 mask) (shapeR_json (kcs_of k)) _ _ mask Hin eq_refl Hco Cv Cm);
    [|apply Forall_nil|apply Forall_cons; [split; [repeat constructor|exists (gen_tp2_7 k), (t2 mask); split; [reflexivity|]]
                         |apply Forall_cons; [split; [repeat constructor|exists (gen_tpw_0 k), tw; split; [reflexivity|]]|apply Forall_nil]]
    | |exact Hav|exact Ham].
  3:{ (* the wildcard pattern: four quotes where it needs five *)
      apply re_sub_none, (too_few_quotes cs_quotes). eapply Nat.lt_le_trans; [|apply wildcard_needs_quotes].
      rewrite countq_app, (countq_none cs_quotes _ _ Hpre' ltac:(vmr)), (countq_cons_q cs_quotes _ _ Hq1').
      rewrite countq_app, (countq_casing _ _ Hk HK), countq_app, (countq_none cs_quotes _ _ Hd' ltac:(vmr)), (countq_cons_q cs_quotes _ _ Hq2').
      rewrite countq_app, (countq_none cs_quotes _ _ Hw1' ltac:(vmr)), (countq_cons_n cs_quotes 58 _ eq_refl), countq_app, (countq_none cs_quotes _ _ Hw2' ltac:(vmr)).
      rewrite (countq_cons_q cs_quotes _ _ Hq3'), countq_app, (countq_none cs_quotes _ _ Hmk' ltac:(vmr)).
      rewrite (countq_cons_q cs_quotes _ _ Hq4'), (countq_none cs_quotes _ _ Hpost' ltac:(vmr)). apply le_n. }
  3:{ replace (pre ++ q1 :: K ++ d ++ q2 :: w1 ++ 58 :: w2 ++ q3 :: v ++ q4 :: post)
        with ((pre ++ [q1]) ++ K ++ (d ++ q2 :: w1 ++ 58 :: w2 ++ q3 :: v ++ q4 :: post)) by norm_app2.
      apply (key_occurs k K _ _ Hk Hcase). }
  - (* 2[6] rewrites the value *)
    replace (pre ++ q1 :: K ++ d ++ q2 :: w1 ++ 58 :: w2 ++ q3 :: mask ++ q4 :: post)
      with (pre ++ (q1 :: K ++ d ++ q2 :: w1 ++ 58 :: w2 ++ [q3]) ++ mask ++ [q4] ++ post) by norm_app2.
    eapply (gm_sub_two_ctx gen_ci_table (gen_tp2_6 k) pre _ (q1 :: K ++ d ++ q2 :: w1 ++ 58 :: w2 ++ [q3]) v [q4] post mask);
      [cbv [gen_tp2_6]; gm_go|norm_app2|norm_app2|discriminate|cbn [gget Nat.eqb app]; reflexivity|norm_app2
      |cbn [gget Nat.eqb app]; reflexivity|norm_app2|norm_app2|exact Npre|exact Npost].
  - (* 2[7] finds the mask in its place (empty prefix, no u) and rewrites it to itself *)
    exact (tp2_7_in_context k K d q1 [] q2 w1 w2 [] q3 q4 mask mask pre post Hk HK Hd' Hq1' Hq2' Hq3' Hq4' eq_refl Hw1' Hw2' eq_refl
             (Nat.le_0_l 1) Hmk' Npre2 Npost2).
Qed.

(* 'k', '--flag', 'v': _FORMAT_PATTERNS_2[8] *)
Definition shapeR_cmd1 (kcs : list cset) : asub :=
  [AOne cs_quotes; ARun cs_quoted false; AKey kcs; ARun dig_cs false; AOne cs_quotes; ARun py_space false; AOne [(44, 44)];
   ARun py_space false; AOne [(39, 39)]; AOne [(45, 45)]; ARun [(45, 45)] false; ARun cs_flag true; AOne [(39, 39)];
   ARun py_space false; AOne [(44, 44)]; ARun py_space false; ARun cs_u false; AOne cs_quotes; ARun cs_quoted false; AOne cs_quotes].
Lemma checks_cmd1 : forallb (fun k => check_ex k (shape_of (shapeR_cmd1 (kcs_of k))) [8]%nat && check_self k (shapeR_cmd1 (kcs_of k)) 8) gen_keys = true.
Proof. vm_compute. reflexivity. Qed.

Definition msg_cmd1 (pre : str) (q1 : N) (pfx K d : str) (q2 : N) (w1 w2 dash fl w3 w4 u : str) (q3 : N) (x : str) (q4 : N) (post : str) : str :=
  pre ++ q1 :: pfx ++ K ++ d ++ q2 :: w1 ++ 44 :: w2 ++ 39 :: 45 :: dash ++ fl ++ 39 :: w3 ++ 44 :: w4 ++ u ++ q3 :: x ++ q4 :: post.

Lemma whole_cmd1_step k K d q1 pfx q2 w1 w2 dash fl w3 w4 u q3 q4 v mask pre post :
  In k gen_keys -> casing_of k K -> forallb ascii_digit d = true ->
  is_quote q1 = true -> is_quote q2 = true -> is_quote q3 = true -> is_quote q4 = true ->
  forallb quoted_char pfx = true -> forallb is_space w1 = true -> forallb is_space w2 = true ->
  (dash = [] \/ dash = [45]) -> all_in cs_flag fl = true -> (1 <= length fl)%nat ->
  forallb is_space w3 = true -> forallb is_space w4 = true -> opt_u u ->
  forallb quoted_char v = true -> forallb quoted_char mask = true ->
  forallb ctx_char pre = true -> forallb ctx_char post = true ->
  only_at gen_ci_table k (msg_cmd1 pre q1 pfx K d q2 w1 w2 dash fl w3 w4 u q3 v q4 post) [(length pre + 1 + length pfx)%nat] = true ->
  only_at gen_ci_table k (msg_cmd1 pre q1 pfx K d q2 w1 w2 dash fl w3 w4 u q3 mask q4 post) [(length pre + 1 + length pfx)%nat] = true ->
  others_absent k (msg_cmd1 pre q1 pfx K d q2 w1 w2 dash fl w3 w4 u q3 v q4 post) = true ->
  others_absent k (msg_cmd1 pre q1 pfx K d q2 w1 w2 dash fl w3 w4 u q3 mask q4 post) = true ->
  mask_password (msg_cmd1 pre q1 pfx K d q2 w1 w2 dash fl w3 w4 u q3 v q4 post) mask
  = msg_cmd1 pre q1 pfx K d q2 w1 w2 dash fl w3 w4 u q3 mask q4 post.
Proof.
  intros Hin Hcase Hd Hq1 Hq2 Hq3 Hq4 Hp Hw1 Hw2 Hdash Hfl Hlf Hw3 Hw4 Hu Hv Hmk Hpre Hpost Hov Hom Hav Ham.
  destruct (gen_key_ok k Hin) as [Hne Hk].
  pose proof (casing_ok_of k K Hk Hcase) as HK. pose proof (digits_in d Hd) as Hd'.
  pose proof (spaces_in _ Hw1) as Hw1'. pose proof (spaces_in _ Hw2) as Hw2'.
  pose proof (spaces_in _ Hw3) as Hw3'. pose proof (spaces_in _ Hw4) as Hw4'.
  pose proof (quote_in _ Hq1) as Hq1'. pose proof (quote_in _ Hq2) as Hq2'.
  pose proof (quote_in _ Hq3) as Hq3'. pose proof (quote_in _ Hq4) as Hq4'.
  pose proof (all_in_impl _ _ _ quoted_in Hp) as Hp'.
  pose proof (all_in_impl _ _ _ quoted_in Hv) as Hv'. pose proof (all_in_impl _ _ _ quoted_in Hmk) as Hmk'.
  destruct (opt_u_in u Hu) as [Hu' Hul].
  assert (Hdash' : all_in [(45, 45)] dash = true) by (destruct Hdash as [-> | ->]; reflexivity).
  assert (Hdl : (length dash <= 1)%nat) by (destruct Hdash as [-> | ->]; cbn; repeat constructor).
  pose proof (ctx_all _ Hpre) as Hpre'. pose proof (ctx_all _ Hpost) as Hpost'.
  pose proof checks_cmd1 as Hch. rewrite forallb_forall in Hch. specialize (Hch k Hin).
  apply andb_true_iff in Hch. destruct Hch as [Hco Hcs].
  assert (Parts : forall x, all_in cs_quoted x = true ->
            only_at gen_ci_table k (msg_cmd1 pre q1 pfx K d q2 w1 w2 dash fl w3 w4 u q3 x q4 post) [(length pre + 1 + length pfx)%nat] = true ->
            parts k (shapeR_cmd1 (kcs_of k)) pre (q1 :: pfx ++ K ++ d ++ q2 :: w1 ++ 44 :: w2 ++ 39 :: 45 :: dash ++ fl ++ 39 :: w3 ++ 44 :: w4 ++ u ++ q3 :: x ++ q4 :: post) post).
  { intros x Hx' Hox.
    apply (parts_of_segments k pre
                  [(AOne cs_quotes, [q1]); (ARun cs_quoted false, pfx); (AKey (kcs_of k), K); (ARun dig_cs false, d); (AOne cs_quotes, [q2]);
                   (ARun py_space false, w1); (AOne [(44, 44)], [44]); (ARun py_space false, w2); (AOne [(39, 39)], [39]); (AOne [(45, 45)], [45]);
                   (ARun [(45, 45)] false, dash); (ARun cs_flag true, fl); (AOne [(39, 39)], [39]); (ARun py_space false, w3); (AOne [(44, 44)], [44]);
                   (ARun py_space false, w4); (ARun cs_u false, u); (AOne cs_quotes, [q3]); (ARun cs_quoted false, x); (AOne cs_quotes, [q4])]
                  post [(length pre + 1 + length pfx)%nat] (msg_cmd1 pre q1 pfx K d q2 w1 w2 dash fl w3 w4 u q3 x q4 post) Hne eq_refl Hox).
    - valid_segs Hne. intros _. destruct fl; [inversion Hlf|discriminate].
    - intros i Hi. cbn [key_offsets fst snd is_key app].
      clear - Hi. destruct Hi as [Hi|[]]. left. rewrite <- Hi. cbn [length]. lia. }
  destruct (Parts v Hv' Hov) as (Cv & Cpre & Cpost). destruct (Parts mask Hmk' Hom) as (Cm & _ & _).
  destruct (self_nomatch k _ 8 (gen_tp2_8 k) pre _ post Hin Hcs eq_refl Cpre Cpost) as [Npre Npost].
  unfold msg_cmd1.
  apply (whole_frame k 8 (gen_tp2_8 k) (t2 mask) (shapeR_cmd1 (kcs_of k)) _ _ mask Hin eq_refl Hco Cv Cm);
    [| |exact Hav|exact Ham].
  2:{ replace (pre ++ q1 :: pfx ++ K ++ d ++ q2 :: w1 ++ 44 :: w2 ++ 39 :: 45 :: dash ++ fl ++ 39 :: w3 ++ 44 :: w4 ++ u ++ q3 :: v ++ q4 :: post)
        with ((pre ++ q1 :: pfx) ++ K ++ (d ++ q2 :: w1 ++ 44 :: w2 ++ 39 :: 45 :: dash ++ fl ++ 39 :: w3 ++ 44 :: w4 ++ u ++ q3 :: v ++ q4 :: post)) by norm_app2.
      apply (key_occurs k K _ _ Hk Hcase). }
  set (h := [q1] ++ pfx ++ K ++ d ++ [q2] ++ w1 ++ [44] ++ w2 ++ [39] ++ [45] ++ dash ++ fl ++ [39] ++ w3 ++ [44] ++ w4 ++ u ++ [q3]).
  assert (QD : exists g, match_at (gen_tp2_8 k) (h ++ v ++ q4 :: post) (blen pre) = Some (blen (pre ++ h ++ v ++ [q4]), g) /\
            gget g 1 = Some (blen pre, blen (pre ++ h)) /\ gget g 2 = Some (blen (pre ++ h ++ v), blen (pre ++ h ++ v ++ [q4]))).
  { cbv [gen_tp2_8].
    eapply (quote_delimited_at cs_quotes)
      with (h0 := [q1] ++ pfx ++ K ++ d ++ [q2] ++ w1 ++ [44] ++ w2 ++ [39] ++ [45] ++ dash ++ fl ++ [39] ++ w3 ++ [44] ++ w4 ++ u) (q3 := q3).
    - cbn [qcount]. rewrite (qcount_keyseq _ _ Hk). vm_compute. reflexivity.
    - cbn [last_q]. rewrite last_q_keyseq. vm_compute. reflexivity.
    - vmr.
    - vmr.
    - replace (h ++ v ++ q4 :: post)
        with (q1 :: pfx ++ K ++ d ++ q2 :: w1 ++ 44 :: w2 ++ 39 :: 45 :: dash ++ fl ++ 39 :: w3 ++ 44 :: w4 ++ u ++ q3 :: v ++ q4 :: post)
        by (unfold h; norm_app2).
      mt_go.
    - unfold h. rewrite !countq_app.
      rewrite (countq_one cs_quotes _ Hq1'), (countq_one cs_quotes _ Hq2'), (countq_one cs_quotes _ Hq3').
      rewrite (countq_none cs_quotes _ _ Hp' ltac:(vmr)), (countq_casing _ _ Hk HK), (countq_none cs_quotes _ _ Hd' ltac:(vmr)).
      rewrite (countq_none cs_quotes _ _ Hw1' ltac:(vmr)), (countq_none cs_quotes _ _ Hw2' ltac:(vmr)), (countq_none cs_quotes _ _ Hu' ltac:(vmr)).
      rewrite (countq_none cs_quotes _ _ Hw3' ltac:(vmr)), (countq_none cs_quotes _ _ Hw4' ltac:(vmr)).
      rewrite (countq_none cs_quotes _ _ Hdash' ltac:(vmr)), (countq_none cs_quotes _ _ Hfl ltac:(vmr)).
      reflexivity.
    - unfold h. norm_app2.
    - exact Hq3'.
    - exact Hv'.
    - exact Hq4'. }
  destruct QD as (g & Hm & G1 & G2).
  replace (pre ++ q1 :: pfx ++ K ++ d ++ q2 :: w1 ++ 44 :: w2 ++ 39 :: 45 :: dash ++ fl ++ 39 :: w3 ++ 44 :: w4 ++ u ++ q3 :: v ++ q4 :: post)
    with (pre ++ (h ++ v ++ [q4]) ++ post) by (unfold h; norm_app2).
  replace (pre ++ q1 :: pfx ++ K ++ d ++ q2 :: w1 ++ 44 :: w2 ++ 39 :: 45 :: dash ++ fl ++ 39 :: w3 ++ 44 :: w4 ++ u ++ q3 :: mask ++ q4 :: post)
    with (pre ++ h ++ mask ++ [q4] ++ post) by (unfold h; norm_app2).
  apply (two_group_ctx (gen_tp2_8 k) pre h v [q4] post mask g).
  - replace ((h ++ v ++ [q4]) ++ post) with (h ++ v ++ q4 :: post) by norm_app2. exact Hm.
  - unfold h. discriminate.
  - exact G1.
  - exact G2.
  - intros a' b' q E Hb.
    replace (b' ++ (h ++ v ++ [q4]) ++ post)
      with (b' ++ q1 :: pfx ++ K ++ d ++ q2 :: w1 ++ 44 :: w2 ++ 39 :: 45 :: dash ++ fl ++ 39 :: w3 ++ 44 :: w4 ++ u ++ q3 :: v ++ q4 :: post) by (unfold h; norm_app2).
    apply (Npre a' b' q E Hb).
  - exact Npost.
Qed.

Lemma in_gen_keys k : existsb (beq k) gen_keys = true -> In k gen_keys.
Proof. intros H. apply existsb_exists in H. destruct H as (x & Hx & E). apply beq_eq in E. subst. exact Hx. Qed.
