(* Proofs/C17_Regex.v — engine lemmas used by the C17 proofs, on top of the generic ones of
   C04_Regex.v (run_len, try_counts, greedy run, re_sub).  Everything here is for arbitrary
   regexes / character sets:
     - a repeat whose shorter takes all fail behaves like its maximal take (m_rep_exact);
     - an ordered alternation of literal strings is "first alternative that is a prefix of
       the subject and whose continuation succeeds" (m_alts);
     - prefixes of a string; the characters run_len counts. *)
Require Import OV.Base.Bytes OV.Base.PyInt OV.Base.Regex.
Require Import OV.Proofs.C04_Regex.
Open Scope N_scope.

(* the maximal run of a class at the head of a string *)
Fixpoint span_cs (cs : cset) (s : str) : str * str :=
  match s with
  | [] => ([], [])
  | c :: t => if cmem c cs then (c :: fst (span_cs cs t), snd (span_cs cs t)) else ([], s)
  end.
Lemma span_cs_spec cs s :
  s = fst (span_cs cs s) ++ snd (span_cs cs s) /\ all_in cs (fst (span_cs cs s)) = true /\
  hd_notin cs (snd (span_cs cs s)) = true.
Proof.
  induction s as [|c t IH]; [repeat split|]. cbn [span_cs]. destruct (cmem c cs) eqn:E; cbn [fst snd].
  - destruct IH as (I1 & I2 & I3). repeat split; [cbn [app]; f_equal; exact I1| |exact I3].
    unfold all_in in *. cbn [forallb]. rewrite E. exact I2.
  - repeat split. cbn [hd_notin]. rewrite E. reflexivity.
Qed.

Fixpoint lit_of (r : re) : option str :=
  match r with
  | Chr [(a, b)] => if a =? b then Some [a] else None
  | Seq (Chr [(a, b)]) t => if a =? b then option_map (cons a) (lit_of t) else None
  | _ => None
  end.
Fixpoint alts_of (r : re) : option (list str) :=
  match r with
  | Alt a b => match lit_of a, alts_of b with Some x, Some l => Some (x :: l) | _, _ => None end
  | _ => option_map (fun x => [x]) (lit_of r)
  end.

Lemma m_lit R r : forall l s p g (k : cont R), lit_of r = Some l ->
  m R r s p g k = if prefixb l s then k (skipn (length l) s) (p + blen l) g else None.
Proof.
  induction r as [|cs|a IHa b IHb|a IHa b IHb|cs mn mx|a IHa|i a IHa| |]; intros l s p g k H; cbn [lit_of] in H; try discriminate.
  - destruct cs as [|[x y] [|? ?]]; try discriminate. destruct (x =? y) eqn:E; [|discriminate].
    apply N.eqb_eq in E. subst y. injection H as <-. cbn [m]. destruct s as [|c t]; [reflexivity|].
    rewrite cmem_single, (N.eqb_sym c x). cbn [prefixb length skipn]. rewrite andb_true_r. reflexivity.
  - destruct a as [|cs| | | | | | |]; try discriminate.
    destruct cs as [|[x y] [|? ?]]; try discriminate. destruct (x =? y) eqn:E; [|discriminate].
    apply N.eqb_eq in E. subst y. destruct (lit_of b) as [lb|] eqn:Eb; [|discriminate]. cbn in H. injection H as <-.
    cbn [m]. destruct s as [|c t]; [reflexivity|]. rewrite cmem_single, (N.eqb_sym c x). cbn [prefixb length skipn].
    destruct (x =? c); [|reflexivity]. cbn [andb]. rewrite (IHb lb) by reflexivity.
    rewrite blen_cons. replace (p + 1 + blen lb) with (p + (1 + blen lb)) by lia. reflexivity.
Qed.

Fixpoint first_some {A B} (f : A -> option B) (l : list A) : option B :=
  match l with
  | [] => None
  | x :: t => match f x with Some y => Some y | None => first_some f t end
  end.

Definition alt_k R (s : str) (p : N) (g : groups) (k : cont R) (a : str) : option R :=
  if prefixb a s then k (skipn (length a) s) (p + blen a) g else None.

Lemma m_alts R r : forall l s p g (k : cont R), alts_of r = Some l ->
  m R r s p g k = first_some (alt_k R s p g k) l.
Proof.
  induction r as [|cs|a IHa b IHb|a IHa b IHb|cs mn mx|a IHa|i a IHa| |]; intros l s p g k H;
    try (cbn [alts_of] in H; destruct (lit_of _) as [x|] eqn:E; [|discriminate]; cbn in H; injection H as <-;
         cbn [first_some]; unfold alt_k; rewrite (m_lit R _ x) by exact E;
         match goal with |- context [if ?c then _ else _] => destruct c end;
         try reflexivity; match goal with |- ?o = _ => destruct o; reflexivity end).
  cbn [alts_of] in H. destruct (lit_of a) as [x|] eqn:Ea; [|discriminate].
  destruct (alts_of b) as [lb|] eqn:Eb; [|discriminate]. injection H as <-.
  cbn [m first_some]. rewrite (m_lit R a x) by exact Ea. rewrite (IHb lb) by reflexivity. reflexivity.
Qed.

Lemma first_some_none {A B} (f : A -> option B) l : (forall a, In a l -> f a = None) -> first_some f l = None.
Proof.
  induction l as [|x t IH]; intros H; [reflexivity|]. cbn [first_some].
  rewrite H by (left; reflexivity). apply IH. intros a Ha. apply H. right. exact Ha.
Qed.

Lemma first_some_pick {A B} (f : A -> option B) l a x :
  In a l -> f a = Some x -> (forall b, In b l -> f b = None \/ f b = Some x) -> first_some f l = Some x.
Proof.
  induction l as [|y t IH]; intros Hin Ha H; [destruct Hin|]. cbn [first_some].
  destruct (H y (or_introl eq_refl)) as [E|E]; rewrite E; [|reflexivity].
  destruct Hin as [->|Hin]; [congruence|]. apply IH; auto. intros b Hb. apply H. right. exact Hb.
Qed.

(* alternatives on which f gives nothing are skipped *)
Lemma first_some_first {A B} (f : A -> option B) pre a post :
  (forall b, In b pre -> f b = None) -> first_some f (pre ++ a :: post) = match f a with Some y => Some y | None => first_some f post end.
Proof.
  induction pre as [|y t IH]; intros H; [reflexivity|]. cbn [app first_some].
  rewrite H by (left; reflexivity). apply IH. intros b Hb. apply H. right. exact Hb.
Qed.

Lemma prefixb_false_hd a c t : match a with x :: _ => x <> c | [] => False end -> prefixb a (c :: t) = false.
Proof. destruct a as [|x a]; [intros []|]. intros H. cbn [prefixb]. replace (x =? c) with false by (symmetry; apply N.eqb_neq; exact H). reflexivity. Qed.

Lemma prefixb_nil_false a : a <> [] -> prefixb a [] = false.
Proof. destruct a; [congruence|reflexivity]. Qed.

(* two prefixes of the same string: one is a prefix of the other *)
Lemma prefixes_comparable (a b s : str) :
  prefixb a s = true -> prefixb b s = true ->
  (exists x, b = a ++ x) \/ (exists x, a = b ++ x).
Proof.
  revert b s. induction a as [|c a IH]; intros b s Ha Hb.
  - left. exists b. reflexivity.
  - destruct b as [|d b]; [right; exists (c :: a); reflexivity|].
    destruct s as [|e s]; [discriminate|]. cbn [prefixb] in Ha, Hb.
    apply andb_true_iff in Ha. apply andb_true_iff in Hb. destruct Ha as [Ha1 Ha2]. destruct Hb as [Hb1 Hb2].
    apply N.eqb_eq in Ha1, Hb1. subst c d.
    destruct (IH b s Ha2 Hb2) as [[x ->]|[x ->]]; [left|right]; exists x; reflexivity.
Qed.

(* a prefix of "a b" no longer than a is a prefix of a *)
Lemma prefixb_short (x a b : str) : prefixb x (a ++ b) = true -> (length x <= length a)%nat -> a = x ++ skipn (length x) a.
Proof.
  revert a. induction x as [|y x IH]; intros a P L; [reflexivity|].
  destruct a as [|c a]; [cbn in L; lia|]. cbn [app prefixb] in P. apply andb_true_iff in P. destruct P as [E P].
  apply N.eqb_eq in E. subst y. cbn [length skipn app]. f_equal. apply IH; [exact P|cbn in L; lia].
Qed.

Lemma sub_go_nil r t whole p k : sub_go r t whole [] p k = [].
Proof. reflexivity. Qed.

(* heads and indices *)
Lemma hd_skipn {A} (s : list A) j : hd_error (skipn j s) = nth_error s j.
Proof. revert s. induction j as [|j IH]; intros [|c t]; cbn; auto. Qed.

