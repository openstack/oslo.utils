(* Proofs/C13_Z.v — Z is a totally ordered abelian group and Znum computes in it, so every generic theorem of
   Proofs/C13.v and Proofs/C13_Order.v holds at T := Z; the lemmas below translate the generic operations into
   Z notation (<=, -, Z.max) for the corollaries of Properties/C13.v, Part 4.  Also the non-vacuity instances and
   negative controls. *)
From Coq Require Import ZArith List Bool Lia Sorting.Sorted.
Require Import OV.Base.Bytes OV.Base.Py OV.Base.C13_Types OV.Model.C13 OV.Model.C13_Order OV.Model.C13_Z.
Require Import OV.Proofs.C13_Order.
Import ListNotations.
Open Scope Z_scope.

Lemma Z_ordered_group : ordered_group 0 Z.add Z.opp Z.le Znum.
Proof. constructor; cbn; intros; lia. Qed.

Lemma Zmax0 x : max0 Znum x = Z.max 0 x.
Proof. unfold max0, n_max. cbn. destruct (x >? 0) eqn:E; lia. Qed.

Lemma Zdelta a b : delta Znum a b = Z.max 0 (b - a).
Proof. unfold delta. rewrite Zmax0. reflexivity. Qed.

Lemma Zgleb a b : g_leb Z Znum a b = (a <=? b).
Proof. unfold g_leb. cbn. destruct (a >? b) eqn:E1, (a <=? b) eqn:E2; cbn; lia. Qed.

Lemma Zmonotone clk n : monotone_uptob Z.leb clk n = true -> monotone_upto (g_leb Z Znum) clk n.
Proof. intro H. apply monotone_uptob_spec in H. intros i Hi. rewrite Zgleb. apply H, Hi. Qed.

Lemma Zclamp m e : clamp_max Znum (Some m) e = if e <=? m then e else Z.max 0 m.
Proof. unfold clamp_max. cbn. rewrite Zmax0. destruct (e >? m) eqn:E1, (e <=? m) eqn:E2; lia. Qed.

Lemma Zdiffs l : forall p, diffs_from Znum p l -> Zdiffs_from p l.
Proof. induction l as [|x r IH]; intros p H; [exact I|]. destruct H as [H1 H2]. split; [exact H1|apply IH, H2]. Qed.

(* non-vacuity: instances of the hypotheses, and negative controls *)

Definition ex_clk : nat -> Z := fun n => 100 + 3 * Z.of_nat n.
Definition ex_back : nat -> Z := fun n => 100 - Z.of_nat n.
Definition ex_watch : watch Z := mkWatch SNone None None [] (Some 5).
Definition ex_ops : list (op Z) := [OStart; OSplit; OSplit; OStop; OResume; OSplit].

Lemma ex_watch_init : init Znum (Some 5) = Ok ex_watch.
Proof. reflexivity. Qed.

(* a reachable running watch under a monotonic clock: start@100, splits@103,106, stop@109, resume, split@112 *)
Example ex_running :
  let c := final Znum ex_clk ex_ops ex_watch 0 in
  reachable Znum ex_clk c /\ w_state (fst c) = SStarted /\ snd c = 5%nat /\
  monotone_uptob Z.leb ex_clk 6 = true /\
  w_splits (fst c) = [mkSplit 3 3; mkSplit 6 3; mkSplit 12 6] /\
  elapsed Znum ex_clk (fst c) 5 None = ((fst c, 6%nat), Ok 15) /\
  elapsed Znum ex_clk (fst c) 5 (Some 4) = ((fst c, 6%nat), Ok 4) /\
  leftover Znum ex_clk (fst c) 5 false = ((fst c, 6%nat), Ok (Some 0)) /\
  expired Znum ex_clk (fst c) 5 = ((fst c, 6%nat), Ok true).
Proof.
  split; [exists (Some 5), ex_watch, ex_ops; split; reflexivity|]. vm_compute. repeat split.
Qed.

(* a reachable stopped watch *)
Example ex_stopped :
  let c := final Znum ex_clk [OStart; OSplit; OStop] ex_watch 0 in
  reachable Znum ex_clk c /\ w_state (fst c) = SStopped /\ monotone_uptob Z.leb ex_clk (snd c) = true /\
  elapsed Znum ex_clk (fst c) (snd c) None = (c, Ok 6) /\
  legal OSplit (fst c) = false /\ legal OResume (fst c) = true /\ legal (OLeftover true) (fst c) = false.
Proof.
  split; [exists (Some 5), ex_watch, [OStart; OSplit; OStop]; split; reflexivity|]. vm_compute. repeat split.
Qed.

(* illegal calls exist in every state; on a fresh watch: stop, resume, split, elapsed, leftover, expired *)
Example ex_illegal :
  map (fun o => legal o ex_watch) (all_ops None false) =
  [true; false; false; true; false; false; false; false; true; true; true; true; true; true] /\
  step Znum ex_clk OResume ex_watch 0 = ((ex_watch, 0%nat), Exn RuntimeError).
Proof. split; reflexivity. Qed.

(* negative control: on a clock that runs backwards the elapsed time is clamped at 0,
   it is NOT the (negative) clock distance — the monotonic-clock hypothesis is needed *)
Example ex_backwards_clock :
  let c := final Znum ex_back [OStart] ex_watch 0 in
  monotone_uptob Z.leb ex_back 2 = false /\
  elapsed Znum ex_back (fst c) (snd c) None = ((fst c, 2%nat), Ok 0) /\ ex_back 1 - ex_back 0 = -1.
Proof. vm_compute. repeat split. Qed.

(* negative control: a negative maximum is answered by 0, which exceeds it — "never exceeds the
   requested maximum" needs 0 <= maximum (it contradicts "never negative" otherwise) *)
Example ex_negative_maximum :
  let c := final Znum ex_clk [OStart] ex_watch 0 in
  elapsed Znum ex_clk (fst c) (snd c) (Some (-1)) = ((fst c, 2%nat), Ok 0).
Proof. vm_compute. reflexivity. Qed.

Lemma elapsed_max_literal_refuted : ~ C13_elapsed_max_full_statement.
Proof.
  intro H.
  specialize (H ex_clk (mkWatch SStarted (Some 100) None [] None) 1%nat (-1) _ _ eq_refl).
  vm_compute in H. apply H. reflexivity.
Qed.

(* instance: the last (re)start of ex_ops ++ [ORestart; OSplit; OStop] is the restart *)
Example ex_last_restart :
  let ops1 := ex_ops in
  let c1 := final Znum ex_clk ops1 ex_watch 0 in
  effective_restart ORestart (fst c1) = true /\
  restarts_in Znum ex_clk [OSplit; OStop] (fst (fst (step Znum ex_clk ORestart (fst c1) (snd c1)))) 7 = false /\
  w_started (fst (final Znum ex_clk (ops1 ++ ORestart :: [OSplit; OStop]) ex_watch 0)) = Some (ex_clk 6).
Proof. vm_compute. repeat split. Qed.
