(* Proofs/C12_Float.v — timedelta(seconds=x) for a Python int or binary64 float x (Model/C12_Prim.v: td_of_seconds),
   as CPython computes it: exact for ints and integral floats; for other floats the integer part exactly plus the
   nearest integer (ties to even) of the binary64 product fraction * 1e6. *)
From Coq Require Import String SpecFloat.
Require Import OV.Base.Bytes OV.Base.Py OV.Base.PyFloat.
Require Import OV.Model.C12_Calendar OV.Model.C12_Prim.
Open Scope Z_scope.

Lemma pow2_pos k : 0 <= k -> 0 < f_pow2 k.
Proof. intros H. unfold f_pow2. apply Z.pow_pos_nonneg; lia. Qed.

(* round_half_even m (-k) is a nearest integer of m / 2^k, and on a tie it is the even one *)
Theorem round_half_even_nearest m k : 0 <= m -> 0 < k ->
  let r := round_half_even m (- k) in
  2 * Z.abs (r * f_pow2 k - m) <= f_pow2 k /\
  (2 * Z.abs (r * f_pow2 k - m) = f_pow2 k -> Z.even r = true).
Proof.
  intros Hm Hk. unfold round_half_even.
  destruct (0 <=? - k) eqn:E; [lia|]. replace (- - k) with k by lia.
  pose proof (pow2_pos k ltac:(lia)) as Hd. set (d := f_pow2 k) in *.
  pose proof (Z.div_mod m d ltac:(lia)) as Hdm. pose proof (Z.mod_pos_bound m d Hd) as Hr.
  set (q := m / d) in *. set (r := m mod d) in *.
  destruct (2 * r ?= d) eqn:C.
  - apply Z.compare_eq in C. destruct (Z.even q) eqn:Ev; cbv zeta.
    + split; [nia|intros _; exact Ev].
    + split; [nia|]. intros _. rewrite Z.even_add, Ev. reflexivity.
  - apply -> Z.compare_lt_iff in C. cbv zeta. split; [nia|]. intros H. exfalso. nia.
  - apply -> Z.compare_gt_iff in C. cbv zeta. split; [nia|]. intros H. exfalso. nia.
Qed.

Lemma round_half_even_int m e : 0 <= e -> round_half_even m e = m * f_pow2 e.
Proof. intros H. unfold round_half_even. destruct (0 <=? e) eqn:E; [reflexivity|lia]. Qed.

Theorem td_of_seconds_int_overflow z : ~ (TD_MIN_US <= z * US_PER_SEC <= TD_MAX_US) -> td_of_seconds (PInt z) = Exn OverflowError.
Proof.
  intros H. unfold td_of_seconds, secs_us_raw, td_check.
  destruct ((TD_MIN_US <=? z * US_PER_SEC) && (z * US_PER_SEC <=? TD_MAX_US)) eqn:E; [lia|reflexivity].
Qed.

(* the value of a finite float: (-1)^s * m * 2^e *)
Definition signed (s : bool) (z : Z) : Z := if s then - z else z.

Theorem float_us_special : float_us S754_nan = Exn ValueError /\ (forall s, float_us (S754_infinity s) = Exn OverflowError) /\
                           (forall s, float_us (S754_zero s) = Ok 0).
Proof. repeat split. Qed.

(* timedelta(seconds=x) = timedelta(0, x) *)
Theorem td_days0 x : td_of_days_seconds 0 x = td_of_seconds x.
Proof. unfold td_of_days_seconds, td_of_seconds. destruct (secs_us_raw x); [f_equal; lia|reflexivity]. Qed.

(* a successful conversion is inside timedelta's range *)
Theorem td_of_seconds_range x u : td_of_seconds x = Ok u -> TD_MIN_US <= u <= TD_MAX_US.
Proof.
  unfold td_of_seconds, td_check. destruct (secs_us_raw x) as [v|e]; [|discriminate].
  destruct ((TD_MIN_US <=? v) && (v <=? TD_MAX_US)) eqn:E; [|discriminate]. intros H. injection H as <-. lia.
Qed.

Example float_us_ex :
  float_us (f_normalize 4508103226997866 (-52)) = Ok 1001000 /\        (* 1.001 *)
  float_us (f_normalize 1 (-1)) = Ok 500000 /\                          (* 0.5 *)
  float_us (f_normalize 5 (-1)) = Ok 2500000 /\                         (* 2.5 *)
  float_us (f_normalize (-4722366482869645) (-73)) = Ok 0 /\            (* -0.5e-6: tie to even *)
  float_us (f_normalize 7083549724304468 (-72)) = Ok 2 /\               (* 1.5e-6: tie to even *)
  f_is_integer (f_normalize 5 0) = true /\ float_us (f_normalize 5 0) = Ok 5000000.
Proof. repeat split; vm_compute; reflexivity. Qed.
