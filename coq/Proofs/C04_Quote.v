(* Proofs/C04_Quote.v — the quote-delimited patterns whose key is preceded by a greedy run
   (['"][^'"]*key…): the matcher has to backtrack, so the first-attempt relation [gm] of
   C04_Regex.v does not apply.  Instead: (i) a match EXISTS (completeness of the matcher,
   Proofs/C11_Regex.v, for an explicit declarative parse); (ii) EVERY successful parse reads the
   same text, because group 1 always consumes a fixed number of quote characters and ends in
   one (language soundness of the matcher + counting quotes).  Imports the declarative relation
   [mt] with m_sound / m_complete of C11_Regex.v; adds the version of soundness that also
   tracks the recorded groups. *)
Require Import OV.Base.Bytes OV.Base.PyInt OV.Base.Regex OV.Base.C04_Tmpl.
Require Import OV.Proofs.C11_Regex OV.Proofs.C04_Regex.
Open Scope N_scope.

Lemma mt_consumed r s p s' p' : mt r s p s' p' -> exists c, s = c ++ s' /\ p' = p + blen c.
Proof.
  induction 1.
  - exists []. split; [reflexivity|cbn; lia].
  - exists [c]. split; [reflexivity|cbn; lia].
  - destruct IHmt1 as (c1 & -> & ->). destruct IHmt2 as (c2 & -> & ->).
    exists (c1 ++ c2). split; [rewrite app_assoc; reflexivity|rewrite blen_app; lia].
  - assumption.
  - assumption.
  - exists (firstn n s). split; [symmetry; apply firstn_skipn|].
    unfold blen. rewrite firstn_length. pose proof (run_len_le cs s mx). lia.
  - assumption.
  - exists []. split; [reflexivity|cbn; lia].
  - assumption.
  - exists []. split; [reflexivity|cbn; lia].
  - exists []. split; [reflexivity|cbn; lia].
  - exists []. split; [reflexivity|cbn; lia].
Qed.

(* ---------- soundness of the matcher w.r.t. [mt], with the groups it records ---------- *)
Lemma m_sound_g R r : forall s p g (k : cont R) x,
  m R r s p g k = Some x ->
  exists s' p' gs, mt r s p s' p' /\ k s' p' (gs ++ g) = Some x /\ Forall (span_ok (gids r) p p') gs.
Proof.
  induction r as [|cs|a IHa b IHb|a IHa b IHb|cs mn mx|a IHa|i a IHa| |]; intros s p g k x H.
  - exists s, p, []. split; [constructor|]. split; [exact H|constructor].
  - cbn [m] in H. destruct s as [|c t]; [discriminate|]. destruct (cmem c cs) eqn:E; [|discriminate].
    exists t, (p + 1), []. split; [constructor; exact E|]. split; [exact H|constructor].
  - cbn [m] in H. destruct (IHa _ _ _ _ _ H) as (s1 & p1 & gs1 & Ma & K1 & F1).
    destruct (IHb _ _ _ _ _ K1) as (s2 & p2 & gs2 & Mb & K2 & F2).
    destruct (mt_consumed _ _ _ _ _ Ma) as (c1 & _ & E1). destruct (mt_consumed _ _ _ _ _ Mb) as (c2 & _ & E2).
    exists s2, p2, (gs2 ++ gs1). split; [econstructor; eassumption|]. split; [rewrite <- app_assoc; exact K2|].
    apply Forall_app. split; eapply Forall_impl; try eassumption; intros e He; cbn [gids].
    + eapply span_ok_weaken; [exact He|apply incl_appr, incl_refl|lia|lia].
    + eapply span_ok_weaken; [exact He|apply incl_appl, incl_refl|lia|lia].
  - cbn [m] in H. destruct (m R a s p g k) eqn:E.
    + inversion H; subst. destruct (IHa _ _ _ _ _ E) as (s' & p' & gs & M & K & F).
      exists s', p', gs. split; [apply mt_alt_l; exact M|]. split; [exact K|].
      eapply Forall_impl; [|exact F]. intros e He.
      eapply span_ok_weaken; [exact He|cbn [gids]; apply incl_appl, incl_refl|lia|lia].
    + destruct (IHb _ _ _ _ _ H) as (s' & p' & gs & M & K & F).
      exists s', p', gs. split; [apply mt_alt_r; exact M|]. split; [exact K|].
      eapply Forall_impl; [|exact F]. intros e He.
      eapply span_ok_weaken; [exact He|cbn [gids]; apply incl_appr, incl_refl|lia|lia].
  - cbn [m] in H. destruct (Nat.ltb (run_len cs s mx) mn) eqn:L; [discriminate|]. apply Nat.ltb_ge in L.
    apply try_counts_sound in H; [|exact L]. destruct H as (j & Hj & H).
    exists (skipn j s), (p + N.of_nat j), []. split; [constructor; exact Hj|]. split; [exact H|constructor].
  - cbn [m] in H. destruct (m R a s p g k) eqn:E.
    + inversion H; subst. destruct (IHa _ _ _ _ _ E) as (s' & p' & gs & M & K & F).
      exists s', p', gs. split; [apply mt_opt_some; exact M|]. split; [exact K|exact F].
    + exists s, p, []. split; [apply mt_opt_none|]. split; [exact H|constructor].
  - cbn [m] in H. destruct (IHa _ _ _ _ _ H) as (s' & p' & gs & M & K & F).
    destruct (mt_consumed _ _ _ _ _ M) as (c & _ & E).
    exists s', p', ((i, (p, p')) :: gs). split; [constructor; exact M|]. split; [exact K|].
    constructor.
    + unfold span_ok. cbn. repeat split; auto; lia.
    + eapply Forall_impl; [|exact F]. intros e He.
      eapply span_ok_weaken; [exact He|cbn [gids]; apply incl_tl, incl_refl|lia|lia].
  - cbn [m] in H. destruct (p =? 0) eqn:E; [|discriminate]. apply N.eqb_eq in E. subst p.
    exists s, 0, []. split; [constructor|]. split; [exact H|constructor].
  - cbn [m] in H. rewrite eol_case in H. destruct (eol_ok s) eqn:E; [|discriminate].
    apply eol_ok_iff in E. exists s, p, []. split; [destruct E as [->| ->]; constructor|]. split; [exact H|constructor].
Qed.

(* a successful match of (G1 a) x (G2 b): three declarative parses and the two group spans *)
Lemma two_group_mt_at a x b s p e g :
  no_gid 1 x = true -> no_gid 1 b = true ->
  match_at (Seq (Group 1 a) (Seq x (Group 2 b))) s p = Some (e, g) ->
  exists s1 p1 s2 p2 s3, mt a s p s1 p1 /\ mt x s1 p1 s2 p2 /\ mt b s2 p2 s3 e /\
    gget g 1 = Some (p, p1) /\ gget g 2 = Some (p2, e).
Proof.
  intros Hx Hb H. apply no_gid_notin in Hx. apply no_gid_notin in Hb.
  unfold match_at in H. cbn [m] in H.
  destruct (m_sound_g _ _ _ _ _ _ _ H) as (s1 & p1 & gs1 & M1 & K1 & F1). clear H. cbn beta in K1.
  destruct (m_sound_g _ _ _ _ _ _ _ K1) as (s2 & p2 & gs2 & M2 & K2 & F2). clear K1. cbn beta in K2.
  destruct (m_sound_g _ _ _ _ _ _ _ K2) as (s3 & p3 & gs3 & M3 & K3 & F3). clear K2. cbn beta in K3.
  inversion K3; subst; clear K3.
  exists s1, p1, s2, p2, s3. repeat split; try assumption.
  - cbn [gget Nat.eqb]. rewrite (gget_skip gs3 _ 1 _ _ _ F3 Hb). rewrite (gget_skip gs2 _ 1 _ _ _ F2 Hx).
    cbn [gget Nat.eqb]. reflexivity.
Qed.

(* ---------- counting the characters of a set Q (the quotes) in what a regex consumes ---------- *)
Definition range_incl (a b : N * N) : bool := (fst b <=? fst a) && (snd a <=? snd b).
Definition cset_incl (a b : cset) : bool := forallb (fun x => existsb (range_incl x) b) a.

Lemma cset_incl_sound a b c : cset_incl a b = true -> cmem c a = true -> cmem c b = true.
Proof.
  unfold cset_incl. induction a as [|[lo hi] a IH]; intros H Hc; [discriminate|].
  cbn [forallb] in H. apply andb_true_iff in H. destruct H as [H1 H2].
  cbn [cmem] in Hc. apply orb_true_iff in Hc. destruct Hc as [Hc|Hc]; [|auto].
  clear IH H2. induction b as [|[lo' hi'] b IH]; [discriminate|].
  cbn [existsb] in H1. apply orb_true_iff in H1. cbn [cmem]. destruct H1 as [H1|H1].
  - unfold range_incl in H1. cbn [fst snd] in H1. replace ((lo' <=? c) && (c <=? hi')) with true by lia. reflexivity.
  - rewrite (IH H1). apply orb_true_r.
Qed.

Definition countq (Q : cset) (c : str) : nat := length (filter (fun x => cmem x Q) c).
Lemma countq_app Q a b : countq Q (a ++ b) = (countq Q a + countq Q b)%nat.
Proof. unfold countq. rewrite filter_app, app_length. reflexivity. Qed.
Lemma countq_none Q cs v : all_in cs v = true -> cset_disj cs Q = true -> countq Q v = 0%nat.
Proof.
  intros Hv Hd. unfold countq. induction v as [|c v IH]; [reflexivity|].
  cbn [all_in forallb] in Hv. apply andb_true_iff in Hv. destruct Hv as [Hc Hv].
  cbn [filter]. rewrite (cset_disj_sound _ _ _ Hd Hc). apply IH. exact Hv.
Qed.
Lemma countq_one Q q : cmem q Q = true -> countq Q [q] = 1%nat.
Proof. intros H. unfold countq. cbn [filter]. rewrite H. reflexivity. Qed.
Lemma countq_cons_q Q q v : cmem q Q = true -> countq Q (q :: v) = S (countq Q v).
Proof. intros H. unfold countq. cbn [filter]. rewrite H. reflexivity. Qed.
Lemma countq_cons_n Q q v : cmem q Q = false -> countq Q (q :: v) = countq Q v.
Proof. intros H. unfold countq. cbn [filter]. rewrite H. reflexivity. Qed.

(* how many Q characters every parse of r consumes (None: not determined syntactically) *)
Fixpoint qcount (Q : cset) (r : re) : option nat :=
  match r with
  | Eps => Some 0%nat
  | Chr cs => if cset_disj cs Q then Some 0%nat else if cset_incl cs Q then Some 1%nat else None
  | Rep cs _ _ => if cset_disj cs Q then Some 0%nat else None
  | Seq a b => match qcount Q a, qcount Q b with Some x, Some y => Some (x + y)%nat | _, _ => None end
  | Group _ a => qcount Q a
  | _ => None
  end.

Lemma firstn_all_in cs s mx j : (j <= run_len cs s mx)%nat -> all_in cs (firstn j s) = true.
Proof.
  revert s mx. induction j as [|j IH]; intros s mx H; [reflexivity|].
  destruct s as [|c t]; [reflexivity|]. cbn [run_len] in H.
  assert (Hc : cmem c cs = true /\ (j <= run_len cs t (option_map pred mx))%nat).
  { destruct mx as [[|k]|]; try lia; destruct (cmem c cs); try lia; split; try reflexivity; lia. }
  destruct Hc as [Hc Hj]. cbn [firstn all_in forallb]. rewrite Hc. apply (IH _ _ Hj).
Qed.

Lemma qcount_sound Q r : forall n s p s' p', qcount Q r = Some n -> mt r s p s' p' ->
  exists c, s = c ++ s' /\ p' = p + blen c /\ countq Q c = n.
Proof.
  induction r as [|cs|a IHa b IHb|a IHa b IHb|cs mn mx|a IHa|i a IHa| |]; intros n s p s' p' Hq H; cbn [qcount] in Hq; try discriminate.
  - inversion Hq; subst. inversion H; subst. exists []. repeat split; cbn; lia.
  - inversion H; subst. exists [c]. split; [reflexivity|]. split; [cbn; lia|].
    destruct (cset_disj cs Q) eqn:D.
    + inversion Hq; subst. apply countq_cons_n. apply (cset_disj_sound _ _ _ D). assumption.
    + destruct (cset_incl cs Q) eqn:I; [|discriminate]. inversion Hq; subst.
      apply countq_one. apply (cset_incl_sound _ _ _ I). assumption.
  - destruct (qcount Q a) as [x|] eqn:Qa; [|discriminate]. destruct (qcount Q b) as [y|] eqn:Qb; [|discriminate].
    inversion Hq; subst. inversion H as [| |? ? ? ? s1 p1 ? ? Ha Hb| | | | | | | | |]; subst.
    destruct (IHa _ _ _ _ _ eq_refl Ha) as (c1 & -> & -> & C1). destruct (IHb _ _ _ _ _ eq_refl Hb) as (c2 & -> & -> & C2).
    exists (c1 ++ c2). split; [rewrite app_assoc; reflexivity|]. split; [rewrite blen_app; lia|].
    rewrite countq_app. lia.
  - destruct (cset_disj cs Q) eqn:D; [|discriminate]. inversion Hq; subst.
    inversion H as [| | | | |? ? ? ? ? j Hj| | | | | |]; subst.
    exists (firstn j s). split; [symmetry; apply firstn_skipn|]. split.
    + unfold blen. rewrite firstn_length. pose proof (run_len_le cs s mx). lia.
    + apply (countq_none Q cs); [|exact D]. apply (firstn_all_in cs s mx). lia.
  - inversion H; subst. eapply IHa; eassumption.
Qed.

(* the last character every parse of r consumes lies in Q *)
Fixpoint last_q (Q : cset) (r : re) : bool :=
  match r with
  | Chr cs => cset_incl cs Q
  | Seq _ b => last_q Q b
  | Group _ a => last_q Q a
  | _ => false
  end.

Lemma last_q_sound Q r : forall s p s' p', last_q Q r = true -> mt r s p s' p' ->
  exists c0 q, s = (c0 ++ [q]) ++ s' /\ cmem q Q = true.
Proof.
  induction r as [|cs|a IHa b IHb|a IHa b IHb|cs mn mx|a IHa|i a IHa| |]; intros s p s' p' Hl H; cbn [last_q] in Hl; try discriminate.
  - inversion H; subst. exists [], c. split; [reflexivity|]. apply (cset_incl_sound _ _ _ Hl). assumption.
  - inversion H as [| |? ? ? ? s1 p1 ? ? Ha Hb| | | | | | | | |]; subst.
    destruct (mt_consumed _ _ _ _ _ Ha) as (c1 & -> & _).
    destruct (IHb _ _ _ _ Hl Hb) as (c0 & q & -> & Hq).
    exists (c1 ++ c0), q. split; [rewrite !app_assoc; reflexivity|exact Hq].
  - inversion H; subst. eapply IHa; eassumption.
Qed.

(* two prefixes of one string with the same number of Q characters, both ending in one, coincide *)
Lemma prefix_unique Q c1 r1 c2 r2 a1 q1 a2 q2 :
  c1 ++ r1 = c2 ++ r2 -> countq Q c1 = countq Q c2 ->
  c1 = a1 ++ [q1] -> cmem q1 Q = true -> c2 = a2 ++ [q2] -> cmem q2 Q = true -> c1 = c2 /\ r1 = r2.
Proof.
  intros E C E1 H1 E2 H2.
  assert (G : forall (x y : str) rx ry ax qx, x ++ rx = y ++ ry -> countq Q x = countq Q y ->
              x = ax ++ [qx] -> cmem qx Q = true -> (exists l, x = y ++ l) -> x = y).
  { intros x y rx ry ax qx Exy Cxy Ex Hqx (l & El). destruct l as [|c l] using rev_ind; [rewrite app_nil_r in El; exact El|].
    exfalso. clear IHl. rewrite El in Cxy. rewrite countq_app in Cxy.
    assert (c = qx). { rewrite El in Ex. rewrite app_assoc in Ex. apply app_inj_tail in Ex. destruct Ex as [_ Ex]. exact Ex. }
    subst c. rewrite countq_app, (countq_one Q qx Hqx) in Cxy. lia. }
  pose proof E as E0. apply app_eq_app in E. destruct E as (l & [[Ea Eb]|[Ea Eb]]).
  - assert (Hx : c1 = c2) by (apply (G c1 c2 r1 r2 a1 q1 E0 C E1 H1); exists l; exact Ea).
    assert (l = []). { apply (app_inv_head c2). rewrite app_nil_r, <- Ea. exact Hx. }
    subst l. split; [exact Hx|]. rewrite Eb. reflexivity.
  - assert (Hx : c2 = c1) by (apply (G c2 c1 r2 r1 a2 q2 (eq_sym E0) (eq_sym C) E2 H2); exists l; exact Ea).
    assert (l = []). { apply (app_inv_head c1). rewrite app_nil_r, <- Ea. exact Hx. }
    subst l. split; [symmetry; exact Hx|]. rewrite Eb. reflexivity.
Qed.

Lemma mt_rep_run cs mn mx v rest p :
  all_in cs v = true -> (mn <= length v)%nat -> within (length v) mx = true ->
  mt (Rep cs mn mx) (v ++ rest) p rest (p + blen v).
Proof.
  intros Hv Hmn Hw. pose proof (mt_rep cs mn mx (v ++ rest) p (length v)) as H.
  rewrite skipn_app_exact in H. apply H. split; [exact Hmn|]. apply run_len_ge; assumption.
Qed.

Lemma mt_keyseq tbl k K : casing_ok tbl k K -> forall rest s p s' p',
  mt rest s (p + blen K) s' p' -> mt (keyseq tbl k rest) (K ++ s) p s' p'.
Proof.
  induction 1 as [|c C k K Hc _ IH]; intros rest s p s' p' H.
  - cbn in *. rewrite N.add_0_r in H. exact H.
  - cbn [keyseq app]. econstructor; [constructor; exact Hc|]. apply IH.
    rewrite blen_cons in H. replace (p + 1 + blen K) with (p + (1 + blen K)) by lia. exact H.
Qed.

Lemma mt_rep_inv cs mn mx s p s' p' : mt (Rep cs mn mx) s p s' p' ->
  exists j, (mn <= j <= run_len cs s mx)%nat /\ s' = skipn j s /\ p' = p + N.of_nat j.
Proof. inversion 1; subst. eexists. repeat split; eauto; lia. Qed.
Lemma mt_chr_inv cs s p s' p' : mt (Chr cs) s p s' p' -> exists c, s = c :: s' /\ cmem c cs = true /\ p' = p + 1.
Proof. inversion 1; subst. eexists. repeat split; eauto. Qed.
Lemma mt_group_inv i a s p s' p' : mt (Group i a) s p s' p' -> mt a s p s' p'.
Proof. inversion 1; subst. assumption. Qed.
Lemma mt_seq_inv a b s p s' p' : mt (Seq a b) s p s' p' -> exists s1 p1, mt a s p s1 p1 /\ mt b s1 p1 s' p'.
Proof. inversion 1; subst. eauto. Qed.

(* a lower bound: how many Q characters every parse of r consumes at least *)
Fixpoint min_q (Q : cset) (r : re) : nat :=
  match r with
  | Chr cs => if cset_incl cs Q then 1 else 0
  | Seq a b => min_q Q a + min_q Q b
  | Alt a b => Nat.min (min_q Q a) (min_q Q b)
  | Group _ a => min_q Q a
  | _ => 0
  end.

Lemma min_q_sound Q r s p s' p' : mt r s p s' p' -> forall c, s = c ++ s' -> (min_q Q r <= countq Q c)%nat.
Proof.
  induction 1 as [ |cs x t p Hx|a b s p s1 p1 s2 p2 Ha IHa Hb IHb|a b s p s' p' _ IH|a b s p s' p' _ IH| | |
                  |i a s p s' p' _ IH| | | ]; intros c E; cbn [min_q]; try apply Nat.le_0_l.
  - destruct (cset_incl cs Q) eqn:I; [|apply Nat.le_0_l].
    assert (c = [x]) by (apply (app_inv_tail t); symmetry; exact E). subst c.
    rewrite (countq_one Q x (cset_incl_sound _ _ _ I Hx)). apply le_n.
  - destruct (mt_consumed _ _ _ _ _ Ha) as (c1 & E1 & _). destruct (mt_consumed _ _ _ _ _ Hb) as (c2 & E2 & _).
    assert (c = c1 ++ c2) by (apply (app_inv_tail s2); rewrite <- E, E1, E2, app_assoc; reflexivity). subst c.
    rewrite countq_app. apply Nat.add_le_mono; [apply (IHa c1 E1)|apply (IHb c2 E2)].
  - etransitivity; [apply Nat.le_min_l|apply (IH c E)].
  - etransitivity; [apply Nat.le_min_r|apply (IH c E)].
  - apply (IH c E).
Qed.

Lemma min_q_keyseq Q tbl k rest : (min_q Q rest <= min_q Q (keyseq tbl k rest))%nat.
Proof. induction k as [|c k IH]; [apply le_n|]. cbn [keyseq min_q]. etransitivity; [exact IH|apply Nat.le_add_l]. Qed.

Lemma closing_quote_needed Q a x i qs : cset_incl qs Q = true -> (1 <= min_q Q (Seq a (Seq x (Group i (Chr qs)))))%nat.
Proof. intros H. cbn [min_q]. rewrite H. lia. Qed.

(* a regex that needs more Q characters than the subject holds matches nowhere in it *)
Lemma too_few_quotes Q r s : (countq Q s < min_q Q r)%nat -> forall a b q, s = a ++ b -> match_at r b q = None.
Proof.
  intros Hlt a b q ->. destruct (match_at r b q) as [[e g]|] eqn:E; [exfalso|reflexivity].
  unfold match_at in E. apply m_sound in E. destruct E as (s' & p' & g' & M & _).
  destruct (mt_consumed _ _ _ _ _ M) as (c & -> & _). pose proof (min_q_sound Q r _ _ _ _ M c eq_refl) as L.
  rewrite !countq_app in Hlt. lia.
Qed.

(* ---------- the generic theorem for (G1 a) [^Q]* (G2 [Q]) ---------- *)
(* a run over nq that is followed by a character of qc ends exactly at the first character outside nq *)
Lemma run_ends_at_quote Q nq qc v q4 post c t :
  cset_disj nq Q = true -> cset_incl qc Q = true -> all_in nq v = true -> cmem c qc = true ->
  forall j, (j <= length v)%nat -> skipn j (v ++ q4 :: post) = c :: t -> j = length v /\ c = q4 /\ t = post.
Proof.
  intros Hd Hi Hv Hc. induction v as [|x v IH]; intros j Hj E.
  - destruct j; [|inversion Hj]. inversion E. auto.
  - cbn [all_in forallb] in Hv. apply andb_true_iff in Hv. destruct Hv as [Hx Hv]. destruct j as [|j].
    + inversion E; subst x. pose proof (cset_incl_sound _ _ _ Hi Hc) as HQ.
      rewrite (cset_disj_sound _ _ _ Hd Hx) in HQ. discriminate.
    + destruct (IH Hv j (le_S_n _ _ Hj) E) as (-> & H). auto.
Qed.

Lemma span_lengths (pre h v : str) (q4 : N) :
  blen pre + blen h = blen (pre ++ h) /\ blen pre + blen h + N.of_nat (length v) = blen (pre ++ h ++ v) /\
  blen pre + blen h + N.of_nat (length v) + 1 = blen (pre ++ h ++ v ++ [q4]).
Proof. rewrite !blen_app. unfold blen. cbn [length]. lia. Qed.

(* in context: at an arbitrary position, followed by arbitrary text *)
Theorem quote_delimited_at Q a nq qc pre h v q4 post nA pA h0 q3 :
  qcount Q a = Some nA -> last_q Q a = true -> cset_disj nq Q = true -> cset_incl qc Q = true ->
  mt a (h ++ v ++ q4 :: post) (blen pre) (v ++ q4 :: post) pA ->
  countq Q h = nA -> h = h0 ++ [q3] -> cmem q3 Q = true ->
  all_in nq v = true -> cmem q4 qc = true ->
  exists g, match_at (Seq (Group 1 a) (Seq (Rep nq 0 None) (Group 2 (Chr qc)))) (h ++ v ++ q4 :: post) (blen pre)
            = Some (blen (pre ++ h ++ v ++ [q4]), g) /\
            gget g 1 = Some (blen pre, blen (pre ++ h)) /\ gget g 2 = Some (blen (pre ++ h ++ v), blen (pre ++ h ++ v ++ [q4])).
Proof.
  intros Hqa Hla Hd Hi Ma Ch Eh Hq3 Hv Hq4.
  set (r := Seq (Group 1 a) (Seq (Rep nq 0 None) (Group 2 (Chr qc)))).
  (* (i) a match exists *)
  assert (Hex : match_at r (h ++ v ++ q4 :: post) (blen pre) <> None).
  { unfold match_at. apply (m_complete _ r _ (blen pre) post (pA + blen v + 1)); [|intros; discriminate].
    unfold r. econstructor; [constructor; exact Ma|]. econstructor.
    - apply mt_rep_run; [exact Hv|apply Nat.le_0_l|reflexivity].
    - constructor. constructor. exact Hq4. }
  destruct (match_at r (h ++ v ++ q4 :: post) (blen pre)) as [[e g]|] eqn:Em; [clear Hex|congruence].
  (* (ii) every successful parse reads the same text: group 1 reads h by counting quotes, the run stops at q4 *)
  destruct (two_group_mt_at a (Rep nq 0 None) (Chr qc) _ _ e g eq_refl eq_refl Em) as (s1 & p1 & s2 & p2 & s3 & M1 & M2 & M3 & G1 & G2).
  destruct (qcount_sound Q a _ _ _ _ _ Hqa M1) as (c1 & Es & Ep1 & Cc1).
  destruct (last_q_sound Q a _ _ _ _ Hla M1) as (c0 & q & Es' & Hq).
  assert (Hc1 : c1 = c0 ++ [q]) by (apply (app_inv_tail s1); rewrite <- Es, <- Es'; reflexivity).
  destruct (prefix_unique Q h (v ++ q4 :: post) c1 s1 h0 q3 c0 q Es (eq_trans Ch (eq_sym Cc1)) Eh Hq3 Hc1 Hq) as [<- <-].
  destruct (mt_rep_inv _ _ _ _ _ _ _ M2) as (j & Hj & -> & ->).
  destruct (mt_chr_inv _ _ _ _ _ M3) as (c & Ec & Hc & ->).
  assert (Hq4n : cmem q4 nq = false).
  { destruct (cmem q4 nq) eqn:E; [|reflexivity]. pose proof (cset_incl_sound _ _ _ Hi Hq4) as HQ.
    rewrite (cset_disj_sound _ _ _ Hd E) in HQ. discriminate. }
  rewrite (run_len_exact nq v (q4 :: post) None Hv eq_refl) in Hj by (left; cbn [hd_notin]; rewrite Hq4n; reflexivity).
  destruct (run_ends_at_quote Q nq qc v q4 post c s3 Hd Hi Hv Hc j (proj2 Hj) Ec) as (-> & _ & _).
  subst p1. destruct (span_lengths pre h v q4) as (<- & <- & <-).
  exists g. exact (conj eq_refl (conj G1 G2)).
Qed.

(* the whole subject is one match *)
Theorem quote_delimited_sub Q a nq qc h v q4 mask nA pA h0 q3 :
  qcount Q a = Some nA -> last_q Q a = true -> cset_disj nq Q = true -> cset_incl qc Q = true ->
  mt a (h ++ v ++ [q4]) 0 (v ++ [q4]) pA ->
  countq Q h = nA -> h = h0 ++ [q3] -> cmem q3 Q = true ->
  all_in nq v = true -> cmem q4 qc = true ->
  re_sub (Seq (Group 1 a) (Seq (Rep nq 0 None) (Group 2 (Chr qc)))) (t2 mask) (h ++ v ++ [q4]) = h ++ mask ++ [q4].
Proof.
  intros Hqa Hla Hd Hi Ma Ch Eh Hq3 Hv Hq4.
  destruct (quote_delimited_at Q a nq qc [] h v q4 [] nA pA h0 q3 Hqa Hla Hd Hi Ma Ch Eh Hq3 Hv Hq4) as (g & Em & G1 & G2).
  cbn [app] in Em, G1, G2.
  assert (Hne : h ++ v ++ [q4] <> []) by (rewrite Eh; destruct h0; discriminate).
  rewrite (re_sub_whole _ (t2 mask) _ g Hne Em), (expand_t2 _ _ _ _ _ _ _ G1 G2).
  rewrite slice_head, (app_assoc h v [q4]), slice_tail. reflexivity.
Qed.
