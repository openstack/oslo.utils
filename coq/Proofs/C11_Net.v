(* Proofs/C11_Net.v — netaddr.IPNetwork(text): powers of two and masks, address values,
   characterisation of parse_ip_network. *)
From Coq Require Import String.
Require Import OV.Base.Bytes OV.Base.Py OV.Base.PyInt OV.Base.Str OV.Base.C11_Lib.
Require Import OV.Gen.C11_Netutils OV.Model.C11 OV.Model.C11_Spec OV.Proofs.C11_Split OV.Proofs.C11_V4 OV.Proofs.C11_V6 OV.Proofs.C11_Aton OV.Proofs.C11.
Open Scope N_scope.

(* ---------- x & (x - 1) == 0 <-> x is 0 or a power of two ---------- *)
Definition f_land (p : positive) : N := N.land (Npos p) (Pos.pred_N p).

Lemma f_land_xO q : f_land (xO q) = N.double (f_land q).
Proof. unfold f_land. destruct q as [r|r|]; reflexivity. Qed.

Lemma f_land_xI q : f_land (xI q) = Npos (xO q).
Proof.
  unfold f_land. cbn [Pos.pred_N N.land Pos.land].
  pose proof (N.land_diag (Npos q)) as D. cbn [N.land] in D. rewrite D. reflexivity.
Qed.

Lemma pos_pow2 p : f_land p = 0 <-> exists j, Npos p = 2 ^ j.
Proof.
  induction p as [q IH|q IH|].
  - rewrite f_land_xI. split; [discriminate|]. intros [j H]. exfalso.
    destruct (N.eq_dec j 0) as [->|Hj]; [cbn in H; lia|].
    replace j with (N.succ (j - 1)) in H by lia. rewrite N.pow_succ_r' in H. lia.
  - rewrite f_land_xO. split.
    + intros H. assert (H0 : f_land q = 0) by (destruct (f_land q); [reflexivity|discriminate]).
      apply IH in H0. destruct H0 as [j Hj]. exists (N.succ j). rewrite N.pow_succ_r'. lia.
    + intros [j H]. destruct (N.eq_dec j 0) as [->|Hj]; [cbn in H; lia|].
      replace j with (N.succ (j - 1)) in H by lia. rewrite N.pow_succ_r' in H.
      assert (Hq : Npos q = 2 ^ (j - 1)) by lia.
      destruct IH as [_ IH2]. rewrite IH2 by (exists (j - 1); exact Hq). reflexivity.
  - split; [intros _; exists 0; reflexivity|reflexivity].
Qed.

Lemma pow2_or_zero_iff x : 0 < x -> (pow2_or_zero x = true <-> exists j, x = 2 ^ j).
Proof.
  intros Hx. unfold pow2_or_zero. destruct x as [|p]; [lia|].
  replace (Npos p - 1) with (Pos.pred_N p) by (rewrite N.pos_pred_spec, N.sub_1_r; reflexivity).
  rewrite N.eqb_eq. apply pos_pow2.
Qed.

Lemma pow2_le_exp j w : 2 ^ j <= 2 ^ w -> j <= w.
Proof. intros H. apply (N.pow_le_mono_r_iff 2); [lia|exact H]. Qed.

Lemma lxor_ones m w : 0 < w -> m < 2 ^ w -> N.lxor m (2 ^ w - 1) = 2 ^ w - 1 - m.
Proof.
  intros Hw H. replace (2 ^ w - 1) with (N.ones w) by (rewrite N.ones_equiv; lia).
  change (N.lxor m (N.ones w)) with (N.lnot m w).
  assert (L : m + N.lnot m w = N.ones w).
  { apply N.add_lnot_diag_low. destruct m as [|p]; [cbn; exact Hw|].
    apply N.log2_lt_pow2; [lia|exact H]. }
  lia.
Qed.

Theorem mask_iff v6 m : m < 2 ^ ip_width v6 ->
  (is_netmask v6 m || is_hostmask m = true <-> mask_value (ip_width v6) m).
Proof.
  intros Hm. set (w := ip_width v6) in *. unfold is_netmask, is_hostmask, mask_value. fold w.
  assert (Hw : 0 < w) by (subst w; destruct v6; cbn; lia).
  rewrite orb_true_iff, (lxor_ones m w Hw Hm), !pow2_or_zero_iff by lia.
  assert (P : 0 < 2 ^ w) by (apply N.neq_0_lt_0, N.pow_nonzero; lia).
  split.
  - intros [[j Hj]|[j Hj]].
    + exists j. split; [apply pow2_le_exp; lia|left; lia].
    + exists j. split; [apply pow2_le_exp; lia|right; lia].
  - intros [j [Hj [H|H]]].
    + left. exists j. assert (2 ^ j <= 2 ^ w) by (apply N.pow_le_mono_r; lia). lia.
    + right. exists j. assert (0 < 2 ^ j) by (apply N.neq_0_lt_0, N.pow_nonzero; lia). lia.
Qed.

(* ---------- IPv4 address value ---------- *)
Lemma str_to_int4_iff s m : str_to_int false s = PVal m <-> quad_value s m.
Proof.
  unfold str_to_int. split.
  - destruct (existsb (N.eqb 58) s); [discriminate|].
    destruct (existsb leading_zero_part (split_char 46 s)); [discriminate|].
    destruct (cstr_ok s); cbn [negb]; [|discriminate].
    destruct (pton4_value s) as [v|] eqn:E; [|discriminate]. intros [= <-]. apply pton4_value_iff. exact E.
  - intros Q. destruct (quad_checks s (quad_value_quad s m Q)) as [-> [-> ->]]. cbn [negb].
    apply pton4_value_iff in Q. rewrite Q. reflexivity.
Qed.

Lemma fold_units_bound us acc k : Forall small16 us -> acc < 65536 ^ k ->
  fold_left (fun a u => a * 65536 + u) us acc < 65536 ^ (k + N.of_nat (length us)).
Proof.
  revert acc k. induction us as [|u t IH]; intros acc k F Ha; cbn [fold_left length].
  - rewrite N.add_0_r. exact Ha.
  - inversion F as [|? ? Hu Ft]; subst. unfold small16 in Hu.
    replace (k + N.of_nat (S (length t))) with (N.succ k + N.of_nat (length t)) by lia.
    apply IH; [exact Ft|]. rewrite N.pow_succ_r'. lia.
Qed.

Lemma pton6_value_text s : (exists m, pton6_value s = Some m) <-> ipv6_text s.
Proof.
  rewrite <- pton6b_iff. unfold pton6_value. pose proof (pton6_units_spec s) as H.
  destruct (pton6_units s) as [us|]; cbn [option_map].
  - destruct H as [-> _]. split; [reflexivity|intros _; eexists; reflexivity].
  - rewrite H. split; [intros [m X]; discriminate|discriminate].
Qed.

Lemma pton6_value_bound s m : pton6_value s = Some m -> m < 2 ^ 128.
Proof.
  unfold pton6_value. pose proof (pton6_units_spec s) as H.
  destruct (pton6_units s) as [us|]; cbn [option_map]; [|discriminate]. destruct H as [_ [L F]]. intros [= <-].
  pose proof (fold_units_bound us 0 0 F) as B. rewrite L in B.
  replace (65536 ^ (0 + N.of_nat 8)) with (2 ^ 128) in B by (vm_compute; reflexivity).
  apply B. cbn. lia.
Qed.

Lemma ipv6_units_text s us : ipv6_units s us -> ipv6_text s.
Proof.
  intros U. apply pton6_units_iff in U. apply pton6b_iff.
  pose proof (pton6_units_spec s) as S. rewrite U in S. apply S.
Qed.

Theorem pton6_value_iff s m : pton6_value s = Some m <-> ipv6_value s m.
Proof.
  unfold pton6_value, ipv6_value, units_to_N. split.
  - destruct (pton6_units s) as [us|] eqn:E; [|discriminate]. intros [= <-]. exists us. split; [apply pton6_units_iff; exact E|reflexivity].
  - intros [us [U ->]]. apply pton6_units_iff in U. rewrite U. reflexivity.
Qed.

Lemma str_to_int6_iff s m : str_to_int true s = PVal m <-> pton6_value s = Some m.
Proof.
  unfold str_to_int. split.
  - destruct (cstr_ok s); cbn [negb]; [|discriminate]. destruct (pton6_value s); [intros [= ->]; reflexivity|discriminate].
  - intros H. assert (T : ipv6_text s) by (apply pton6_value_text; exists m; exact H).
    pose proof (v6_chars_cstr s (ipv6_text_chars s T)) as C. rewrite C. cbn [negb]. rewrite H. reflexivity.
Qed.

(* ---------- IPAddress(text, version, INET_PTON) ---------- *)
Lemma addr_value_bound v6 s m : addr_value v6 s m -> m < 2 ^ ip_width v6.
Proof. destruct v6; cbn [addr_value ip_width]; [intros H; apply pton6_value_iff in H; revert H; apply pton6_value_bound|apply quad_value_bound]. Qed.

Lemma addr_value_text v6 s : (exists m, addr_value v6 s m) <-> addr_text v6 s.
Proof.
  destruct v6; cbn [addr_value addr_text]; [rewrite <- pton6_value_text; split; intros [m H]; exists m; apply pton6_value_iff; exact H|].
  split; [intros [m H]; exact (quad_value_quad _ _ H)|apply quad_has_value].
Qed.

Lemma str_to_int_iff v6 s m : str_to_int v6 s = PVal m <-> addr_value v6 s m.
Proof. destruct v6; [cbn [addr_value]; rewrite <- pton6_value_iff; apply str_to_int6_iff|apply str_to_int4_iff]. Qed.

Lemma addr_text_no_slash v6 s : addr_text v6 s -> ~ In 47 s.
Proof.
  destruct v6; cbn [addr_text]; intros H Hin.
  - apply ipv6_text_chars in H. rewrite forallb_forall in H. specialize (H _ Hin). discriminate.
  - apply quad_chars in H. rewrite forallb_forall in H. specialize (H _ Hin). discriminate.
Qed.

Lemma ipaddress_of_iff v6 s m : ipaddress_of v6 s = PVal m <-> addr_value v6 s m.
Proof.
  unfold ipaddress_of. destruct (existsb (N.eqb 47) s) eqn:E.
  - apply existsb_eqb_In in E. split; [discriminate|]. intros H. exfalso.
    apply (addr_text_no_slash v6 s); [apply addr_value_text; exists m; exact H|exact E].
  - apply str_to_int_iff.
Qed.

Lemma ipaddress_of_outcomes v6 s :
  (exists m, ipaddress_of v6 s = PVal m) \/ ipaddress_of v6 s = PRaise AAddrFormatError \/ ipaddress_of v6 s = PRaise AValueError.
Proof.
  unfold ipaddress_of, str_to_int. destruct (existsb (N.eqb 47) s); [right; right; reflexivity|].
  destruct v6.
  - destruct (cstr_ok s); cbn [negb]; [|right; right; reflexivity].
    destruct (pton6_value s); [left; eexists; reflexivity|right; left; reflexivity].
  - destruct (existsb (N.eqb 58) s); [right; left; reflexivity|].
    destruct (existsb leading_zero_part (split_char 46 s)); [right; left; reflexivity|].
    destruct (cstr_ok s); cbn [negb]; [|right; right; reflexivity].
    destruct (pton4_value s); [left; eexists; reflexivity|right; left; reflexivity].
Qed.

(* ---------- addr.split('/', 1) ---------- *)
Lemma split_first_none c s : ~ In c s -> split_first c s = (s, None).
Proof.
  induction s as [|x t IH]; intros H; cbn [split_first]; [reflexivity|].
  destruct (x =? c) eqn:E; [apply N.eqb_eq in E; subst; exfalso; apply H; left; reflexivity|].
  rewrite IH by (intros Hin; apply H; right; exact Hin). reflexivity.
Qed.

Lemma split_first_some c a p : ~ In c a -> split_first c (a ++ c :: p) = (a, Some p).
Proof.
  induction a as [|x t IH]; intros H; cbn [split_first app]; [rewrite N.eqb_refl; reflexivity|].
  destruct (x =? c) eqn:E; [apply N.eqb_eq in E; subst; exfalso; apply H; left; reflexivity|].
  rewrite IH by (intros Hin; apply H; right; exact Hin). reflexivity.
Qed.

Lemma split_first_inv c s a o : split_first c s = (a, o) ->
  ~ In c a /\ match o with None => s = a | Some p => s = a ++ c :: p end.
Proof.
  revert a o. induction s as [|x t IH]; intros a o H; cbn [split_first] in H.
  - injection H as <- <-. split; [intros []|reflexivity].
  - destruct (x =? c) eqn:E.
    + injection H as <- <-. apply N.eqb_eq in E. subst. split; [intros []|reflexivity].
    + destruct (split_first c t) as [a' o'] eqn:S. injection H as <- <-.
      destruct (IH a' o' eq_refl) as [Hn Ho]. split.
      * intros [Hx|Hin]; [apply N.eqb_neq in E; congruence|exact (Hn Hin)].
      * destruct o'; cbn [app]; f_equal; exact Ho.
Qed.

Lemma prefix_branch v6 p :
  match py_int_str p with
  | Some z => if (0 <=? z)%Z && (z <=? Z.of_N (ip_width v6))%Z then AOk true else ARaise AAddrFormatError
  | None => match ipaddress_of v6 p with
            | PRaise e => ARaise e
            | PVal m => if is_netmask v6 m || is_hostmask m then AOk true else ARaise AAddrFormatError
            end
  end = AOk true <-> prefix_text v6 p.
Proof.
  unfold prefix_text. destruct (py_int_str p) as [z|].
  - destruct ((0 <=? z)%Z && (z <=? Z.of_N (ip_width v6))%Z) eqn:E; split.
    + intros _. left. exists z. split; [reflexivity|lia].
    + reflexivity.
    + discriminate.
    + intros [[z' [[= <-] H]]|[H _]]; [lia|discriminate].
  - destruct (ipaddress_of v6 p) as [m|e] eqn:EA.
    + apply ipaddress_of_iff in EA. pose proof (addr_value_bound v6 p m EA) as B.
      destruct (is_netmask v6 m || is_hostmask m) eqn:EM; split.
      * intros _. right. split; [reflexivity|]. exists m. split; [exact EA|]. apply mask_iff; assumption.
      * reflexivity.
      * discriminate.
      * intros [[z [H _]]|[_ [m' [H' M]]]]; [discriminate|]. exfalso.
        assert (m' = m).
        { destruct v6; cbn [addr_value] in *; [apply pton6_value_iff in H', EA; congruence|].
          apply pton4_value_iff in H', EA. congruence. }
        subst m'. apply (mask_iff v6 m B) in M. congruence.
    + split; [discriminate|]. intros [[z [H _]]|[_ [m [H _]]]]; [discriminate|].
      apply ipaddress_of_iff in H. congruence.
Qed.

Theorem parse_ip_network_iff v6 s : parse_ip_network v6 s = AOk true <-> network_text v6 s.
Proof.
  unfold parse_ip_network, network_text. split.
  - destruct (split_first 47 s) as [a o] eqn:S. apply split_first_inv in S. destruct S as [Hn Ho].
    destruct (ipaddress_of v6 a) as [m|e] eqn:EA; [|discriminate].
    assert (T : addr_text v6 a) by (apply addr_value_text; exists m; apply ipaddress_of_iff; exact EA).
    destruct o as [p|].
    + intros H. apply prefix_branch in H. exists a. split; [exact T|]. right. exists p. split; assumption.
    + intros _. exists a. split; [exact T|left; exact Ho].
  - intros [a [T [->|[p [-> P]]]]]; pose proof (addr_text_no_slash v6 a T) as Hn.
    + rewrite (split_first_none 47 a Hn). apply addr_value_text in T. destruct T as [m T].
      apply ipaddress_of_iff in T. rewrite T. reflexivity.
    + rewrite (split_first_some 47 a p Hn). apply addr_value_text in T. destruct T as [m T].
      apply ipaddress_of_iff in T. rewrite T. apply prefix_branch. exact P.
Qed.

Lemma parse_ip_network_outcomes v6 s :
  parse_ip_network v6 s = AOk true \/ parse_ip_network v6 s = ARaise AAddrFormatError \/ parse_ip_network v6 s = ARaise AValueError.
Proof.
  unfold parse_ip_network. destruct (split_first 47 s) as [a o].
  destruct (ipaddress_of_outcomes v6 a) as [[m ->]|[->| ->]]; [|right; left; reflexivity|right; right; reflexivity].
  destruct o as [p|]; [|left; reflexivity].
  destruct (py_int_str p) as [z|].
  - destruct ((0 <=? z)%Z && (z <=? Z.of_N (ip_width v6))%Z); [left|right; left]; reflexivity.
  - destruct (ipaddress_of_outcomes v6 p) as [[m' ->]|[->| ->]]; [|right; left; reflexivity|right; right; reflexivity].
    destruct (is_netmask v6 m' || is_hostmask m'); [left|right; left]; reflexivity.
Qed.

(* an IPv6 address text in front makes the IPv4 attempt fail with AddrFormatError *)
Lemma ipv6_text_has_colon a : ipv6_text a -> In 58 a.
Proof.
  intros H. destruct (in_dec N.eq_dec 58 a) as [Hin|Hn]; [exact Hin|]. exfalso.
  apply pton6b_iff in H. unfold pton6b in H. destruct a as [|c t]; [discriminate|].
  destruct (c =? 58) eqn:E; [apply N.eqb_eq in E; subst; apply Hn; left; reflexivity|].
  unfold pton6_fields in H. rewrite (split_notin 58 _ Hn) in H. cbn [cut_empty units] in H.
  destruct (h16b (c :: t)); [discriminate|]. destruct (pton4b (c :: t)); discriminate.
Qed.

Lemma parse4_on_v6 s : network_text true s -> parse_ip_network false s = ARaise AAddrFormatError.
Proof.
  intros [a [T E]]. cbn [addr_text] in T. pose proof (addr_text_no_slash true a T) as Hn.
  pose proof (ipv6_text_has_colon a T) as Hc. apply existsb_eqb_In in Hc.
  assert (IA : ipaddress_of false a = PRaise AAddrFormatError).
  { unfold ipaddress_of, str_to_int.
    rewrite (proj2 (existsb_eqb_notin 47 a) Hn).
    rewrite Hc. reflexivity. }
  unfold parse_ip_network. destruct E as [->|[p [-> _]]].
  - rewrite (split_first_none 47 a Hn), IA. reflexivity.
  - rewrite (split_first_some 47 a p Hn), IA. reflexivity.
Qed.

Theorem ipnetwork_iff s : ipnetwork s = AOk true <-> network_text false s \/ network_text true s.
Proof.
  unfold ipnetwork. rewrite <- !parse_ip_network_iff. split.
  - destruct (parse_ip_network false s) as [b|e] eqn:E4.
    + intros ->. left. reflexivity.
    + destruct e; try discriminate. intros H. right. exact H.
  - intros [H|H]; [rewrite H; reflexivity|].
    apply parse_ip_network_iff in H. rewrite (parse4_on_v6 s H). apply parse_ip_network_iff. exact H.
Qed.

Lemma ipnetwork_contract s : net_contract (ipnetwork s) = true.
Proof.
  unfold ipnetwork. destruct (parse_ip_network_outcomes false s) as [->|[->| ->]]; try reflexivity.
  destruct (parse_ip_network_outcomes true s) as [->|[->| ->]]; reflexivity.
Qed.

Lemma ipnetwork6_contract s : net_contract (ipnetwork6 s) = true.
Proof. unfold ipnetwork6. destruct (parse_ip_network_outcomes true s) as [->|[->| ->]]; reflexivity. Qed.

Lemma ipnetwork_bool s b : ipnetwork s = AOk b -> b = true.
Proof.
  unfold ipnetwork. destruct (parse_ip_network_outcomes false s) as [->|[->| ->]]; try congruence.
  destruct (parse_ip_network_outcomes true s) as [->|[->| ->]]; congruence.
Qed.

(* ---------- a prefix text is not empty and does not start with '/' ---------- *)
Lemma ilstrip_snoc x c : int_space c = false -> exists y, ilstrip (x ++ [c]) = y ++ [c].
Proof.
  intros Hc. induction x as [|d t IH]; cbn [app ilstrip].
  - rewrite Hc. exists []. reflexivity.
  - destruct (int_space d); [exact IH|]. exists (d :: t). reflexivity.
Qed.

Lemma py_int_slash m : py_int (47 :: m) = None.
Proof.
  unfold py_int, istrip, irstrip.
  assert (S47 : int_space 47 = false) by (vm_compute; reflexivity).
  cbn [ilstrip]. rewrite S47. cbn [rev].
  destruct (ilstrip_snoc (rev m) 47 S47) as [y ->]. rewrite rev_app_distr. cbn [rev app].
  cbn [N.eqb Pos.eqb]. cbn [digits_us N.eqb Pos.eqb].
  replace (digit_val 47) with (@None N) by (vm_compute; reflexivity). reflexivity.
Qed.

Lemma prefix_text_head v6 p : prefix_text v6 p -> p <> [] /\ forall m, p <> 47 :: m.
Proof.
  intros [[z [H _]]|[_ [m [H _]]]].
  - unfold py_int_str in H. destruct (existsb is_ascii_sep p); [discriminate|]. split.
    + intros ->. vm_compute in H. discriminate.
    + intros m ->. rewrite py_int_slash in H. discriminate.
  - assert (T : addr_text v6 p) by (apply addr_value_text; exists m; exact H). split.
    + intros ->. destruct v6; cbn [addr_text] in T; [apply ipv6_text_nonempty in T|apply quad_nonempty in T]; congruence.
    + intros m' ->. apply (addr_text_no_slash v6 _ T). left. reflexivity.
Qed.

Theorem valid_cidr_iff s : valid_cidr s = AOk true <-> cidr_text s.
Proof.
  unfold valid_cidr, cidr_text, is_valid_cidr. change cidr_sep with 47. change cidr_seg_bad_max with 1%Z. split.
  - destruct (ipnetwork s) as [b|e] eqn:EN; [|destruct (caught cidr_caught e); discriminate].
    pose proof (ipnetwork_bool s b EN). subst b. apply ipnetwork_iff in EN.
    intros H.
    assert (Hs : In 47 s).
    { destruct (in_dec N.eq_dec 47 s) as [Hin|Hn]; [exact Hin|]. rewrite (split_notin 47 s Hn) in H. cbn in H. discriminate. }
    destruct EN as [[a [T E]]|[a [T E]]]; (destruct E as [->|[p [-> P]]]; [exfalso; exact (addr_text_no_slash _ a T Hs)|]);
      exists a, p; (split; [reflexivity|]); [left|right]; split; assumption.
  - intros [a [p [-> H]]].
    assert (X : exists v6, addr_text v6 a /\ prefix_text v6 p).
    { destruct H as [[Q P]|[Q P]]; [exists false|exists true]; split; assumption. }
    destruct X as [v6 [T P]].
    assert (EN : ipnetwork (a ++ 47 :: p) = AOk true).
    { apply ipnetwork_iff. destruct v6; [right|left]; exists a; (split; [exact T|]); right; exists p; split; (reflexivity || assumption). }
    rewrite EN. pose proof (addr_text_no_slash v6 a T) as Hn. destruct (prefix_text_head v6 p P) as [Hne Hh].
    rewrite split_app, (split_notin 47 a Hn).
    pose proof (split_nonnil 47 p) as Sn. destruct (split_char 47 p) as [|p1 rest] eqn:SP; [congruence|].
    cbn [app length].
    match goal with |- context [if ?c then _ else _] => destruct c eqn:Eq end; [lia|].
    destruct p1 as [|c0 p1']; [|reflexivity]. exfalso.
    apply split_head_empty in SP. destruct SP as [->|[t ->]]; [congruence|exact (Hh t eq_refl)].
Qed.

(* the address part of a CIDR text is what precedes its first '/' *)
Lemma cidr_text_split a p : ~ In 47 a ->
  (cidr_text (a ++ 47 :: p) <-> (dotted_quad a /\ prefix_text false p) \/ (ipv6_text a /\ prefix_text true p)).
Proof.
  intros Hn. split; [|intros H; exists a, p; split; [reflexivity|exact H]].
  intros [a' [p' [E H]]].
  assert (Hn' : ~ In 47 a').
  { destruct H as [[Q _]|[Q _]]; [apply (addr_text_no_slash false a' Q)|apply (addr_text_no_slash true a' Q)]. }
  pose proof (split_first_some 47 a p Hn) as S. rewrite E, (split_first_some 47 a' p' Hn') in S.
  injection S as -> ->. exact H.
Qed.

Lemma prefix_text_dec v6 n : prefix_text v6 (dec_of_N n) <-> n <= ip_width v6.
Proof.
  unfold prefix_text. rewrite py_int_str_dec_N. split.
  - intros [[z [[= <-] H]]|[H _]]; [lia|discriminate].
  - intros H. left. exists (Z.of_N n). split; [reflexivity|lia].
Qed.

(* the family the property names: address '/' ASCII decimal digits; the two families are told apart by the ':' *)
Corollary cidr_decimal_prefix a n : (dotted_quad a \/ ipv6_text a) ->
  (valid_cidr (a ++ 47 :: dec_of_N n) = AOk true <-> n <= (if in_dec N.eq_dec 58 a then 128 else 32)).
Proof.
  intros Ha.
  assert (Hn : ~ In 47 a).
  { destruct Ha as [Q|Q]; [apply (addr_text_no_slash false a Q)|apply (addr_text_no_slash true a Q)]. }
  rewrite valid_cidr_iff, (cidr_text_split a _ Hn), !prefix_text_dec. cbn [ip_width].
  destruct (in_dec N.eq_dec 58 a) as [Hc|Hc].
  - assert (NQ : ~ dotted_quad a) by (intros Q; exact (quad_nocolon a Q Hc)). tauto.
  - assert (N6 : ~ ipv6_text a) by (intros Q; exact (Hc (ipv6_text_has_colon a Q))). tauto.
Qed.

Example ex_aton : aton_text (lit "0x7f.1") /\ aton_text (lit "017700000001") /\ aton_text (lit "1.2.3.4 junk") /\ aton_text (lit "1.2.65535")
  /\ ~ aton_text (lit "1.2.3.08") /\ ~ aton_text (lit "1.2.65536") /\ ~ aton_text (lit "1.2.3.4.5") /\ ~ aton_text (lit "1.2.3.4x") /\ ~ aton_text (lit "0x").
Proof.
  repeat split; try (apply aton_ok_iff; vm_compute; reflexivity); intros H; apply aton_ok_iff in H; vm_compute in H; discriminate.
Qed.
Example ex_ip : valid_ip (lit "127.1") = AOk true /\ valid_ip (lit "fe80::1%eth0") = AOk true /\ valid_ip (lit "1.2.3.4 :") = AOk false
  /\ valid_ip (lit "") = AOk false /\ valid_ipv4 true (lit "127.1") = AOk false.
Proof. repeat split; vm_compute; reflexivity. Qed.
Example ex_cidr_text : cidr_text (lit "10.0.0.0/8") /\ cidr_text (lit "10.0.0.0/255.255.255.0") /\ cidr_text (lit "10.0.0.0/0.0.0.255")
  /\ cidr_text (lit "::/ffff::") /\ cidr_text (lit "2600::/64") /\ cidr_text (lit "10.0.0.0/ 08")
  /\ ~ cidr_text (lit "10.0.0.0/33") /\ ~ cidr_text (lit "10.0.0.0") /\ ~ cidr_text (lit "10.0.0.0/") /\ ~ cidr_text (lit "10.0.0.0/8/8")
  /\ ~ cidr_text (lit "10.0.0.0//8") /\ ~ cidr_text (lit "10.0.0.0/255.0.255.0") /\ ~ cidr_text (lit "::/129") /\ ~ cidr_text (lit "10.0.0.0/ffff::").
Proof.
  repeat split; try (apply valid_cidr_iff; vm_compute; reflexivity); intros H; apply valid_cidr_iff in H; vm_compute in H; discriminate.
Qed.
Example ex_mask : mask_value 32 4294967040 /\ mask_value 32 255 /\ mask_value 32 0 /\ ~ mask_value 32 4278255360.
Proof.
  repeat split; try (apply (mask_iff false); vm_compute; reflexivity).
  intros H. apply (mask_iff false) in H; [vm_compute in H; discriminate|vm_compute; reflexivity].
Qed.
Example ex_v6_value : ipv6_value (lit "ffff::") (2 ^ 128 - 2 ^ 112) /\ ipv6_value (lit "::ffff:1.2.3.4") 281470698652420 /\ ipv6_value (lit "::1") 1.
Proof. repeat split; apply pton6_value_iff; vm_compute; reflexivity. Qed.
