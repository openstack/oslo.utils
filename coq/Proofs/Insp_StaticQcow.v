(* Proofs/Insp_StaticQcow.v — refinement of the qcow2 inspector: its private attribute
   (qemu_header_info) is a function of the bytes as well. *)
Require Import OV.Base.Bytes OV.Base.Py OV.Base.Insp_Struct OV.Gen.Insp_Consts OV.Model.Insp_Engine OV.Model.Insp_Qcow2.
Require Import OV.Proofs.Insp_Engine OV.Proofs.Insp_Static.
Open Scope N_scope.

Definition qcow_hdr_len : N := match init_regions F_qcow2 with [(_, sp)] => rs_len sp | _ => 0 end.
Lemma qcow_init_regions : init_regions F_qcow2 = [(R_header, mkRspec false 0 qcow_hdr_len None)].
Proof. reflexivity. Qed.
Lemma qcow_slice_le : QCOW_HDR_SLICE <= qcow_hdr_len.
Proof. vm_compute. discriminate. Qed.
Lemma qcow_slice_size : sf_size sf_qcow_hdr = QCOW_HDR_SLICE.
Proof. reflexivity. Qed.

Definition qR (st : bytes) : region := mkRegion 0 false 0 qcow_hdr_len None (bslice 0 qcow_hdr_len st) false.
Lemma qcow_fill st : fill_regs 0 (init_regions (f_id qcow_fmt)) st = [(R_header, qR st)].
Proof. cbn [f_id qcow_fmt]. rewrite qcow_init_regions. reflexivity. Qed.

Lemma qcow_specs : static_specs (init_regions (f_id qcow_fmt)) = true.
Proof. reflexivity. Qed.

(* qemu_header_info after the stream st: what region_complete computes once the header is complete *)
Definition qext (st : bytes) : qx :=
  let s := ideal qcow_fmt st false None in
  if complete s then i_ext (fst (qcow_rcomplete R_header s)) else None.

Lemma qrc_shape n s s' e : qcow_rcomplete n s = (s', e) -> s' = set_ext s (i_ext s').
Proof.
  unfold qcow_rcomplete. intros H.
  destruct (get_region R_header s); [|inversion H; subst; symmetry; apply ist_eta].
  destruct (unpack sf_qcow_hdr _); [|inversion H; subst; symmetry; apply ist_eta].
  destruct (qcow_match _) as [[|]|]; inversion H; subst; reflexivity.
Qed.

Lemma qrc_noexn n (s : ist qx) r :
  rget R_header (i_regs s) = Some r -> QCOW_HDR_SLICE <= blen (r_data r) -> snd (qcow_rcomplete n s) = None.
Proof.
  intros Hg Hl. unfold qcow_rcomplete, get_region. rewrite Hg.
  unfold unpack. rewrite flen_blen, ntake_btake, blen_btake, qcow_slice_size.
  replace (N.min QCOW_HDR_SLICE (blen (r_data r)) =? QCOW_HDR_SLICE) with true by lia.
  unfold qcow_match, get_region. cbn [set_ext i_regs]. rewrite Hg. cbn [bind].
  destruct (negb (rcomplete r)); [reflexivity|].
  match goal with |- snd (if ?b then _ else _) = None => destruct b end; reflexivity.
Qed.

Lemma qrc_regs_only n (s1 s2 : ist qx) :
  i_regs s1 = i_regs s2 -> i_ext s1 = i_ext s2 ->
  i_ext (fst (qcow_rcomplete n s1)) = i_ext (fst (qcow_rcomplete n s2)).
Proof.
  intros Hr He. unfold qcow_rcomplete, get_region. rewrite Hr.
  destruct (rget R_header (i_regs s2)) as [r|]; [|exact He].
  destruct (unpack sf_qcow_hdr _); [|exact He].
  unfold qcow_match, get_region. cbn [set_ext i_regs i_ext]. rewrite Hr.
  destruct (rget R_header (i_regs s2)); cbn [bind fst i_ext]; [|reflexivity].
  destruct (negb (rcomplete r0)); [reflexivity|].
  match goal with |- context [if ?b then _ else _] => destruct b end; reflexivity.
Qed.

Lemma qR_complete_len st : rcomplete (qR st) = true -> blen (bslice 0 qcow_hdr_len st) = qcow_hdr_len.
Proof. unfold rcomplete, base_complete, qR. cbn [r_end r_min r_len r_data]. rewrite flen_blen. lia. Qed.

Lemma qR_complete_mono st c : rcomplete (qR st) = true -> bslice 0 qcow_hdr_len (st ++ c) = bslice 0 qcow_hdr_len st.
Proof.
  intros H. apply qR_complete_len in H. rewrite blen_bslice in H. unfold bslice. rewrite !bskip_0.
  rewrite btake_app_le; [reflexivity|]. lia.
Qed.

Lemma complete_ideal st x : complete (ideal qcow_fmt st false x) = rcomplete (qR st).
Proof. unfold complete, ideal. cbn [i_regs]. rewrite qcow_fill. cbn [forallb snd]. apply andb_true_r. Qed.

(* the callback on the ideal state of a complete header *)
Lemma qcow_callback st :
  rcomplete (qR st) = true ->
  qcow_rcomplete R_header (ideal qcow_fmt st false None) = (ideal qcow_fmt st false (qext st), None).
Proof.
  intros Hc. destruct (qcow_rcomplete R_header (ideal qcow_fmt st false None)) as [s' e] eqn:H.
  pose proof (qrc_shape _ _ _ _ H) as Hs.
  assert (He : e = None).
  { change e with (snd (s', e)). rewrite <- H. apply (qrc_noexn _ _ (qR st)).
    - unfold ideal. cbn [i_regs]. rewrite qcow_fill. reflexivity.
    - cbn [qR r_data]. rewrite (qR_complete_len st Hc). exact qcow_slice_le. }
  assert (Hx : qext st = i_ext s').
  { unfold qext. cbv zeta. rewrite complete_ideal, Hc, H. reflexivity. }
  rewrite Hs, He, Hx. reflexivity.
Qed.

Lemma qext_incomplete st : rcomplete (qR st) = false -> qext st = None.
Proof. intros H. unfold qext. cbv zeta. rewrite complete_ideal, H. reflexivity. Qed.

Lemma qext_mono st c : rcomplete (qR st) = true -> qext (st ++ c) = qext st /\ rcomplete (qR (st ++ c)) = true.
Proof.
  intros H. assert (HR : qR (st ++ c) = qR st) by (unfold qR; rewrite (qR_complete_mono st c H); reflexivity).
  split; [|rewrite HR; exact H].
  unfold qext. cbv zeta. rewrite !complete_ideal, HR, H.
  apply qrc_regs_only; [|reflexivity]. unfold ideal. cbn [i_regs]. rewrite !qcow_fill, HR. reflexivity.
Qed.

(* the callbacks of one chunk: region_complete("header") runs once, on the chunk that completes the header *)
Lemma qcow_callbacks st c :
  run_callbacks qcow_fmt (newly_complete (complete_ids (fill_regs 0 (init_regions (f_id qcow_fmt)) st))
                                         (fill_regs 0 (init_regions (f_id qcow_fmt)) (st ++ c)))
                (ideal qcow_fmt (st ++ c) false (qext st))
  = (ideal qcow_fmt (st ++ c) false (qext (st ++ c)), None).
Proof.
  rewrite !qcow_fill. unfold complete_ids, newly_complete. cbn [filter snd].
  destruct (rcomplete (qR st)) eqn:Hc.
  - destruct (qext_mono st c Hc) as [Hx Hc']. rewrite Hc'. cbn [ids map snd qR r_id mem_nat Nat.eqb orb negb andb filter].
    cbn [run_callbacks]. rewrite Hx. reflexivity.
  - cbn [ids map mem_nat negb]. rewrite andb_true_r. rewrite (qext_incomplete st Hc).
    destruct (rcomplete (qR (st ++ c))) eqn:Hc'; cbn [filter map fst run_callbacks].
    + cbn [f_rcomplete qcow_fmt]. rewrite (qcow_callback (st ++ c) Hc'). reflexivity.
    + rewrite (qext_incomplete _ Hc'). reflexivity.
Qed.

Lemma qcow_eat st c :
  eat_chunk qcow_fmt (ideal qcow_fmt st false (qext st)) c = (ideal qcow_fmt (st ++ c) false (qext (st ++ c)), None).
Proof. rewrite (ideal_eat_chunk qcow_fmt eq_refl). apply qcow_callbacks. Qed.

Lemma qcow_eat_all st cs :
  eat_all qcow_fmt (ideal qcow_fmt st false (qext st)) cs = (ideal qcow_fmt (st ++ concat cs) false (qext (st ++ concat cs)), None).
Proof. exact (ideal_eat_all_ext qcow_fmt eq_refl qext qcow_callbacks st cs). Qed.

Lemma qext_nil : qext [] = None.
Proof. apply qext_incomplete. vm_compute. reflexivity. Qed.

Theorem qcow_run cs : run_fmt qcow_fmt cs = (ideal qcow_fmt (concat cs) true (qext (concat cs)), None).
Proof. apply (static_run_ext qcow_fmt eq_refl qcow_specs qext qcow_callbacks). symmetry. exact qext_nil. Qed.
