(* Proofs/C14_Uuid.v — is_uuid_like, _format_uuid_string, generate_uuid *)
From Coq Require Import String.
Require Import OV.Base.Bytes OV.Base.Py OV.Base.PyInt OV.Base.Str OV.Gen.Unicode.
Require Import OV.Model.C14_Py OV.Gen.C14 OV.Model.C14 OV.Proofs.C14_Str OV.Proofs.C14_Int.
Open Scope N_scope.

Lemma replace_go_nomatch old new c t :
  prefixb old (c :: t) = false -> replace_go old new (c :: t) 0 = c :: replace_go old new t 0.
Proof. intros H. cbn [replace_go]. rewrite H. reflexivity. Qed.

(* s.replace(c, '') removes every c *)
Lemma replace_single_filter c s : replace [c] [] s = filter (fun x => negb (x =? c)) s.
Proof.
  unfold replace. induction s as [|x t IH]; [reflexivity|].
  cbn [replace_go prefixb filter length Nat.sub app]. rewrite andb_true_r.
  rewrite (N.eqb_sym c x). destruct (x =? c); cbn [negb]; [exact IH|f_equal; exact IH].
Qed.

(* the pattern's first character does not occur: nothing is replaced *)
Lemma replace_absent o old new s : ~ In o s -> replace (o :: old) new s = s.
Proof.
  unfold replace. induction s as [|x t IH]; intros H; [reflexivity|].
  rewrite replace_go_nomatch.
  - f_equal. apply IH. intros Hin. apply H. right. exact Hin.
  - cbn [prefixb]. replace (o =? x) with false; [reflexivity|].
    symmetry. apply N.eqb_neq. intros ->. apply H. left. reflexivity.
Qed.

Lemma replace_go_skip old new a s : replace_go old new (a ++ s) (length a) = replace_go old new s 0.
Proof.
  induction a as [|x a IH]; [reflexivity|]. cbn [app length]. destruct s as [|y s'] eqn:E.
  - rewrite app_nil_r in *. cbn [replace_go]. exact IH.
  - rewrite <- E in *. cbn [replace_go]. exact IH.
Qed.

(* a leading occurrence of the pattern is removed *)
Lemma replace_prefix o old s : replace (o :: old) [] ((o :: old) ++ s) = replace (o :: old) [] s.
Proof.
  unfold replace. cbn [app replace_go]. change (o :: old ++ s) with ((o :: old) ++ s).
  rewrite prefixb_app. cbn [app length Nat.sub]. rewrite Nat.sub_0_r. apply replace_go_skip.
Qed.

Definition ends_outside (chars x : str) : bool :=
  match x with [] => false | c :: _ => negb (memN c chars) && negb (memN (last x 0) chars) end.

Lemma strip_chars_unique chars pre x post :
  forallb (fun c => memN c chars) pre = true -> forallb (fun c => memN c chars) post = true ->
  ends_outside chars x = true -> strip_chars chars (pre ++ x ++ post) = x.
Proof.
  intros Hpre Hpost Hx. destruct x as [|c t]; [discriminate|]. cbn [ends_outside] in Hx.
  apply andb_true_iff in Hx. destruct Hx as [Hc Hl]. apply negb_true_iff in Hc, Hl.
  rewrite strip_chars_is_by. apply (strip_by_unique _ pre _ post 0); [exact Hpre|exact Hpost|discriminate|exact Hc|exact Hl].
Qed.

Lemma bsub_bskip lo hi (x : str) : lo <= hi -> bsub lo hi x ++ bskip hi x = bskip lo x.
Proof.
  intros H. unfold bsub. rewrite <- (btake_bskip_app (hi - lo) (bskip lo x)) at 2.
  f_equal. rewrite bskip_bskip. f_equal. lia.
Qed.

Lemma pieces_join (x : str) : bsub 0 8 x ++ bsub 8 12 x ++ bsub 12 16 x ++ bsub 16 20 x ++ bskip 20 x = x.
Proof.
  rewrite (bsub_bskip 16 20) by lia. rewrite (bsub_bskip 12 16) by lia.
  rewrite (bsub_bskip 8 12) by lia. rewrite (bsub_bskip 0 8) by lia. reflexivity.
Qed.

Definition not_hyphen (c : N) : bool := negb (c =? 45).

(* removing the hyphens of the 8-4-4-4-12 form gives the digits back *)
Lemma unhyphenate x : forallb not_hyphen x = true -> replace [45] [] (hyphenate x) = x.
Proof.
  intros H. rewrite replace_single_filter. fold not_hyphen. unfold hyphenate.
  rewrite !filter_app. change (filter not_hyphen [45]) with (@nil N). cbn [app].
  rewrite <- !filter_app. rewrite pieces_join. apply filter_all, H.
Qed.

Lemma lhex_is_hex x : forallb is_lhex x = true -> forallb is_hex x = true.
Proof. apply forallb_impl. intros c. unfold is_lhex, is_hex. lia. Qed.

Lemma hex_not_hyphen x : forallb is_hex x = true -> forallb not_hyphen x = true.
Proof. apply forallb_impl. intros c. unfold is_hex, not_hyphen. lia. Qed.

Lemma lhex_not_hyphen x : forallb is_lhex x = true -> forallb not_hyphen x = true.
Proof. intros H. apply hex_not_hyphen, lhex_is_hex, H. Qed.

Lemma replace_hyphen_hex x : forallb is_hex x = true -> replace [45] [] x = x.
Proof. intros H. rewrite replace_single_filter. apply filter_all, hex_not_hyphen, H. Qed.

(* str(u) without its hyphens is u.hex *)
Lemma uuid_str_unhyphen n : replace [45] [] (uuid_str n) = uuid_hex n.
Proof. unfold uuid_str, uuid_hex. apply unhyphenate, lhex_not_hyphen, hex32_lhex. Qed.

Definition cs_hex : list N := [48; 49; 50; 51; 52; 53; 54; 55; 56; 57; 97; 98; 99; 100; 101; 102].

(* no non-ASCII code point lowers into a hexadecimal digit (generated tables) *)
Lemma no_nonascii_folds_into_hex : lower_avoids cs_hex = true.
Proof. apply lower_avoids_low_ok. vm_compute. reflexivity. Qed.

Lemma lhex_in_cs c : is_lhex c = true -> In c cs_hex.
Proof. unfold is_lhex, cs_hex. cbn [In]. intros H. lia. Qed.

(* 32 lower-case hexadecimal digits *)
Definition is_hex32l (x : str) : bool := (blen x =? 32) && forallb is_lhex x.

Lemma lhex_lower_hex c : is_lhex (lower_ascii1 c) = true -> is_hex c = true.
Proof.
  unfold lower_ascii1, is_lhex, is_hex. destruct ((65 <=? c) && (c <=? 90)) eqn:E; intros H; lia.
Qed.

Lemma blen_length (x : str) k : length x = k -> blen x = N.of_nat k.
Proof. intros <-. reflexivity. Qed.

(* 32 hexadecimal digits of any case; lower-casing takes them to is_hex32l and back *)
Definition hexdigits32 (x : str) : bool := (length x =? 32)%nat && forallb is_hex x.

Lemma is_hex_not_u x : forallb is_hex x = true -> ~ In 117 x.
Proof. intros H Hin. rewrite forallb_forall in H. specialize (H _ Hin). discriminate. Qed.

Lemma lower_hex32 x : hexdigits32 x = true -> is_hex32l (lower_ascii x) = true /\ py_lower x = lower_ascii x.
Proof.
  unfold hexdigits32, is_hex32l. intros H. apply andb_true_iff in H. destruct H as [Hl Hh].
  apply Nat.eqb_eq in Hl. split.
  - unfold lower_ascii. rewrite (blen_length _ 32) by (rewrite map_length; exact Hl).
    cbn [N.eqb N.of_nat Pos.of_succ_nat Pos.succ Pos.eqb andb].
    rewrite forallb_forall in *. intros c Hc. apply in_map_iff in Hc. destruct Hc as (a & <- & Ha).
    specialize (Hh a Ha). unfold is_hex, is_lhex, lower_ascii1 in *.
    destruct ((65 <=? a) && (a <=? 90)) eqn:E; lia.
  - apply py_lower_ascii. rewrite forallb_forall in *. intros a Ha. specialize (Hh a Ha). unfold is_hex in Hh. lia.
Qed.

Lemma hex32l_lower_inv h : is_hex32l (py_lower h) = true -> hexdigits32 h = true.
Proof.
  intros H. unfold is_hex32l in H. apply andb_true_iff in H. destruct H as [Hlen Hall]. apply N.eqb_eq in Hlen.
  destruct (py_lower_all_in cs_hex no_nonascii_folds_into_hex h) as [Hlow _].
  { intros a Ha. apply lhex_in_cs. rewrite forallb_forall in Hall. apply Hall, Ha. }
  rewrite Hlow in Hlen, Hall. unfold hexdigits32. apply andb_true_iff. split.
  - unfold lower_ascii, blen in Hlen. rewrite map_length in Hlen. apply Nat.eqb_eq. lia.
  - unfold lower_ascii in Hall. rewrite forallb_forall in *. intros c Hc.
    apply lhex_lower_hex. apply Hall. apply in_map. exact Hc.
Qed.

Lemma catches_uuid_VE : catches [TypeError; ValueError; AttributeError] ValueError = true. Proof. reflexivity. Qed.

Theorem is_uuid_like_iff lim s :
  is_uuid_like lim (PStr s) = Ok true <-> is_hex32l (format_uuid_string s) = true.
Proof.
  unfold is_uuid_like, try_except, bind, format_uuid_string. cbn [uuid_UUID need_str].
  set (h := uuid_strip s). split.
  - destruct (negb (blen h =? 32)); [rewrite catches_uuid_VE; discriminate|].
    destruct (int_parse lim 16 h) as [z|]; [|rewrite catches_uuid_VE; discriminate].
    destruct ((0 <=? z)%Z && (z <? 2 ^ 128)%Z); [|rewrite catches_uuid_VE; discriminate].
    intros H. assert (Hb : beq (replace [45] [] (uuid_str (Z.to_N z))) (py_lower h) = true) by congruence.
    apply beq_eq in Hb. unfold uuid_str in Hb.
    destruct (hex32_lhex (Z.to_N z)) as [H1 H2].
    rewrite unhyphenate in Hb by (apply lhex_not_hyphen, H1).
    rewrite <- Hb. unfold is_hex32l. rewrite H1, (blen_length _ _ H2). reflexivity.
  - intros H. apply hex32l_lower_inv in H. destruct (lower_hex32 h H) as [_ Hlow].
    unfold hexdigits32 in H. apply andb_true_iff in H. destruct H as [Hl Hhex]. apply Nat.eqb_eq in Hl.
    rewrite (blen_length h 32 Hl). cbn [N.eqb N.of_nat Pos.of_succ_nat Pos.succ Pos.eqb negb].
    assert (Hne : h <> []) by (intros E; rewrite E in Hl; discriminate).
    rewrite (int_parse_hex lim h Hhex Hne).
    pose proof (hval_bound h Hhex) as Hb. rewrite (blen_length h 32 Hl) in Hb.
    change (N.of_nat 32) with 32 in Hb.
    change (2 ^ 128)%Z with (Z.of_N (16 ^ 32)).
    replace ((0 <=? Z.of_N (hval h 0))%Z && (Z.of_N (hval h 0) <? Z.of_N (16 ^ 32))%Z) with true by lia.
    rewrite N2Z.id. unfold uuid_str.
    destruct (hex32_lhex (hval h 0)) as [H1 _].
    rewrite unhyphenate by (apply lhex_not_hyphen, H1).
    rewrite (hex32_hval h Hhex Hl), Hlow, beq_refl. reflexivity.
Qed.

(* is_uuid_like never raises *)
Lemma is_uuid_like_total lim v : is_uuid_like lim v = Ok true \/ is_uuid_like lim v = Ok false.
Proof.
  unfold is_uuid_like, try_except, bind. destruct v as [s|z|b| |sv iv]; cbn [uuid_UUID need_str]; auto.
  destruct (negb (blen (uuid_strip s) =? 32)); [right; reflexivity|].
  destruct (int_parse lim 16 (uuid_strip s)) as [z|]; [|right; reflexivity].
  destruct ((0 <=? z)%Z && (z <? 2 ^ 128)%Z); [|right; reflexivity].
  destruct (beq _ _); auto.
Qed.

Lemma is_uuid_like_nonstr lim v : is_str v = false -> is_uuid_like lim v = Ok false.
Proof. destruct v; try discriminate; reflexivity. Qed.

(* accepted exactly when uuid.UUID's own removal (every 'urn:' and 'uuid:' anywhere, braces at both ends,
   every hyphen) leaves 32 hex digits of any case: any order, nesting or repetition of the decorations *)
Theorem is_uuid_like_iff_strip lim s :
  is_uuid_like lim (PStr s) = Ok true <-> hexdigits32 (uuid_strip s) = true.
Proof.
  rewrite is_uuid_like_iff. unfold format_uuid_string. split; [apply hex32l_lower_inv|].
  intros H. destruct (lower_hex32 _ H) as [L1 L2]. rewrite L2. exact L1.
Qed.

(* so on strings is_uuid_like is that test *)
Lemma is_uuid_like_str lim s : is_uuid_like lim (PStr s) = Ok (hexdigits32 (uuid_strip s)).
Proof.
  destruct (hexdigits32 (uuid_strip s)) eqn:E.
  - apply is_uuid_like_iff_strip, E.
  - destruct (is_uuid_like_total lim (PStr s)) as [H|H]; [|exact H].
    apply is_uuid_like_iff_strip in H. congruence.
Qed.

(* strings over hex digits, hyphens and braces contain none of the letters of "urn:" / "uuid:" *)
Definition plain_char (c : N) : bool := is_hex c || (c =? 45) || (c =? 123) || (c =? 125).

Lemma plain_not_u y : forallb plain_char y = true -> ~ In 117 y.
Proof. intros H Hin. rewrite forallb_forall in H. specialize (H _ Hin). discriminate. Qed.

Lemma uuid_strip_plain y : forallb plain_char y = true ->
  uuid_strip y = replace [45] [] (strip_chars [123; 125] y).
Proof.
  intros H. unfold uuid_strip. change (lit "urn:") with [117; 114; 110; 58]. change (lit "uuid:") with [117; 117; 105; 100; 58].
  change (lit "{}") with [123; 125].
  rewrite (replace_absent 117 [114; 110; 58] [] y) by (apply plain_not_u, H).
  rewrite (replace_absent 117 [117; 105; 100; 58] [] y) by (apply plain_not_u, H). reflexivity.
Qed.

Lemma uuid_strip_urn y : forallb plain_char y = true ->
  uuid_strip (lit "urn:uuid:" ++ y) = replace [45] [] (strip_chars [123; 125] y).
Proof.
  intros H. rewrite <- (uuid_strip_plain y H). unfold uuid_strip.
  change (lit "urn:uuid:" ++ y) with (lit "urn:" ++ (lit "uuid:" ++ y)).
  change (lit "urn:") with [117; 114; 110; 58]. change (lit "uuid:") with [117; 117; 105; 100; 58].
  rewrite replace_prefix.
  assert (E : replace [117; 114; 110; 58] [] ([117; 117; 105; 100; 58] ++ y) = [117; 117; 105; 100; 58] ++ replace [117; 114; 110; 58] [] y).
  { unfold replace. cbn [app]. do 5 (rewrite replace_go_nomatch by reflexivity). reflexivity. }
  rewrite E. rewrite (replace_absent 117 [114; 110; 58] [] y) by (apply plain_not_u, H).
  rewrite replace_prefix. reflexivity.
Qed.

Lemma hex_plain z : forallb is_hex z = true -> forallb plain_char z = true.
Proof. apply forallb_impl. intros c H. unfold plain_char. rewrite H. reflexivity. Qed.

Lemma hyphenate_plain x : forallb is_hex x = true -> forallb plain_char (hyphenate x) = true.
Proof.
  intros H. rewrite <- (pieces_join x), !forallb_app, !andb_true_iff in H. destruct H as (H1 & H2 & H3 & H4 & H5).
  unfold hyphenate. rewrite !forallb_app.
  rewrite (hex_plain _ H1), (hex_plain _ H2), (hex_plain _ H3), (hex_plain _ H4), (hex_plain _ H5). reflexivity.
Qed.

Lemma strip_braces_none y : ends_outside [123; 125] y = true -> strip_chars [123; 125] y = y.
Proof.
  intros H. pose proof (strip_chars_unique [123; 125] [] y [] eq_refl eq_refl H) as E.
  cbn [app] in E. rewrite app_nil_r in E. exact E.
Qed.

Lemma strip_braces_braced y : ends_outside [123; 125] y = true -> strip_chars [123; 125] ([123] ++ y ++ [125]) = y.
Proof. intros H. apply strip_chars_unique; [reflexivity|reflexivity|exact H]. Qed.

Lemma hex_ends_outside x : forallb is_hex x = true -> x <> [] -> ends_outside [123; 125] x = true.
Proof.
  intros H Hne. destruct x as [|c t]; [congruence|]. cbn [ends_outside].
  assert (Hl : In (last (c :: t) 0) (c :: t)).
  { destruct (exists_last Hne) as (l' & a & ->). rewrite last_last. apply in_or_app. right. left. reflexivity. }
  rewrite forallb_forall in H. pose proof (H c (or_introl eq_refl)) as Hc. pose proof (H _ Hl) as Hl'.
  unfold is_hex in *. cbn [memN]. lia.
Qed.

Lemma last_app_ne (a b : str) d : b <> [] -> last (a ++ b) d = last b d.
Proof.
  intros H. destruct (exists_last H) as (b' & z & ->). rewrite app_assoc, !last_last. reflexivity.
Qed.

Lemma hyphenate_ends x : hexdigits32 x = true -> ends_outside [123; 125] (hyphenate x) = true.
Proof.
  unfold hexdigits32. intros H. apply andb_true_iff in H. destruct H as [Hl Hh]. apply Nat.eqb_eq in Hl.
  assert (Hne : x <> []) by (intros E; rewrite E in Hl; discriminate).
  pose proof (hex_ends_outside x Hh Hne) as Hx.
  destruct x as [|a x']; [congruence|]. cbn [ends_outside] in Hx.
  assert (Hs : bskip 20 (a :: x') <> []).
  { intros E. apply (f_equal (@length N)) in E. unfold bskip in E. rewrite skipn_length, Hl in E. discriminate. }
  assert (Hlast : last (hyphenate (a :: x')) 0 = last (a :: x') 0).
  { unfold hyphenate. rewrite !app_assoc. rewrite last_app_ne by exact Hs.
    rewrite <- (btake_bskip_app 20 (a :: x')) at 2. rewrite last_app_ne by exact Hs. reflexivity. }
  assert (Hhd : exists m, hyphenate (a :: x') = a :: m).
  { unfold hyphenate, bsub, btake, bskip. change (N.to_nat (8 - 0)) with 8%nat. change (N.to_nat 0) with 0%nat.
    cbn [skipn firstn app]. eexists. reflexivity. }
  destruct Hhd as [m Hm]. rewrite Hm in *. cbn [ends_outside]. rewrite Hlast. exact Hx.
Qed.

(* a text y of hex digits, hyphens and braces that neither starts nor ends with a brace is what
   uuid.UUID's removal leaves of y itself, of {y} and of urn:uuid:y, up to the hyphens *)
Lemma uuid_strip_decorated y : forallb plain_char y = true -> ends_outside [123; 125] y = true ->
  uuid_strip y = replace [45] [] y /\ uuid_strip ([123] ++ y ++ [125]) = replace [45] [] y /\
  uuid_strip (lit "urn:uuid:" ++ y) = replace [45] [] y.
Proof.
  intros P E. rewrite uuid_strip_urn, !uuid_strip_plain, strip_braces_none, strip_braces_braced; auto.
  rewrite !forallb_app, P. reflexivity.
Qed.

(* every spelling of 32 hex digits x, in any case: plain, hyphenated, braced, urn:uuid: *)
Theorem is_uuid_like_spellings lim x : hexdigits32 x = true ->
  is_uuid_like lim (PStr x) = Ok true /\
  is_uuid_like lim (PStr (hyphenate x)) = Ok true /\
  is_uuid_like lim (PStr ([123] ++ x ++ [125])) = Ok true /\
  is_uuid_like lim (PStr ([123] ++ hyphenate x ++ [125])) = Ok true /\
  is_uuid_like lim (PStr (lit "urn:uuid:" ++ hyphenate x)) = Ok true /\
  is_uuid_like lim (PStr (lit "urn:uuid:" ++ x)) = Ok true.
Proof.
  intros H. pose proof H as H0. unfold hexdigits32 in H0. apply andb_true_iff in H0. destruct H0 as [Hl Hh].
  apply Nat.eqb_eq in Hl. assert (Hne : x <> []) by (intros E; rewrite E in Hl; discriminate).
  (* both x and its hyphenated form lose their decorations and hyphens to x *)
  destruct (uuid_strip_decorated x (hex_plain x Hh) (hex_ends_outside x Hh Hne)) as (X1 & X2 & X3).
  destruct (uuid_strip_decorated (hyphenate x) (hyphenate_plain x Hh) (hyphenate_ends x H)) as (Y1 & Y2 & Y3).
  rewrite (replace_hyphen_hex x Hh) in X1, X2, X3.
  rewrite (unhyphenate x (hex_not_hyphen x Hh)) in Y1, Y2, Y3.
  repeat split; apply is_uuid_like_iff_strip; rewrite ?X1, ?X2, ?X3, ?Y1, ?Y2, ?Y3; exact H.
Qed.

Lemma hex32_digits n : hexdigits32 (hex32 n) = true.
Proof.
  destruct (hex32_lhex n) as [H1 H2]. unfold hexdigits32. rewrite H2, (lhex_is_hex _ H1). reflexivity.
Qed.

Example generate_uuid_examples :
  generate_uuid (16 ^ 31 + 10) true = lit "10000000-0000-0000-0000-00000000000a" /\
  generate_uuid (16 ^ 31 + 10) false = lit "1000000000000000000000000000000a".
Proof. split; vm_compute; reflexivity. Qed.

Example nested_decorations :
  let x := lit "0123456789abcdefABCDEF0123456789" in
  is_uuid_like 4300 (PStr (lit "{urn:uuid:" ++ x ++ lit "}")) = Ok true /\
  is_uuid_like 4300 (PStr (lit "{uuid:" ++ x ++ lit "}")) = Ok true /\
  is_uuid_like 4300 (PStr (lit "urn:urn:uuid:" ++ x)) = Ok true /\
  is_uuid_like 4300 (PStr (lit "uuid:urn:{{" ++ hyphenate x ++ lit "}urn:")) = Ok true /\
  is_uuid_like 4300 (PStr (lit "uurn:uid:-" ++ x ++ lit "--")) = Ok true /\
  is_uuid_like 4300 (PStr (lit "URN:UUID:" ++ x)) = Ok false.
Proof. cbv zeta. rewrite !is_uuid_like_str. repeat apply conj; vm_compute; reflexivity. Qed.
