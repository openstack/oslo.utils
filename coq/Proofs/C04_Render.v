(* Proofs/C04_Render.v — the rendering_masked_<R> lemmas, one per rendering R: for EVERY key over [a-z_]+ (generic in the key:
   proved from the pattern TEMPLATE), every per-letter casing of it, every digit suffix, every
   amount of optional white space the pattern allows, every value of the rendering's value
   class (all lengths, all code points of the class), the designated pattern applied to the
   rendering R(K,d,v) yields R(K,d,mask). *)
From Coq Require Import String.
Require Import OV.Base.Bytes OV.Base.PyInt OV.Base.Str OV.Base.Regex OV.Base.C04_Tmpl.
Require Import OV.Gen.Unicode OV.Gen.C04_Sanitize OV.Model.C04 OV.Model.C04_Spec OV.Proofs.C04_Regex.
Open Scope N_scope.

(* the sets the generated templates use for the value, read off the templates *)
Definition rep_cs (r : re) : cset := match r with Rep cs _ _ => cs | _ => [] end.
Definition value_re (r : re) : re := match r with Seq _ (Seq x _) => x | Seq _ x => x | _ => Eps end.
Definition cs_bare : cset := rep_cs (value_re (gen_tp1_0 [])).
Definition cs_quoted : cset := rep_cs (value_re (gen_tp2_0 [])).
Definition cs_dq : cset := rep_cs (value_re (gen_tp2_1 [])).
Definition cs_sq : cset := rep_cs (value_re (gen_tp2_2 [])).
Definition cs_dd : cset := rep_cs (value_re (gen_tp2_4 [])).
Definition cs_xml : cset := rep_cs (value_re (gen_tp2_5 [])).
Definition cs_nonspace : cset := rep_cs (value_re (gen_tp2_9 [])).
Definition cs_quotes : cset := [(34, 34); (39, 39)].

Ltac by_cover excl :=
  match goal with
  | |- cmem ?c ?cs = true =>
      assert (Hcov : cmem c (cs ++ excl) = true)
        by (apply (covers_sound 64 (cs ++ excl) 0 1114111 ltac:(vm_compute; reflexivity)); lia);
      rewrite cmem_app in Hcov
  end.

Lemma is_quote_cmem c : cmem c cs_quotes = is_quote c.
Proof. unfold cs_quotes, is_quote. cbn [cmem]. rewrite orb_false_r. f_equal; lia. Qed.

Lemma bare_in c : bare_char c = true -> cmem c cs_bare = true.
Proof.
  unfold bare_char, valid_cp. intros H. apply andb_true_iff in H. destruct H as [H Hq].
  apply andb_true_iff in H. destruct H as [Hv Hs]. apply N.leb_le in Hv.
  by_cover (py_space ++ cs_quotes). rewrite cmem_app, is_quote_cmem in Hcov.
  unfold is_space in Hs. apply negb_true_iff in Hs, Hq. rewrite Hs, Hq, !orb_false_r in Hcov. exact Hcov.
Qed.
Lemma quoted_in c : quoted_char c = true -> cmem c cs_quoted = true.
Proof.
  unfold quoted_char, valid_cp. intros H. apply andb_true_iff in H. destruct H as [Hv Hq]. apply N.leb_le in Hv.
  by_cover cs_quotes. rewrite is_quote_cmem in Hcov. apply negb_true_iff in Hq. rewrite Hq, orb_false_r in Hcov. exact Hcov.
Qed.
Lemma dq_in c : dq_char c = true -> cmem c cs_dq = true.
Proof.
  unfold dq_char, valid_cp. intros H. apply andb_true_iff in H. destruct H as [Hv Hq]. apply N.leb_le in Hv.
  by_cover [(34, 34)]. rewrite cmem_single in Hcov. apply negb_true_iff in Hq. rewrite Hq, orb_false_r in Hcov. exact Hcov.
Qed.
Lemma sq_in c : sq_char c = true -> cmem c cs_sq = true.
Proof.
  unfold sq_char, valid_cp. intros H. apply andb_true_iff in H. destruct H as [Hv Hq]. apply N.leb_le in Hv.
  by_cover [(39, 39)]. rewrite cmem_single in Hcov. apply negb_true_iff in Hq. rewrite Hq, orb_false_r in Hcov. exact Hcov.
Qed.
Lemma xml_in c : xml_char c = true -> cmem c cs_xml = true.
Proof.
  unfold xml_char, valid_cp. intros H. apply andb_true_iff in H. destruct H as [Hv Hq]. apply N.leb_le in Hv.
  by_cover [(60, 60)]. rewrite cmem_single in Hcov. apply negb_true_iff in Hq. rewrite Hq, orb_false_r in Hcov. exact Hcov.
Qed.
Lemma nonspace_in c : nonspace_char c = true -> cmem c cs_nonspace = true.
Proof.
  unfold nonspace_char, valid_cp. intros H. apply andb_true_iff in H. destruct H as [Hv Hs]. apply N.leb_le in Hv.
  by_cover py_space. unfold is_space in Hs. apply negb_true_iff in Hs. rewrite Hs, orb_false_r in Hcov. exact Hcov.
Qed.
Lemma dd_in c : dd_char c = true -> cmem c cs_dd = true.
Proof.
  unfold dd_char, bare_char, valid_cp. intros H. apply andb_true_iff in H. destruct H as [H He].
  apply andb_true_iff in H. destruct H as [H Hq]. apply andb_true_iff in H. destruct H as [Hv Hs]. apply N.leb_le in Hv.
  by_cover (py_space ++ cs_quotes ++ [(61, 61)]). rewrite !cmem_app, is_quote_cmem, cmem_single in Hcov.
  unfold is_space in Hs. apply negb_true_iff in Hs, Hq, He. rewrite Hs, Hq, He, !orb_false_r in Hcov. exact Hcov.
Qed.

Definition key_alphabet : list N := 95 :: map (fun i => 97 + N.of_nat i) (seq 0 26).
Lemma key_char_in c : key_char c = true -> In c key_alphabet.
Proof.
  unfold key_char, key_alphabet. intros H. destruct (c =? 95) eqn:E.
  - left. lia.
  - right. apply in_map_iff. exists (N.to_nat (c - 97)). split; [lia|]. apply in_seq. lia.
Qed.
Lemma ci_table_ok :
  forallb (fun c => cmem c (ci_lookup gen_ci_table c) && cmem (upper_ascii1 c) (ci_lookup gen_ci_table c)) key_alphabet = true.
Proof. vm_compute. reflexivity. Qed.

Lemma casing_ok_of k K : forallb key_char k = true -> casing_of k K -> casing_ok gen_ci_table k K.
Proof.
  intros Hk H. induction H as [|c C k K Hc _ IH]; [constructor|].
  cbn [forallb] in Hk. apply andb_true_iff in Hk. destruct Hk as [Hc1 Hk]. constructor; [|apply IH; exact Hk].
  pose proof ci_table_ok as T. rewrite forallb_forall in T. specialize (T c (key_char_in c Hc1)).
  apply andb_true_iff in T. destruct T as [T1 T2]. destruct Hc as [-> | ->]; assumption.
Qed.

Lemma digits_in d : forallb ascii_digit d = true -> all_in [(48, 57)] d = true.
Proof.
  apply all_in_impl. intros c H. unfold ascii_digit in H. cbn [cmem]. rewrite H. reflexivity.
Qed.
Lemma spaces_in w : forallb is_space w = true -> all_in py_space w = true.
Proof. intros H. exact H. Qed.
Lemma quote_in q : is_quote q = true -> cmem q cs_quotes = true.
Proof. intros H. rewrite is_quote_cmem. exact H. Qed.

Ltac norm_app2 := repeat first [rewrite <- app_assoc | progress (cbn [app])]; rewrite ?app_nil_r; reflexivity.

Section Renderings.
Variables (k K d : str).
Hypothesis Hk : forallb key_char k = true.
Hypothesis Hcase : casing_of k K.
Hypothesis Hd : forallb ascii_digit d = true.

Let HK : casing_ok gen_ci_table k K := casing_ok_of k K Hk Hcase.
Let Hd' : all_in [(48, 57)] d = true := digits_in d Hd.

(* k = v (bare):  K d w1 '=' w2 v  ->  K d w1 '=' w2 mask      [_FORMAT_PATTERNS_1[0]] *)
Lemma rendering_masked_bare w1 w2 v mask :
  forallb is_space w1 = true -> forallb is_space w2 = true ->
  forallb bare_char v = true -> (1 <= length v)%nat ->
  re_sub (gen_tp1_0 k) (t1 mask) (K ++ d ++ w1 ++ 61 :: w2 ++ v) = K ++ d ++ w1 ++ 61 :: w2 ++ mask.
Proof.
  intros Hw1 Hw2 Hv Hl.
  pose proof (spaces_in _ Hw1) as Hw1'. pose proof (spaces_in _ Hw2) as Hw2'.
  pose proof (all_in_impl _ _ _ bare_in Hv) as Hv'.
  pose proof HK as HK'. pose proof Hd' as Hd''.
  replace (K ++ d ++ w1 ++ 61 :: w2 ++ v) with (K ++ d ++ w1 ++ 61 :: w2 ++ v ++ []) by (rewrite app_nil_r; reflexivity).
  eapply gm_sub_one' with (tbl := gen_ci_table) (h := K ++ d ++ w1 ++ 61 :: w2) (v := v).
  - cbv [gen_tp1_0]. gm_go.
  - norm_app.
  - rewrite app_nil_r. norm_app.
  - norm_app.
  - destruct v; [inversion Hl|]. destruct K, d, w1; discriminate.
  - cbn [gget Nat.eqb app]. reflexivity.
  - norm_app.
Qed.

Ltac finish2 t :=
  [> t | norm_app2 | norm_app2 | norm_app2
     | clear; let E := fresh "E" in intro E; apply (f_equal (@length N)) in E; rewrite ?app_length in E; cbn [length] in E; lia
     | cbn [gget Nat.eqb app]; reflexivity | norm_app2 | cbn [gget Nat.eqb app]; reflexivity | norm_app2 | norm_app2 ].

(* k = "v" / k = 'v'  (either quote on either side, value without quotes)    [_FORMAT_PATTERNS_2[0]] *)
Lemma rendering_masked_eq_quoted w1 w2 q1 q2 v mask :
  forallb is_space w1 = true -> forallb is_space w2 = true ->
  is_quote q1 = true -> is_quote q2 = true -> forallb quoted_char v = true ->
  re_sub (gen_tp2_0 k) (t2 mask) (K ++ d ++ w1 ++ 61 :: w2 ++ q1 :: v ++ [q2])
  = K ++ d ++ w1 ++ 61 :: w2 ++ q1 :: mask ++ [q2].
Proof.
  intros Hw1 Hw2 Hq1 Hq2 Hv.
  pose proof (spaces_in _ Hw1) as Hw1'. pose proof (spaces_in _ Hw2) as Hw2'.
  pose proof (quote_in _ Hq1) as Hq1'. pose proof (quote_in _ Hq2) as Hq2'.
  pose proof (all_in_impl _ _ _ quoted_in Hv) as Hv'. pose proof HK as HK'. pose proof Hd' as Hd''.
  eapply gm_sub_two' with (tbl := gen_ci_table) (h := K ++ d ++ w1 ++ 61 :: w2 ++ [q1]) (v := v) (t := [q2]); finish2 ltac:(cbv [gen_tp2_0]; gm_go).
Qed.

(* k = "v" where v may contain single quotes                                 [_FORMAT_PATTERNS_2[1]] *)
Lemma rendering_masked_eq_dq w1 w2 v mask :
  forallb is_space w1 = true -> forallb is_space w2 = true -> forallb dq_char v = true ->
  re_sub (gen_tp2_1 k) (t2 mask) (K ++ d ++ w1 ++ 61 :: w2 ++ 34 :: v ++ [34])
  = K ++ d ++ w1 ++ 61 :: w2 ++ 34 :: mask ++ [34].
Proof.
  intros Hw1 Hw2 Hv.
  pose proof (spaces_in _ Hw1) as Hw1'. pose proof (spaces_in _ Hw2) as Hw2'.
  pose proof (all_in_impl _ _ _ dq_in Hv) as Hv'. pose proof HK as HK'. pose proof Hd' as Hd''.
  eapply gm_sub_two' with (tbl := gen_ci_table) (h := K ++ d ++ w1 ++ 61 :: w2 ++ [34]) (v := v) (t := [34]); finish2 ltac:(cbv [gen_tp2_1]; gm_go).
Qed.

(* k = 'v' where v may contain double quotes                                 [_FORMAT_PATTERNS_2[2]] *)
Lemma rendering_masked_eq_sq w1 w2 v mask :
  forallb is_space w1 = true -> forallb is_space w2 = true -> forallb sq_char v = true ->
  re_sub (gen_tp2_2 k) (t2 mask) (K ++ d ++ w1 ++ 61 :: w2 ++ 39 :: v ++ [39])
  = K ++ d ++ w1 ++ 61 :: w2 ++ 39 :: mask ++ [39].
Proof.
  intros Hw1 Hw2 Hv.
  pose proof (spaces_in _ Hw1) as Hw1'. pose proof (spaces_in _ Hw2) as Hw2'.
  pose proof (all_in_impl _ _ _ sq_in Hv) as Hv'. pose proof HK as HK'. pose proof Hd' as Hd''.
  eapply gm_sub_two' with (tbl := gen_ci_table) (h := K ++ d ++ w1 ++ 61 :: w2 ++ [39]) (v := v) (t := [39]); finish2 ltac:(cbv [gen_tp2_2]; gm_go).
Qed.

(* k 'v'  (white space, then a quoted value)                                 [_FORMAT_PATTERNS_2[3]] *)
Lemma rendering_masked_key_quoted w1 q1 q2 v mask :
  forallb is_space w1 = true -> (1 <= length w1)%nat ->
  is_quote q1 = true -> is_quote q2 = true -> forallb quoted_char v = true ->
  re_sub (gen_tp2_3 k) (t2 mask) (K ++ d ++ w1 ++ q1 :: v ++ [q2]) = K ++ d ++ w1 ++ q1 :: mask ++ [q2].
Proof.
  intros Hw1 Hl1 Hq1 Hq2 Hv.
  pose proof (spaces_in _ Hw1) as Hw1'.
  pose proof (quote_in _ Hq1) as Hq1'. pose proof (quote_in _ Hq2) as Hq2'.
  pose proof (all_in_impl _ _ _ quoted_in Hv) as Hv'. pose proof HK as HK'. pose proof Hd' as Hd''.
  eapply gm_sub_two' with (tbl := gen_ci_table) (h := K ++ d ++ w1 ++ [q1]) (v := v) (t := [q2]); finish2 ltac:(cbv [gen_tp2_3]; gm_go).
Qed.

(* --k v  (trailing white space is kept)                                      [_FORMAT_PATTERNS_2[4]] *)
Lemma rendering_masked_dashdash w1 w2 v mask :
  forallb is_space w1 = true -> (1 <= length w1)%nat -> forallb is_space w2 = true ->
  forallb dd_char v = true -> (1 <= length v)%nat ->
  re_sub (gen_tp2_4 k) (t2 mask) ([45; 45] ++ K ++ d ++ w1 ++ v ++ w2) = [45; 45] ++ K ++ d ++ w1 ++ mask ++ w2.
Proof.
  intros Hw1 Hl1 Hw2 Hv Hlv.
  pose proof (spaces_in _ Hw1) as Hw1'. pose proof (spaces_in _ Hw2) as Hw2'.
  pose proof (all_in_impl _ _ _ dd_in Hv) as Hv'. pose proof HK as HK'. pose proof Hd' as Hd''.
  replace ([45; 45] ++ K ++ d ++ w1 ++ v ++ w2) with ([45; 45] ++ K ++ d ++ w1 ++ v ++ w2 ++ []) by (rewrite app_nil_r; reflexivity).
  eapply gm_sub_two' with (tbl := gen_ci_table) (h := [45; 45] ++ K ++ d ++ w1) (v := v) (t := w2); finish2 ltac:(cbv [gen_tp2_4]; gm_go).
Qed.

(* <k>v</k>  (the closing tag may use another casing / digit suffix)          [_FORMAT_PATTERNS_2[5]] *)
Lemma rendering_masked_xml K' d' v mask :
  casing_of k K' -> forallb ascii_digit d' = true -> forallb xml_char v = true ->
  re_sub (gen_tp2_5 k) (t2 mask) (60 :: K ++ d ++ 62 :: v ++ 60 :: 47 :: K' ++ d' ++ [62])
  = 60 :: K ++ d ++ 62 :: mask ++ 60 :: 47 :: K' ++ d' ++ [62].
Proof.
  intros Hc2 Hd2 Hv.
  pose proof (casing_ok_of k K' Hk Hc2) as HK2. pose proof (digits_in d' Hd2) as Hd2'.
  pose proof (all_in_impl _ _ _ xml_in Hv) as Hv'. pose proof HK as HK'. pose proof Hd' as Hd''.
  eapply gm_sub_two' with (tbl := gen_ci_table) (h := 60 :: K ++ d ++ [62]) (v := v) (t := 60 :: 47 :: K' ++ d' ++ [62]); finish2 ltac:(cbv [gen_tp2_5]; gm_go).
Qed.

(* "k": "v" / 'k' : 'v'  (dict / JSON style)                                  [_FORMAT_PATTERNS_2[6]] *)
Lemma rendering_masked_json q1 q2 w1 w2 q3 q4 v mask :
  is_quote q1 = true -> is_quote q2 = true -> is_quote q3 = true -> is_quote q4 = true ->
  forallb is_space w1 = true -> forallb is_space w2 = true -> forallb quoted_char v = true ->
  re_sub (gen_tp2_6 k) (t2 mask) (q1 :: K ++ d ++ q2 :: w1 ++ 58 :: w2 ++ q3 :: v ++ [q4])
  = q1 :: K ++ d ++ q2 :: w1 ++ 58 :: w2 ++ q3 :: mask ++ [q4].
Proof.
  intros Hq1 Hq2 Hq3 Hq4 Hw1 Hw2 Hv.
  pose proof (spaces_in _ Hw1) as Hw1'. pose proof (spaces_in _ Hw2) as Hw2'.
  pose proof (quote_in _ Hq1) as Hq1'. pose proof (quote_in _ Hq2) as Hq2'.
  pose proof (quote_in _ Hq3) as Hq3'. pose proof (quote_in _ Hq4) as Hq4'.
  pose proof (all_in_impl _ _ _ quoted_in Hv) as Hv'. pose proof HK as HK'. pose proof Hd' as Hd''.
  eapply gm_sub_two' with (tbl := gen_ci_table) (h := q1 :: K ++ d ++ q2 :: w1 ++ 58 :: w2 ++ [q3]) (v := v) (t := [q4]); finish2 ltac:(cbv [gen_tp2_6]; gm_go).
Qed.

(* k --flag v  /  k -f v  (command form; trailing white space kept)           [_FORMAT_PATTERNS_2[9]] *)
Definition cs_flag : cset := match gen_tp2_9 [] with
  | Seq (Group _ (Seq _ (Seq _ (Seq _ (Seq _ (Seq (Rep cs _ _) _)))))) _ => cs | _ => [] end.
Lemma rendering_masked_cmd2 w1 dash fl w2 v w3 mask :
  forallb is_space w1 = true -> (dash = [] \/ dash = [45]) ->
  all_in cs_flag fl = true -> (1 <= length fl)%nat ->
  forallb is_space w2 = true -> (1 <= length w2)%nat ->
  forallb nonspace_char v = true -> (1 <= length v)%nat -> forallb is_space w3 = true ->
  re_sub (gen_tp2_9 k) (t2 mask) (K ++ d ++ w1 ++ 45 :: dash ++ fl ++ w2 ++ v ++ w3)
  = K ++ d ++ w1 ++ 45 :: dash ++ fl ++ w2 ++ mask ++ w3.
Proof.
  intros Hw1 Hdash Hfl Hlf Hw2 Hl2 Hv Hlv Hw3.
  pose proof (spaces_in _ Hw1) as Hw1'. pose proof (spaces_in _ Hw2) as Hw2'. pose proof (spaces_in _ Hw3) as Hw3'.
  assert (Hdash' : all_in [(45, 45)] dash = true) by (destruct Hdash as [-> | ->]; reflexivity).
  assert (Hdl : (length dash <= 1)%nat) by (destruct Hdash as [-> | ->]; cbn; repeat constructor).
  pose proof (all_in_impl _ _ _ nonspace_in Hv) as Hv'. pose proof HK as HK'. pose proof Hd' as Hd''.
  replace (K ++ d ++ w1 ++ 45 :: dash ++ fl ++ w2 ++ v ++ w3) with (K ++ d ++ w1 ++ 45 :: dash ++ fl ++ w2 ++ v ++ w3 ++ [])
    by (rewrite app_nil_r; reflexivity).
  eapply gm_sub_two' with (tbl := gen_ci_table) (h := K ++ d ++ w1 ++ 45 :: dash ++ fl ++ w2) (v := v) (t := w3); finish2 ltac:(cbv [gen_tp2_9]; gm_go).
Qed.
End Renderings.

(* ---------- the two renderings whose pattern backtracks (['"][^'"]*key…) ----------
   proved with Proofs/C04_Quote.v: a match exists (completeness of the matcher for an explicit
   parse) and every successful parse reads the same text (group 1 consumes a fixed number of quote
   characters and ends in one). *)
Require Import OV.Proofs.C11_Regex OV.Proofs.C04_Quote OV.Proofs.C04_Whole.

Definition opt_u (u : str) : Prop := u = [] \/ u = [117] \/ u = [85].

Lemma ci_disj_quotes :
  forallb (fun c => cset_disj (ci_lookup gen_ci_table c) cs_quotes) key_alphabet = true.
Proof. vm_compute. reflexivity. Qed.

Lemma qcount_keyseq k rest : forallb key_char k = true ->
  qcount cs_quotes (keyseq gen_ci_table k rest) = qcount cs_quotes rest.
Proof.
  induction k as [|c k IH]; intros Hk; [reflexivity|].
  cbn [forallb] in Hk. apply andb_true_iff in Hk. destruct Hk as [Hc Hk].
  pose proof ci_disj_quotes as T. rewrite forallb_forall in T. specialize (T c (key_char_in c Hc)).
  cbn [keyseq qcount]. rewrite T, (IH Hk). destruct (qcount cs_quotes rest); reflexivity.
Qed.
Lemma last_q_keyseq Q tbl k rest : last_q Q (keyseq tbl k rest) = last_q Q rest.
Proof. induction k as [|c k IH]; [reflexivity|]. cbn [keyseq last_q]. exact IH. Qed.

Lemma countq_casing k K : forallb key_char k = true -> casing_ok gen_ci_table k K -> countq cs_quotes K = 0%nat.
Proof.
  intros Hk H. induction H as [|c C k K Hc _ IH]; [reflexivity|].
  cbn [forallb] in Hk. apply andb_true_iff in Hk. destruct Hk as [Hc1 Hk].
  pose proof ci_disj_quotes as T. rewrite forallb_forall in T. specialize (T c (key_char_in c Hc1)).
  rewrite countq_cons_n; [apply IH; exact Hk|]. apply (cset_disj_sound _ _ _ T Hc).
Qed.

Ltac mt_go :=
  lazymatch goal with
  | |- mt (Seq _ _) _ _ _ _ => eapply mt_seq; [mt_go | mt_go]
  | |- mt (Group _ _) _ _ _ _ => apply mt_group; mt_go
  | |- mt (keyseq _ _ _) _ _ _ _ => eapply mt_keyseq; [eassumption | mt_go]
  | |- mt (Chr _) (?c :: _) _ _ _ => eapply mt_chr; tryif is_var c then eassumption else vmr
  | |- mt (Rep _ _ _) _ _ _ _ => eapply mt_rep_run; [solve_allin | solve_len | solve_within]
  end.

Lemma opt_u_in u : opt_u u -> all_in [(85, 85); (117, 117)] u = true /\ (length u <= 1)%nat.
Proof. intros [-> | [-> | ->]]; split; try reflexivity; cbn; repeat constructor. Qed.

Lemma nomatch_nil_pre r S : forall a' b' q, [] = a' ++ b' -> b' <> [] -> match_at r (b' ++ S) q = None.
Proof. intros a' b' q E Hb. destruct a', b'; try discriminate. congruence. Qed.

(* 2[7] on its own rendering, inside any text the pattern cannot match from; stated on character sets because
   C04_WholeR.whole_json_step runs it a second time (empty pfx, no u, the mask as value) *)
Lemma tp2_7_in_context k K d q1 pfx q2 w1 w2 u q3 q4 v mask pre post :
  forallb key_char k = true -> casing_ok gen_ci_table k K -> all_in [(48, 57)] d = true ->
  cmem q1 cs_quotes = true -> cmem q2 cs_quotes = true -> cmem q3 cs_quotes = true -> cmem q4 cs_quotes = true ->
  all_in cs_quoted pfx = true -> all_in py_space w1 = true -> all_in py_space w2 = true ->
  all_in [(85, 85); (117, 117)] u = true -> (length u <= 1)%nat -> all_in cs_quoted v = true ->
  (forall a' b' q, pre = a' ++ b' -> b' <> [] -> match_at (gen_tp2_7 k) (b' ++ q1 :: pfx ++ K ++ d ++ q2 :: w1 ++ 58 :: w2 ++ u ++ q3 :: v ++ q4 :: post) q = None) ->
  (forall a' b' q, post = a' ++ b' -> match_at (gen_tp2_7 k) b' q = None) ->
  re_sub (gen_tp2_7 k) (t2 mask) (pre ++ q1 :: pfx ++ K ++ d ++ q2 :: w1 ++ 58 :: w2 ++ u ++ q3 :: v ++ q4 :: post)
  = pre ++ q1 :: pfx ++ K ++ d ++ q2 :: w1 ++ 58 :: w2 ++ u ++ q3 :: mask ++ q4 :: post.
Proof.
  intros Hk HK Hd' Hq1' Hq2' Hq3' Hq4' Hp' Hw1' Hw2' Hu' Hul Hv' Npre Npost.
  set (h := [q1] ++ pfx ++ K ++ d ++ [q2] ++ w1 ++ [58] ++ w2 ++ u ++ [q3]).
  assert (QD : exists g, match_at (gen_tp2_7 k) (h ++ v ++ q4 :: post) (blen pre) = Some (blen (pre ++ h ++ v ++ [q4]), g) /\
            gget g 1 = Some (blen pre, blen (pre ++ h)) /\ gget g 2 = Some (blen (pre ++ h ++ v), blen (pre ++ h ++ v ++ [q4]))).
  { cbv [gen_tp2_7].
    eapply (quote_delimited_at cs_quotes) with (h0 := [q1] ++ pfx ++ K ++ d ++ [q2] ++ w1 ++ [58] ++ w2 ++ u) (q3 := q3).
    - cbn [qcount]. rewrite (qcount_keyseq _ _ Hk). vm_compute. reflexivity.
    - cbn [last_q]. rewrite last_q_keyseq. vm_compute. reflexivity.
    - vmr.
    - vmr.
    - replace (h ++ v ++ q4 :: post) with (q1 :: pfx ++ K ++ d ++ q2 :: w1 ++ 58 :: w2 ++ u ++ q3 :: v ++ q4 :: post) by (unfold h; norm_app2).
      mt_go.
    - unfold h. rewrite !countq_app.
      rewrite (countq_one cs_quotes _ Hq1'), (countq_one cs_quotes _ Hq2'), (countq_one cs_quotes _ Hq3').
      rewrite (countq_none cs_quotes _ _ Hp' ltac:(vmr)), (countq_casing _ _ Hk HK), (countq_none cs_quotes _ _ Hd' ltac:(vmr)).
      rewrite (countq_none cs_quotes _ _ Hw1' ltac:(vmr)), (countq_none cs_quotes _ _ Hw2' ltac:(vmr)), (countq_none cs_quotes _ _ Hu' ltac:(vmr)).
      reflexivity.
    - unfold h. norm_app2.
    - exact Hq3'.
    - exact Hv'.
    - exact Hq4'. }
  destruct QD as (g & Hm & G1 & G2).
  replace (pre ++ q1 :: pfx ++ K ++ d ++ q2 :: w1 ++ 58 :: w2 ++ u ++ q3 :: v ++ q4 :: post) with (pre ++ (h ++ v ++ [q4]) ++ post) by (unfold h; norm_app2).
  replace (pre ++ q1 :: pfx ++ K ++ d ++ q2 :: w1 ++ 58 :: w2 ++ u ++ q3 :: mask ++ q4 :: post) with (pre ++ h ++ mask ++ [q4] ++ post) by (unfold h; norm_app2).
  apply (two_group_ctx (gen_tp2_7 k) pre h v [q4] post mask g).
  - replace ((h ++ v ++ [q4]) ++ post) with (h ++ v ++ q4 :: post) by norm_app2. exact Hm.
  - unfold h. discriminate.
  - exact G1.
  - exact G2.
  - intros a' b' q E Hb. replace (b' ++ (h ++ v ++ [q4]) ++ post) with (b' ++ q1 :: pfx ++ K ++ d ++ q2 :: w1 ++ 58 :: w2 ++ u ++ q3 :: v ++ q4 :: post) by (unfold h; norm_app2).
    apply (Npre a' b' q E Hb).
  - exact Npost.
Qed.

Section Renderings2.
Variables (k K d : str).
Hypothesis Hk : forallb key_char k = true.
Hypothesis Hcase : casing_of k K.
Hypothesis Hd : forallb ascii_digit d = true.

(* '…k': u'v'  — any quote-free prefix inside the key string, optional u    [_FORMAT_PATTERNS_2[7]] *)
Lemma rendering_masked_json_prefix q1 pfx q2 w1 w2 u q3 q4 v mask :
  is_quote q1 = true -> is_quote q2 = true -> is_quote q3 = true -> is_quote q4 = true ->
  forallb quoted_char pfx = true -> forallb is_space w1 = true -> forallb is_space w2 = true -> opt_u u ->
  forallb quoted_char v = true ->
  re_sub (gen_tp2_7 k) (t2 mask) (q1 :: pfx ++ K ++ d ++ q2 :: w1 ++ 58 :: w2 ++ u ++ q3 :: v ++ [q4])
  = q1 :: pfx ++ K ++ d ++ q2 :: w1 ++ 58 :: w2 ++ u ++ q3 :: mask ++ [q4].
Proof.
  intros Hq1 Hq2 Hq3 Hq4 Hp Hw1 Hw2 Hu Hv.
  pose proof (casing_ok_of k K Hk Hcase) as HK. pose proof (digits_in d Hd) as Hd'.
  pose proof (spaces_in _ Hw1) as Hw1'. pose proof (spaces_in _ Hw2) as Hw2'.
  pose proof (quote_in _ Hq1) as Hq1'. pose proof (quote_in _ Hq2) as Hq2'.
  pose proof (quote_in _ Hq3) as Hq3'. pose proof (quote_in _ Hq4) as Hq4'.
  pose proof (all_in_impl _ _ _ quoted_in Hp) as Hp'. pose proof (all_in_impl _ _ _ quoted_in Hv) as Hv'.
  destruct (opt_u_in u Hu) as [Hu' Hul].
  apply (tp2_7_in_context k K d q1 pfx q2 w1 w2 u q3 q4 v mask [] [] Hk HK Hd' Hq1' Hq2' Hq3' Hq4' Hp' Hw1' Hw2' Hu' Hul Hv' (nomatch_nil_pre _ _)).
  intros a' b' q E. destruct b'; [reflexivity|destruct a'; discriminate].
Qed.

(* 'k', '--flag', 'v'                                                        [_FORMAT_PATTERNS_2[8]] *)
Lemma rendering_masked_cmd1 q1 pfx q2 w1 w2 dash fl w3 w4 u q3 q4 v mask :
  is_quote q1 = true -> is_quote q2 = true -> is_quote q3 = true -> is_quote q4 = true ->
  forallb quoted_char pfx = true -> forallb is_space w1 = true -> forallb is_space w2 = true ->
  (dash = [] \/ dash = [45]) -> all_in cs_flag fl = true -> (1 <= length fl)%nat ->
  forallb is_space w3 = true -> forallb is_space w4 = true -> opt_u u -> forallb quoted_char v = true ->
  re_sub (gen_tp2_8 k) (t2 mask)
    (q1 :: pfx ++ K ++ d ++ q2 :: w1 ++ 44 :: w2 ++ 39 :: 45 :: dash ++ fl ++ 39 :: w3 ++ 44 :: w4 ++ u ++ q3 :: v ++ [q4])
  = q1 :: pfx ++ K ++ d ++ q2 :: w1 ++ 44 :: w2 ++ 39 :: 45 :: dash ++ fl ++ 39 :: w3 ++ 44 :: w4 ++ u ++ q3 :: mask ++ [q4].
Proof.
  intros Hq1 Hq2 Hq3 Hq4 Hp Hw1 Hw2 Hdash Hfl Hlf Hw3 Hw4 Hu Hv.
  pose proof (casing_ok_of k K Hk Hcase) as HK. pose proof (digits_in d Hd) as Hd'.
  pose proof (spaces_in _ Hw1) as Hw1'. pose proof (spaces_in _ Hw2) as Hw2'.
  pose proof (spaces_in _ Hw3) as Hw3'. pose proof (spaces_in _ Hw4) as Hw4'.
  pose proof (quote_in _ Hq1) as Hq1'. pose proof (quote_in _ Hq2) as Hq2'.
  pose proof (quote_in _ Hq3) as Hq3'. pose proof (quote_in _ Hq4) as Hq4'.
  pose proof (all_in_impl _ _ _ quoted_in Hp) as Hp'. pose proof (all_in_impl _ _ _ quoted_in Hv) as Hv'.
  destruct (opt_u_in u Hu) as [Hu' Hul].
  assert (Hdash' : all_in [(45, 45)] dash = true) by (destruct Hdash as [-> | ->]; reflexivity).
  assert (Hdl : (length dash <= 1)%nat) by (destruct Hdash as [-> | ->]; cbn; repeat constructor).
  set (h := [q1] ++ pfx ++ K ++ d ++ [q2] ++ w1 ++ [44] ++ w2 ++ [39] ++ [45] ++ dash ++ fl ++ [39] ++ w3 ++ [44] ++ w4 ++ u ++ [q3]).
  replace (q1 :: pfx ++ K ++ d ++ q2 :: w1 ++ 44 :: w2 ++ 39 :: 45 :: dash ++ fl ++ 39 :: w3 ++ 44 :: w4 ++ u ++ q3 :: v ++ [q4])
    with (h ++ v ++ [q4]) by (unfold h; norm_app2).
  replace (q1 :: pfx ++ K ++ d ++ q2 :: w1 ++ 44 :: w2 ++ 39 :: 45 :: dash ++ fl ++ 39 :: w3 ++ 44 :: w4 ++ u ++ q3 :: mask ++ [q4])
    with (h ++ mask ++ [q4]) by (unfold h; norm_app2).
  cbv [gen_tp2_8].
  eapply (quote_delimited_sub cs_quotes)
    with (h0 := [q1] ++ pfx ++ K ++ d ++ [q2] ++ w1 ++ [44] ++ w2 ++ [39] ++ [45] ++ dash ++ fl ++ [39] ++ w3 ++ [44] ++ w4 ++ u) (q3 := q3).
  - cbn [qcount]. rewrite (qcount_keyseq _ _ Hk). vm_compute. reflexivity.
  - cbn [last_q]. rewrite last_q_keyseq. vm_compute. reflexivity.
  - vmr.
  - vmr.
  - replace (h ++ v ++ [q4])
      with (q1 :: pfx ++ K ++ d ++ q2 :: w1 ++ 44 :: w2 ++ 39 :: 45 :: dash ++ fl ++ 39 :: w3 ++ 44 :: w4 ++ u ++ q3 :: v ++ [q4])
      by (unfold h; norm_app2).
    mt_go.
  - unfold h. rewrite !countq_app.
    rewrite (countq_one cs_quotes _ Hq1'), (countq_one cs_quotes _ Hq2'), (countq_one cs_quotes _ Hq3').
    rewrite (countq_none cs_quotes _ _ Hp' ltac:(vmr)), (countq_casing _ _ Hk HK), (countq_none cs_quotes _ _ Hd' ltac:(vmr)).
    rewrite (countq_none cs_quotes _ _ Hw1' ltac:(vmr)), (countq_none cs_quotes _ _ Hw2' ltac:(vmr)), (countq_none cs_quotes _ _ Hu' ltac:(vmr)).
    rewrite (countq_none cs_quotes _ _ Hw3' ltac:(vmr)), (countq_none cs_quotes _ _ Hw4' ltac:(vmr)).
    rewrite (countq_none cs_quotes _ _ Hdash' ltac:(vmr)), (countq_none cs_quotes _ _ Hfl ltac:(vmr)).
    reflexivity.
  - unfold h. norm_app2.
  - exact Hq3'.
  - exact Hv'.
  - exact Hq4'.
Qed.
End Renderings2.
