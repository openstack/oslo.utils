(* Proofs/C04_Abs.v — a verified "cannot match" checker.  The subject is described abstractly as
   a list of segments (one character of a class / a run over a class / the key in some casing);
   [am] over-approximates the backtracking matcher on every string the description covers:
   when it answers false, no such string has a match of the regex starting at its first
   character.  Occurrences of the key are handled exactly: the description records that the key
   (in the case-insensitive sense of the patterns) starts at the [AKey] segments and nowhere else. *)
Require Import OV.Base.Bytes OV.Base.PyInt OV.Base.Regex OV.Base.C04_Tmpl.
Require Import OV.Proofs.C11_Regex OV.Proofs.C04_Regex OV.Proofs.C04_Quote.
Open Scope N_scope.

Inductive aseg := AOne (cs : cset) | ARun (cs : cset) (ne : bool) | AKey (l : list cset).
Definition asub := list aseg.

Fixpoint cset_eqb (a b : cset) : bool :=
  match a, b with
  | [], [] => true
  | (l1, h1) :: a', (l2, h2) :: b' => (l1 =? l2) && (h1 =? h2) && cset_eqb a' b'
  | _, _ => false
  end.

(* r = (Chr c1)(Chr c2)…(Chr cn) rest  for the key's sets c1…cn *)
Fixpoint strip_key (l : list cset) (r : re) : option re :=
  match l with
  | [] => Some r
  | c :: l' => match r with
               | Seq (Chr cs) r' => if cset_eqb cs c then strip_key l' r' else None
               | _ => None
               end
  end.

Section Abs.
Variable kcs : list cset.        (* the IGNORECASE sets of the key's characters *)

Definition overlaps (a b : cset) : bool := negb (cset_disj a b).

(* NB: written with if-then-else, not && / ||: under the call-by-value VM both arguments of a
   boolean operator are evaluated, which would explore the whole backtracking tree *)
Fixpoint achr (cs : cset) (A : asub) (k : asub -> bool) : bool :=
  match A with
  | [] => false
  | AOne c :: A' => if overlaps cs c then k A' else false
  | AKey [] :: A' => achr cs A' k
  | AKey (c :: l) :: A' => if overlaps cs c then k (map AOne l ++ A') else false
  | ARun c ne :: A' =>
      if (if overlaps cs c then k (ARun c false :: A') else false) then true
      else if ne then false else achr cs A' k
  end.

Fixpoint arep (cs : cset) (A : asub) (k : asub -> bool) : bool :=
  if k A then true else
  match A with
  | [] => false
  | AOne c :: A' => if overlaps cs c then arep cs A' k else false
  | AKey l :: A' =>
      (fix go (l : list cset) : bool :=
         match l with
         | [] => arep cs A' k
         | c :: l' => if overlaps cs c then (if k (map AOne l' ++ A') then true else go l') else false
         end) l
  | ARun c ne :: A' =>
      if (if overlaps cs c then k (ARun c false :: A') else false) then true
      else if (if overlaps cs c then true else negb ne) then arep cs A' k else false
  end.

Fixpoint akeyop (A : asub) (k : asub -> bool) : bool :=
  match A with
  | AKey _ :: A' => k A'
  | ARun _ false :: A' => akeyop A' k
  | _ => false
  end.

Fixpoint am (f : nat) (r : re) (A : asub) (k : asub -> bool) : bool :=
  match f with
  | O => true
  | S f' =>
    match (match kcs with [] => None | _ => strip_key kcs r end) with
    | Some rest => akeyop A (fun A' => am f' rest A' k)
    | None =>
      match r with
      | Eps => k A
      | Chr cs => achr cs A k
      | Seq a b => am f' a A (fun A' => am f' b A' k)
      | Rep cs mn mx =>
          match mn with
          | O => arep cs A k
          | S n => achr cs A (fun A' => am f' (Rep cs n (option_map pred mx)) A' k)
          end
      | Group _ a => am f' a A k
      | _ => true
      end
    end
  end.

Fixpoint tails {X} (l : list X) : list (list X) := match l with [] => [] | _ :: l' => l' :: tails l' end.
Definition key_interiors (l : list cset) (A' : asub) : list asub := map (fun l2 => map AOne l2 ++ A') (tails l).

(* an abstract description of every suffix of the subject *)
Fixpoint positions (A : asub) : list asub :=
  match A with
  | [] => [[]]
  | seg :: A' =>
      match seg with
      | AOne _ => [A]
      | ARun c ne => [A; ARun c false :: A']
      | AKey l => A :: key_interiors l A'
      end ++ positions A'
  end.

Fixpoint any_pos (f : nat) (r : re) (l : list asub) : bool :=
  match l with [] => false | A' :: t => if am f r A' (fun _ => true) then true else any_pos f r t end.
Definition may_match_somewhere (f : nat) (r : re) (A : asub) : bool := any_pos f r (positions A).
End Abs.

(* A pattern that begins with the key (inside its first group) can only start where the subject is headed by the
   key.  [am] finds that out too, but only after strip_key has walked the whole key, at every position; here the
   pattern is looked at once and the other positions are skipped. *)
Fixpoint key_head (A : asub) : bool :=
  match A with AKey _ :: _ => true | ARun _ false :: A' => key_head A' | _ => false end.
Lemma akeyop_no_head A k : key_head A = false -> akeyop A k = false.
Proof.
  induction A as [|[c|c [|]|l] A IH]; cbn [key_head akeyop]; intros H; try reflexivity; [exact (IH H)|discriminate].
Qed.
Definition starts_with_key (kcs : list cset) (r : re) : bool :=
  match kcs, r with
  | _ :: _, Seq (Group _ a) _ => match strip_key kcs a with Some _ => true | None => false end
  | _, _ => false
  end.
Lemma am_starts_with_key kcs f r A k :
  starts_with_key kcs r = true -> key_head A = false -> am kcs (S (S (S f))) r A k = false.
Proof.
  unfold starts_with_key. destruct kcs as [|c0 l0]; [discriminate|].
  destruct r as [| |r1 b| | | | | |]; try discriminate. destruct r1 as [| | | | | |i a| |]; try discriminate.
  destruct (strip_key (c0 :: l0) a) as [rest|] eqn:E; [|discriminate]. intros _ HA.
  cbn [am]. change (strip_key (c0 :: l0) (Seq (Group i a) b)) with (@None re). cbn [am].
  change (strip_key (c0 :: l0) (Group i a)) with (@None re). cbn [am]. rewrite E. apply akeyop_no_head. exact HA.
Qed.
Fixpoint any_pos_k (kcs : list cset) (ks : bool) (f : nat) (r : re) (l : list asub) : bool :=
  match l with
  | [] => false
  | A' :: t => if (if ks then (if key_head A' then am kcs f r A' (fun _ => true) else false) else am kcs f r A' (fun _ => true))
               then true else any_pos_k kcs ks f r t
  end.
Definition may_match_key (kcs : list cset) (f : nat) (r : re) (A : asub) : bool :=
  any_pos_k kcs (starts_with_key kcs r) f r (positions A).
Lemma may_match_key_eq kcs f r A :
  may_match_key kcs (S (S (S f))) r A = may_match_somewhere kcs (S (S (S f))) r A.
Proof.
  unfold may_match_key, may_match_somewhere. induction (positions A) as [|A' t IH]; [reflexivity|].
  cbn [any_pos_k any_pos]. rewrite IH. destruct (starts_with_key kcs r) eqn:Ks; [|reflexivity].
  destruct (key_head A') eqn:Kh; [reflexivity|]. rewrite (am_starts_with_key kcs f r A' _ Ks Kh). reflexivity.
Qed.

(* Soundness                                                              *)
Lemma cset_eqb_eq a : forall b, cset_eqb a b = true -> a = b.
Proof.
  induction a as [|[l1 h1] a IH]; intros [|[l2 h2] b] H; cbn in H; try discriminate; [reflexivity|].
  apply andb_true_iff in H. destruct H as [H H3]. apply andb_true_iff in H. destruct H as [H1 H2].
  apply N.eqb_eq in H1, H2. subst. f_equal. apply IH. exact H3.
Qed.

Lemma overlaps_true a b c : cmem c a = true -> cmem c b = true -> overlaps a b = true.
Proof.
  intros Ha Hb. unfold overlaps. destruct (cset_disj a b) eqn:D; [|reflexivity].
  rewrite (cset_disj_sound _ _ _ D Ha) in Hb. discriminate.
Qed.

Definition fits_cs (l : list cset) (K : str) : Prop := Forall2 (fun cs c => cmem c cs = true) l K.

Lemma strip_key_sound l : forall r rest, strip_key l r = Some rest ->
  forall s p s' p', mt r s p s' p' -> exists K s1 p1, s = K ++ s1 /\ fits_cs l K /\ mt rest s1 p1 s' p'.
Proof.
  induction l as [|c l IH]; intros r rest H s p s' p' M; cbn [strip_key] in H.
  - inversion H; subst. exists [], s, p. repeat split; [constructor|exact M].
  - destruct r as [| |a b| | | | | |]; try discriminate. destruct a as [|cs| | | | | | |]; try discriminate.
    destruct (cset_eqb cs c) eqn:E; [|discriminate]. apply cset_eqb_eq in E. subst cs.
    destruct (mt_seq_inv _ _ _ _ _ _ M) as (s1 & p1 & Ma & Mb).
    destruct (mt_chr_inv _ _ _ _ _ Ma) as (x & -> & Hx & ->).
    destruct (IH _ _ H _ _ _ _ Mb) as (K & s2 & p2 & -> & HK & Mr).
    exists (x :: K), s2, p2. repeat split; [constructor; assumption|exact Mr].
Qed.

Lemma casing_fits_gen tbl k0 K : casing_ok tbl k0 K <-> fits_cs (map (ci_lookup tbl) k0) K.
Proof.
  unfold casing_ok, fits_cs. split; intros H.
  - induction H; cbn [map]; constructor; assumption.
  - revert K H. induction k0 as [|c k' IH]; intros K H; cbn [map] in H; inversion H; subst; constructor; auto.
Qed.

Section Sound.
Variable tbl : list (N * cset).
Variable k : str.
Hypothesis k_ne : k <> [].
Let kcs := map (ci_lookup tbl) k.

Lemma casing_fits K : casing_ok tbl k K <-> fits_cs kcs K.
Proof. apply casing_fits_gen. Qed.

(* the key, in the case-insensitive sense of the patterns, starts here *)
Definition ci_prefix (s : str) : Prop := exists K s', s = K ++ s' /\ casing_ok tbl k K.
Definition noocc (s : str) : Prop := ~ ci_prefix s.

(* concretisation: the string has this shape, and the key starts exactly at the AKey segments *)
Inductive conc : asub -> str -> Prop :=
| conc_nil : conc [] []
| conc_one cs c A s : cmem c cs = true -> noocc (c :: s) -> conc A s -> conc (AOne cs :: A) (c :: s)
| conc_run cs ne run A s : all_in cs run = true -> (ne = true -> run <> []) ->
    (forall a b, run = a ++ b -> b <> [] -> noocc (b ++ s)) -> conc A s -> conc (ARun cs ne :: A) (run ++ s)
| conc_key l K A s : l = kcs -> casing_ok tbl k K ->
    (forall a b, K = a ++ b -> a <> [] -> b <> [] -> noocc (b ++ s)) -> conc A s -> conc (AKey l :: A) (K ++ s).

Lemma kcs_ne : kcs <> [].
Proof. unfold kcs. intros E. apply map_eq_nil in E. exact (k_ne E). Qed.

Lemma conc_ones l b A s : fits_cs l b ->
  (forall a' b', b = a' ++ b' -> b' <> [] -> noocc (b' ++ s)) -> conc A s -> conc (map AOne l ++ A) (b ++ s).
Proof.
  intros H. induction H as [|cs c l b Hc _ IH]; intros Hn HA; [exact HA|].
  cbn [map app]. constructor; [exact Hc| |].
  - apply (Hn [] (c :: b)); [reflexivity|discriminate].
  - apply IH; [|exact HA]. intros a' b' E Hb. apply (Hn (c :: a') b'); [rewrite E; reflexivity|exact Hb].
Qed.

Lemma achr_sound cs kont : forall A s0, conc A s0 -> forall c s, s0 = c :: s -> cmem c cs = true ->
  (forall A', conc A' s -> kont A' = true) -> achr cs A kont = true.
Proof.
  induction 1 as [|cs0 c0 A s0 Hc0 Hn HA IH|cs0 ne run A s0 Hr Hne Hn HA IH|l K A s0 El HK Hn HA IH]; intros c s E Hc Hk.
  - discriminate.
  - inversion E; subst. cbn [achr]. rewrite (overlaps_true _ _ _ Hc Hc0). apply Hk. exact HA.
  - cbn [achr]. destruct run as [|x run'].
    + cbn [app] in E. destruct ne; [exfalso; apply Hne; reflexivity|].
      rewrite (IH _ _ E Hc Hk). destruct (if overlaps cs cs0 then kont (ARun cs0 false :: A) else false); reflexivity.
    + cbn [app] in E. inversion E; subst x s. cbn [all_in forallb] in Hr. apply andb_true_iff in Hr. destruct Hr as [Hx Hr].
      rewrite (overlaps_true _ _ _ Hc Hx).
      rewrite Hk; [reflexivity|]. constructor; [exact Hr|discriminate| |exact HA].
      intros a b Eab Hb. apply (Hn (c :: a) b); [rewrite Eab; reflexivity|exact Hb].
  - apply casing_fits in HK. rewrite <- El in HK. destruct l as [|kc l']; [exfalso; apply kcs_ne; symmetry; exact El|].
    inversion HK as [|? x ? K' Hx HK']; subst kc l' K. cbn [app] in E. inversion E; subst x s.
    cbn [achr]. rewrite (overlaps_true _ _ _ Hc Hx). apply Hk.
    apply conc_ones; [exact HK'| |exact HA].
    intros a' b' Eab Hb. destruct a' as [|y a'].
    + cbn [app] in Eab. subst b'. apply (Hn [c] K'); [reflexivity|discriminate|exact Hb].
    + apply (Hn (c :: y :: a') b'); [rewrite Eab; reflexivity|discriminate|exact Hb].
Qed.

Lemma arep_k cs kont A : kont A = true -> arep cs A kont = true.
Proof. intros H. destruct A as [|[c|c ne|l] A]; cbn [arep]; rewrite H; reflexivity. Qed.

Lemma all_in_app cs a b : all_in cs (a ++ b) = true -> all_in cs a = true /\ all_in cs b = true.
Proof. unfold all_in. rewrite forallb_app. apply andb_true_iff. Qed.

Lemma arep_sound cs kont : forall A s, conc A s -> forall pre s', s = pre ++ s' -> all_in cs pre = true ->
  (forall A', conc A' s' -> kont A' = true) -> arep cs A kont = true.
Proof.
  induction 1 as [|cs0 c0 A s0 Hc0 Hn HA IH|cs0 ne run A s0 Hr Hne Hn HA IH|l K A s0 El HK Hn HA IH]; intros pre s' E Hp Hk.
  - destruct pre; [|discriminate]. cbn [app] in E. subst s'. apply arep_k. apply Hk. constructor.
  - destruct pre as [|c pre'].
    + cbn [app] in E. subst s'. apply arep_k. apply Hk. constructor; assumption.
    + cbn [app] in E. inversion E; subst c0 s0. cbn [all_in forallb] in Hp. apply andb_true_iff in Hp. destruct Hp as [Hc Hp].
      cbn [arep]. destruct (kont (AOne cs0 :: A)); [reflexivity|].
      rewrite (overlaps_true _ _ _ Hc Hc0). apply (IH pre' s' eq_refl Hp Hk).
  - destruct pre as [|c pre'].
    + cbn [app] in E. subst s'. apply arep_k. apply Hk. constructor; assumption.
    + cbn [arep]. destruct (kont (ARun cs0 ne :: A)); [reflexivity|].
      apply app_eq_app in E. destruct E as (l & [[E1 E2]|[E1 E2]]).
      * (* the consumed text ends inside the run *)
        rewrite E1 in Hr. apply all_in_app in Hr. destruct Hr as [Hpr Hl].
        cbn [all_in forallb] in Hpr, Hp. apply andb_true_iff in Hpr. apply andb_true_iff in Hp.
        destruct Hpr as [Hx _]. destruct Hp as [Hc _]. rewrite (overlaps_true _ _ _ Hc Hx).
        rewrite Hk; [reflexivity|]. rewrite E2. constructor; [exact Hl|discriminate| |exact HA].
        intros a b Eab Hb. apply (Hn ((c :: pre') ++ a) b); [rewrite E1, Eab, app_assoc; reflexivity|exact Hb].
      * (* the consumed text goes beyond the run *)
        assert (Hov : (if overlaps cs cs0 then true else negb ne) = true).
        { destruct run as [|x run'].
          - destruct ne; [exfalso; apply Hne; reflexivity|]. destruct (overlaps cs cs0); reflexivity.
          - cbn [app] in E1. inversion E1; subst x. cbn [all_in forallb] in Hr, Hp.
            apply andb_true_iff in Hr. apply andb_true_iff in Hp. destruct Hr as [Hx _]. destruct Hp as [Hc _].
            rewrite (overlaps_true _ _ _ Hc Hx). reflexivity. }
        rewrite Hov. rewrite E1 in Hp. apply all_in_app in Hp. destruct Hp as [_ Hl].
        rewrite (IH l s' E2 Hl Hk).
        destruct (if overlaps cs cs0 then kont (ARun cs0 false :: A) else false); reflexivity.
  - destruct pre as [|c pre'].
    + cbn [app] in E. subst s'. apply arep_k. apply Hk. econstructor; eassumption.
    + cbn [arep]. destruct (kont (AKey l :: A)); [reflexivity|].
      match goal with |- ?g l = true => set (go := g) end.
      apply casing_fits in HK. rewrite <- El in HK.
      assert (G : forall l b, fits_cs l b ->
                  (forall a' b', b = a' ++ b' -> a' <> [] -> b' <> [] -> noocc (b' ++ s0)) ->
                  forall pre, (pre <> [] \/ b = []) -> b ++ s0 = pre ++ s' -> all_in cs pre = true -> go l = true).
      { clear E Hp HK Hn. intros l0 b Hf. induction Hf as [|c0 x l' b' Hx Hf' IHf]; intros Hi pre Hd Eb Hp.
        - cbn [app] in Eb. change (go []) with (arep cs A kont). apply (IH pre s' Eb Hp Hk).
        - destruct pre as [|y pre2]; [destruct Hd as [Hd|Hd]; [congruence|discriminate]|].
          cbn [app] in Eb. inversion Eb as [[Ey Eb']]. subst y.
          cbn [all_in forallb] in Hp. apply andb_true_iff in Hp. destruct Hp as [Hy Hp].
          change (go (c0 :: l')) with (if overlaps cs c0 then (if kont (map AOne l' ++ A) then true else go l') else false).
          rewrite (overlaps_true _ _ _ Hy Hx).
          assert (Hi' : forall a' b'', b' = a' ++ b'' -> b'' <> [] -> noocc (b'' ++ s0)).
          { intros a' b'' Eab Hb. apply (Hi (x :: a') b''); [rewrite Eab; reflexivity|discriminate|exact Hb]. }
          destruct pre2 as [|z pre3].
          + cbn [app] in Eb'. rewrite Hk; [reflexivity|]. rewrite <- Eb'. apply conc_ones; assumption.
          + assert (Hgo : go l' = true).
            { apply IHf with (pre := z :: pre3);
                [intros a' b'' E1 _ H2; exact (Hi' a' b'' E1 H2)|left; discriminate|exact Eb'|exact Hp]. }
            rewrite Hgo. destruct (kont (map AOne l' ++ A)); reflexivity. }
      apply G with (b := K) (pre := c :: pre'); [exact HK|exact Hn|left; discriminate|exact E|exact Hp].
Qed.

Lemma app_eq_len {A} (a b x y : list A) : length a = length b -> a ++ x = b ++ y -> a = b /\ x = y.
Proof.
  revert b. induction a as [|c a IH]; intros [|d b] L E; cbn in L; try discriminate.
  - split; [reflexivity|exact E].
  - cbn [app] in E. inversion E; subst. destruct (IH b ltac:(lia) H1) as [-> ->]. split; reflexivity.
Qed.

Lemma akeyop_sound kont : forall A s, conc A s -> forall K s1, s = K ++ s1 -> casing_ok tbl k K ->
  (forall A', conc A' s1 -> kont A' = true) -> akeyop A kont = true.
Proof.
  induction 1 as [|cs0 c0 A s0 Hc0 Hn HA IH|cs0 ne run A s0 Hr Hne Hn HA IH|l K0 A s0 El HK0 Hn HA IH]; intros K s1 E HK Hk.
  - exfalso. destruct K; [|discriminate]. inversion HK. apply k_ne. congruence.
  - exfalso. apply Hn. exists K, s1. split; assumption.
  - destruct run as [|x run'].
    + destruct ne; [exfalso; apply Hne; reflexivity|]. cbn [akeyop]. apply (IH K s1 E HK Hk).
    + exfalso. apply (Hn [] (x :: run')); [reflexivity|discriminate|]. exists K, s1. split; assumption.
  - cbn [akeyop]. apply Hk.
    assert (L : length K0 = length K).
    { unfold casing_ok in *. rewrite (Forall2_len _ _ _ HK0), (Forall2_len _ _ _ HK). reflexivity. }
    destruct (app_eq_len _ _ _ _ L E) as [_ <-]. exact HA.
Qed.

Lemma run_len_S cs s mx j : (S j <= run_len cs s mx)%nat ->
  exists c t, s = c :: t /\ cmem c cs = true /\ (j <= run_len cs t (option_map pred mx))%nat.
Proof.
  destruct s as [|c t]; cbn [run_len]; [lia|]. intros H. exists c, t.
  destruct mx as [[|m]|]; try lia; destruct (cmem c cs); try lia; repeat split; lia.
Qed.

Lemma am_sound : forall f r A s p s' p' kont, conc A s -> mt r s p s' p' ->
  (forall A', conc A' s' -> kont A' = true) -> am kcs f r A kont = true.
Proof.
  induction f as [|f IH]; intros r A s p s' p' kont HA M Hk; [reflexivity|].
  cbn [am]. pose proof kcs_ne as Hne. remember kcs as l0 eqn:El0.
  assert (Hs : (match l0 with [] => None | _ :: _ => strip_key l0 r end) = strip_key l0 r) by (destruct l0; [congruence|reflexivity]).
  rewrite Hs. clear Hs. destruct (strip_key l0 r) as [rest|] eqn:S.
  - destruct (strip_key_sound _ _ _ S _ _ _ _ M) as (K & s1 & p1 & -> & HK & Mr).
    rewrite El0 in HK. apply casing_fits in HK.
    apply (akeyop_sound _ A (K ++ s1) HA K s1 eq_refl HK).
    intros A' HA'. apply (IH rest A' s1 p1 s' p' kont HA' Mr Hk).
  - destruct r as [|cs|a b|a b|cs mn mx|a|i a| |]; try reflexivity.
    + inversion M; subst. apply Hk. exact HA.
    + destruct (mt_chr_inv _ _ _ _ _ M) as (c & -> & Hc & _). apply (achr_sound cs kont A _ HA c s' eq_refl Hc Hk).
    + destruct (mt_seq_inv _ _ _ _ _ _ M) as (s1 & p1 & Ma & Mb).
      apply (IH a A s p s1 p1 _ HA Ma). intros A' HA'. apply (IH b A' s1 p1 s' p' kont HA' Mb Hk).
    + destruct (mt_rep_inv _ _ _ _ _ _ _ M) as (j & Hj & -> & _). destruct mn as [|n].
      * apply (arep_sound cs kont A s HA (firstn j s) (skipn j s)); [symmetry; apply firstn_skipn| |exact Hk].
        apply (firstn_all_in cs s mx). lia.
      * destruct j as [|j]; [lia|]. destruct (run_len_S cs s mx j ltac:(lia)) as (c & t & -> & Hc & Hj').
        apply (achr_sound cs _ A _ HA c t eq_refl Hc). intros A' HA'.
        apply (IH (Rep cs n (option_map pred mx)) A' t (p + 1) (skipn j t) (p + 1 + N.of_nat j) kont HA'); [|exact Hk].
        constructor. lia.
    + apply (IH a A s p s' p' kont HA (mt_group_inv _ _ _ _ _ _ M) Hk).
Qed.

Lemma tails_fits (l0 : list cset) : forall a l, fits_cs l0 (a ++ l) -> a <> [] -> exists l2, In l2 (tails l0) /\ fits_cs l2 l.
Proof.
  induction l0 as [|c l0 IH]; intros a l H Ha.
  - inversion H. destruct a; [congruence|discriminate].
  - destruct a as [|x a]; [congruence|]. cbn [app] in H. inversion H; subst. cbn [tails].
    destruct a as [|y a].
    + exists l0. split; [left; reflexivity|assumption].
    + destruct (IH (y :: a) l ltac:(assumption) ltac:(discriminate)) as (l2 & Hin & Hf).
      exists l2. split; [right; exact Hin|exact Hf].
Qed.

Lemma positions_sound : forall A s, conc A s -> forall a b, s = a ++ b -> exists A', In A' (positions A) /\ conc A' b.
Proof.
  induction 1 as [|cs0 c0 A s0 Hc0 Hn HA IH|cs0 ne run A s0 Hr Hne Hn HA IH|l K A s0 El HK Hn HA IH]; intros a b E.
  - destruct a; [|discriminate]. cbn [app] in E. subst b. exists []. split; [left; reflexivity|constructor].
  - destruct a as [|x a].
    + cbn [app] in E. subst b. exists (AOne cs0 :: A). split; [left; reflexivity|constructor; assumption].
    + cbn [app] in E. inversion E; subst x s0. destruct (IH a b eq_refl) as (A' & Hin & Hc).
      exists A'. split; [cbn [positions]; apply in_or_app; right; exact Hin|exact Hc].
  - apply app_eq_app in E. destruct E as (l & [[E1 E2]|[E1 E2]]).
    + destruct a as [|x a].
      * cbn [app] in E1. subst l b. exists (ARun cs0 ne :: A). split; [left; reflexivity|constructor; assumption].
      * exists (ARun cs0 false :: A). split; [cbn [positions app]; right; left; reflexivity|].
        rewrite E2. rewrite E1 in Hr. apply all_in_app in Hr. destruct Hr as [_ Hl].
        constructor; [exact Hl|discriminate| |exact HA].
        intros a' b' Eab Hb. apply (Hn ((x :: a) ++ a') b'); [rewrite E1, Eab, app_assoc; reflexivity|exact Hb].
    + destruct (IH l b E2) as (A' & Hin & Hc). exists A'. split; [cbn [positions]; apply in_or_app; right; exact Hin|exact Hc].
  - apply app_eq_app in E. destruct E as (l2 & [[E1 E2]|[E1 E2]]).
    + destruct a as [|x a].
      * cbn [app] in E1. subst l2 b. exists (AKey l :: A). split; [left; reflexivity|econstructor; eassumption].
      * destruct l2 as [|y l2].
        -- rewrite app_nil_r in E1. cbn [app] in E2. subst b. destruct (IH [] s0 eq_refl) as (A' & Hin & Hc).
           exists A'. split; [cbn [positions]; apply in_or_app; right; exact Hin|exact Hc].
        -- apply casing_fits in HK. rewrite <- El in HK. rewrite E1 in HK.
           destruct (tails_fits l (x :: a) (y :: l2) HK ltac:(discriminate)) as (l3 & Hin & Hf).
           exists (map AOne l3 ++ A). split.
           ++ cbn [positions]. apply in_or_app. left. right. unfold key_interiors. apply in_map_iff. exists l3. split; [reflexivity|exact Hin].
           ++ rewrite E2. apply conc_ones; [exact Hf| |exact HA].
              intros a' b' Eab Hb. destruct a' as [|z a'].
              ** cbn [app] in Eab. subst b'. apply (Hn (x :: a) (y :: l2)); [exact E1|discriminate|discriminate].
              ** apply (Hn ((x :: a) ++ z :: a') b'); [rewrite E1, Eab, app_assoc; reflexivity|discriminate|exact Hb].
    + destruct (IH l2 b E2) as (A' & Hin & Hc). exists A'. split; [cbn [positions]; apply in_or_app; right; exact Hin|exact Hc].
Qed.

Lemma any_pos_false f r : forall L, any_pos kcs f r L = false -> forall A', In A' L -> am kcs f r A' (fun _ => true) = false.
Proof.
  induction L as [|A0 L IH]; intros H A' Hin; [destruct Hin|]. cbn [any_pos] in H.
  destruct (am kcs f r A0 (fun _ => true)) eqn:E; [discriminate|]. destruct Hin as [<-|Hin]; [exact E|apply IH; assumption].
Qed.

(* the checker says "cannot match anywhere" => no suffix of any string of that shape has a match *)
Theorem abs_no_match f r A s : may_match_somewhere kcs f r A = false -> conc A s ->
  forall a b p, s = a ++ b -> match_at r b p = None.
Proof.
  intros H HA a b p E. destruct (match_at r b p) as [[e g]|] eqn:Em; [exfalso|reflexivity].
  unfold match_at in Em. apply m_sound in Em. destruct Em as (s' & p' & g' & M & _).
  destruct (positions_sound A s HA a b E) as (A' & Hin & Hc).
  pose proof (any_pos_false f r _ H A' Hin) as Hf.
  rewrite (am_sound f r A' b p s' p' (fun _ => true) Hc M (fun _ _ => eq_refl)) in Hf. discriminate.
Qed.
End Sound.

(* no match at any position => re_sub changes nothing *)
Lemma sub_go_none r t whole : forall s p, (forall a b q, s = a ++ b -> match_at r b q = None) ->
  sub_go r t whole s p 0 = s.
Proof.
  induction s as [|c rest IH]; intros p H; [reflexivity|]. cbn [sub_go].
  rewrite (H [] (c :: rest) p eq_refl). f_equal. apply IH. intros a b q E. apply (H (c :: a) b q). rewrite E. reflexivity.
Qed.

Theorem re_sub_none r t s : (forall a b q, s = a ++ b -> match_at r b q = None) -> re_sub r t s = s.
Proof. intros H. unfold re_sub. apply sub_go_none. exact H. Qed.
