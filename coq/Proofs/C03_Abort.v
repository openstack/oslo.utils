(* Proofs/C03_Abort.v — the expected-format abort: InspectWrapper(expected_format=f) raises ImageFormatError at
   the first chunk after which f's inspector is complete without matching.  That decision is FINAL: no
   continuation of the stream can make f's inspector match, nor (outside the known zones) give the content
   f's signature; and after the abort no format query ever names f. *)
Require Import OV.Base.Bytes OV.Base.Py OV.Base.C06_WrapShape OV.Base.Insp_Struct.
Require Import OV.Gen.Insp_Consts OV.Gen.C06_Wrapper OV.Model.Insp_Engine OV.Model.Insp_All.
Require Import OV.Model.Wrap OV.Model.C03.
Require Import OV.Proofs.C03_Total OV.Proofs.C03_Sig OV.Proofs.C06 OV.Proofs.C03_Wrap
               OV.Proofs.C03_Stable OV.Proofs.C03_All.
Open Scope N_scope.

Notation cfirst_abort := (first_abort istate eat complete cmatch).

Lemma first_abort_mismatch : forall cs i j, cfirst_abort i cs = Some (j, AbMismatch) ->
  exists i', eat_list i (firstn (S j) cs) = (i', None) /\ complete i' = true /\ cmatch i' = false /\ (j < length cs)%nat.
Proof.
  induction cs as [|c cs IH]; intros i j; cbn [first_abort]; [discriminate|].
  destruct (eat i c) as [i1 [e|]] eqn:He; [intros H; inversion H|].
  destruct (complete i1 && negb (cmatch i1)) eqn:Hc.
  - intros H; inversion H; subst. exists i1. cbn [firstn eat_list]. rewrite He.
    apply andb_true_iff in Hc. destruct Hc as [H1 H2]. apply negb_true_iff in H2. cbn [length]. repeat split; auto. lia.
  - destruct (cfirst_abort i1 cs) as [[k b]|] eqn:Hf; [|discriminate]. intros H; inversion H; subst.
    destruct (IH _ _ Hf) as (i' & H1 & H2 & H3 & H4). exists i'. cbn [firstn eat_list length]. rewrite He. repeat split; auto. lia.
Qed.

(* the inspector of the expected format f aborts the stream at chunk j (complete, no match): whatever
   follows, it stays as it is; it does not match after close either; outside f's zones the extended content
   does not carry f's signature *)
Theorem mismatch_abort_final f cs j more :
  cfirst_abort (init f) cs = Some (j, AbMismatch) ->
  let seen := firstn (S j) cs in
  complete (fst (eat_list (init f) seen)) = true /\ cmatch (fst (eat_list (init f) seen)) = false /\
  (exists p, fst (eat_list (init f) (seen ++ more)) = ipos (fst (eat_list (init f) seen)) p) /\
  cmatch (fst (run f (seen ++ more))) = false /\
  (in_zone f (concat (seen ++ more)) = false -> sigb f (concat (seen ++ more)) = false).
Proof.
  intros Hfa seen. destruct (first_abort_mismatch _ _ _ Hfa) as (i' & He & Hc & Hm & _). fold seen in He.
  assert (Hi : fst (eat_list (init f) seen) = i') by (rewrite He; reflexivity).
  rewrite Hi. split; [exact Hc|]. split; [exact Hm|].
  assert (Hc' : complete (fst (eat_list (init f) seen)) = true) by (rewrite Hi; exact Hc).
  destruct (after_more f seen more Hc') as (p & Hp). rewrite Hi in Hp.
  split; [eauto|].
  assert (Hrun : cmatch (fst (run f (seen ++ more))) = false).
  { destruct (run_fst_snd f (seen ++ more)) as [Hr _]. rewrite Hr. unfold cmatch.
    rewrite format_match_finish by (apply eat_list_reachable, reachable_init). rewrite Hp, format_match_ipos. exact Hm. }
  split; [exact Hrun|]. intros Hz. rewrite <- (match_is_signature_all f _ Hz). exact Hrun.
Qed.

Lemma factory_has f : In (fmt_name f, init f) factory.
Proof. unfold factory. apply in_map_iff. exists f. split; [reflexivity | apply all_formats_complete]. Qed.
Lemma factory_nodup : NoDup (map fst factory).
Proof. rewrite factory_names. exact all_formats_names_distinct. Qed.
