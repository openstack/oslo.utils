(* Proofs/C08_Heap.v — mask_dict_password with object identity (Model/C08_Heap.v):
   1 heaps, denotation of a location as a tree ([Den], decidable through [denote]);
   2 frame: everything that existed before the call is unmodified, on any heap; a structure that contains itself
     ends in RecursionError;
   3 agreement with the functional model on the tree the argument denotes, and freshness of the result's dicts;
   4 instances; 5 the sharing structure of the result ([Shr]): which result slots are which objects. *)
From Coq Require Import String.
Require Import OV.Base.Bytes OV.Base.Py OV.Base.Str.
Require Import OV.Model.C08_Syntax OV.Gen.C08_Keys OV.Gen.C08_Shape OV.Gen.C08_Frame.
Require Import OV.Model.C08 OV.Model.C08_Heap OV.Proofs.C08.
From Coq Require Import Arith.
Open Scope nat_scope.

(* 1. Heaps.                                                            *)

Lemma hget_lt h l o : hget h l = Some o -> l < length h.
Proof. unfold hget. intros H. apply nth_error_Some. congruence. Qed.

Lemma hget_app_old h e l : l < length h -> hget (h ++ e) l = hget h l.
Proof. unfold hget. apply nth_error_app1. Qed.

Lemma hget_alloc_new h o : hget (h ++ [o]) (length h) = Some o.
Proof. unfold hget. rewrite nth_error_app2 by lia. rewrite Nat.sub_diag. reflexivity. Qed.

Lemma length_hset h l o : length (hset h l o) = length h.
Proof. revert l. induction h as [|x h IH]; intros [|l]; cbn [hset length]; auto. Qed.

Lemma hget_hset_same h l o : l < length h -> hget (hset h l o) l = Some o.
Proof.
  revert l. induction h as [|x h IH]; intros [|l] H; cbn [hset length] in *; try lia; [reflexivity|].
  unfold hget in *. cbn [nth_error]. apply IH. lia.
Qed.

Lemma hget_hset_other h l o m : m <> l -> hget (hset h l o) m = hget h m.
Proof.
  revert l m. induction h as [|x h IH]; intros [|l] [|m] H; cbn [hset]; try reflexivity; try congruence.
  unfold hget in *. cbn [nth_error]. apply IH. congruence.
Qed.

(* [pres n h h']: h' is at least as long as h and agrees with it below n *)
Definition pres (n : nat) (h h' : heap) : Prop :=
  length h <= length h' /\ forall l, l < n -> hget h' l = hget h l.

Lemma pres_refl n h : pres n h h.
Proof. split; [lia|reflexivity]. Qed.

Lemma pres_trans n m h1 h2 h3 : n <= m -> n <= length h1 -> pres n h1 h2 -> pres m h2 h3 -> pres n h1 h3.
Proof.
  intros Hnm Hn [L1 P1] [L2 P2]. split; [lia|]. intros l Hl. rewrite P2 by lia. apply P1. exact Hl.
Qed.

Lemma pres_weaken n m h h' : n <= m -> pres m h h' -> pres n h h'.
Proof. intros Hnm [L P]. split; [exact L|]. intros l Hl. apply P. lia. Qed.

Lemma pres_app h e : pres (length h) h (h ++ e).
Proof. split; [rewrite app_length; lia|]. intros l Hl. apply hget_app_old. exact Hl. Qed.

(* the regenerated frame facts: a fresh dict, written to only, returned *)
Lemma gen_out_init_fresh : gen_out_init = InitFresh dict_kind. Proof. reflexivity. Qed.
Lemma gen_store_only_out : gen_store_vars = [VarOut]. Proof. reflexivity. Qed.
Lemma gen_return_out : gen_return_var = VarOut. Proof. reflexivity. Qed.

(* 1b. Denotation of a location as a tree.                              *)

Fixpoint DenItems (n0 : nat) (h : heap) (its : list (key * loc)) (vs : list (key * value)) {struct vs} : Prop :=
  match its, vs with
  | [], [] => True
  | (k, l') :: its', (k', v') :: vs' => k = k' /\ Den n0 h l' v' /\ DenItems n0 h its' vs'
  | _, _ => False
  end.

(* Den's inner fix is DenItems (Coq cannot name the nested fix of the model; it is restated once, here) *)
Lemma Den_VMap n0 h l kd vs :
  Den n0 h l (VMap kd vs) <->
  n0 <= l /\ exists items, hget h l = Some (PDict kd items) /\ DenItems n0 h items vs.
Proof.
  cbn [Den].
  assert (E : forall vs its,
    (fix items_den (its : list (key * loc)) (vs : list (key * value)) {struct vs} : Prop :=
       match its, vs with
       | [], [] => True
       | (k, l') :: its', (k', v') :: vs' => k = k' /\ Den n0 h l' v' /\ items_den its' vs'
       | _, _ => False
       end) its vs = DenItems n0 h its vs).
  { clear. induction vs as [|[k' v'] vs IH]; intros [|[k l'] its]; try reflexivity.
    cbn [DenItems]. rewrite IH. reflexivity. }
  split.
  - intros [H1 [items [H2 H3]]]. split; [exact H1|]. exists items. split; [exact H2|]. rewrite <- E. exact H3.
  - intros [H1 [items [H2 H3]]]. split; [exact H1|]. exists items. split; [exact H2|]. rewrite E. exact H3.
Qed.

Lemma DenItems_impl a h1 b h2 : forall vs its,
  Forall (fun kv => forall l, Den a h1 l (snd kv) -> Den b h2 l (snd kv)) vs ->
  DenItems a h1 its vs -> DenItems b h2 its vs.
Proof.
  induction vs as [|[k' v'] vs IH]; intros [|[k l'] its] HF H; cbn [DenItems] in *; try tauto.
  inversion HF as [|? ? Hv Hrest]; subst. cbn [snd] in Hv. destruct H as [H1 [H2 H3]].
  split; [exact H1|]. split; [apply Hv; exact H2|apply IH; assumption].
Qed.

Lemma Den_mono n1 n2 h : n1 <= n2 -> forall v l, Den n2 h l v -> Den n1 h l v.
Proof.
  intros Hn. induction v as [s|t|kd vs IH] using value_ind'; intros l H; try exact H.
  apply Den_VMap in H. apply Den_VMap. destruct H as [H1 [items [H2 H3]]]. split; [lia|].
  exists items. split; [exact H2|]. eapply DenItems_impl; [|exact H3]. exact IH.
Qed.

(* h2 may differ from h1 only at dict locations below n1 (and beyond h1's end) *)
Lemma Den_stable n1 h1 h2 :
  (forall m, m < length h1 -> hget h2 m = hget h1 m \/ (m < n1 /\ loc_is h1 m CMapping = true)) ->
  forall v l, Den n1 h1 l v -> Den n1 h2 l v.
Proof.
  intros Hag. induction v as [s|t|kd vs IH] using value_ind'; intros l H.
  1,2: cbn [Den] in *; destruct (Hag l (hget_lt _ _ _ H)) as [E|[_ E]]; [congruence|];
    unfold loc_is in E; rewrite H in E; discriminate.
  - apply Den_VMap in H. apply Den_VMap. destruct H as [H1 [items [H2 H3]]]. split; [exact H1|].
    exists items. split.
    + destruct (Hag l (hget_lt _ _ _ H2)) as [E|[E _]]; [congruence|lia].
    + eapply DenItems_impl; [|exact H3]. exact IH.
Qed.

Lemma Den_pres n1 h1 h2 v l : pres (length h1) h1 h2 -> Den n1 h1 l v -> Den n1 h2 l v.
Proof. intros [_ P]. apply Den_stable. intros m Hm. left. apply P. exact Hm. Qed.

(* the decidable route to the hypothesis [Den 0 h d t]: read the structure back with fuel *)
Lemma denote_sound : forall n h l v, denote n h l = Some v -> Den 0 h l v.
Proof.
  induction n as [|n IH]; intros h l v H; [discriminate|].
  cbn [denote] in H. destruct (hget h l) as [[kd items|s|t]|] eqn:E; try discriminate.
  - match type of H with match ?g items with _ => _ end = _ => set (go := g) in * end.
    destruct (go items) as [vs|] eqn:G; [|discriminate]. inversion H; subst. clear H.
    apply Den_VMap. split; [lia|]. exists items. split; [exact E|].
    clear E. revert vs G. induction items as [|[k l'] its IHi]; intros vs G; cbn in G.
    + inversion G. exact I.
    + destruct (denote n h l') as [v'|] eqn:Dv; [|discriminate].
      fold (go its) in G. destruct (go its) as [r|] eqn:Gr; [|discriminate]. inversion G; subst.
      cbn [DenItems]. split; [reflexivity|]. split; [apply IH; exact Dv|apply IHi; reflexivity].
  - inversion H; subst. exact E.
  - inversion H; subst. exact E.
Qed.

(* isinstance facts read from the heap = those of the denoted tree *)
Lemma Den_loc_is h l v c : Den 0 h l v -> loc_is h l c = val_is v c.
Proof.
  intros H. unfold loc_is.
  destruct v as [s|kd vs|t]; [cbn [Den] in H|apply Den_VMap in H; destruct H as [_ [items [H _]]]|cbn [Den] in H];
    rewrite H; destruct c; reflexivity.
Qed.

Lemma run_body_heap h k l v : Den 0 h l v -> run_body gen_body (env_h h k l) = run_body gen_body (env_of k v).
Proof.
  intros H. rewrite !gen_body_equiv. unfold spec_action, env_h, env_of. cbn [e_val_is e_key_is e_has].
  rewrite !(Den_loc_is h l v _ H). reflexivity.
Qed.

Lemma dict_set_den n h k nl nv : Den n h nl nv -> forall accv accl,
  DenItems n h accl accv -> DenItems n h (dict_set_l k nl accl) (dict_set k nv accv).
Proof.
  intros Hn. induction accv as [|[k' v'] accv IH]; intros [|[k0 l0] accl] H; cbn [DenItems] in H; try tauto.
  - cbn [dict_set_l dict_set DenItems]. auto.
  - destruct H as [H1 [H2 H3]]. subst k'. cbn [dict_set_l dict_set].
    destruct (key_eqb k0 k); cbn [DenItems]; auto.
Qed.

Lemma height_items kd vs f : height (VMap kd vs) < S f -> Forall (fun kv => height (snd kv) < f) vs.
Proof.
  cbn [height]. induction vs as [|kv vs IH]; intros H; constructor; cbn [fold_right] in H; [lia|].
  apply IH. lia.
Qed.


Section Frame.
  Variable mp_h : heap -> loc -> loc -> heap * loc.      (* mask_password on the heap *)
  (* contract, first half: it only allocates *)
  Hypothesis mp_h_extends : forall h m s, exists e, fst (mp_h h m s) = h ++ e.

  Notation mdp_h := (mdp_h mp_h).
  Notation go_h := (go_h mp_h).
  Notation entry_loc := (entry_loc mp_h).

  (* one level of the call, with the regenerated guard and frame terms decided *)
  Lemma mdp_h_S f h secret d :
    mdp_h (S f) h secret d =
    match hget h d with
    | Some (PDict _ items) =>
        match go_h (mdp_h f) secret [length h] items (h ++ [PDict dict_kind []]) with
        | Exn e => Exn e
        | Ok hf => Ok (hf, length h)
        end
    | Some _ => Exn TypeError
    | None => Exn OtherError
    end.
  Proof.
    cbn [C08_Heap.mdp_h]. rewrite gen_out_init_fresh, gen_store_only_out, gen_return_out.
    destruct (hget h d) as [[kd items|s|t]|]; reflexivity.
  Qed.

  Lemma mdp_h_result_loc fuel h secret d h' r : mdp_h fuel h secret d = Ok (h', r) -> r = length h.
  Proof.
    destruct fuel as [|f]; [discriminate|]. rewrite mdp_h_S.
    destruct (hget h d) as [[kd items|s|t]|]; try discriminate.
    destruct (C08_Heap.go_h _ _ _ _ _ _); [|discriminate]. intros H. inversion H. reflexivity.
  Qed.

  (* the reference stored for the entry (k, l) when l denotes v: the four rules again, on references *)
  Definition entry_ref (rec : heap -> loc -> loc -> res (heap * loc)) (hc : heap) (secret : loc)
             (k : key) (l : loc) (v : value) : res (heap * loc) :=
    if is_mapping v then rec hc secret l
    else Ok (if secret_key k then (hc, secret)
             else match v with VStr _ => mp_h hc l secret | _ => (hc, l) end).

  Lemma go_h_cons rec secret ts k l its hc v : Den 0 hc l v ->
    go_h rec secret ts ((k, l) :: its) hc =
    match entry_ref rec hc secret k l v with
    | Exn e => Exn e
    | Ok (h3, nl) =>
        match hstore_all h3 ts k nl with
        | Exn e => Exn e
        | Ok h4 => go_h rec secret ts its h4
        end
    end.
  Proof.
    intros HD. cbn [C08_Heap.go_h]. rewrite (run_body_heap hc k l v HD), entry_action. unfold entry_ref, plain_action.
    destruct (is_mapping v) eqn:Em; [reflexivity|]. destruct (secret_key k); [reflexivity|].
    destruct v; try discriminate; cbn [val_is C08_Heap.entry_loc secret_loc]; [|reflexivity].
    rewrite (Den_loc_is hc l _ CStr HD). reflexivity.
  Qed.

  (* 2. Frame: everything that existed before the call is unmodified.     *)
  (*    No hypothesis on the heap: sharing, cycles, anything.             *)

  Definition rec_frames (rec : heap -> loc -> loc -> res (heap * loc)) : Prop :=
    forall h s d h' r, rec h s d = Ok (h', r) -> pres (length h) h h'.

  Lemma secret_loc_pres hc dflt sa secret : pres (length hc) hc (fst (secret_loc hc dflt sa secret)).
  Proof. destruct sa; cbn; [apply pres_refl|apply pres_app]. Qed.

  Lemma entry_loc_frame rec hc secret a vl h3 nl :
    rec_frames rec -> entry_loc rec hc secret a vl = Ok (h3, nl) -> pres (length hc) hc h3.
  Proof.
    intros Hrec H. destruct a as [sa| |sa|]; cbn [C08_Heap.entry_loc] in H.
    - pose proof (secret_loc_pres hc gen_default_secret sa secret) as P.
      destruct (secret_loc hc gen_default_secret sa secret) as [h2 s2]. cbn [fst] in P.
      apply Hrec in H. eapply pres_trans; [| |exact P|exact H]; [apply P|lia].
    - inversion H; subst. apply pres_refl.
    - destruct (loc_is hc vl CStr); [|discriminate].
      pose proof (secret_loc_pres hc gen_mp_default_secret sa secret) as P.
      destruct (secret_loc hc gen_mp_default_secret sa secret) as [h2 s2]. cbn [fst] in P.
      destruct (mp_h_extends h2 vl s2) as [e He]. inversion H as [Hm]. 
      assert (h3 = h2 ++ e) by (rewrite <- He, Hm; reflexivity). subst h3.
      eapply pres_trans; [| |exact P|apply pres_app]; [apply P|lia].
    - inversion H; subst. apply pres_refl.
  Qed.

  (* a store into the dict at [out] changes that location only *)
  Lemma hstore_out h out k nl h4 :
    hstore_all h [out] k nl = Ok h4 ->
    length h4 = length h /\ (forall l, l <> out -> hget h4 l = hget h l) /\
    exists kd items, hget h out = Some (PDict kd items) /\ hget h4 out = Some (PDict kd (dict_set_l k nl items)).
  Proof.
    cbn [hstore_all]. unfold hstore. destruct (hget h out) as [[kd items| |]|] eqn:E; try discriminate.
    intros H. inversion H; subst. split; [apply length_hset|]. split.
    - intros l Hl. apply hget_hset_other. exact Hl.
    - exists kd, items. split; [reflexivity|]. apply hget_hset_same. eapply hget_lt. exact E.
  Qed.

  Lemma go_h_frame rec secret out items : rec_frames rec ->
    forall hc hf, go_h rec secret [out] items hc = Ok hf ->
    length hc <= length hf /\ forall l, l < length hc -> l <> out -> hget hf l = hget hc l.
  Proof.
    intros Hrec. induction items as [|[k vl] t IH]; intros hc hf H; cbn [C08_Heap.go_h] in H.
    - inversion H; subst. split; [lia|reflexivity].
    - destruct (run_body gen_body (env_h hc k vl)) as [[a|]|]; [|apply IH; exact H|discriminate].
      destruct (entry_loc rec hc secret a vl) as [[h3 nl]|] eqn:E; [|discriminate].
      apply entry_loc_frame in E; [|exact Hrec]. destruct E as [L3 P3].
      destruct (hstore_all h3 [out] k nl) as [h4|] eqn:S4; [|discriminate].
      apply hstore_out in S4. destruct S4 as [L4 [P4 _]].
      apply IH in H. destruct H as [Lf Pf]. split; [lia|].
      intros l Hl Hne. rewrite Pf by (try lia; exact Hne). rewrite P4 by exact Hne. apply P3. exact Hl.
  Qed.

  Theorem mdp_h_frame fuel : forall h secret d h' r,
    mdp_h fuel h secret d = Ok (h', r) -> pres (length h) h h'.
  Proof.
    induction fuel as [|f IH]; intros h secret d h' r H; [discriminate|].
    rewrite mdp_h_S in H. destruct (hget h d) as [[kd items|s|t]|]; try discriminate.
    destruct (go_h (mdp_h f) secret [length h] items (h ++ [PDict dict_kind []])) as [hf|] eqn:G; [|discriminate].
    inversion H; subst. apply go_h_frame in G; [|exact IH]. destruct G as [L P].
    rewrite app_length in L. cbn [length] in L. split; [lia|].
    intros l Hl. rewrite P; [apply hget_app_old; exact Hl|rewrite app_length; lia|lia].
  Qed.

  (* what the code does on a structure that contains itself: it recurses until the
     interpreter's limit (the fuel) — RecursionError, a RuntimeError *)
  Theorem cycle_RecursionError k kd rest d : forall fuel h secret,
    hget h d = Some (PDict kd ((k, d) :: rest)) -> mdp_h fuel h secret d = Exn RuntimeError.
  Proof.
    induction fuel as [|f IH]; intros h secret Hd; [reflexivity|].
    rewrite mdp_h_S, Hd. cbn [C08_Heap.go_h].
    assert (Hd' : hget (h ++ [PDict dict_kind []]) d = Some (PDict kd ((k, d) :: rest))).
    { rewrite hget_app_old; [exact Hd|eapply hget_lt; exact Hd]. }
    assert (Hrun : run_body gen_body (env_h (h ++ [PDict dict_kind []]) k d) = Ok (Some (ARecurse SecGiven))).
    { rewrite gen_body_equiv. unfold spec_action, env_h. cbn [e_val_is]. unfold loc_is. rewrite Hd'. reflexivity. }
    rewrite Hrun. cbn [C08_Heap.entry_loc secret_loc]. rewrite (IH _ secret Hd'). reflexivity.
  Qed.
End Frame.

Section Heap.
  Variable mp : str -> str -> str.                       (* mask_password on strings *)
  Variable mp_h : heap -> loc -> loc -> heap * loc.      (* ... and on the heap *)
  (* contract of mask_password on the heap: it only allocates, and the reference it returns
     holds mask_password(message, secret) — which may be a new object or an existing one *)
  Hypothesis mp_h_extends : forall h m s, exists e, fst (mp_h h m s) = h ++ e.
  Hypothesis mp_h_result : forall h m s ms ss,
    hget h m = Some (PStr ms) -> hget h s = Some (PStr ss) ->
    hget (fst (mp_h h m s)) (snd (mp_h h m s)) = Some (PStr (mp ms ss)).

  Notation mdp_h := (mdp_h mp_h).
  Notation go_h := (go_h mp_h).
  Notation entry_loc := (entry_loc mp_h).
  Let mdp_h_frame := mdp_h_frame mp_h mp_h_extends.

  (* 3. Agreement with the functional model; freshness of the result.     *)

  (* one store into the dict under construction at [o] *)
  Lemma store_step o hc h2 k nl nv accl accv :
    pres (length hc) hc h2 -> o < length hc ->
    hget hc o = Some (PDict dict_kind accl) ->
    DenItems (S o) hc accl accv -> Den (S o) h2 nl nv ->
    exists h3, hstore_all h2 [o] k nl = Ok h3 /\
      length h3 = length h2 /\
      (forall m, m <> o -> hget h3 m = hget h2 m) /\
      hget h3 o = Some (PDict dict_kind (dict_set_l k nl accl)) /\
      DenItems (S o) h3 (dict_set_l k nl accl) (dict_set k nv accv).
  Proof.
    intros HP Ho Hg HA HN.
    assert (Hg2 : hget h2 o = Some (PDict dict_kind accl)) by (rewrite (proj2 HP) by exact Ho; exact Hg).
    cbn [hstore_all]. unfold hstore. rewrite Hg2.
    set (h3 := hset h2 o (PDict dict_kind (dict_set_l k nl accl))).
    assert (O3 : forall m, m <> o -> hget h3 m = hget h2 m) by (intros m Hm; apply hget_hset_other; exact Hm).
    (* the store changes one dict below S o: whatever is read from S o on reads the same *)
    assert (D3 : forall v l, Den (S o) h2 l v -> Den (S o) h3 l v).
    { apply Den_stable. intros m Hm. destruct (Nat.eq_dec m o) as [->|Hne]; [right|left; apply O3; exact Hne].
      split; [lia|]. unfold loc_is. rewrite Hg2. reflexivity. }
    exists h3. split; [reflexivity|]. split; [apply length_hset|]. split; [exact O3|].
    split; [apply hget_hset_same; destruct HP; lia|].
    apply dict_set_den; [apply D3; exact HN|].
    eapply DenItems_impl; [|exact HA]. apply Forall_forall. intros kv _ l HD. apply D3, (Den_pres _ hc); assumption.
  Qed.

  Definition sound_h (v : value) : Prop :=
    forall fuel h d secret ss, height v < fuel -> Den 0 h d v -> is_mapping v = true ->
      hget h secret = Some (PStr ss) ->
      exists h' r t', mdp_h fuel h secret d = Ok (h', r) /\ mdp mp ss v = Ok t' /\ Den (length h) h' r t'.

  (* one entry: the reference stored denotes the value the functional model stores *)
  Lemma entry_ref_correct f hc secret ss k l v :
    sound_h v -> height v < f -> Den 0 hc l v -> hget hc secret = Some (PStr ss) ->
    exists h2 nl nv, entry_ref mp_h (mdp_h f) hc secret k l v = Ok (h2, nl) /\ entry_result mp ss k v = Ok nv /\
                     pres (length hc) hc h2 /\ Den (length hc) h2 nl nv.
  Proof.
    intros Hv Hh HD Hs. unfold entry_ref, entry_result. destruct (is_mapping v) eqn:Em.
    - destruct (Hv f hc l secret ss Hh HD Em Hs) as [h2 [r [t' [E1 [E2 D2]]]]].
      exists h2, r, t'. rewrite E1, E2. split; [reflexivity|]. split; [reflexivity|].
      split; [eapply mdp_h_frame; exact E1|exact D2].
    - destruct (secret_key k).
      + exists hc, secret, (VStr ss). split; [reflexivity|]. split; [reflexivity|]. split; [apply pres_refl|exact Hs].
      + destruct v as [s|kd vs|t]; [|discriminate|].
        * cbn [Den] in HD. pose proof (mp_h_result hc l secret s ss HD Hs) as R.
          destruct (mp_h_extends hc l secret) as [e He].
          destruct (mp_h hc l secret) as [h2 r]. cbn [fst snd] in R, He. subst h2.
          exists (hc ++ e), r, (VStr (mp s ss)). split; [reflexivity|]. split; [reflexivity|]. split; [apply pres_app|exact R].
        * exists hc, l, (VOther t). split; [reflexivity|]. split; [reflexivity|]. split; [apply pres_refl|exact HD].
  Qed.

  (* the walk over the items, storing into the fresh dict at [length h0] *)
  Lemma go_h_correct f h0 secret ss : hget h0 secret = Some (PStr ss) ->
    forall vs, Forall (fun kv => sound_h (snd kv)) vs -> Forall (fun kv => height (snd kv) < f) vs ->
    forall its hc accl accv,
      DenItems 0 h0 its vs -> pres (length h0) h0 hc -> length h0 < length hc ->
      hget hc (length h0) = Some (PDict dict_kind accl) -> DenItems (S (length h0)) hc accl accv ->
      exists hf accl' accv',
        go_h (mdp_h f) secret [length h0] its hc = Ok hf /\ go_items mp ss vs accv = Ok accv' /\
        pres (length h0) h0 hf /\ length h0 < length hf /\
        hget hf (length h0) = Some (PDict dict_kind accl') /\ DenItems (S (length h0)) hf accl' accv'.
  Proof.
    intros Hs. induction vs as [|[k' v] vs IH]; intros HS HH [|[k l] its] hc accl accv HD HP Hol Hgo HA;
      cbn [DenItems] in HD; try tauto.
    - exists hc, accl, accv. cbn [C08_Heap.go_h go_items]. auto 10.
    - destruct HD as [Hk [HDv HDr]]. subst k'.
      inversion HS as [|? ? Hv HSr]; subst. inversion HH as [|? ? Hhv HHr]; subst. cbn [snd] in Hv, Hhv.
      assert (HDc : Den 0 hc l v) by (eapply Den_pres; eassumption).
      assert (Hsc : hget hc secret = Some (PStr ss))
        by (rewrite (proj2 HP) by (eapply hget_lt; exact Hs); exact Hs).
      destruct (entry_ref_correct f hc secret ss k l v Hv Hhv HDc Hsc) as [h2 [nl [nv [E1 [E2 [P2 D2]]]]]].
      rewrite (go_h_cons mp_h _ _ _ _ _ _ _ _ HDc), E1. cbn [go_items]. rewrite E2.
      destruct (store_step (length h0) hc h2 k nl nv accl accv P2 Hol Hgo HA) as [h3 [S3 [L3 [O3 [G3 D3]]]]];
        [eapply Den_mono; [|exact D2]; lia|].
      rewrite S3. destruct P2 as [L2 P2]. destruct HP as [L0 P0].
      apply (IH HSr HHr its h3 (dict_set_l k nl accl) (dict_set k nv accv) HDr); [|lia|exact G3|exact D3].
      split; [lia|]. intros m Hm. rewrite O3 by lia. rewrite P2 by lia. apply P0. exact Hm.
  Qed.

  Lemma mdp_h_sound_all : forall v, sound_h v.
  Proof.
    induction v as [s|t|kd vs IH] using value_ind'; intros fuel h d secret ss Hh HD Hm Hs; try discriminate.
    destruct fuel as [|f]; [lia|].
    apply Den_VMap in HD. destruct HD as [_ [items [Hg HDi]]].
    rewrite mdp_h_S, Hg.
    destruct (go_h_correct f h secret ss Hs vs IH (height_items kd vs f Hh)
                items (h ++ [PDict dict_kind []]) [] [] HDi (pres_app h _))
      as [hf [accl' [accv' [G [F [P [Lo [Ho D]]]]]]]].
    - rewrite app_length. cbn [length]. lia.
    - apply hget_alloc_new.
    - exact I.
    - rewrite G. exists hf, (length h), (VMap dict_kind accv'). split; [reflexivity|]. split.
      + rewrite mdp_unfold, F. reflexivity.
      + apply Den_VMap. split; [lia|]. exists accl'. split; [exact Ho|].
        eapply DenItems_impl; [|exact D]. apply Forall_forall. intros kv _ l. apply Den_mono. lia.
  Qed.

  (* the argument reads back as the same tree after the call *)
  Corollary argument_denotes_the_same fuel h secret d h' r : mdp_h fuel h secret d = Ok (h', r) ->
    forall l v, Den 0 h l v -> Den 0 h' l v.
  Proof. intros H l v. apply Den_pres. eapply mdp_h_frame. exact H. Qed.

End Heap.

(* 4. Non-vacuity.                                                      *)

(* an instance of the abstract heap-level mask_password that meets the contract *)
Definition mp_h_alloc (mp : str -> str -> str) (h : heap) (m s : loc) : heap * loc :=
  match hget h m, hget h s with
  | Some (PStr ms), Some (PStr ss) => halloc h (PStr (mp ms ss))
  | _, _ => (h, m)
  end.
Lemma mp_h_alloc_extends mp h m s : exists e, fst (mp_h_alloc mp h m s) = h ++ e.
Proof.
  unfold mp_h_alloc. destruct (hget h m) as [[| ms|]|]; try (exists []; rewrite app_nil_r; reflexivity).
  destruct (hget h s) as [[| ss|]|]; try (exists []; rewrite app_nil_r; reflexivity).
  eexists. reflexivity.
Qed.
Lemma mp_h_alloc_result mp h m s ms ss :
  hget h m = Some (PStr ms) -> hget h s = Some (PStr ss) ->
  hget (fst (mp_h_alloc mp h m s)) (snd (mp_h_alloc mp h m s)) = Some (PStr (mp ms ss)).
Proof. intros Hm Hs. unfold mp_h_alloc. rewrite Hm, Hs. cbn [halloc fst snd]. apply hget_alloc_new. Qed.

(* a heap with sharing: d = {'password': s0, 'a': e, 'b': e, 'l': o} with e = {'token': o, 'note': s0}
   (e reachable twice, the list o and the string s0 shared), secret '***' at 4 *)
Definition ex_heap : heap :=
  [ PDict 0 [(KStr (lit "password"), 2); (KStr (lit "a"), 1); (KStr (lit "b"), 1); (KStr (lit "l"), 3)];
    PDict 3 [(KStr (lit "token"), 3); (KStr (lit "note"), 2)];
    PStr (lit "x");
    POther (lit "l[]");
    PStr (lit "***") ].

Example ex_heap_denotes : exists t, denote 6 ex_heap 0 = Some t /\ is_mapping t = true /\ height t < 3.
Proof. eexists. split; [vm_compute; reflexivity|split; [reflexivity|vm_compute; lia]]. Qed.

(* the call allocates locations 5.. ; the argument (0..4) is untouched; both results for e are
   new dicts (6 and 8; 7 and 9 are the masked strings); the list 3 and the secret 4 are shared by reference *)
Example ex_heap_run :
  mdp_h (mp_h_alloc toy_mp) 3 ex_heap 4 0 =
  Ok (ex_heap ++
      [ PDict 0 [(KStr (lit "password"), 4); (KStr (lit "a"), 6); (KStr (lit "b"), 8); (KStr (lit "l"), 3)];
        PDict 0 [(KStr (lit "token"), 4); (KStr (lit "note"), 7)];
        PStr (lit "<***>x");
        PDict 0 [(KStr (lit "token"), 4); (KStr (lit "note"), 9)];
        PStr (lit "<***>x") ], 5).
Proof. vm_compute. reflexivity. Qed.

(* a dict that contains itself *)
Example ex_cycle : forall fuel,
  mdp_h (mp_h_alloc toy_mp) fuel [PDict 0 [(KStr (lit "self"), 0)]; PStr (lit "***")] 1 0 = Exn RuntimeError.
Proof. intros fuel. eapply cycle_RecursionError. reflexivity. Qed.

(* 5. The sharing structure of the result.                              *)

Definition slot_ok (n0 : nat) (secret : loc) (h0 h' : heap) (k : key) (al rl : loc) (v' : value) : Prop :=
  match v' with
  | VMap _ _ => Shr n0 secret h0 h' al rl v'
  | VStr _ => if secret_key k then rl = secret else True
  | VOther _ => rl = if secret_key k then secret else al
  end.

Fixpoint ShrSlots (n0 : nat) (secret : loc) (h0 h' : heap) (aits rits : list (key * loc))
         (vs : list (key * value)) {struct vs} : Prop :=
  match aits, rits, vs with
  | [], [], [] => True
  | (k, al) :: aits', (k1, rl) :: rits', (k2, v') :: vs' =>
      k1 = k /\ k2 = k /\ slot_ok n0 secret h0 h' k al rl v' /\ ShrSlots n0 secret h0 h' aits' rits' vs'
  | _, _, _ => False
  end.

(* likewise: Shr's inner fix is ShrSlots *)
Lemma Shr_VMap n0 secret h0 h' a r kd vs :
  Shr n0 secret h0 h' a r (VMap kd vs) <->
  n0 <= r /\ exists aitems ritems,
    hget h0 a = Some (PDict kd aitems) /\ hget h' r = Some (PDict dict_kind ritems) /\
    ShrSlots n0 secret h0 h' aitems ritems vs.
Proof.
  cbn [Shr].
  assert (E : forall vs aits rits,
    (fix slots (aits rits : list (key * loc)) (vs : list (key * value)) {struct vs} : Prop :=
       match aits, rits, vs with
       | [], [], [] => True
       | (k, al) :: aits', (k1, rl) :: rits', (k2, v') :: vs' =>
           k1 = k /\ k2 = k /\
           match v' with
           | VMap _ _ => Shr n0 secret h0 h' al rl v'
           | VStr _ => if secret_key k then rl = secret else True
           | VOther _ => rl = if secret_key k then secret else al
           end /\ slots aits' rits' vs'
       | _, _, _ => False
       end) aits rits vs = ShrSlots n0 secret h0 h' aits rits vs).
  { clear. induction vs as [|[k2 v'] vs IH]; intros [|[k al] aits] [|[k1 rl] rits]; try reflexivity.
    cbn [ShrSlots]. unfold slot_ok. rewrite IH. reflexivity. }
  split.
  - intros [H1 [ai [ri [H2 [H3 H4]]]]]. split; [exact H1|]. exists ai, ri. rewrite <- E. auto.
  - intros [H1 [ai [ri [H2 [H3 H4]]]]]. split; [exact H1|]. exists ai, ri. rewrite E. auto.
Qed.

Lemma ShrSlots_impl a b secret h0 h1 h2 : forall vs aits rits,
  Forall (fun kv => forall al rl, Shr a secret h0 h1 al rl (snd kv) -> Shr b secret h0 h2 al rl (snd kv)) vs ->
  ShrSlots a secret h0 h1 aits rits vs -> ShrSlots b secret h0 h2 aits rits vs.
Proof.
  induction vs as [|[k2 v'] vs IH]; intros [|[k al] aits] [|[k1 rl] rits] HF H; cbn [ShrSlots] in *; try tauto.
  inversion HF as [|? ? Hv Hrest]; subst. cbn [snd] in Hv. destruct H as [H1 [H2 [H3 H4]]].
  split; [exact H1|]. split; [exact H2|]. split; [|apply IH; assumption].
  unfold slot_ok in *. destruct v'; auto.
Qed.

Lemma Shr_mono n1 n2 secret h0 h' : n1 <= n2 -> forall v a r, Shr n2 secret h0 h' a r v -> Shr n1 secret h0 h' a r v.
Proof.
  intros Hn. induction v as [s|t|kd vs IH] using value_ind'; intros a r H; try exact I.
  apply Shr_VMap in H. apply Shr_VMap. destruct H as [H1 [ai [ri [H2 [H3 H4]]]]]. split; [lia|].
  exists ai, ri. split; [exact H2|]. split; [exact H3|]. eapply ShrSlots_impl; [|exact H4]. exact IH.
Qed.

Lemma slot_ok_mono n1 n2 secret h0 h' k al rl v : n1 <= n2 -> slot_ok n2 secret h0 h' k al rl v -> slot_ok n1 secret h0 h' k al rl v.
Proof. intros Hn. unfold slot_ok. destruct v; auto. apply Shr_mono. exact Hn. Qed.

(* the relation reads the result heap only at dict locations >= n1 *)
Lemma Shr_stable n1 secret h0 h1 h2 :
  (forall m, n1 <= m -> m < length h1 -> hget h2 m = hget h1 m) ->
  forall v a r, Shr n1 secret h0 h1 a r v -> Shr n1 secret h0 h2 a r v.
Proof.
  intros Hag. induction v as [s|t|kd vs IH] using value_ind'; intros a r H; try exact I.
  apply Shr_VMap in H. apply Shr_VMap. destruct H as [H1 [ai [ri [H2 [H3 H4]]]]]. split; [exact H1|].
  exists ai, ri. split; [exact H2|]. split.
  - rewrite Hag; [exact H3|exact H1|eapply hget_lt; exact H3].
  - eapply ShrSlots_impl; [|exact H4]. exact IH.
Qed.

Lemma ShrSlots_stable n1 secret h0 h1 h2 aits rits vs :
  (forall m, n1 <= m -> m < length h1 -> hget h2 m = hget h1 m) ->
  ShrSlots n1 secret h0 h1 aits rits vs -> ShrSlots n1 secret h0 h2 aits rits vs.
Proof.
  intros Hag. apply ShrSlots_impl. apply Forall_forall. intros kv _ al rl. apply Shr_stable. exact Hag.
Qed.

Lemma ShrSlots_snoc n secret h0 h k al rl v : slot_ok n secret h0 h k al rl v ->
  forall pv pa pr, ShrSlots n secret h0 h pa pr pv ->
  ShrSlots n secret h0 h (pa ++ [(k, al)]) (pr ++ [(k, rl)]) (pv ++ [(k, v)]).
Proof.
  intros Hs. induction pv as [|[k2 v'] pv IH]; intros [|[k0 al0] pa] [|[k1 rl0] pr] H; cbn [ShrSlots] in H; try tauto.
  - cbn [app ShrSlots]. auto.
  - destruct H as [H1 [H2 [H3 H4]]]. cbn [app ShrSlots]. auto.
Qed.

Lemma dict_set_l_fresh k l d : ~ In k (map fst d) -> dict_set_l k l d = d ++ [(k, l)].
Proof.
  induction d as [|[k' l'] t IH]; intros H; [reflexivity|].
  cbn [dict_set_l map fst In app] in *.
  destruct (key_eqb k' k) eqn:E.
  - apply key_eqb_eq in E. subst. tauto.
  - rewrite IH by tauto. reflexivity.
Qed.

Lemma DenItems_keys n h : forall vs its, DenItems n h its vs -> map fst its = map fst vs.
Proof.
  induction vs as [|[k' v'] vs IH]; intros [|[k l] its] H; cbn [DenItems] in H; try tauto; try reflexivity.
  destruct H as [H1 [_ H3]]. cbn [map fst]. rewrite H1, (IH its H3). reflexivity.
Qed.

Section Sharing.
  Variable mp_h : heap -> loc -> loc -> heap * loc.
  Hypothesis mp_h_extends : forall h m s, exists e, fst (mp_h h m s) = h ++ e.
  Notation mdp_h := (mdp_h mp_h).
  Notation go_h := (go_h mp_h).

  (* h0: the heap in which the argument lives; hc: the (extended) heap at the time of the call *)
  Definition shr_at (h0 : heap) (secret : loc) (v : value) : Prop :=
    forall fuel hc d h' r, pres (length h0) h0 hc -> Den 0 h0 d v -> wf v = true -> is_mapping v = true ->
      mdp_h fuel hc secret d = Ok (h', r) -> Shr (length hc) secret h0 h' d r v.

  (* one entry: which object the stored reference is *)
  Lemma entry_ref_sharing f h0 hc secret k l v h2 nl :
    shr_at h0 secret v -> wf v = true -> pres (length h0) h0 hc -> Den 0 h0 l v ->
    entry_ref mp_h (mdp_h f) hc secret k l v = Ok (h2, nl) ->
    pres (length hc) hc h2 /\ slot_ok (length hc) secret h0 h2 k l nl v.
  Proof.
    intros Hv Hw HP HD E. unfold entry_ref in E. destruct (is_mapping v) eqn:Em.
    - split; [eapply mdp_h_frame; [exact mp_h_extends|exact E]|].
      pose proof (Hv f hc l h2 nl HP HD Hw Em E) as HS. destruct v; try discriminate. exact HS.
    - unfold slot_ok. destruct (secret_key k).
      + inversion E; subst. split; [apply pres_refl|]. destruct v; [reflexivity|discriminate|reflexivity].
      + destruct v as [s|kd vs|t]; [|discriminate|].
        * destruct (mp_h_extends hc l secret) as [e He]. destruct (mp_h hc l secret) as [h r].
          cbn [fst] in He. inversion E; subst. split; [apply pres_app|exact I].
        * inversion E; subst. split; [apply pres_refl|reflexivity].
  Qed.

  (* the walk over the items, storing into the fresh dict at o *)
  Lemma go_h_sharing f o h0 secret : length h0 <= o ->
    forall vs, Forall (fun kv => shr_at h0 secret (snd kv)) vs -> Forall (fun kv => wf (snd kv) = true) vs ->
    forall its hc accl paits pvs hf,
      DenItems 0 h0 its vs -> pres (length h0) h0 hc -> o < length hc ->
      hget hc o = Some (PDict dict_kind accl) ->
      (forall k, In k (map fst its) -> ~ In k (map fst accl)) -> NoDup (map fst its) ->
      ShrSlots (S o) secret h0 hc paits accl pvs ->
      go_h (mdp_h f) secret [o] its hc = Ok hf ->
      exists accl', hget hf o = Some (PDict dict_kind accl') /\
                    ShrSlots (S o) secret h0 hf (paits ++ its) accl' (pvs ++ vs).
  Proof.
    intros Hlo. induction vs as [|[k' v] vs IH]; intros HS HW [|[k l] its] hc accl paits pvs hf HD HP Hol Hgo Hdis Hnd HA G;
      cbn [DenItems] in HD; try tauto.
    - cbn [C08_Heap.go_h] in G. inversion G; subst. exists accl. rewrite !app_nil_r. auto.
    - destruct HD as [Hk [HDv HDr]]. subst k'.
      inversion HS as [|? ? Hv HSr]; subst. inversion HW as [|? ? Hwv HWr]; subst. cbn [snd] in Hv, Hwv.
      cbn [map fst] in Hnd. inversion Hnd as [|? ? Hkn Hnd']; subst.
      rewrite (go_h_cons mp_h _ _ _ _ _ _ _ v) in G by (eapply Den_pres; eassumption).
      destruct (entry_ref mp_h (mdp_h f) hc secret k l v) as [[h2 nl]|] eqn:E; [|discriminate].
      destruct (entry_ref_sharing f h0 hc secret k l v h2 nl Hv Hwv HP HDv E) as [[L2 P2] Hslot].
      destruct HP as [L0 P0].
      destruct (hstore_all h2 [o] k nl) as [h4|] eqn:S4; [|discriminate].
      apply hstore_out in S4. destruct S4 as [L4 [P4 [kd [items [Hg2 Hg4]]]]].
      rewrite P2 in Hg2 by exact Hol. rewrite Hgo in Hg2. inversion Hg2; subst kd items.
      rewrite dict_set_l_fresh in Hg4 by (apply Hdis; left; reflexivity).
      destruct (IH HSr HWr its h4 (accl ++ [(k, nl)]) (paits ++ [(k, l)]) (pvs ++ [(k, v)]) hf HDr) as [accl' [Ha Hb]].
      + split; [lia|]. intros m Hm. rewrite P4 by lia. rewrite P2 by lia. apply P0. exact Hm.
      + lia.
      + exact Hg4.
      + intros k0 Hin. rewrite map_app, in_app_iff. cbn [map fst In].
        intros [H|[H|[]]]; [apply (Hdis k0); [right; exact Hin|exact H]|subst; contradiction].
      + exact Hnd'.
      + apply ShrSlots_snoc.
        * apply (slot_ok_mono (S o) (length hc)) in Hslot; [|lia].
          unfold slot_ok in *. destruct v; auto. eapply Shr_stable; [|exact Hslot].
          intros m Hm _. apply P4. lia.
        * eapply ShrSlots_stable; [|exact HA]. intros m Hm Hm'. rewrite P4 by lia. apply P2. exact Hm'.
      + exact G.
      + exists accl'. split; [exact Ha|]. rewrite <- !app_assoc in Hb. exact Hb.
  Qed.

  Lemma sharing_all h0 secret : forall v, shr_at h0 secret v.
  Proof.
    induction v as [s|t|kd vs IH] using value_ind'; intros fuel hc d h' r HP HD Hw Hm H; try discriminate.
    destruct fuel as [|f]; [discriminate|].
    apply Den_VMap in HD. destruct HD as [_ [items [Hg HDi]]].
    assert (Hgc : hget hc d = Some (PDict kd items)).
    { destruct HP as [_ P]. rewrite P; [exact Hg|eapply hget_lt; exact Hg]. }
    rewrite mdp_h_S, Hgc in H.
    destruct (go_h (mdp_h f) secret [length hc] items (hc ++ [PDict dict_kind []])) as [hf|] eqn:G; [|discriminate].
    inversion H; subst hf r. clear H.
    apply wf_VMap in Hw. destruct Hw as [Hnd Hw].
    destruct (go_h_sharing f (length hc) h0 secret (proj1 HP) vs IH Hw items (hc ++ [PDict dict_kind []]) [] [] [] h' HDi)
      as [accl' [Ha Hb]].
    - destruct HP as [L P]. split; [rewrite app_length; lia|]. intros m Hm'. rewrite hget_app_old by lia. apply P. exact Hm'.
    - rewrite app_length. cbn [length]. lia.
    - apply hget_alloc_new.
    - intros k _ [].
    - rewrite (DenItems_keys 0 h0 vs items HDi). exact Hnd.
    - exact I.
    - exact G.
    - apply Shr_VMap. split; [lia|]. exists items, accl'. split; [exact Hg|]. split; [exact Ha|].
      cbn [app] in Hb. eapply ShrSlots_impl; [|exact Hb]. apply Forall_forall. intros kv _ al rl. apply Shr_mono. lia.
  Qed.

  Theorem result_sharing fuel h d secret ss t h' r :
    Den 0 h d t -> wf t = true -> is_mapping t = true -> hget h secret = Some (PStr ss) ->
    mdp_h fuel h secret d = Ok (h', r) -> Shr (length h) secret h h' d r t.
  Proof. intros HD Hw Hm _ H. exact (sharing_all h secret t fuel h d h' r (pres_refl _ _) HD Hw Hm H). Qed.
End Sharing.

(* on the example heap: both images of the shared mapping e are new dicts, the list (3) and the
   secret (4) are shared by reference *)
Example ex_heap_sharing :
  exists t h' r, denote 6 ex_heap 0 = Some t /\ wf t = true /\
    mdp_h (mp_h_alloc toy_mp) 3 ex_heap 4 0 = Ok (h', r) /\ Shr (length ex_heap) 4 ex_heap h' 0 r t.
Proof.
  eexists. eexists. eexists. split; [vm_compute; reflexivity|]. split; [vm_compute; reflexivity|].
  split; [apply ex_heap_run|].
  eapply result_sharing with (ss := lit "***"); try apply ex_heap_run.
  - apply mp_h_alloc_extends.
  - apply (denote_sound 6). vm_compute. reflexivity.
  - vm_compute. reflexivity.
  - reflexivity.
  - reflexivity.
Qed.
