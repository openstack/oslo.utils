(* Proofs/C10_Regex.v — a relational (declarative) semantics for the regex type of
   Base/Regex.v and its relation to the backtracking matcher [m]:

     m_sound     every answer of the matcher comes from a derivation of [mt]
                 whose end configuration is accepted by the continuation;
     m_complete  whenever a derivation exists whose end configuration the
                 continuation accepts, the matcher answers (with some accepted
                 configuration — priorities decide which).

   [mt r s p g s' p' g']: r consumes a prefix of the remaining subject s (at
   absolute position p, groups g) leaving s' (position p', groups g').

   Use this relation when the text of the groups matters (which alternative was taken, what a
   group captured); when only "does it match, and how far" is asked, C11_Regex.v has the same
   relation without groups, with m_sound / m_complete carried over from here.  The facts about
   run_len / try_counts both rest on are in C04_Regex.v. *)
Require Import OV.Base.Bytes OV.Base.PyInt OV.Base.Regex OV.Proofs.C04_Regex.
Open Scope N_scope.

Definition allin (cs : cset) (w : str) : bool := forallb (fun c => cmem c cs) w.
Definition le_opt (n : nat) (mx : option nat) : Prop :=
  match mx with Some k => (n <= k)%nat | None => True end.

Inductive mt : re -> str -> N -> groups -> str -> N -> groups -> Prop :=
| mt_eps : forall s p g, mt Eps s p g s p g
| mt_chr : forall cs c t p g, cmem c cs = true -> mt (Chr cs) (c :: t) p g t (p + 1) g
| mt_seq : forall a b s p g s1 p1 g1 s2 p2 g2,
    mt a s p g s1 p1 g1 -> mt b s1 p1 g1 s2 p2 g2 -> mt (Seq a b) s p g s2 p2 g2
| mt_alt_l : forall a b s p g s' p' g', mt a s p g s' p' g' -> mt (Alt a b) s p g s' p' g'
| mt_alt_r : forall a b s p g s' p' g', mt b s p g s' p' g' -> mt (Alt a b) s p g s' p' g'
| mt_rep : forall cs mn mx w s' p g,
    allin cs w = true -> (mn <= length w)%nat -> le_opt (length w) mx ->
    mt (Rep cs mn mx) (w ++ s') p g s' (p + blen w) g
| mt_opt_some : forall a s p g s' p' g', mt a s p g s' p' g' -> mt (Opt a) s p g s' p' g'
| mt_opt_none : forall a s p g, mt (Opt a) s p g s p g
| mt_group : forall i a s p g s' p' g',
    mt a s p g s' p' g' -> mt (Group i a) s p g s' p' ((i, (p, p')) :: g')
| mt_bol : forall s g, mt Bol s 0 g s 0 g
| mt_eol_nil : forall p g, mt Eol [] p g [] p g
| mt_eol_nl : forall p g, mt Eol [10] p g [10] p g.

(* the bound of a repeat, as C04_Regex.v tests it *)
Lemma le_opt_within n mx : le_opt n mx <-> within n mx = true.
Proof. destruct mx as [k|]; cbn; [symmetry; apply Nat.leb_le|tauto]. Qed.

Theorem m_sound R r : forall s p g (k : cont R) x,
  m R r s p g k = Some x ->
  exists s' p' g', mt r s p g s' p' g' /\ k s' p' g' = Some x.
Proof.
  induction r as [|cs|a IHa b IHb|a IHa b IHb|cs mn mx|a IHa|i a IHa| |]; intros s p g k x H; cbn [m] in H.
  - exists s, p, g. split; [constructor|exact H].
  - destruct s as [|c t]; [discriminate|]. destruct (cmem c cs) eqn:Ec; [|discriminate].
    exists t, (p + 1), g. split; [constructor; exact Ec|exact H].
  - apply IHa in H. destruct H as [s1 [p1 [g1 [Ha Hb]]]].
    apply IHb in Hb. destruct Hb as [s2 [p2 [g2 [Hb Hk]]]].
    exists s2, p2, g2. split; [econstructor; eassumption|exact Hk].
  - destruct (m R a s p g k) eqn:Ea.
    + injection H as <-. apply IHa in Ea. destruct Ea as [s' [p' [g' [Ha Hk]]]].
      exists s', p', g'. split; [apply mt_alt_l; exact Ha|exact Hk].
    + apply IHb in H. destruct H as [s' [p' [g' [Hb Hk]]]].
      exists s', p', g'. split; [apply mt_alt_r; exact Hb|exact Hk].
  - destruct (Nat.ltb (run_len cs s mx) mn) eqn:El; [discriminate|].
    apply Nat.ltb_ge in El.
    apply try_counts_sound in H; [|exact El].
    destruct H as [j [Hj Hk]].
    destruct (run_len_split cs s mx j) as [w [Hs [Hl [Ha Hm]]]]; [lia|].
    exists (skipn j s), (p + N.of_nat j), g. split; [|exact Hk].
    rewrite Hs at 1. replace (N.of_nat j) with (blen w) by (unfold blen; congruence).
    constructor; [exact Ha|lia|rewrite Hl; apply le_opt_within; exact Hm].
  - destruct (m R a s p g k) eqn:Ea.
    + injection H as <-. apply IHa in Ea. destruct Ea as [s' [p' [g' [Ha Hk]]]].
      exists s', p', g'. split; [apply mt_opt_some; exact Ha|exact Hk].
    + exists s, p, g. split; [apply mt_opt_none|exact H].
  - apply IHa in H. destruct H as [s' [p' [g' [Ha Hk]]]].
    exists s', p', ((i, (p, p')) :: g'). split; [constructor; exact Ha|exact Hk].
  - destruct (p =? 0) eqn:Ep; [|discriminate]. apply N.eqb_eq in Ep. subst.
    exists s, 0, g. split; [constructor|exact H].
  - rewrite eol_case in H. destruct (eol_ok s) eqn:E; [|discriminate].
    exists s, p, g. split; [apply eol_ok_iff in E; destruct E as [->| ->]; constructor|exact H].
Qed.

Theorem m_complete R r s p g s' p' g' :
  mt r s p g s' p' g' -> forall (k : cont R), k s' p' g' <> None -> m R r s p g k <> None.
Proof.
  induction 1 as [s p g|cs c t p g Hc|a b s p g s1 p1 g1 s2 p2 g2 Ha IHa Hb IHb
                 |a b s p g s' p' g' Ha IHa|a b s p g s' p' g' Hb IHb
                 |cs mn mx w s' p g Ha Hmn Hmx
                 |a s p g s' p' g' Ha IHa|a s p g
                 |i a s p g s' p' g' Ha IHa|s g|p g|p g]; intros k Hk; cbn [m].
  - exact Hk.
  - rewrite Hc. exact Hk.
  - apply IHa. apply IHb. exact Hk.
  - specialize (IHa k Hk). destruct (m R a s p g k); [discriminate|congruence].
  - destruct (m R a s p g k); [discriminate|]. apply IHb. exact Hk.
  - pose proof (run_len_ge cs w s' mx Ha (proj1 (le_opt_within _ _) Hmx)) as Hr.
    destruct (Nat.ltb (run_len cs (w ++ s') mx) mn) eqn:El.
    + apply Nat.ltb_lt in El. lia.
    + apply (try_counts_complete R (w ++ s') p g k mn (length w)); [lia|].
      rewrite skipn_app_exact. exact Hk.
  - specialize (IHa k Hk). destruct (m R a s p g k); [discriminate|congruence].
  - destruct (m R a s p g k); [discriminate|exact Hk].
  - apply IHa. exact Hk.
  - exact Hk.
  - exact Hk.
  - exact Hk.
Qed.

(* ---------- re_match / re_search in terms of derivations ---------- *)

Lemma match_at_sound r s p e g :
  match_at r s p = Some (e, g) -> exists s', mt r s p [] s' e g.
Proof.
  unfold match_at. intros H. apply m_sound in H.
  destruct H as [s' [p' [g' [Hm Hk]]]]. injection Hk as -> ->. exists s'. exact Hm.
Qed.

Lemma re_match_sound r s e g :
  re_match r s = Some (e, g) -> exists s', mt r s 0 [] s' e g.
Proof. apply match_at_sound. Qed.

Lemma re_match_complete r s s' e g :
  mt r s 0 [] s' e g -> re_match r s <> None.
Proof.
  unfold re_match, match_at. intros H. eapply m_complete; [exact H|discriminate].
Qed.

Lemma search_from_sound r : forall s p a e g,
  search_from r s p = Some (a, e, g) ->
  exists pre s1 s', s = pre ++ s1 /\ a = p + blen pre /\ mt r s1 a [] s' e g.
Proof.
  induction s as [|c t IH]; intros p a e g H; cbn [search_from] in H.
  - destruct (match_at r [] p) as [[e' g']|] eqn:E; [|discriminate].
    injection H as <- <- <-. apply match_at_sound in E. destruct E as [s' Hm].
    exists [], [], s'. repeat split; [rewrite blen_nil; lia|exact Hm].
  - destruct (match_at r (c :: t) p) as [[e' g']|] eqn:E.
    + injection H as <- <- <-. apply match_at_sound in E. destruct E as [s' Hm].
      exists [], (c :: t), s'. repeat split; [rewrite blen_nil; lia|exact Hm].
    + apply IH in H. destruct H as [pre [s1 [s' [Hs [Ha Hm]]]]].
      exists (c :: pre), s1, s'. repeat split; [cbn; f_equal; exact Hs|rewrite blen_cons; lia|exact Hm].
Qed.

(* consumed text and positions *)
Lemma mt_consumes r s p g s' p' g' :
  mt r s p g s' p' g' -> exists w, s = w ++ s' /\ p' = p + blen w.
Proof.
  (* alternatives, options and groups pass their body's word on; Eps, an empty option and the anchors consume nothing *)
  induction 1; try exact IHmt; try (exists []; split; [reflexivity|rewrite blen_nil; lia]).
  - exists [c]. split; reflexivity.
  - destruct IHmt1 as [w1 [-> ->]]. destruct IHmt2 as [w2 [-> ->]].
    exists (w1 ++ w2). split; [rewrite app_assoc; reflexivity|rewrite blen_app; lia].
  - exists w. split; reflexivity.
Qed.

(* ---------- re.match of `body\Z` (Model/C10_Regex.v) ---------- *)
Require Import OV.Model.C10_Regex.

Lemma re_match_end_sound r s e g :
  re_match_end r true s = Some (e, g) -> mt r s 0 [] [] e g.
Proof.
  unfold re_match_end. intros H. apply m_sound in H.
  destruct H as [s' [p' [g' [Hm Hk]]]]. destruct s' as [|c t]; [|discriminate].
  injection Hk as -> ->. exact Hm.
Qed.

Lemma re_match_end_complete r s e g :
  mt r s 0 [] [] e g -> re_match_end r true s <> None.
Proof.
  unfold re_match_end. intros H. eapply m_complete; [exact H|discriminate].
Qed.
