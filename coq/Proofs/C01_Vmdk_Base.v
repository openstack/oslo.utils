(* Proofs/C01_Vmdk_Base.v — byte-string facts used by the VMDK refinement proof:
   prefixes, "no createtype before the first NUL" is inherited by prefixes, tails. *)
Require Import OV.Base.Bytes OV.Base.Py OV.Base.PyInt OV.Base.Str OV.Base.Insp_Struct OV.Gen.Insp_Consts.
Require Import OV.Model.Insp_Engine OV.Model.Insp_Vmdk OV.Model.Insp_All OV.Model.C01_Vmdk.
Require Import OV.Proofs.Insp_Engine.
Open Scope N_scope.

Definition is_prefix (p s : bytes) : Prop := exists t, s = p ++ t.

Lemma is_prefix_refl s : is_prefix s s.
Proof. exists []. rewrite app_nil_r. reflexivity. Qed.
Lemma is_prefix_app p s c : is_prefix p s -> is_prefix p (s ++ c).
Proof. intros [t ->]. exists (t ++ c). rewrite app_assoc. reflexivity. Qed.
Lemma is_prefix_trans a b c : is_prefix a b -> is_prefix b c -> is_prefix a c.
Proof. intros [t ->] [u ->]. exists (t ++ u). rewrite app_assoc. reflexivity. Qed.
Lemma is_prefix_btake n s : is_prefix (btake n s) s.
Proof. exists (bskip n s). symmetry. apply btake_bskip_app. Qed.
Lemma is_prefix_len p s : is_prefix p s -> blen p <= blen s.
Proof. intros [t ->]. rewrite blen_app. lia. Qed.
Lemma btake_prefix n p s : is_prefix p s -> n <= blen p -> btake n p = btake n s.
Proof. intros [t ->] H. rewrite btake_app_le by exact H. reflexivity. Qed.
Lemma bslice_prefix off len p s : is_prefix p s -> off + len <= blen p -> bslice off len p = bslice off len s.
Proof.
  intros [t ->] H. unfold bslice. rewrite bskip_app_le by lia. rewrite btake_app_le; [reflexivity|].
  rewrite blen_bskip. lia.
Qed.
Lemma prefixb_prefix m p s : is_prefix p s -> blen m <= blen p -> prefixb m p = prefixb m s.
Proof. intros Hp Hl. rewrite !prefixb_btake. rewrite (btake_prefix _ _ _ Hp Hl). reflexivity. Qed.

Lemma forallb_prefix (f : N -> bool) p s : is_prefix p s -> forallb f s = true -> forallb f p = true.
Proof. intros [t ->] H. rewrite forallb_app in H. apply andb_true_iff in H. tauto. Qed.

Lemma map_prefix (f : N -> N) p s : is_prefix p s -> is_prefix (map f p) (map f s).
Proof. intros [t ->]. exists (map f t). apply map_app. Qed.

Lemma find_from_None sub s i : find_from sub s i = None <-> occursb sub s = false.
Proof.
  revert i. induction s as [|x t IH]; intros i; cbn [find_from occursb].
  - destruct (prefixb sub []); cbn [orb]; split; intros H; try discriminate; reflexivity.
  - destruct (prefixb sub (x :: t)); cbn [orb]; [split; discriminate|]. apply IH.
Qed.
Lemma find_None sub s : find sub s = None <-> occursb sub s = false.
Proof. apply find_from_None. Qed.

Lemma occursb_prefix a p s : is_prefix p s -> occursb a s = false -> occursb a p = false.
Proof.
  intros [t ->]. induction p as [|x p IH]; cbn [app]; intros H.
  - cbn [occursb]. destruct (prefixb a []) eqn:Hp; [|reflexivity].
    apply (prefixb_app_l a [] t) in Hp. cbn [app] in Hp.
    destruct t; cbn [occursb] in H; rewrite Hp in H; discriminate.
  - cbn [occursb] in *. apply orb_false_iff in H. destruct H as [H1 H2].
    rewrite (IH H2), orb_false_r. destruct (prefixb a (x :: p)) eqn:Hp; [|reflexivity].
    apply (prefixb_app_l a _ t) in Hp. cbn [app] in Hp. congruence.
Qed.

Lemma prefixb_len a s : prefixb a s = true -> blen a <= blen s.
Proof. intros H. apply prefixb_spec in H. destruct H as [t ->]. rewrite blen_app. lia. Qed.

Lemma occursb_short a s : blen s < blen a -> occursb a s = false.
Proof.
  induction s as [|x t IH]; intros H; cbn [occursb].
  - destruct (prefixb a []) eqn:Hp; [|reflexivity]. apply prefixb_len in Hp. lia.
  - rewrite IH by (rewrite blen_cons in H; lia). rewrite orb_false_r.
    destruct (prefixb a (x :: t)) eqn:Hp; [|reflexivity]. apply prefixb_len in Hp. lia.
Qed.

Fixpoint cut0 (d : bytes) : bytes :=
  match d with [] => [] | x :: t => if 0 =? x then [] else x :: cut0 t end.

Lemma find_nul_spec s i :
  match find_from VMDK_NUL s i with
  | Some j => i <= j /\ btake (j - i) s = cut0 s
  | None => cut0 s = s
  end.
Proof.
  revert i. induction s as [|x t IH]; intros i.
  - reflexivity.
  - cbn [find_from VMDK_NUL prefixb cut0]. destruct (0 =? x) eqn:Hx; cbn [andb].
    + split; [lia|]. replace (i - i) with 0 by lia. reflexivity.
    + specialize (IH (i + 1)). destruct (find_from VMDK_NUL t (i + 1)) as [j|].
      * destruct IH as [Hj Ht]. split; [lia|].
        unfold btake in *. replace (N.to_nat (j - i)) with (S (N.to_nat (j - (i + 1)))) by lia.
        cbn [firstn]. rewrite Ht. reflexivity.
      * rewrite IH. reflexivity.
Qed.

Lemma upto_nul_cut0 d : upto_nul d = cut0 d.
Proof.
  unfold upto_nul, find. pose proof (find_nul_spec d 0) as H.
  destruct (find_from VMDK_NUL d 0) as [j|]; [|symmetry; exact H].
  destruct H as [_ H]. rewrite ntake_btake. rewrite N.sub_0_r in H. exact H.
Qed.

Lemma cut0_prefix p s : is_prefix p s -> is_prefix (cut0 p) (cut0 s).
Proof.
  intros [t ->]. induction p as [|x p IH]; cbn [app cut0].
  - exists (cut0 t). reflexivity.
  - destruct (0 =? x); [exists []; reflexivity|]. destruct IH as [u Hu]. exists u. rewrite Hu. reflexivity.
Qed.

Lemma blen_cut0 d : blen (cut0 d) <= blen d.
Proof. induction d as [|x t IH]; cbn [cut0]; [lia|]. destruct (0 =? x); rewrite ?blen_cons, ?blen_nil; lia. Qed.

(* ---------------------------------------------------------------- "createtype= does not occur before the first NUL" *)
Definition noct (b : bytes) : Prop := occursb VMDK_CREATETYPE (lower_ascii (upto_nul b)) = false.

Lemma noct_prefix p b : is_prefix p b -> noct b -> noct p.
Proof.
  unfold noct. intros Hp. rewrite !upto_nul_cut0. apply occursb_prefix. unfold lower_ascii. apply map_prefix.
  apply cut0_prefix. exact Hp.
Qed.

Lemma noct_type d : noct d -> vmdk_type_of (lower_ascii (upto_nul d)) = VMDK_NOTFOUND.
Proof. unfold noct, vmdk_type_of. intros H. apply find_None in H. rewrite H. reflexivity. Qed.

Lemma blen_map (f : N -> N) s : blen (map f s) = blen s.
Proof. unfold blen. rewrite map_length. reflexivity. Qed.

(* a valid sparse header has a NUL at offset 5 at the latest: nothing to find before it *)
Lemma valid_noct b : valid_magic_ver b = true -> noct b.
Proof.
  unfold valid_magic_ver, noct. intros H. apply andb_true_iff in H. destruct H as [Hm Hv].
  apply occursb_short. unfold lower_ascii. rewrite blen_map, upto_nul_cut0.
  apply beq_eq in Hm.
  assert (Hc : blen (cut0 b) <= 5).
  { destruct b as [|a0 [|a1 [|a2 [|a3 r]]]]; try discriminate Hm.
    unfold btake in Hm. change (N.to_nat 4) with 4%nat in Hm. cbn [firstn] in Hm.
    change (bslice 4 4 (a0 :: a1 :: a2 :: a3 :: r)) with (btake 4 r) in Hv.
    unfold VMDK_MAGIC_PP in Hm. inversion Hm; subst. cbn [cut0 N.eqb].
    rewrite !blen_cons.
    assert (blen (cut0 r) <= 1); [|lia].
    unfold ver_ok, VMDK_VER_A, VMDK_VER_B, VMDK_VER_C in Hv.
    destruct r as [|v [|w r]]; cbn [cut0]; [rewrite blen_nil; lia | destruct (0 =? v); rewrite ?blen_cons, ?blen_nil; lia |].
    destruct (0 =? v) eqn:Hz; [rewrite blen_nil; lia|].
    assert (Hw : w = 0).
    { unfold btake in Hv. change (N.to_nat 4) with 4%nat in Hv.
      destruct r as [|y [|z r]]; cbn [firstn le_val] in Hv; lia. }
    subst w. cbn [N.eqb]. rewrite blen_cons, blen_nil. lia. }
  change (blen VMDK_CREATETYPE) with 12. lia.
Qed.

Lemma btail_last n b : btail n b = last_bytes n b.
Proof. reflexivity. Qed.
Lemma btail_app_ge n pre a : n <= blen a -> btail n (pre ++ a) = btail n a.
Proof.
  intros H. unfold btail. rewrite blen_app. rewrite bskip_app_ge by lia. f_equal. lia.
Qed.
