(* Proofs/C03_All.v — all ten formats through the wrapper, using the two refinement theorems
   vhdx_refines_spec / vmdk_refines_spec (C01_vhdx_refines_spec, C01_vmdk_refines_spec; outside the known-finding zones F1-F4):
     - the verdict held by EVERY slot of the closed wrapper is a function of the content (an inspector that
       raised is frozen by the wrapper; [run f cs] is exactly that: feeding stops at the first exception,
       finish() still runs, and the refinement theorems speak about this state);
     - format_match of the closed inspector IS the signature predicate, for all ten formats (the converse
       "signature present => matches" for vhdx and vmdk);
     - formats / format after close are functions of the content for every allowed_formats. *)
Require Import OV.Base.Bytes OV.Base.Py OV.Base.C06_WrapShape OV.Base.Insp_Struct.
Require Import OV.Gen.Insp_Consts OV.Gen.C06_Wrapper OV.Model.Insp_Engine OV.Model.Insp_All OV.Model.Insp_Vmdk.
Require Import OV.Model.Wrap OV.Model.C03 OV.Model.C01_Vhdx OV.Model.C01_Vmdk.
Require Import OV.Proofs.Insp_All OV.Proofs.C01_Vhdx_Tables OV.Proofs.C01_Vhdx OV.Proofs.C01_Vmdk_Run OV.Proofs.C02_Vhdx.
Require Import OV.Proofs.C03_Sig OV.Proofs.C06 OV.Proofs.C03_Wrap OV.Proofs.C03_Stable OV.Proofs.C03_Props.
Open Scope N_scope.

(* the known-finding zones of a format, as one predicate on the bytes *)
Definition in_zone (f : fmt_id) (b : bytes) : bool :=
  match f with
  | F_vhdx => zone_vhdx_backptr b || zone_vhdx_metasig b          (* F2, F4 *)
  | F_vmdk => zone_vmdk_text b || zone_vmdk_shortfoot b           (* F1, F3 *)
  | _ => false
  end.

(* the verdict of inspector f as a function of the whole content *)
Definition spec_verdict_all (f : fmt_id) (b : bytes) : verdict :=
  match f with
  | F_vhdx => vhdx_spec b
  | F_vmdk => vmdk_spec b
  | _ => spec_verdict f b
  end.

Theorem run_verdict_all f cs : in_zone f (concat cs) = false -> verdict_of (run f cs) = spec_verdict_all f (concat cs).
Proof.
  intros Hz. destruct f; try (apply static_inspector_refines_spec; reflexivity); cbn [in_zone spec_verdict_all] in *;
    apply orb_false_iff in Hz; destruct Hz as [H1 H2].
  - apply vhdx_refines_spec; auto.
  - apply vmdk_refines_spec; auto.
Qed.

Lemma vhdx_spec_match_prefixb b : v_match (vhdx_spec b) = Ok (prefixb VHDX_MAGIC b).
Proof.
  rewrite vhdx_spec_match. f_equal. rewrite nslice_bslice. unfold bslice. rewrite bskip_0.
  apply prefixb_btake_le. vm_compute. discriminate.
Qed.

Lemma vmdk_spec_match b : v_match (vmdk_spec b) = Ok (prefixb VMDK_MAGIC b).
Proof.
  unfold vmdk_spec. destruct (blen b <? VMDK_MIN_SPARSE_HEADER); [reflexivity|].
  destruct (negb (beq (vh_sig b) VMDK_MAGIC_PP) || negb (ver_ok (vh_ver b))); [reflexivity|].
  destruct (negb (vh_desc_sec b * VMDK_SECTOR_A =? VMDK_DESC_OFFSET)); reflexivity.
Qed.

Lemma cmatch_verdict r : cmatch (fst r) = match v_match (verdict_of r) with Ok x => x | Exn _ => false end.
Proof. reflexivity. Qed.

(* outside zone F1 a text head that does not start with KDMV cannot exist: the vmdk signature is KDMV *)
Lemma vmdk_sig_outside_F1 b : zone_vmdk_text b = false -> sigb F_vmdk b = prefixb VMDK_MAGIC b.
Proof.
  intros Hz. cbn [sigb]. destruct (prefixb VMDK_MAGIC b) eqn:Hp; [reflexivity|]. cbn [orb].
  destruct (text_head b) eqn:Ht; [|reflexivity]. cbn [andb]. destruct (occ b); [|reflexivity]. exfalso.
  unfold text_head in Ht. apply andb_true_iff in Ht. destruct Ht as [H1 H2].
  assert (Hk : beq (btake 4 b) VMDK_MAGIC_PP = false).
  { rewrite prefixb_btake in Hp. exact Hp. }
  unfold zone_vmdk_text, valid_magic_ver in Hz. rewrite Hk in Hz. cbn [andb negb] in Hz.
  change VMDK_MIN_SPARSE_HEADER with vmdk_text_len in Hz. rewrite H1, H2 in Hz. cbn [andb] in Hz.
  rewrite orb_true_r in Hz. discriminate.
Qed.

(* C03_match_is_signature, all ten formats: outside the zones, format_match of the closed inspector IS
   the signature predicate of the content (for vhdx and vmdk this adds the converse: signature present =>
   the inspector matches, whatever the read sizes and whether or not it raised on the way) *)
Theorem match_is_signature_all f cs : in_zone f (concat cs) = false -> cmatch (fst (run f cs)) = sigb f (concat cs).
Proof.
  intros Hz. destruct (is_static f) eqn:Hs; [apply closed_static_match; exact Hs|].
  rewrite cmatch_verdict, (run_verdict_all f cs Hz).
  destruct f; try discriminate Hs; cbn [spec_verdict_all in_zone] in *.
  - rewrite vhdx_spec_match_prefixb. reflexivity.
  - rewrite vmdk_spec_match. apply orb_false_iff in Hz. symmetry. apply vmdk_sig_outside_F1. tauto.
Qed.

Definition name_formats (cpl mt : fmt_id -> bool) (fin : bool) (fs : list fmt_id) : option (list fmt_id) :=
  let nr := filter (fun f => negb (is_rawf f)) fs in
  if negb (forallb cpl nr) && negb fin then None
  else match filter mt nr with [] => Some (filter is_rawf fs) | l => Some l end.

Theorem formats_by_names (g : fmt_id -> cslot) fs ex fin : (forall f, s_name (g f) = fmt_name f) ->
  option_map (map (@s_name istate)) (cw_formats {| w_slots := map g fs; w_expected := ex; w_finished := fin |}) =
  option_map (map fmt_name) (name_formats (fun f => complete (s_insp (g f))) (fun f => cmatch (s_insp (g f))) fin fs).
Proof.
  intros Hn. unfold cw_formats, formats, all_complete, matches, non_raw, name_formats. cbn [w_slots w_finished]. cbv zeta.
  assert (Hr1 : forall f, is_raw_nr istate raw_lit_nonraw (g f) = is_rawf f).
  { intros f. unfold is_raw_nr, is_rawf. rewrite Hn, raw_lits_agree. reflexivity. }
  assert (Hr2 : forall f, is_raw istate raw_lit_raw (g f) = is_rawf f).
  { intros f. unfold is_raw, is_rawf. rewrite Hn. reflexivity. }
  rewrite !filter_map_comm, forallb_map_comm.
  rewrite (filter_ext (fun x => negb (is_raw_nr istate raw_lit_nonraw (g x))) (fun f => negb (is_rawf f))) by (intros f; rewrite Hr1; reflexivity).
  rewrite (filter_ext (fun x => is_raw istate raw_lit_raw (g x)) is_rawf) by exact Hr2.
  set (nr := filter (fun f => negb (is_rawf f)) fs).
  destruct (negb (forallb (fun x => complete (s_insp (g x))) nr) && negb fin); [reflexivity|].
  destruct (filter (fun x => cmatch (s_insp (g x))) nr) as [|f1 t]; cbn [map option_map]; rewrite !map_map;
    f_equal; [apply map_ext; exact Hn | f_equal; [apply Hn | apply map_ext; exact Hn]].
Qed.

Lemma name_formats_ext cpl1 mt1 cpl2 mt2 fin fs :
  (forall f, In f fs -> cpl1 f = cpl2 f /\ mt1 f = mt2 f) -> name_formats cpl1 mt1 fin fs = name_formats cpl2 mt2 fin fs.
Proof.
  intros H. unfold name_formats. cbv zeta. set (nr := filter (fun f => negb (is_rawf f)) fs).
  assert (Hin : forall f, In f nr -> In f fs) by (intros f Hf; subst nr; apply filter_In in Hf; tauto).
  rewrite (filter_ext_in mt1 mt2 nr) by (intros f Hf; apply H, Hin, Hf).
  assert (Hc : forallb cpl1 nr = forallb cpl2 nr).
  { clear - H Hin. induction nr as [|x t IH]; [reflexivity|]. cbn [forallb]. rewrite IH by (intros f Hf; apply Hin; right; exact Hf).
    destruct (H x (Hin x (or_introl eq_refl))) as [-> _]. reflexivity. }
  rewrite Hc. reflexivity.
Qed.

(* format is read off formats: exactly one candidate, or ImageFormatError *)
Lemma name_format_of_formats cpl mt fin fs :
  name_format cpl mt fin fs =
  match name_formats cpl mt fin fs with None => Ok None | Some [f] => Ok (Some f) | Some _ => Exn ImageFormatError end.
Proof.
  unfold name_format, name_formats. cbv zeta. destruct (negb _ && negb fin); [reflexivity|].
  destruct (filter mt _) as [|f1 [|f2 t]]; reflexivity.
Qed.

Lemma name_format_ext cpl1 mt1 cpl2 mt2 fin fs :
  (forall f, In f fs -> cpl1 f = cpl2 f /\ mt1 f = mt2 f) -> name_format cpl1 mt1 fin fs = name_format cpl2 mt2 fin fs.
Proof. intros H. rewrite !name_format_of_formats, (name_formats_ext _ _ _ _ _ _ H). reflexivity. Qed.

(* ------------------------------------------------------------------ the wrapper verdict for all ten formats *)
(* what formats / format say after close(), from the content alone *)
Definition spec_match (f : fmt_id) (b : bytes) : bool := match v_match (spec_verdict_all f b) with Ok x => x | Exn _ => false end.
Definition spec_complete (f : fmt_id) (b : bytes) : bool := v_complete (spec_verdict_all f b).
Definition spec_format (allowed : list str) (b : bytes) : res (option str) :=
  show_name (name_format (fun f => spec_complete f b) (fun f => spec_match f b) true (allowed_fmts allowed)).
Definition spec_formats (allowed : list str) (b : bytes) : option (list str) :=
  option_map (map fmt_name) (name_formats (fun f => spec_complete f b) (fun f => spec_match f b) true (allowed_fmts allowed)).

Definition outside_zones (allowed : list str) (b : bytes) : Prop :=
  forall f, In f (allowed_fmts allowed) -> in_zone f b = false.

Theorem wrapper_verdict_all expected allowed cs w :
  read_and_closed expected allowed cs w -> outside_zones allowed (concat cs) ->
  (* every inspector of the collection: the verdict (escaped exception, format_match, complete, virtual_size,
     safety_check) of the state the wrapper holds is spec_verdict_all of the content *)
  (forall f, In f (allowed_fmts allowed) ->
     In (slot_closed cs f) (w_slots w) /\ verdict_of (run f cs) = spec_verdict_all f (concat cs)) /\
  cw_format_name w = spec_format allowed (concat cs) /\
  option_map (map (@s_name istate)) (cw_formats w) = spec_formats allowed (concat cs).
Proof.
  intros Hrc Hz. rewrite (read_and_closed_is _ _ _ _ Hrc).
  assert (Hpt : forall f, In f (allowed_fmts allowed) ->
            complete (s_insp (slot_closed cs f)) = spec_complete f (concat cs) /\
            cmatch (s_insp (slot_closed cs f)) = spec_match f (concat cs)).
  { intros f Hf. cbn [slot_closed s_insp]. unfold spec_complete, spec_match. rewrite <- (run_verdict_all f cs (Hz f Hf)). split; reflexivity. }
  split; [|split].
  - intros f Hf. split; [|apply run_verdict_all; apply Hz; exact Hf].
    cbn [closed_wrapper w_slots]. apply in_map. exact Hf.
  - unfold closed_wrapper. rewrite (format_by_names (slot_closed cs) _ _ _ (slot_closed_name cs)). unfold spec_format.
    f_equal. apply name_format_ext. exact Hpt.
  - unfold closed_wrapper. rewrite (formats_by_names (slot_closed cs) _ _ _ (slot_closed_name cs)). unfold spec_formats.
    f_equal. apply name_formats_ext. exact Hpt.
Qed.
