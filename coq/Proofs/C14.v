(* Proofs/C14.v — translator-equivalence lemmas: the statement-level translations of the
   source (Gen/C14.v) compute exactly what the hand-written model (Model/C14.v) computes. *)
From Coq Require Import String.
Require Import OV.Base.Bytes OV.Base.Py OV.Base.PyInt OV.Base.Str.
Require Import OV.Model.C14_Py OV.Gen.C14 OV.Model.C14 OV.Proofs.C14_Uuid.
Open Scope Z_scope.

(* Robust against behaviour-preserving refactors of the source: case analysis on every value,
   every raised exception class and every remaining scrutinee, computing closed [catches] tests,
   until both sides are syntactically equal. *)
Ltac simp_rt := cbn [is_bool is_str py_str py_int_of need_str uuid_UUID bind try_except] in *; rewrite ?uuid_str_unhyphen.
Ltac closed_catches :=
  repeat match goal with
         | |- context [catches ?l ?e] =>
             tryif is_var e then fail
             else (let v := eval vm_compute in (catches l e) in change (catches l e) with v)
         end.
Ltac equiv_step :=
  match goal with
  | v : pyval |- _ => destruct v
  | |- context [catches _ ?e] => is_var e; destruct e
  | |- context [match ?x with _ => _ end] => destruct x eqn:?
  end.
Ltac equiv_solve :=
  intros; repeat rewrite Z.gtb_ltb; repeat rewrite Z.geb_leb; simp_rt; closed_catches; try reflexivity;
  repeat (equiv_step; simp_rt; closed_catches; try reflexivity; try congruence; try (exfalso; lia)).

Lemma format_uuid_string_equiv lim s : gen_format_uuid_string lim s = format_uuid_string s.
Proof. reflexivity. Qed.

Lemma bool_from_string_equiv lim subject strict default :
  gen_bool_from_string lim subject strict default = bool_from_string lim subject strict default.
Proof. unfold gen_bool_from_string, bool_from_string, classify_bool, norm_bool. equiv_solve. Qed.

Lemma int_from_bool_as_string_equiv lim subject :
  gen_int_from_bool_as_string lim subject = int_from_bool_as_string lim subject.
Proof.
  unfold gen_int_from_bool_as_string, int_from_bool_as_string. rewrite ?bool_from_string_equiv.
  generalize (bool_from_string lim subject false (PBool false)). intros r. clear subject. equiv_solve.
Qed.

Lemma is_valid_boolstr_equiv lim value : gen_is_valid_boolstr lim value = is_valid_boolstr lim value.
Proof. unfold gen_is_valid_boolstr, is_valid_boolstr. equiv_solve. Qed.

Lemma is_int_like_equiv lim val : gen_is_int_like lim val = is_int_like lim val.
Proof. unfold gen_is_int_like, is_int_like. equiv_solve. Qed.

Lemma check_string_length_equiv lim value min_length max_length :
  gen_check_string_length lim value min_length max_length = check_string_length value min_length max_length.
Proof. unfold gen_check_string_length, check_string_length. equiv_solve. Qed.

Lemma validate_integer_equiv lim value min_value max_value :
  gen_validate_integer lim value min_value max_value = validate_integer lim value min_value max_value.
Proof. unfold gen_validate_integer, validate_integer, below, above. equiv_solve. Qed.

Lemma is_uuid_like_equiv lim val : gen_is_uuid_like lim val = is_uuid_like lim val.
Proof.
  unfold gen_is_uuid_like, is_uuid_like. rewrite ?format_uuid_string_equiv.
  repeat match goal with |- context [gen_format_uuid_string ?l ?x] => change (gen_format_uuid_string l x) with (format_uuid_string x) end.
  equiv_solve.
Qed.

Lemma generate_uuid_equiv lim u4 dashed : gen_generate_uuid lim u4 dashed = generate_uuid u4 dashed.
Proof. unfold gen_generate_uuid, generate_uuid. destruct dashed; reflexivity. Qed.

