(* Properties/C06.v — InspectWrapper is a transparent pipe that isolates inspector faults.
   Each theorem is proved by [exact] of a lemma of Proofs/Wrap.v / C06.v / C06_Equiv.v or in a few lines from
   such lemmas.  Every theorem is for an ARBITRARY inspector type I and
   ARBITRARY eat / finish / complete / fmatch: "whatever the inspectors do", any number
   of faults, any placement.  [gen_shape], [all_formats], the 'raw' literals are
   regenerated from /repo on every run (Gen/C06_Wrapper.v). Vocabulary (Model/Wrap.v):
     w_step    one call of read()/__next__()/close() after the source has answered
     w_run     any sequence of calls (the reader goes on after exceptions), one record per call
     w_run_stop / run_reads / run_iter   a reader that stops at the first exception
     eat_ev    one eat_chunk call: position of the inspector, its NAME, the chunk, the exception raised
     first_abort i cs   the first chunk at which an inspector in state i fed cs raises (AbFault e)
                        or is complete without matching after a successful eat_chunk (AbMismatch)
   and, from Proofs/Wrap.v:
     nonexp e l    no slot of l carries the name e (the expected format)
     decided w     every non-raw inspector is complete, or EOF was signalled: format has an answer *)
Require Import OV.Base.Bytes OV.Base.Py OV.Base.C06_WrapShape.
Require Import OV.Gen.C06_Wrapper OV.Gen.C06_Code OV.Model.Wrap OV.Model.C06_CodeLib OV.Proofs.Wrap OV.Proofs.C06 OV.Proofs.C06_Equiv.
Open Scope N_scope.

(* ---- reads_are_identity ------------------------------------------------------------- *)
(* any sequence of calls: whatever a call returns is the chunk its source handed out in
   that very call (close returns None); holds for every shape of _process_chunk *)
Theorem C06_reads_are_identity :
  forall I eat finish complete fmatch (w : wrapper I) inps (w' : wrapper I) recs,
  w_run I eat finish complete fmatch gen_shape w inps = (w', recs) ->
  map sr_in recs = inps /\
  Forall (fun r => match sr_out r with
                   | OutChunk c => sr_in r = InChunk c
                   | OutNone => sr_in r = InClose
                   | OutExn _ => True end) recs.
Proof. exact (fun I eat finish complete fmatch => reads_are_identity I eat finish complete fmatch gen_shape). Qed.
Print Assumptions C06_reads_are_identity.

(* read(size) on a file-like source, reader stopping at the first exception: the bytes
   delivered, followed by the chunk lost in the failing call (if any), are exactly the
   source's bytes between its position before and after; the position advanced by exactly
   that many bytes *)
Theorem C06_reads_are_identity_file :
  forall I eat finish complete fmatch sizes (w : wrapper I) s w' s' tr cs stop,
  run_reads I eat finish complete fmatch gen_shape w s sizes = (w', s', tr, cs, stop) ->
  let lost := match stop with Some (_, t) => opt_bytes t | None => [] end in
  f_data s' = f_data s /\
  f_pos s' = f_pos s + blen (concat cs) + blen lost /\
  concat cs ++ lost = bsub (f_pos s) (f_pos s') (f_data s).
Proof. exact (fun I eat finish complete fmatch => reads_are_identity_file I eat finish complete fmatch gen_shape). Qed.
Print Assumptions C06_reads_are_identity_file.

(* iteration: chunks delivered, then the chunk lost in a failing call, then what is left in
   the source, are the source's chunks in order *)
Theorem C06_reads_are_identity_iter :
  forall I eat finish complete fmatch fuel (w : wrapper I) s w' s' tr cs stop,
  run_iter I eat finish complete fmatch gen_shape fuel w s = (w', s', tr, cs, stop) ->
  i_chunks s = cs ++ (match stop with Some (_, Some c) => [c] | _ => [] end) ++ i_chunks s'.
Proof. exact (fun I eat finish complete fmatch => reads_are_identity_iter I eat finish complete fmatch gen_shape). Qed.
Print Assumptions C06_reads_are_identity_iter.

(* ---- errored_never_fed_again ----------------------------------------------------------- *)
(* in the trace of ALL eat_chunk calls of any session: once a call on an inspector whose NAME
   is not the expected format has raised, no later call is made on that inspector *)
Theorem C06_errored_never_fed_again :
  forall I eat finish complete fmatch (w : wrapper I) inps (w' : wrapper I) recs,
  w_run I eat finish complete fmatch gen_shape w inps = (w', recs) ->
  forall t1 ev t2 e, run_trace recs = t1 ++ ev :: t2 ->
    ev_exn ev = Some e -> name_is (ev_name ev) (w_expected w) = false ->
    forall ev', In ev' t2 -> ev_idx ev' <> ev_idx ev.
Proof. exact (fun I eat finish complete fmatch => errored_never_fed_again I eat finish complete fmatch gen_shape gen_shape_ok). Qed.
Print Assumptions C06_errored_never_fed_again.

(* an inspector that is in the errored set is never fed; every inspector that is fed gets the
   chunk of the current call *)
Theorem C06_errored_not_fed :
  forall I eat finish complete fmatch (w : wrapper I) inps (w' : wrapper I) recs k,
  w_run I eat finish complete fmatch gen_shape w inps = (w', recs) -> err_at I w k = true ->
  forall ev, In ev (run_trace recs) -> ev_idx ev <> k.
Proof. exact (fun I eat finish complete fmatch => errored_not_fed I eat finish complete fmatch gen_shape gen_shape_ok). Qed.
Print Assumptions C06_errored_not_fed.

(* ---- non_expected_faults_never_surface ------------------------------------------------- *)
(* every exception reaching the reader is the source's own (StopIteration / its error), or
   comes from the LAST eat_chunk call of that wrapper call, made on an inspector whose NAME
   is the expected format: the exception it raised, or ImageFormatError when it succeeded *)
Theorem C06_non_expected_faults_never_surface :
  forall I eat finish complete fmatch (w : wrapper I) inps (w' : wrapper I) recs,
  w_run I eat finish complete fmatch gen_shape w inps = (w', recs) ->
  Forall (fun r => forall e, sr_out r = OutExn e ->
            (sr_in r = InStop /\ e = StopIteration) \/ sr_in r = InSrcErr e \/
            exists tr0 ev, sr_tr r = tr0 ++ [ev] /\ name_is (ev_name ev) (w_expected w) = true /\
              (ev_exn ev = Some e \/ (ev_exn ev = None /\ e = ImageFormatError))) recs.
Proof. exact (fun I eat finish complete fmatch => non_expected_faults_never_surface I eat finish complete fmatch gen_shape gen_shape_ok). Qed.
Print Assumptions C06_non_expected_faults_never_surface.

(* without an inspector named like the expected format (expected_format=None, or a name that
   allowed_formats excluded) no call on a chunk ever raises: every chunk is delivered *)
Theorem C06_no_expected_inspector_no_exception :
  forall I eat finish complete fmatch (w : wrapper I) inps (w' : wrapper I) recs,
  (forall s, In s (w_slots w) -> name_is (s_name s) (w_expected w) = false) ->
  w_run I eat finish complete fmatch gen_shape w inps = (w', recs) ->
  Forall (fun r => forall c, sr_in r = InChunk c -> sr_out r = OutChunk c) recs.
Proof. exact (fun I eat finish complete fmatch => no_expected_inspector_no_exception I eat finish complete fmatch gen_shape gen_shape_ok). Qed.
Print Assumptions C06_no_expected_inspector_no_exception.

(* ---- expected format: the stream is cut off at exactly that chunk ---------------------- *)
(* exactly one inspector (s), not errored, carries the expected name; cs are the chunks the
   source will hand out.  The reader gets the chunks before the first chunk j at which s
   fails / is complete without matching, then the exception; the failing call has taken
   chunk j from the source and nothing more (the answers after j are unused); with no such
   chunk everything is delivered.  The other inspectors may do anything. (Instance:
   Proofs/C06.v toy_hypotheses, toy_run.) *)
Theorem C06_expected_abort_exact :
  forall I eat finish complete fmatch (w : wrapper I) n pre s post cs,
  w_expected w = Some n -> w_slots w = pre ++ s :: post -> s_name s = n -> s_err s = false ->
  nonexp I (Some n) pre -> nonexp I (Some n) post ->
  exists w' tr, w_run_stop I eat finish complete fmatch gen_shape w (map InChunk cs) =
    match first_abort I eat complete fmatch (s_insp s) cs with
    | Some (j, a) => (w', tr, firstn j cs, Some (abort_exn a, Some (nth j cs [])), map InChunk (skipn (S j) cs))
    | None => (w', tr, cs, None, [])
    end.
Proof. exact (fun I eat finish complete fmatch => expected_abort_exact I eat finish complete fmatch gen_shape gen_shape_ok). Qed.
Print Assumptions C06_expected_abort_exact.

(* expected_fault_propagates_at_that_chunk *)
Theorem C06_expected_fault_propagates_at_that_chunk :
  forall I eat finish complete fmatch (w : wrapper I) n pre s post cs j e,
  w_expected w = Some n -> w_slots w = pre ++ s :: post -> s_name s = n -> s_err s = false ->
  nonexp I (Some n) pre -> nonexp I (Some n) post ->
  first_abort I eat complete fmatch (s_insp s) cs = Some (j, AbFault e) ->
  exists w' tr, w_run_stop I eat finish complete fmatch gen_shape w (map InChunk cs) =
    (w', tr, firstn j cs, Some (e, Some (nth j cs [])), map InChunk (skipn (S j) cs)).
Proof.
  intros I eat finish complete fmatch w n pre s post cs j e H1 H2 H3 H4 H5 H6 Hf.
  destruct (expected_abort_exact I eat finish complete fmatch gen_shape gen_shape_ok w n pre s post cs H1 H2 H3 H4 H5 H6) as (w' & tr & H).
  rewrite Hf in H. exists w', tr. exact H.
Qed.
Print Assumptions C06_expected_fault_propagates_at_that_chunk.

(* expected_complete_mismatch_aborts_at_that_chunk *)
Theorem C06_expected_complete_mismatch_aborts_at_that_chunk :
  forall I eat finish complete fmatch (w : wrapper I) n pre s post cs j,
  w_expected w = Some n -> w_slots w = pre ++ s :: post -> s_name s = n -> s_err s = false ->
  nonexp I (Some n) pre -> nonexp I (Some n) post ->
  first_abort I eat complete fmatch (s_insp s) cs = Some (j, AbMismatch) ->
  exists w' tr, w_run_stop I eat finish complete fmatch gen_shape w (map InChunk cs) =
    (w', tr, firstn j cs, Some (ImageFormatError, Some (nth j cs [])), map InChunk (skipn (S j) cs)).
Proof.
  intros I eat finish complete fmatch w n pre s post cs j H1 H2 H3 H4 H5 H6 Hf.
  destruct (expected_abort_exact I eat finish complete fmatch gen_shape gen_shape_ok w n pre s post cs H1 H2 H3 H4 H5 H6) as (w' & tr & H).
  rewrite Hf in H. exists w', tr. exact H.
Qed.
Print Assumptions C06_expected_complete_mismatch_aborts_at_that_chunk.

(* the same on a file read with read(size): delivered chunks, exception, and the source
   position, which stands right after chunk j: no further source data is consumed *)
Theorem C06_expected_abort_exact_file :
  forall I eat finish complete fmatch (w : wrapper I) s sizes n pre sl post,
  f_closed s = false ->
  w_expected w = Some n -> w_slots w = pre ++ sl :: post -> s_name sl = n -> s_err sl = false ->
  nonexp I (Some n) pre -> nonexp I (Some n) post ->
  forall w' s' tr delivered stop,
  run_reads I eat finish complete fmatch gen_shape w s sizes = (w', s', tr, delivered, stop) ->
  let cs := f_chunks s sizes in
  match first_abort I eat complete fmatch (s_insp sl) cs with
  | Some (j, a) =>
    delivered = firstn j cs /\ stop = Some (abort_exn a, Some (nth j cs [])) /\
    f_pos s' = f_pos s + blen (concat (firstn (S j) cs))
  | None => delivered = cs /\ stop = None /\ f_pos s' = f_pos s + blen (concat cs)
  end.
Proof.
  intros I eat finish complete fmatch w s sizes n pre sl post Hc He Hsl Hn Herr Hpre Hpost w' s' tr delivered stop Hrun cs.
  destruct (run_reads_stop I eat finish complete fmatch gen_shape _ _ _ Hc _ _ _ _ _ Hrun) as (un & Hstop).
  destruct (expected_abort_exact I eat finish complete fmatch gen_shape gen_shape_ok w n pre sl post cs He Hsl Hn Herr Hpre Hpost)
    as (w2 & tr2 & Hex).
  fold cs in Hstop. rewrite Hstop in Hex.
  destruct (reads_are_identity_file I eat finish complete fmatch gen_shape _ _ _ _ _ _ _ _ Hrun) as (_ & Hpos & _).
  destruct (first_abort I eat complete fmatch (s_insp sl) cs) as [[j a]|] eqn:Hfa; injection Hex as -> -> -> -> ->; repeat split; rewrite Hpos.
  - rewrite (firstn_S_nth (A:=bytes) _ _ [] (first_abort_bound I eat complete fmatch _ _ _ _ Hfa)), concat_app, blen_app.
    cbn. rewrite app_nil_r. lia.
  - cbn. lia.
Qed.
Print Assumptions C06_expected_abort_exact_file.

(* ... and when iterating: what is left in the source is everything after chunk j *)
Theorem C06_expected_abort_exact_iter :
  forall I eat finish complete fmatch (w : wrapper I) s n pre sl post,
  w_expected w = Some n -> w_slots w = pre ++ sl :: post -> s_name sl = n -> s_err sl = false ->
  nonexp I (Some n) pre -> nonexp I (Some n) post ->
  forall w' s' tr delivered stop,
  run_iter I eat finish complete fmatch gen_shape (S (length (i_chunks s))) w s = (w', s', tr, delivered, stop) ->
  let cs := i_chunks s in
  match first_abort I eat complete fmatch (s_insp sl) cs with
  | Some (j, a) =>
    delivered = firstn j cs /\ stop = Some (abort_exn a, Some (nth j cs [])) /\ i_chunks s' = skipn (S j) cs
  | None => delivered = cs /\ stop = Some (StopIteration, None) /\ i_chunks s' = [] /\ w_finished w' = true
  end.
Proof.
  intros I eat finish complete fmatch w s n pre sl post He Hsl Hn Herr Hpre Hpost w' s' tr delivered stop Hrun cs.
  destruct (run_iter_stop I eat finish complete fmatch gen_shape cs _ w s eq_refl (Nat.lt_succ_diag_r _) _ _ _ _ _ Hrun) as (un & Hstop).
  pose proof (expected_abort_core I eat finish complete fmatch gen_shape gen_shape_ok n [InStop] cs _ w
                (sole_expected_intro I _ _ _ _ _ He Hsl Hn Herr Hpre Hpost)) as Hcore.
  pose proof (reads_are_identity_iter I eat finish complete fmatch gen_shape _ _ _ _ _ _ _ _ Hrun) as Hid. fold cs in Hid.
  pose proof (iteration_complete I eat finish complete fmatch gen_shape _ _ _ _ _ _ _ Hrun) as Hcompl.
  destruct (first_abort I eat complete fmatch (s_insp sl) cs) as [[j a]|] eqn:Hfa.
  - destruct Hcore as (w2 & tr2 & Hr). rewrite Hstop in Hr. injection Hr as -> -> -> -> ->. repeat split.
    (* the source's chunks are those delivered, chunk j, and what is left: cut both sides after chunk j *)
    rewrite <- (firstn_skipn j cs) in Hid at 1. apply app_inv_head in Hid.
    rewrite (skipn_nth_cons (A:=bytes) _ _ [] (first_abort_bound I eat complete fmatch _ _ _ _ Hfa)) in Hid.
    injection Hid as Hid. exact (eq_sym Hid).
  - destruct Hcore as (w1 & tr1 & Hr). cbn in Hr. rewrite Hstop in Hr. injection Hr as -> -> -> -> ->.
    rewrite app_nil_r in *. cbn in Hcompl. destruct Hcompl as (_ & _ & H3 & H4 & _). auto.
Qed.
Print Assumptions C06_expected_abort_exact_iter.

(* ---- no_read_after_abort --------------------------------------------------------------- *)
(* the run of a reader that stops at the first exception is a prefix of the general run,
   ending with its first exception; the remaining source answers are never requested and no
   inspector is called afterwards *)
Theorem C06_no_read_after_abort :
  forall I eat finish complete fmatch inps (w w' : wrapper I) tr cs stop unused,
  w_run_stop I eat finish complete fmatch gen_shape w inps = (w', tr, cs, stop, unused) ->
  exists used recs, inps = used ++ unused /\
    w_run I eat finish complete fmatch gen_shape w used = (w', recs) /\ run_trace recs = tr /\
    match stop with
    | None => unused = [] /\ Forall (fun r => forall e, sr_out r <> OutExn e) recs
    | Some (e, t) => exists recs0 r, recs = recs0 ++ [r] /\ sr_out r = OutExn e /\ taken (sr_in r) = t /\
                       Forall (fun r => forall e, sr_out r <> OutExn e) recs0
    end.
Proof. exact (fun I eat finish complete fmatch => no_read_after_abort I eat finish complete fmatch gen_shape). Qed.
Print Assumptions C06_no_read_after_abort.

(* ---- finish_on_stop_iteration_and_close; finish reaches every inspector ---------------- *)
Theorem C06_finish_on_stop_iteration :
  forall I eat finish complete fmatch (w : wrapper I) s, i_chunks s = [] ->
  exists w', w_next I eat finish complete fmatch gen_shape w s = (w', s, [], InStop, OutExn StopIteration) /\
    w' = finish_all I finish w /\
    map (@s_insp I) (w_slots w') = map finish (map (@s_insp I) (w_slots w)) /\ w_finished w' = true.
Proof.
  intros I eat finish complete fmatch w s Hc. exists (finish_all I finish w). rewrite w_next_nil by assumption.
  destruct (finish_all_spec I finish w) as (H1 & _ & _ & H4 & _). auto.
Qed.
Print Assumptions C06_finish_on_stop_iteration.

Theorem C06_finish_on_close :
  forall I (finish : I -> I) (w : wrapper I),
  (forall s, fst (w_close_f I finish w s) = finish_all I finish w /\ f_closed (snd (w_close_f I finish w s)) = true) /\
  (forall s, fst (w_close_i I finish w s) = finish_all I finish w /\
             (i_has_close s = true -> i_chunks (snd (w_close_i I finish w s)) = [])) /\
  map (@s_insp I) (w_slots (finish_all I finish w)) = map finish (map (@s_insp I) (w_slots w)) /\
  w_finished (finish_all I finish w) = true.
Proof.
  intros I finish w. destruct (finish_all_spec I finish w) as (H1 & _ & _ & H4 & _). repeat split; auto.
  unfold w_close_i, i_close. cbn. intros ->. reflexivity.
Qed.
Print Assumptions C06_finish_on_close.

(* a complete iteration either aborts at a chunk or delivers every chunk, ends with
   StopIteration and leaves the wrapper finished (S (number of chunks) calls suffice) *)
Theorem C06_iteration_complete :
  forall I eat finish complete fmatch (w : wrapper I) s w' s' tr cs stop,
  run_iter I eat finish complete fmatch gen_shape (S (length (i_chunks s))) w s = (w', s', tr, cs, stop) ->
  match stop with
  | None => False
  | Some (e, None) => e = StopIteration /\ cs = i_chunks s /\ i_chunks s' = [] /\
                      w_finished w' = true /\ exists w0, w' = finish_all I finish w0
  | Some (e, Some c) => i_chunks s = cs ++ c :: i_chunks s'
  end.
Proof. exact (fun I eat finish complete fmatch => iteration_complete I eat finish complete fmatch gen_shape). Qed.
Print Assumptions C06_iteration_complete.

(* ---- the inspectors see the stream ----------------------------------------------------- *)
(* after a run in which every chunk was delivered, an inspector that was not errored at the
   start holds the state reached by feeding it the delivered chunks up to its first
   exception, and is in the errored set iff it raised (used by C01/C03) *)
Theorem C06_wrapper_slots_are_feed :
  forall I eat finish complete fmatch cs (w w' : wrapper I) tr unused,
  w_run_stop I eat finish complete fmatch gen_shape w (map InChunk cs) = (w', tr, cs, None, unused) ->
  forall k s, nth_error (w_slots w) k = Some s -> s_err s = false ->
    exists s', nth_error (w_slots w') k = Some s' /\ s_name s' = s_name s /\
      (s_insp s', s_err s') = feed I eat (s_insp s) cs.
Proof.
  intros I eat finish complete fmatch cs w w' tr unused H k s Hk He.
  destruct (Forall2_nth_error _ _ _ _ _ (wrapper_slots_fed I eat finish complete fmatch gen_shape gen_shape_ok _ _ _ _ _ H) Hk)
    as (s' & Hk' & Hn & Hf).
  rewrite He in Hf. eauto.
Qed.
Print Assumptions C06_wrapper_slots_are_feed.

(* ---- formats / format (abstract, reused by C03) ---------------------------------------- *)
Theorem C06_format_some_implies_unique_match :
  forall I complete fmatch (w : wrapper I) m,
  format I complete fmatch raw_lit_nonraw raw_lit_raw w = Ok (Some m) ->
  decided I complete raw_lit_nonraw w = true /\
  (matches I fmatch raw_lit_nonraw w = [m] \/
   (matches I fmatch raw_lit_nonraw w = [] /\ filter (is_raw I raw_lit_raw) (w_slots w) = [m])).
Proof. exact (fun I complete fmatch => format_some_implies_unique_match I complete fmatch raw_lit_nonraw raw_lit_raw). Qed.
Print Assumptions C06_format_some_implies_unique_match.

Theorem C06_two_matches_raise :
  forall I complete fmatch (w : wrapper I),
  decided I complete raw_lit_nonraw w = true -> (1 < length (matches I fmatch raw_lit_nonraw w))%nat ->
  format I complete fmatch raw_lit_nonraw raw_lit_raw w = Exn ImageFormatError.
Proof. exact (fun I complete fmatch => two_matches_raise I complete fmatch raw_lit_nonraw raw_lit_raw). Qed.
Print Assumptions C06_two_matches_raise.

Theorem C06_raw_only_when_nothing_matches_and_allowed :
  forall I complete fmatch (w : wrapper I) m,
  format I complete fmatch raw_lit_nonraw raw_lit_raw w = Ok (Some m) -> is_raw I raw_lit_raw m = true ->
  matches I fmatch raw_lit_nonraw w = [] /\ In m (w_slots w) /\ decided I complete raw_lit_nonraw w = true.
Proof. exact (fun I complete fmatch => raw_only_when_nothing_matches_and_allowed I complete fmatch raw_lit_nonraw raw_lit_raw raw_lits_agree). Qed.
Print Assumptions C06_raw_only_when_nothing_matches_and_allowed.

Theorem C06_raw_never_with_others :
  forall I complete fmatch (w : wrapper I) ms,
  formats I complete fmatch raw_lit_nonraw raw_lit_raw w = Some ms ->
  (exists m, In m ms /\ is_raw I raw_lit_raw m = true) ->
  matches I fmatch raw_lit_nonraw w = [] /\ Forall (fun m => is_raw I raw_lit_raw m = true) ms.
Proof. exact (fun I complete fmatch => raw_never_with_others I complete fmatch raw_lit_nonraw raw_lit_raw raw_lits_agree). Qed.
Print Assumptions C06_raw_never_with_others.

Theorem C06_format_total :
  forall I complete fmatch (w : wrapper I),
  (exists r, format I complete fmatch raw_lit_nonraw raw_lit_raw w = Ok r) \/
  format I complete fmatch raw_lit_nonraw raw_lit_raw w = Exn ImageFormatError.
Proof. exact (fun I complete fmatch => format_total I complete fmatch raw_lit_nonraw raw_lit_raw). Qed.
Print Assumptions C06_format_total.

(* allowed_formats: a non-empty list restricts the inspectors to those names; [] (like None)
   allows every format of ALL_FORMATS *)
Theorem C06_allowed_formats_respected :
  forall I (factory : list (str * I)) expected allowed s,
  In s (w_slots (mk_wrapper I factory expected allowed)) -> allowed <> [] -> In (s_name s) allowed.
Proof. exact allowed_formats_respected. Qed.
Print Assumptions C06_allowed_formats_respected.

Theorem C06_allowed_empty_means_all :
  forall I (factory : list (str * I)) expected,
  map (@s_name I) (w_slots (mk_wrapper I factory expected [])) = map fst factory.
Proof.
  intros I factory expected. cbn [mk_wrapper w_slots]. rewrite mk_slots_names. cbn [allowed_key].
  induction (map fst factory) as [|x l IH]; [reflexivity|]. cbn [filter]. now rewrite IH.
Qed.
Print Assumptions C06_allowed_empty_means_all.

(* ---- the regenerated tables ------------------------------------------------------------ *)
(* ALL_FORMATS: keys are the class NAMEs, pairwise distinct, and 'raw' is one of them; with
   distinct names the inspector named n splits the collection as the theorems above require *)
Theorem C06_all_formats_wellformed :
  forallb (fun p => beq (fst p) (snd p)) all_formats = true /\ NoDup (map fst all_formats) /\
  In raw_lit_raw (map fst all_formats) /\ raw_lit_nonraw = raw_lit_raw /\ shape_okb gen_shape = true.
Proof. exact (conj all_formats_keys_are_names (conj all_formats_names_distinct (conj raw_is_a_format (conj raw_lits_agree gen_shape_ok)))). Qed.
Print Assumptions C06_all_formats_wellformed.

Theorem C06_unique_name_split :
  forall I (ss : list (slot I)) s n,
  NoDup (map (@s_name I) ss) -> In s ss -> s_name s = n ->
  exists pre post, ss = pre ++ s :: post /\ nonexp I (Some n) pre /\ nonexp I (Some n) post.
Proof. exact unique_name_split. Qed.
Print Assumptions C06_unique_name_split.

(* ---- a freshly constructed wrapper ----------------------------------------------------- *)
(* InspectWrapper(source, expected_format=n, allowed_formats=allowed) over a table with
   distinct names (ALL_FORMATS: C06_all_formats_wellformed) in which n is present and allowed *)
Theorem C06_expected_abort_exact_fresh :
  forall I eat finish complete fmatch (factory : list (str * I)) allowed n i0 cs,
  NoDup (map fst factory) -> In (n, i0) factory -> allowed_key allowed n = true ->
  exists w' tr,
    w_run_stop I eat finish complete fmatch gen_shape (mk_wrapper I factory (Some n) allowed) (map InChunk cs) =
    match first_abort I eat complete fmatch i0 cs with
    | Some (j, a) => (w', tr, firstn j cs, Some (abort_exn a, Some (nth j cs [])), map InChunk (skipn (S j) cs))
    | None => (w', tr, cs, None, [])
    end.
Proof. exact (fun I eat finish complete fmatch => expected_abort_exact_fresh I eat finish complete fmatch gen_shape gen_shape_ok). Qed.
Print Assumptions C06_expected_abort_exact_fresh.

(* expected_format=None: whatever the inspectors do, every chunk of every call is delivered *)
Theorem C06_no_expectation_no_exception :
  forall I eat finish complete fmatch (factory : list (str * I)) allowed inps w' recs,
  w_run I eat finish complete fmatch gen_shape (mk_wrapper I factory None allowed) inps = (w', recs) ->
  Forall (fun r => forall c, sr_in r = InChunk c -> sr_out r = OutChunk c) recs.
Proof.
  intros I eat finish complete fmatch factory allowed inps w' recs.
  apply (no_expected_inspector_no_exception I eat finish complete fmatch gen_shape gen_shape_ok). intros s _. reflexivity.
Qed.
Print Assumptions C06_no_expectation_no_exception.

(* ---- detect_file_format ---------------------------------------------------------------- *)
(* for every file content and whatever the inspectors do: the function returns the NAME of
   one inspector or raises ImageFormatError (never None, never an inspector's exception); the
   file has been closed and every inspector finished (close() in the finally clause).  The
   chunk size is the regenerated one; only its positivity is used. *)
Theorem C06_detect_file_format_total :
  forall I eat finish complete fmatch (factory : list (str * I)) data,
  let '(w, s, tr, r) := detect_file_format I eat finish complete fmatch gen_shape raw_lit_nonraw raw_lit_raw
                          detect_chunk_size factory data in
  ((exists nm, r = Ok (Some nm)) \/ r = Exn ImageFormatError) /\
  f_closed s = true /\ w_finished w = true /\ f_data s = data.
Proof.
  exact (fun I eat finish complete fmatch factory data =>
    detect_file_format_total I eat finish complete fmatch gen_shape gen_shape_ok raw_lit_nonraw raw_lit_raw
      detect_chunk_size factory data detect_chunk_size_pos).
Qed.
Print Assumptions C06_detect_file_format_total.

(* ---- what [first_abort] means ---------------------------------------------------------- *)
(* first_abort i cs = Some (j, a): feeding the inspector ALONE, chunks 0..j-1 are eaten without
   exception and after none of them it is complete without matching; chunk j makes it raise
   e (a = AbFault e) or is eaten and leaves it complete without matching (a = AbMismatch) *)
Theorem C06_first_abort_spec :
  forall I eat complete fmatch cs (i : I) j a,
  first_abort I eat complete fmatch i cs = Some (j, a) ->
  snd (feed I eat i (firstn j cs)) = false /\
  (forall k, (0 < k <= j)%nat ->
     let ik := fst (feed I eat i (firstn k cs)) in complete ik && negb (fmatch ik) = false) /\
  let ij := fst (feed I eat i (firstn j cs)) in
  match a with
  | AbFault e => snd (eat ij (nth j cs [])) = Some e
  | AbMismatch => snd (eat ij (nth j cs [])) = None /\
                  complete (fst (eat ij (nth j cs []))) && negb (fmatch (fst (eat ij (nth j cs [])))) = true
  end.
Proof.
  intros I eat complete fmatch. induction cs as [|c cs IH]; intros i j a; cbn [first_abort]; [discriminate|].
  destruct (eat i c) as [i' oe] eqn:Heat. destruct oe as [e|].
  - intros H; inversion H; subst. cbn. rewrite Heat. repeat split; auto. intros k Hk. lia.
  - destruct (complete i' && negb (fmatch i')) eqn:Hc.
    + intros H; inversion H; subst. cbn. rewrite Heat. cbn. repeat split; auto. intros k Hk. lia.
    + destruct (first_abort I eat complete fmatch i' cs) as [[k0 b]|] eqn:Hf; [|discriminate].
      intros H; inversion H; subst. destruct (IH _ _ _ Hf) as (H1 & H2 & H3).
      cbn [firstn feed nth]. rewrite Heat. split; [exact H1|]. split; [|exact H3].
      intros k Hk. destruct k as [|k]; [lia|]. cbn [firstn feed]. rewrite Heat.
      destruct k as [|k]; [cbn; exact Hc|]. apply H2. lia.
Qed.
Print Assumptions C06_first_abort_spec.

Theorem C06_first_abort_none_spec :
  forall I eat complete fmatch cs (i : I),
  first_abort I eat complete fmatch i cs = None ->
  snd (feed I eat i cs) = false /\
  (forall k, (0 < k <= length cs)%nat ->
     let ik := fst (feed I eat i (firstn k cs)) in complete ik && negb (fmatch ik) = false).
Proof.
  intros I eat complete fmatch. induction cs as [|c cs IH]; intros i; cbn [first_abort].
  - intros _. split; [reflexivity|]. intros k Hk. cbn in Hk. lia.
  - destruct (eat i c) as [i' oe] eqn:Heat. destruct oe as [e|]; [discriminate|].
    destruct (complete i' && negb (fmatch i')) eqn:Hc; [discriminate|].
    destruct (first_abort I eat complete fmatch i' cs) as [[k0 b]|] eqn:Hf; [discriminate|]. intros _.
    destruct (IH _ Hf) as (H1 & H2). cbn [feed]. rewrite Heat. split; [exact H1|].
    intros k Hk. destruct k as [|k]; [lia|]. cbn [firstn feed]. rewrite Heat.
    destruct k as [|k]; [cbn; exact Hc|]. apply H2. cbn in Hk. lia.
Qed.
Print Assumptions C06_first_abort_none_spec.

(* ---- the tie: the statement-level translation of the source IS the model -------------- *)
(* Gen/C06_Code.v is regenerated from the source text of InspectWrapper on every run
   (tools/gen/gen_C06_code.py); Proofs/C06_Equiv.v proves every translated method equal to
   the model the theorems above are about (further *_equiv lemmas there: __next__, close,
   __init__, _finish, formats, detect_file_format).  Here: _process_chunk, read, format. *)
Theorem C06_translation_is_the_model :
  forall I eat finish complete fmatch (w : wrapper I),
  (forall chunk, gen_process_chunk I eat complete fmatch w chunk =
     let '(w', tr, r) := process_chunk I eat complete fmatch gen_shape w chunk in (w', exn_res r)) /\
  (forall s size, gen_read I eat complete fmatch fsrc f_read w s size =
     let '(w', s', tr, inp, o) := w_read I eat finish complete fmatch gen_shape w s size in (w', s', out_res o)) /\
  (forall s, gen_next I eat finish complete fmatch isrc i_next w s =
     let '(w', s', tr, inp, o) := w_next I eat finish complete fmatch gen_shape w s in (w', s', out_res o)) /\
  gen_finish I finish w = (finish_all I finish w, Ok tt) /\
  gen_format I complete fmatch w = format I complete fmatch raw_lit_nonraw raw_lit_raw w.
Proof.
  exact (fun I eat finish complete fmatch w =>
    conj (gen_process_chunk_equiv I eat complete fmatch w)
   (conj (gen_read_file_equiv I eat finish complete fmatch w)
   (conj (gen_next_iter_equiv I eat finish complete fmatch w)
   (conj (gen_finish_equiv I finish w) (gen_format_equiv I complete fmatch w))))).
Qed.
Print Assumptions C06_translation_is_the_model.

(* ---- source faults --------------------------------------------------------------------- *)
(* The source's own read()/next() may raise ANY exception at ANY call and go on afterwards
   (a transient error, a resumable iterator).  Such a call gives the reader that exception
   and leaves the wrapper exactly as it was: the rest of the session is what it would be had
   the failed call not happened (only StopIteration from next() finishes the inspectors). *)
Theorem C06_source_fault_transparent :
  forall I eat finish complete fmatch (w : wrapper I) l1 e l2,
  w_step I eat finish complete fmatch gen_shape w (InSrcErr e) = (w, [], OutExn e) /\
  w_run I eat finish complete fmatch gen_shape w (l1 ++ InSrcErr e :: l2) =
    (let (w1, r1) := w_run I eat finish complete fmatch gen_shape w l1 in
     let (w2, r2) := w_run I eat finish complete fmatch gen_shape w1 l2 in
     (w2, r1 ++ {| sr_in := InSrcErr e; sr_tr := []; sr_out := OutExn e |} :: r2)) /\
  w_run I eat finish complete fmatch gen_shape w (l1 ++ l2) =
    (let (w1, r1) := w_run I eat finish complete fmatch gen_shape w l1 in
     let (w2, r2) := w_run I eat finish complete fmatch gen_shape w1 l2 in (w2, r1 ++ r2)).
Proof.
  intros I eat finish complete fmatch w l1 e l2. split; [reflexivity|]. split; [|apply w_run_app].
  rewrite w_run_app. destruct (w_run I eat finish complete fmatch gen_shape w l1) as [w1 r1]. rewrite w_run_cons. cbn [w_step].
  destruct (w_run I eat finish complete fmatch gen_shape w1 l2) as [w2 r2]. reflexivity.
Qed.
Print Assumptions C06_source_fault_transparent.

(* read()/__next__() as TRANSLATED from the source, over any source whatsoever: what reaches
   the wrapper core is InChunk for a chunk, InStop for StopIteration from next() only, and
   InSrcErr e (wrapper untouched) for every other exception *)
Theorem C06_translated_read_next_any_source :
  forall I eat finish complete fmatch (Src : Type) (w : wrapper I) (s : Src),
  (forall src_read size, gen_read I eat complete fmatch Src src_read w s size =
     let '(w', s', tr, inp, o) := w_read_on I eat finish complete fmatch gen_shape Src src_read w s size in (w', s', out_res o)) /\
  (forall src_next, gen_next I eat finish complete fmatch Src src_next w s =
     let '(w', s', tr, inp, o) := w_next_on I eat finish complete fmatch gen_shape Src src_next w s in (w', s', out_res o)).
Proof.
  exact (fun I eat finish complete fmatch Src w s =>
    conj (fun src_read size => gen_read_equiv I eat finish complete fmatch Src src_read w s size)
         (fun src_next => gen_next_equiv I eat finish complete fmatch Src src_next w s)).
Qed.
Print Assumptions C06_translated_read_next_any_source.
