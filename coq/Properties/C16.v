(* Properties/C16.v — the property theorems, each followed by Print Assumptions: each is proved by [exact] of a lemma of
   Proofs/ or in a few lines from such lemmas.  At the end: a concrete world [w_ascii] and examples on it (the premises
   can be met; test vectors of the codecs, of the name lookup and of to_slug).

   Vocabulary (Base/C16_Py.v, Model/C16.v, Model/C16_Codecs.v):
     pval = PStr s | PBytes b | POther tag        a dynamically typed argument
     cres = COk v | CExn e                        a result or the exception class raised
     world                                        what is runtime: codec registry (lookup / enc / dec), the value of
                                                  sys.stdin.encoding or sys.getdefaultencoding(), the NFKD->ASCII fold
     world3 d                                     the concrete world: CPython's UTF-8, Latin-1, ASCII, UTF-16(-LE/-BE), UTF-32(-LE/-BE), cp1252, koi8-r codecs,
                                                  its name lookup for them, the generated NFKD table, default encoding d
   Predicates of the statements that are defined beside their lemmas:
     representable3 c t   (Proofs/C16_Codecs.v)   codec c can encode text t: surrogate-free; below 256 / 128 for Latin-1 / ASCII; in the table for the charmaps
     canonical3 c         (Proofs/C16_Codecs.v)   every codec but the BOM-writing 'utf-16' / 'utf-32'
     same_but_seps a b    (Proofs/C16_Codecs.v)   a and b differ only in which separator characters (is_sep: not [A-Za-z0-9.]) they use
     charmap_repr tbl t   (Proofs/C16_Utf16.v)    every character of t occurs in the decoding table
     csub_of r t          (Proofs/C16_Regex.v)    the substitution (r, t) seen as "replace each member of a class" (CsEach) or
                                                  "replace each maximal run of a class" (CsRuns) by literals; csub_apply is that replacement
   Part A: any world, contracts as premises.  Part B: world3, no premises left.  Part C: the regex engine. *)
From Coq Require Import String.
Require Import OV.Base.Bytes OV.Base.PyInt OV.Base.Str OV.Base.Regex OV.Base.C16_Py.
Require Import OV.Gen.C16_Aliases OV.Gen.C16_Fold OV.Gen.C16_Charmaps OV.Gen.C16_Slug OV.Gen.C16_Code.
Require Import OV.Model.C16 OV.Model.C16_Codecs.
Require Import OV.Proofs.C16_Regex OV.Proofs.C16 OV.Proofs.C16_Slug OV.Proofs.C16_Utf16 OV.Proofs.C16_Codecs OV.Proofs.C16_Closed.
Open Scope N_scope.

(* ======================= Part A: any runtime world ======================= *)

(* safe_decode returns str unchanged *)
Theorem C16_safe_decode_str_id : forall w s incoming errors,
  safe_decode w (PStr s) incoming errors = COk s.
Proof. exact safe_decode_str_id. Qed.
Print Assumptions C16_safe_decode_str_id.

(* ... and decodes bytes with the given encoding (incoming, else the default), falling back to the
   codec named by the literal in the source when — and only when — that raises UnicodeDecodeError;
   the outcome of the fallback, success or any exception, is the outcome of safe_decode *)
Theorem C16_safe_decode_bytes : forall w b incoming errors,
  let first := bytes_decode w b (resolve_incoming w incoming) errors in
  (first <> CExn EUnicodeDecodeError -> safe_decode w (PBytes b) incoming errors = first) /\
  (first = CExn EUnicodeDecodeError ->
     safe_decode w (PBytes b) incoming errors = bytes_decode w b fallback_encoding errors).
Proof. exact safe_decode_bytes. Qed.
Print Assumptions C16_safe_decode_bytes.

(* safe_encode(t, encoding=e, errors) followed by safe_decode(.., incoming=e, errors) returns t for every
   text the codec named e can represent (strict decode of the strict encoding gives t back), whatever the
   letter case of e, the error policy and the incoming argument of safe_encode.
   Contracts on the codec: error handlers are consulted only on errors; b''.decode is ''. *)
Theorem C16_encode_decode_roundtrip : forall w e c t incoming0 errors,
  e <> [] ->
  lookup w e = Some c -> lookup_lower_ok w e ->
  enc_policy_irrelevant w c -> dec_policy_irrelevant w c ->
  dec w c [] strict_name = COk [] ->
  representsb w c t = true ->
  exists b, safe_encode w (PStr t) incoming0 e errors = COk (PBytes b) /\
            safe_decode w (PBytes b) (Some e) errors = COk t.
Proof. exact encode_decode_roundtrip. Qed.
Print Assumptions C16_encode_decode_roundtrip.

(* the same under the codec-wide contract "decode (encode t) = t whenever strict encoding succeeds":
   then "e can represent t" is just "t.encode(e) succeeds" *)
Theorem C16_encode_decode_roundtrip_contract : forall w e c t incoming0 errors b0,
  e <> [] ->
  lookup w e = Some c -> lookup_lower_ok w e ->
  enc_policy_irrelevant w c -> dec_policy_irrelevant w c -> codec_roundtrip w c ->
  dec w c [] strict_name = COk [] ->
  enc w c t strict_name = COk b0 ->
  safe_encode w (PStr t) incoming0 e errors = COk (PBytes b0) /\
  safe_decode w (PBytes b0) (Some e) errors = COk t.
Proof.
  intros w e c t incoming0 errors b0 He Hl Hlow Hpe Hpd Hrt Hempty Henc.
  apply (encode_decode_roundtrip_bytes w e c); try assumption. exact (Hrt _ _ Henc).
Qed.
Print Assumptions C16_encode_decode_roundtrip_contract.

(* safe_encode of bytes returns them untouched when the two names agree up to letter case
   (str.lower() of both; no codec is looked up, so this holds for unknown names too) *)
Theorem C16_safe_encode_bytes_same_codec_id : forall w b incoming encoding errors,
  py_lower encoding = py_lower (resolve_incoming w incoming) ->
  safe_encode w (PBytes b) incoming encoding errors = COk (PBytes b).
Proof. exact safe_encode_bytes_same_codec_id. Qed.
Print Assumptions C16_safe_encode_bytes_same_codec_id.

(* ... and also when they are empty, whatever the names (finding empty-bom: for utf-16/utf-32 this is
   not the transcoding of the empty text) *)
Theorem C16_safe_encode_empty_id : forall w incoming encoding errors,
  safe_encode w (PBytes []) incoming encoding errors = COk (PBytes []).
Proof. exact safe_encode_empty_id. Qed.
Print Assumptions C16_safe_encode_empty_id.

(* otherwise it transcodes: safe_decode with the lower-cased incoming name (UTF-8 fallback included),
   then str.encode with the lower-cased encoding name *)
Theorem C16_safe_encode_transcodes : forall w b incoming encoding errors,
  b <> [] ->
  py_lower encoding <> py_lower (resolve_incoming w incoming) ->
  safe_encode w (PBytes b) incoming encoding errors =
  cbind (safe_decode w (PBytes b) (Some (py_lower (resolve_incoming w incoming))) errors)
        (fun t => cmap PBytes (str_encode w t (py_lower encoding) errors)).
Proof. exact safe_encode_transcodes. Qed.
Print Assumptions C16_safe_encode_transcodes.

(* in terms of the codecs: if lookup ignores the letter case of the two names and the incoming codec
   decodes the bytes to t, the result is the encoding codec applied to t *)
Theorem C16_safe_encode_transcodes_codecs : forall w b incoming encoding errors cin cout t,
  b <> [] ->
  py_lower encoding <> py_lower (resolve_incoming w incoming) ->
  resolve_incoming w incoming <> [] ->
  lookup_lower_ok w (resolve_incoming w incoming) -> lookup_lower_ok w encoding ->
  lookup w (resolve_incoming w incoming) = Some cin -> lookup w encoding = Some cout ->
  dec w cin b errors = COk t ->
  safe_encode w (PBytes b) incoming encoding errors = cmap PBytes (enc w cout t errors).
Proof.
  intros w b incoming encoding errors cin cout t Hb Hne Hi Hli Hle Hcin Hcout Hdec.
  rewrite safe_encode_transcodes by assumption.
  unfold safe_decode, decode_with_fallback.
  rewrite resolve_some by (apply py_lower_nonempty; exact Hi).
  unfold bytes_decode. destruct b as [|x b']; [exfalso; apply Hb; reflexivity|].
  unfold lookup_lower_ok in *. rewrite Hli, Hcin, Hdec. cbn [cbind].
  unfold str_encode. rewrite Hle, Hcout. reflexivity.
Qed.
Print Assumptions C16_safe_encode_transcodes_codecs.

(* to_utf8: identity on bytes, str.encode(<literal>, 'strict') on str, TypeError otherwise *)
Theorem C16_to_utf8_spec : forall w,
  (forall b, to_utf8 w (PBytes b) = COk (PBytes b)) /\
  (forall s, to_utf8 w (PStr s) = cmap PBytes (str_encode w s to_utf8_encoding strict_name)) /\
  (forall tag, to_utf8 w (POther tag) = CExn ETypeError).
Proof. exact to_utf8_spec. Qed.
Print Assumptions C16_to_utf8_spec.

(* each raises TypeError for any other type *)
Theorem C16_type_errors : forall w tag incoming encoding errors,
  safe_decode w (POther tag) incoming errors = CExn ETypeError /\
  safe_encode w (POther tag) incoming encoding errors = CExn ETypeError /\
  to_utf8 w (POther tag) = CExn ETypeError /\
  to_slug w (POther tag) incoming errors = CExn ETypeError.
Proof. exact type_errors. Qed.
Print Assumptions C16_type_errors.

(* type contract: safe_encode and to_utf8 return bytes whenever they return (safe_decode and to_slug
   return str by their Coq type) *)
Theorem C16_result_types : forall w v incoming encoding errors,
  (forall r, safe_encode w v incoming encoding errors = COk r -> exists b, r = PBytes b) /\
  (forall r, to_utf8 w v = COk r -> exists b, r = PBytes b).
Proof.
  assert (G : forall x r, cmap PBytes x = COk r -> exists b, r = PBytes b).
  { intros x r H. destruct (cmap_ok _ _ _ H) as (b & _ & ->). exists b. reflexivity. }
  intros w v incoming encoding errors. split; intros r H.
  - unfold safe_encode in H. destruct v as [s|b|tag]; [exact (G _ _ H)| |discriminate].
    destruct (truthy_str b && _); [|injection H as <-; exists b; reflexivity].
    destruct (safe_decode w (PBytes b) _ errors) as [t|]; [exact (G _ _ H)|discriminate].
  - unfold to_utf8 in H. destruct v as [s|b|tag]; [exact (G _ _ H)|injection H as <-; exists b; reflexivity|discriminate].
Qed.
Print Assumptions C16_result_types.

(* to_slug yields only a-z 0-9 _ - and never two hyphens in a row (a leading and a trailing single hyphen
   are possible: to_slug('-a-') = '-a-'), for every input, provided the NFKD fold yields ASCII *)
Theorem C16_slug_alphabet : forall w value incoming errors o,
  fold_ascii_out w ->
  to_slug w value incoming errors = COk o ->
  forallb slug_char o = true /\ no_double_hyphen o = true.
Proof. exact to_slug_alphabet. Qed.
Print Assumptions C16_slug_alphabet.

(* applying it twice equals applying it once (the fold also leaves ASCII text alone) *)
Theorem C16_slug_idempotent : forall w value incoming errors o incoming' errors',
  fold_ascii_out w -> fold_ascii_id w ->
  to_slug w value incoming errors = COk o ->
  to_slug w (PStr o) incoming' errors' = COk o.
Proof. exact to_slug_idempotent. Qed.
Print Assumptions C16_slug_idempotent.

(* to_slug raises exactly what safe_decode raises *)
Theorem C16_slug_error : forall w value incoming errors e,
  to_slug w value incoming errors = CExn e <-> safe_decode w value incoming errors = CExn e.
Proof.
  intros w value incoming errors e. unfold to_slug. destruct (safe_decode w value incoming errors); cbn [cmap].
  - split; discriminate.
  - reflexivity.
Qed.
Print Assumptions C16_slug_error.

(* ======================= Part B: the concrete world, no premises ======================= *)

(* UTF-8: every surrogate-free text of any length is encoded (under any policy) to bytes that decode
   (under any policy) to the same text *)
Theorem C16_utf8_codec_roundtrip : forall t, valid_text t = true ->
  exists b, (forall p, utf8_enc p t = COk b) /\ (forall p, utf8_dec p b = COk t).
Proof. exact utf8_roundtrip. Qed.
Print Assumptions C16_utf8_codec_roundtrip.

(* UTF-8 decoder rejects overlong forms, surrogates and values above U+10FFFF: whatever it accepts under
   'strict' is surrogate-free text whose encoding is exactly the input *)
Theorem C16_utf8_decoder_canonical : forall b t,
  utf8_dec Strict b = COk t -> valid_text t = true /\ utf8_enc Strict t = COk b.
Proof. exact utf8_dec_strict_canonical. Qed.
Print Assumptions C16_utf8_decoder_canonical.

(* UTF-16 (le = true: little endian, false: big endian) and UTF-32: the same two facts.  For the decoders the
   first conjunct says the policy is irrelevant when strict decoding succeeds, the second that the decoder is
   canonical on byte strings (no lone surrogate, nothing out of range accepted). *)
Theorem C16_utf16_codec_roundtrip : forall le t, valid_text t = true ->
  exists b, (forall p, utf16_enc le p t = COk b) /\ (forall p, utf16_dec le p b = COk t).
Proof. exact utf16_roundtrip. Qed.
Print Assumptions C16_utf16_codec_roundtrip.

Theorem C16_utf16_decoder_canonical : forall le b t,
  utf16_dec le Strict b = COk t ->
  (forall p, utf16_dec le p b = COk t) /\
  (all_bytes b = true -> valid_text t = true /\ utf16_enc le Strict t = COk b).
Proof. exact utf16_dec_strict_canonical. Qed.
Print Assumptions C16_utf16_decoder_canonical.

Theorem C16_utf32_codec_roundtrip : forall le t, valid_text t = true ->
  exists b, (forall p, utf32_enc le p t = COk b) /\ (forall p, utf32_dec le p b = COk t).
Proof. exact utf32_roundtrip. Qed.
Print Assumptions C16_utf32_codec_roundtrip.

Theorem C16_utf32_decoder_canonical : forall le b t,
  utf32_dec le Strict b = COk t ->
  (forall p, utf32_dec le p b = COk t) /\
  (all_bytes b = true -> valid_text t = true /\ utf32_enc le Strict t = COk b).
Proof. exact utf32_dec_strict_canonical. Qed.
Print Assumptions C16_utf32_decoder_canonical.

(* 'utf-16' / 'utf-32' proper: BOM in the machine's byte order written, BOM of either order honoured *)
Theorem C16_utf16_bom_codec_roundtrip : forall t, valid_text t = true ->
  exists b, (forall p, utf16_bom_enc p t = COk b) /\ (forall p, utf16_bom_dec p b = COk t).
Proof. exact utf16_bom_roundtrip. Qed.
Print Assumptions C16_utf16_bom_codec_roundtrip.

Theorem C16_utf32_bom_codec_roundtrip : forall t, valid_text t = true ->
  exists b, (forall p, utf32_bom_enc p t = COk b) /\ (forall p, utf32_bom_dec p b = COk t).
Proof. exact utf32_bom_roundtrip. Qed.
Print Assumptions C16_utf32_bom_codec_roundtrip.

(* all eleven concrete codecs at once: representable text (surrogate-free; below U+0100 for Latin-1, below U+0080
   for ASCII; characters of the table for cp1252 / koi8-r) is encoded under any policy to bytes that decode under any policy to the same text *)
Theorem C16_codec_roundtrip_all : forall c t, representable3 c t = true ->
  exists b, (forall e, enc3 c t e = COk b) /\ (forall e, dec3 c b e = COk t).
Proof. exact enc3_dec3_roundtrip. Qed.
Print Assumptions C16_codec_roundtrip_all.

(* the helpers' round trip through any ASCII spelling, in any letter case, of a name CPython resolves to one of
   the eleven codecs (generated alias table + CPython's name normalisation), any error policy *)
Theorem C16_roundtrip_concrete_codecs : forall d e c t incoming0 errors,
  forallb is_ascii e = true ->
  lookup3 e = Some c ->
  representable3 c t = true ->
  exists b, safe_encode (world3 d) (PStr t) incoming0 e errors = COk (PBytes b) /\
            safe_decode (world3 d) (PBytes b) (Some e) errors = COk t.
Proof. exact world3_roundtrip. Qed.
Print Assumptions C16_roundtrip_concrete_codecs.

(* ... and spelled out codec by codec *)
Theorem C16_roundtrip_utf8 : forall d e t incoming0 errors,
  forallb is_ascii e = true -> lookup3 e = Some CUtf8 -> valid_text t = true ->
  exists b, safe_encode (world3 d) (PStr t) incoming0 e errors = COk (PBytes b) /\
            safe_decode (world3 d) (PBytes b) (Some e) errors = COk t.
Proof. exact (fun d e => world3_roundtrip d e CUtf8). Qed.
Print Assumptions C16_roundtrip_utf8.

Theorem C16_roundtrip_latin1 : forall d e t incoming0 errors,
  forallb is_ascii e = true -> lookup3 e = Some CLatin1 -> forallb (fun x => x <? 256) t = true ->
  exists b, safe_encode (world3 d) (PStr t) incoming0 e errors = COk (PBytes b) /\
            safe_decode (world3 d) (PBytes b) (Some e) errors = COk t.
Proof. exact (fun d e => world3_roundtrip d e CLatin1). Qed.
Print Assumptions C16_roundtrip_latin1.

Theorem C16_roundtrip_ascii : forall d e t incoming0 errors,
  forallb is_ascii e = true -> lookup3 e = Some CAscii -> forallb (fun x => x <? 128) t = true ->
  exists b, safe_encode (world3 d) (PStr t) incoming0 e errors = COk (PBytes b) /\
            safe_decode (world3 d) (PBytes b) (Some e) errors = COk t.
Proof. exact (fun d e => world3_roundtrip d e CAscii). Qed.
Print Assumptions C16_roundtrip_ascii.

Theorem C16_roundtrip_utf16 : forall d e t incoming0 errors,
  forallb is_ascii e = true -> lookup3 e = Some CUtf16 -> valid_text t = true ->
  exists b, safe_encode (world3 d) (PStr t) incoming0 e errors = COk (PBytes b) /\
            safe_decode (world3 d) (PBytes b) (Some e) errors = COk t.
Proof. exact (fun d e => world3_roundtrip d e CUtf16). Qed.
Print Assumptions C16_roundtrip_utf16.

Theorem C16_roundtrip_utf16le : forall d e t incoming0 errors,
  forallb is_ascii e = true -> lookup3 e = Some CUtf16LE -> valid_text t = true ->
  exists b, safe_encode (world3 d) (PStr t) incoming0 e errors = COk (PBytes b) /\
            safe_decode (world3 d) (PBytes b) (Some e) errors = COk t.
Proof. exact (fun d e => world3_roundtrip d e CUtf16LE). Qed.
Print Assumptions C16_roundtrip_utf16le.

Theorem C16_roundtrip_utf16be : forall d e t incoming0 errors,
  forallb is_ascii e = true -> lookup3 e = Some CUtf16BE -> valid_text t = true ->
  exists b, safe_encode (world3 d) (PStr t) incoming0 e errors = COk (PBytes b) /\
            safe_decode (world3 d) (PBytes b) (Some e) errors = COk t.
Proof. exact (fun d e => world3_roundtrip d e CUtf16BE). Qed.
Print Assumptions C16_roundtrip_utf16be.

Theorem C16_roundtrip_utf32 : forall d e t incoming0 errors,
  forallb is_ascii e = true -> lookup3 e = Some CUtf32 -> valid_text t = true ->
  exists b, safe_encode (world3 d) (PStr t) incoming0 e errors = COk (PBytes b) /\
            safe_decode (world3 d) (PBytes b) (Some e) errors = COk t.
Proof. exact (fun d e => world3_roundtrip d e CUtf32). Qed.
Print Assumptions C16_roundtrip_utf32.

Theorem C16_roundtrip_utf32le : forall d e t incoming0 errors,
  forallb is_ascii e = true -> lookup3 e = Some CUtf32LE -> valid_text t = true ->
  exists b, safe_encode (world3 d) (PStr t) incoming0 e errors = COk (PBytes b) /\
            safe_decode (world3 d) (PBytes b) (Some e) errors = COk t.
Proof. exact (fun d e => world3_roundtrip d e CUtf32LE). Qed.
Print Assumptions C16_roundtrip_utf32le.

Theorem C16_roundtrip_utf32be : forall d e t incoming0 errors,
  forallb is_ascii e = true -> lookup3 e = Some CUtf32BE -> valid_text t = true ->
  exists b, safe_encode (world3 d) (PStr t) incoming0 e errors = COk (PBytes b) /\
            safe_decode (world3 d) (PBytes b) (Some e) errors = COk t.
Proof. exact (fun d e => world3_roundtrip d e CUtf32BE). Qed.
Print Assumptions C16_roundtrip_utf32be.

Theorem C16_roundtrip_cp1252 : forall d e t incoming0 errors,
  forallb is_ascii e = true -> lookup3 e = Some CCp1252 -> charmap_repr cp1252_table t = true ->
  exists b, safe_encode (world3 d) (PStr t) incoming0 e errors = COk (PBytes b) /\
            safe_decode (world3 d) (PBytes b) (Some e) errors = COk t.
Proof. exact (fun d e => world3_roundtrip d e CCp1252). Qed.
Print Assumptions C16_roundtrip_cp1252.

Theorem C16_roundtrip_koi8r : forall d e t incoming0 errors,
  forallb is_ascii e = true -> lookup3 e = Some CKoi8R -> charmap_repr koi8r_table t = true ->
  exists b, safe_encode (world3 d) (PStr t) incoming0 e errors = COk (PBytes b) /\
            safe_decode (world3 d) (PBytes b) (Some e) errors = COk t.
Proof. exact (fun d e => world3_roundtrip d e CKoi8R). Qed.
Print Assumptions C16_roundtrip_koi8r.

(* single-byte codecs given by a decoding table (cp1252 and koi8-r: tables regenerated from CPython): round trip for
   every text whose characters occur in the table, any table, any length *)
Theorem C16_charmap_codec_roundtrip : forall tbl t, charmap_repr tbl t = true ->
  exists b, (forall p, charmap_enc tbl p t = COk b) /\ (forall p, charmap_dec tbl p b = COk t).
Proof. exact charmap_roundtrip. Qed.
Print Assumptions C16_charmap_codec_roundtrip.

(* codec-name lookup (CPython's normalisation + the generated alias table): only the ASCII-lower-cased name matters,
   and any separator ('-', '_', ' ', ...) may stand for any other *)
Theorem C16_lookup_case_insensitive : forall a b, lower_ascii a = lower_ascii b -> lookup3 a = lookup3 b.
Proof.
  intros a b H. unfold lookup3, norm_name. rewrite <- (norm_go_lower a), <- (norm_go_lower b), H. reflexivity.
Qed.
Print Assumptions C16_lookup_case_insensitive.

Theorem C16_lookup_separator_insensitive : forall a b, same_but_seps a b -> lookup3 a = lookup3 b.
Proof. intros a b H. unfold lookup3, norm_name. rewrite (norm_go_seps a b H). reflexivity. Qed.
Print Assumptions C16_lookup_separator_insensitive.

(* transcoding between any two of the eleven codecs: safe_encode(bytes, incoming=a, encoding=b) = encode_b(decode_a(bytes))
   whenever the lower-cased names differ and codec a decodes the bytes (under the given policy) *)
Theorem C16_transcodes_concrete : forall d b incoming encoding errors cin cout t,
  b <> [] ->
  forallb is_ascii (resolve_incoming (world3 d) incoming) = true -> forallb is_ascii encoding = true ->
  py_lower encoding <> py_lower (resolve_incoming (world3 d) incoming) ->
  lookup3 (resolve_incoming (world3 d) incoming) = Some cin -> lookup3 encoding = Some cout ->
  dec3 cin b errors = COk t ->
  safe_encode (world3 d) (PBytes b) incoming encoding errors = cmap PBytes (enc3 cout t errors).
Proof.
  intros d b incoming encoding errors cin cout t Hb Hai Hae Hne Hcin Hcout Hdec.
  rewrite safe_encode_transcodes by assumption.
  apply (world3_transcode_eval d b incoming encoding errors cin cout t); assumption.
Qed.
Print Assumptions C16_transcodes_concrete.

(* the nine BOM-less codecs are canonical: re-encoding what was strictly decoded from a byte string gives the bytes *)
Theorem C16_reencode_identity : forall c b t, canonical3 c = true -> all_bytes b = true ->
  dec3 c b strict_name = COk t -> enc3 c t strict_name = COk b.
Proof. exact enc3_after_dec3. Qed.
Print Assumptions C16_reencode_identity.

(* The "same codec" shortcut of safe_encode compares lower-cased NAMES, not codecs.  It is sound: whenever it fires
   on input that the (BOM-less) codec decodes, the transcoding branch would have returned the same bytes. *)
Theorem C16_shortcut_sound : forall d b incoming encoding errors c t,
  b <> [] -> all_bytes b = true ->
  forallb is_ascii (resolve_incoming (world3 d) incoming) = true -> forallb is_ascii encoding = true ->
  py_lower encoding = py_lower (resolve_incoming (world3 d) incoming) ->
  lookup3 encoding = Some c -> canonical3 c = true ->
  dec3 c b strict_name = COk t ->
  safe_encode (world3 d) (PBytes b) incoming encoding errors = COk (PBytes b) /\
  transcode (world3 d) b incoming encoding errors = COk (PBytes b).
Proof.
  intros d b incoming encoding errors c t Hb Hall Hai Hae Heq Hc Hcan Hdec. split.
  - apply safe_encode_bytes_same_codec_id. exact Heq.
  - assert (Hcin : lookup3 (resolve_incoming (world3 d) incoming) = Some c).
    { rewrite <- (lookup3_lower _ Hai), <- Heq, (lookup3_lower _ Hae). exact Hc. }
    apply (world3_transcode_same_codec d b incoming encoding errors c t); assumption.
Qed.
Print Assumptions C16_shortcut_sound.

(* For the BOM-writing 'utf-16' / 'utf-32' (and in fact for every codec) transcoding to the same codec yields bytes
   that decode to the same text; for these two they need not be the input bytes (ex_shortcut_bom below) *)
Theorem C16_shortcut_same_text : forall d b incoming encoding errors c t,
  b <> [] -> all_bytes b = true ->
  forallb is_ascii (resolve_incoming (world3 d) incoming) = true -> forallb is_ascii encoding = true ->
  lookup3 (resolve_incoming (world3 d) incoming) = Some c -> lookup3 encoding = Some c ->
  dec3 c b strict_name = COk t ->
  exists b', transcode (world3 d) b incoming encoding errors = COk (PBytes b') /\
             forall e, dec3 c b' e = COk t.
Proof.
  intros d b incoming encoding errors c t Hb Hall Hai Hae Hcin Hcout Hdec.
  destruct (enc3_dec3_roundtrip c t (dec3_strict_representable c b t Hall Hdec)) as (b' & He & Hd).
  exists b'. split; [|exact Hd].
  rewrite (world3_transcode_eval d b incoming encoding errors c c t Hb Hai Hae Hcin Hcout).
  - rewrite He. reflexivity.
  - exact (world3_dec_policy_irrelevant d c b errors t Hdec).
Qed.
Print Assumptions C16_shortcut_same_text.

(* the names differ after lower-casing but denote the same BOM-less codec ('utf-8' vs 'utf8', 'latin-1' vs 'L1'):
   safe_encode takes the transcoding branch and still returns the input for valid input *)
Theorem C16_alias_transcode_identity : forall d b incoming encoding errors c t,
  b <> [] -> all_bytes b = true ->
  forallb is_ascii (resolve_incoming (world3 d) incoming) = true -> forallb is_ascii encoding = true ->
  py_lower encoding <> py_lower (resolve_incoming (world3 d) incoming) ->
  lookup3 (resolve_incoming (world3 d) incoming) = Some c -> lookup3 encoding = Some c ->
  canonical3 c = true ->
  dec3 c b strict_name = COk t ->
  safe_encode (world3 d) (PBytes b) incoming encoding errors = COk (PBytes b).
Proof.
  intros d b incoming encoding errors c t Hb Hall Hai Hae Hne Hcin Hcout Hcan Hdec.
  rewrite safe_encode_transcodes by assumption.
  apply (world3_transcode_same_codec d b incoming encoding errors c t); assumption.
Qed.
Print Assumptions C16_alias_transcode_identity.

Theorem C16_to_utf8_is_utf8 : forall d s,
  to_utf8 (world3 d) (PStr s) = cmap PBytes (utf8_enc Strict s) /\
  (valid_text s = true -> exists b, to_utf8 (world3 d) (PStr s) = COk (PBytes b) /\ utf8_dec Strict b = COk s).
Proof.
  intros d s. assert (H : to_utf8 (world3 d) (PStr s) = cmap PBytes (utf8_enc Strict s)).
  { unfold to_utf8, str_encode. cbn [lookup world3]. rewrite to_utf8_is_utf8. reflexivity. }
  split; [exact H|]. intros Hv. destruct (utf8_roundtrip s Hv) as (b & He & Hd).
  exists b. rewrite H, He. split; [reflexivity|apply Hd].
Qed.
Print Assumptions C16_to_utf8_is_utf8.

Theorem C16_fallback_is_utf8 : forall d b incoming errors,
  bytes_decode (world3 d) b (resolve_incoming (world3 d) incoming) errors = CExn EUnicodeDecodeError ->
  safe_decode (world3 d) (PBytes b) incoming errors = utf8_dec (policy_of errors) b.
Proof.
  intros d b incoming errors H. rewrite (proj2 (safe_decode_bytes (world3 d) b incoming errors) H).
  unfold bytes_decode in *. destruct b as [|x r]; [discriminate|].
  cbn [lookup world3]. rewrite fallback_is_utf8. reflexivity.
Qed.
Print Assumptions C16_fallback_is_utf8.

Theorem C16_slug_alphabet_closed : forall d value incoming errors o,
  to_slug (world3 d) value incoming errors = COk o ->
  forallb slug_char o = true /\ no_double_hyphen o = true.
Proof. intros d value incoming errors o. apply to_slug_alphabet, world3_fold_ascii_out. Qed.
Print Assumptions C16_slug_alphabet_closed.

Theorem C16_slug_idempotent_closed : forall d value incoming errors o incoming' errors',
  to_slug (world3 d) value incoming errors = COk o ->
  to_slug (world3 d) (PStr o) incoming' errors' = COk o.
Proof.
  intros d value incoming errors o incoming' errors'.
  apply to_slug_idempotent; [apply world3_fold_ascii_out|apply world3_fold_ascii_id].
Qed.
Print Assumptions C16_slug_idempotent_closed.

(* ======================= Part C: the regex engine ======================= *)

(* re.sub with a pattern that is one character class (Chr) or a run of one (Rep _ 1 None) and a template of
   literals replaces every member / every maximal run, for every class, template and subject *)
Theorem C16_re_sub_class : forall r t d s, csub_of r t = Some d -> re_sub r t s = csub_apply d s.
Proof. exact csub_correct. Qed.
Print Assumptions C16_re_sub_class.

(* ======================= instances (non-vacuity) ======================= *)
Definition w_ascii := world3 (lit "ascii").

Example ex_roundtrip_premises :
  forallb is_ascii (lit "UtF-8") = true /\ lookup3 (lit "UtF-8") = Some CUtf8 /\
  representable3 CUtf8 [233; 8364; 128512] = true.
Proof. vm_compute. repeat split. Qed.
Example ex_roundtrip :
  safe_encode w_ascii (PStr [233; 8364; 128512]) None (lit "UtF-8") (lit "replace")
    = COk (PBytes [195;169; 226;130;172; 240;159;152;128]) /\
  safe_decode w_ascii (PBytes [195;169; 226;130;172; 240;159;152;128]) (Some (lit "UtF-8")) (lit "replace")
    = COk [233; 8364; 128512].
Proof.
  (* str.lower() of the ASCII names by the ASCII rule first, here and below: evaluating it walks the whole Unicode
     table for every letter that is already lower case *)
  unfold safe_encode. rewrite !py_lower_ascii by reflexivity. vm_compute. split; reflexivity.
Qed.
(* transcoding Latin-1 -> UTF-16 (BOM, native order), UTF-16-BE -> UTF-8, through aliases in mixed case *)
Example ex_transcode :
  safe_encode w_ascii (PBytes [233; 65]) (Some (lit "L1")) (lit "UTF_16") (lit "strict") = COk (PBytes [255;254; 233;0; 65;0]) /\
  safe_encode w_ascii (PBytes [216;61;222;0]) (Some (lit "UTF-16BE")) (lit "u8") (lit "strict") = COk (PBytes [240;159;152;128]) /\
  lookup3 (lit "L1") = Some CLatin1 /\ lookup3 (lit "UTF_16") = Some CUtf16 /\ lookup3 (lit "UTF-16BE") = Some CUtf16BE.
Proof. unfold safe_encode. rewrite !py_lower_ascii by reflexivity. vm_compute. repeat split. Qed.
(* the shortcut on 'utf-16': big-endian input with BOM comes back untouched, transcoding would have produced the
   native-order form — same text, other bytes *)
Example ex_shortcut_bom :
  safe_encode w_ascii (PBytes [254;255; 0;65]) (Some (lit "utf-16")) (lit "UTF-16") (lit "strict") = COk (PBytes [254;255; 0;65]) /\
  transcode w_ascii [254;255; 0;65] (Some (lit "utf-16")) (lit "UTF-16") (lit "strict") = COk (PBytes [255;254; 65;0]).
Proof. unfold safe_encode, transcode. rewrite !py_lower_ascii by reflexivity. vm_compute. split; reflexivity. Qed.
(* alias spelling on INVALID input is not the identity: ASCII cannot decode C3 A9; the UTF-8 fallback can, and then
   ASCII cannot encode the result / drops it *)
Example ex_alias_invalid :
  safe_encode w_ascii (PBytes [195;169]) (Some (lit "ascii")) (lit "us-ascii") (lit "strict") = CExn EUnicodeEncodeError /\
  safe_encode w_ascii (PBytes [195;169]) (Some (lit "ascii")) (lit "us-ascii") (lit "ignore") = COk (PBytes []) /\
  safe_encode w_ascii (PBytes [65]) (Some (lit "ascii")) (lit "us-ascii") (lit "strict") = COk (PBytes [65]).
Proof. unfold safe_encode. rewrite !py_lower_ascii by reflexivity. vm_compute. repeat split. Qed.
(* UTF-16 / UTF-32 decoders on malformed input *)
Example ex_utf16_malformed :
  utf16_dec true Replace [0;216; 65;0] = COk [65533; 65] /\        (* high surrogate, then 'A': the 'A' survives *)
  utf16_dec true Replace [0;220; 65;0] = COk [65533; 65] /\        (* lone low surrogate *)
  utf16_dec true Replace [0;216; 65] = COk [65533] /\              (* high surrogate + one byte: all swallowed *)
  utf16_dec true Replace [65;0; 66] = COk [65; 65533] /\           (* odd length *)
  utf16_dec true Strict [0;216] = CExn EUnicodeDecodeError /\
  utf32_dec true Replace [0;216;0;0; 65] = COk [65533; 65533] /\   (* surrogate unit, then truncated *)
  utf32_dec true Replace [0;0;17;0] = COk [65533] /\               (* 0x110000 *)
  utf32_bom_dec Strict [0;0;254;255; 0;0;0;65] = COk [65].
Proof. vm_compute. repeat split. Qed.
Example ex_aliases :
  map lookup3 [lit "utf8"; lit "UTF_16LE"; lit "latin1"; lit "iso-8859-1"; lit "l1"; lit "U32"; lit "utf 8"; lit "Utf-16-bE"; lit "us-ascii"; lit "utf-9"]
  = [Some CUtf8; Some CUtf16LE; Some CLatin1; Some CLatin1; Some CLatin1; Some CUtf32; Some CUtf8; Some CUtf16BE; Some CAscii; None] /\
  same_but_seps (lit "utf-16-le") (lit "utf_16 le").
Proof. split; [vm_compute; reflexivity|]. repeat constructor; (left; reflexivity) || (right; split; reflexivity). Qed.
Example ex_charmaps :
  safe_encode w_ascii (PStr [8364; 233]) None (lit "Windows-1252") (lit "strict") = COk (PBytes [128; 233]) /\
  safe_decode w_ascii (PBytes [128; 233]) (Some (lit "cp1252")) (lit "strict") = COk [8364; 233] /\
  charmap_repr cp1252_table [8364; 233] = true /\ lookup3 (lit "Windows-1252") = Some CCp1252 /\
  safe_encode w_ascii (PBytes [208;175]) (Some (lit "UTF8")) (lit "KOI8_R") (lit "strict") = COk (PBytes [241]) /\
  charmap_dec cp1252_table Replace [65; 129] = COk [65; 65533].
Proof. unfold safe_encode. rewrite !py_lower_ascii by reflexivity. vm_compute. repeat split. Qed.
Example ex_latin1 : lookup3 (lit "ISO_8859-1:1987") = Some CLatin1 /\ representable3 CLatin1 [233; 255] = true.
Proof. vm_compute. split; reflexivity. Qed.
(* the abstract contracts are satisfiable: the concrete world has them *)
Example ex_contracts : forall d c,
  enc_policy_irrelevant (world3 d) c /\ dec_policy_irrelevant (world3 d) c /\ codec_roundtrip (world3 d) c /\
  fold_ascii_out (world3 d) /\ fold_ascii_id (world3 d).
Proof.
  intros d c. repeat split;
    [apply world3_enc_policy_irrelevant|apply world3_dec_policy_irrelevant|apply world3_codec_roundtrip
    |apply world3_fold_ascii_out|apply world3_fold_ascii_id].
Qed.
(* fallback: b'\xc3\xa9' is not ASCII, so safe_decode(.., 'ascii') answers with UTF-8; and when UTF-8 fails too
   the second failure escapes *)
Example ex_fallback :
  safe_decode w_ascii (PBytes [195; 169]) None (lit "strict") = COk [233] /\
  safe_decode w_ascii (PBytes [233]) None (lit "strict") = CExn EUnicodeDecodeError /\
  safe_decode w_ascii (PBytes [233]) (Some (lit "nope")) (lit "strict") = CExn ELookupError.
Proof. vm_compute. repeat split. Qed.
(* same codec in another letter case: untouched even though the bytes are not valid UTF-8; an alias spelling
   ("utf8") is a different name: transcoding, which fails on the same bytes *)
Example ex_same_codec :
  safe_encode w_ascii (PBytes [255]) (Some (lit "utf-8")) (lit "UTF-8") (lit "strict") = COk (PBytes [255]) /\
  safe_encode w_ascii (PBytes [255]) (Some (lit "utf-8")) (lit "utf8") (lit "strict") = CExn EUnicodeDecodeError /\
  safe_encode w_ascii (PBytes [233]) (Some (lit "latin-1")) (lit "UTF-8") (lit "strict") = COk (PBytes [195; 169]).
Proof. unfold safe_encode. rewrite !py_lower_ascii by reflexivity. vm_compute. repeat split. Qed.
Example ex_slug :
  to_slug w_ascii (PStr (lit "  Hello,  W" ++ [246] ++ lit "rld -- x_1! ")) None (lit "strict") = COk (lit "hello-world-x_1") /\
  to_slug w_ascii (PStr (lit "-a-")) None (lit "strict") = COk (lit "-a-").
Proof. vm_compute. split; reflexivity. Qed.
(* the UTF-8 decoder: overlong forms (C0 80, E0 80 80, F0 80 80 80), a surrogate (ED A0 80) and a value above
   U+10FFFF (F4 90 80 80) are rejected under 'strict'; under 'replace' every maximal invalid prefix becomes
   one U+FFFD; a truncated but so far valid sequence (E2 82) is one error *)
Example ex_utf8_rejects :
  map (utf8_dec Strict) [[192;128]; [224;128;128]; [240;128;128;128]; [237;160;128]; [244;144;128;128]]
    = repeat (CExn EUnicodeDecodeError) 5 /\
  utf8_dec Replace [97; 224;128;128; 98] = COk [97; 65533; 65533; 65533; 98] /\
  utf8_dec Replace [97; 226;130] = COk [97; 65533] /\
  utf8_dec Ignore [97; 226;130; 98] = COk [97; 98] /\
  utf8_dec Strict [244;143;191;191] = COk [1114111].
Proof. vm_compute. repeat split. Qed.
