(* Properties/C11.v — C11: address validators accept exactly well-formed values and never raise.
   Only the property theorems; a proof is a few lines over the lemmas of Proofs/C11*.v, or one of them.

   Reading guide.  Text is a list of code points (46 '.', 58 ':', 37 '%', 47 '/', 10 newline);
   dec_of_N n is str(n); grammars (dotted_quad, ipv6_text, ipv6_scoped_text, mac_text) are in
   Model/C11_Spec.v; validators return [AOk b] (a bool) or [ARaise e] (an exception class);
   is_valid_port & co. are the statement-level translations gen_... of the source (Gen/C11_Code.v).
   First half: the outcomes of two library calls (netaddr.valid_ipv4 with INET_ATON; netaddr.IPNetwork)
   are arguments [aton], [net], [net6] whose contract (aton_contract / net_contract) is an explicit
   premise that the harness tests on every generated string.  Second half: the same calls as Model/C11.v
   sections 4 and 5 model them, no argument and no premise left.  Instances of all hypotheses and
   grammars: the Examples ex_... at the end of Proofs/C11.v and Proofs/C11_Net.v. *)
Require Import OV.Base.Bytes OV.Base.Py OV.Base.PyInt OV.Base.Str OV.Base.C11_Lib.
Require Import OV.Gen.C11_Netutils OV.Gen.C11_Code OV.Model.C11 OV.Model.C11_Spec OV.Proofs.C11_V4 OV.Proofs.C11_V6 OV.Proofs.C11 OV.Proofs.C11_Aton OV.Proofs.C11_Net.
Open Scope N_scope.

(* library models: glibc inet_pton recognisers <-> declarative grammars *)
Theorem C11_inet_pton4_iff_dotted_quad : forall s,
  pton4b s = true <->
  exists a b c d, a <= 255 /\ b <= 255 /\ c <= 255 /\ d <= 255 /\
                  s = dots [dec_of_N a; dec_of_N b; dec_of_N c; dec_of_N d].
Proof. exact pton4b_iff. Qed.
Print Assumptions C11_inet_pton4_iff_dotted_quad.

Theorem C11_inet_pton6_iff_rfc4291 : forall s, pton6b s = true <-> ipv6_text s.
Proof. exact pton6b_iff. Qed.
Print Assumptions C11_inet_pton6_iff_rfc4291.

(* is_valid_ipv4(address) in its default (strict) mode: exactly the dotted quads *)
Theorem C11_ipv4_strict_iff_dotted_quad : forall aton s,
  is_valid_ipv4 ipv4_strict_default aton s = AOk true <-> dotted_quad s.
Proof.
  intros aton s. change ipv4_strict_default with true. unfold is_valid_ipv4. destruct s as [|c t].
  - split; [discriminate|]. intros Q. apply quad_nonempty in Q. congruence.
  - rewrite guard_true. apply netaddr_v4_true_iff.
Qed.
Print Assumptions C11_ipv4_strict_iff_dotted_quad.

(* is_valid_ipv6: RFC 4291 text, optionally followed by '%' and a scope id of 1..15 characters
   containing neither '%' nor '/'; empty and over-long scope ids are rejected *)
Theorem C11_ipv6_iff : forall s,
  is_valid_ipv6 s = AOk true <->
  ipv6_text s \/
  exists a sc, ipv6_text a /\ (1 <= length sc <= 15)%nat /\ ~ In 37 sc /\ ~ In 47 sc /\ s = a ++ [37] ++ sc.
Proof. exact is_valid_ipv6_iff. Qed.
Print Assumptions C11_ipv6_iff.

(* no accepted address contains a '/', in agreement with ipaddress, which refuses any '/' (finding K11a) *)
Theorem C11_ipv6_no_slash : forall s, is_valid_ipv6 s = AOk true -> ~ In 47 s.
Proof.
  intros s V Hin. apply is_valid_ipv6_iff in V.
  assert (T : forall a, ipv6_text a -> ~ In 47 a).
  { intros a Ha Hi. apply ipv6_text_chars in Ha. rewrite forallb_forall in Ha. specialize (Ha _ Hi). discriminate. }
  destruct V as [V|[a [sc [Ha [_ [_ [Hsl ->]]]]]]]; [exact (T _ V Hin)|].
  apply in_app_or in Hin. destruct Hin as [Hi|Hi]; [exact (T _ Ha Hi)|].
  cbn [app] in Hi. destruct Hi as [Hi|Hi]; [discriminate|contradiction].
Qed.
Print Assumptions C11_ipv6_no_slash.

(* is_valid_ip = non-strict IPv4 (library oracle) or IPv6 *)
Theorem C11_ip_logic : forall aton s, aton_contract aton = true ->
  (is_valid_ip aton s = AOk true <-> s <> [] /\ (aton = AOk true \/ ipv6_scoped_text s)).
Proof. exact is_valid_ip_logic. Qed.
Print Assumptions C11_ip_logic.

(* is_valid_cidr: the library accepts, a '/' occurs, and the text between the first '/' and
   the next one (or the end) is not empty *)
Theorem C11_cidr_logic : forall net s,
  is_valid_cidr net s = AOk true <->
  (exists b, net = AOk b) /\
  exists a p more, ~ In 47 a /\ ~ In 47 p /\ p <> [] /\ s = a ++ [47] ++ p ++ more /\
                   (more = [] \/ exists m, more = 47 :: m).
Proof. exact is_valid_cidr_logic. Qed.
Print Assumptions C11_cidr_logic.

(* is_valid_ipv6_cidr: exactly the library's answer (no '/' test: a missing prefix is accepted,
   as the repository's own unit test documents) *)
Theorem C11_ipv6_cidr_logic : forall net6 s, is_valid_ipv6_cidr net6 s = AOk true <-> exists b, net6 = AOk b.
Proof. exact is_valid_ipv6_cidr_logic. Qed.
Print Assumptions C11_ipv6_cidr_logic.

(* is_valid_mac: exactly six hex pairs separated by ':', nothing after them (the pattern ends in \Z:
   finding O1).  Derived from the regenerated regex AST. *)
Theorem C11_mac_iff : forall s, is_valid_mac s = true <-> mac_text s.
Proof. exact is_valid_mac_iff. Qed.
Print Assumptions C11_mac_iff.

(* ports and ICMP numbers: int(value) succeeds and lies in the range; None for the code only *)
Theorem C11_port_iff : forall v,
  gen_is_valid_port v = Ok true <-> exists z, pyint v = Some z /\ (0 <= z <= 65535)%Z.
Proof. exact port_iff. Qed.
Print Assumptions C11_port_iff.

Theorem C11_icmp_type_iff : forall v,
  gen_is_valid_icmp_type v = Ok true <-> exists z, pyint v = Some z /\ (0 <= z <= 255)%Z.
Proof. exact icmp_type_iff. Qed.
Print Assumptions C11_icmp_type_iff.

Theorem C11_icmp_code_iff : forall v,
  gen_is_valid_icmp_code v = Ok true <-> v = VNone \/ exists z, pyint v = Some z /\ (0 <= z <= 255)%Z.
Proof. exact icmp_code_iff. Qed.
Print Assumptions C11_icmp_code_iff.

(* integers in str form are read back: pyint (str(z)) = z *)
Theorem C11_pyint_of_decimal_text : forall z, pyint (VStr (dec_of_Z z)) = Some z.
Proof. exact pyint_dec. Qed.
Print Assumptions C11_pyint_of_decimal_text.

(* every validator answers: unconditionally for the fully modelled ones ... *)
Theorem C11_validators_total_modelled : forall s,
  (exists b, is_valid_ipv4 ipv4_strict_default (ARaise AOther) s = AOk b) /\
  (exists b, is_valid_ipv6 s = AOk b) /\
  (exists b, is_valid_mac s = b).
Proof.
  intros s. change ipv4_strict_default with true.
  split; [apply is_valid_ipv4_strict_total|]. split; [apply is_valid_ipv6_total|]. eexists. reflexivity.
Qed.
Print Assumptions C11_validators_total_modelled.

(* ... under the oracle contract for the ones that consult netaddr.IPNetwork / inet_aton ... *)
Theorem C11_validators_total_oracles : forall aton net net6 s,
  aton_contract aton = true -> net_contract net = true -> net_contract net6 = true ->
  (exists b, is_valid_ipv4 false aton s = AOk b) /\
  (exists b, is_valid_ip aton s = AOk b) /\
  (exists b, is_valid_cidr net s = AOk b) /\
  (exists b, is_valid_ipv6_cidr net6 s = AOk b).
Proof. exact validators_total_oracles. Qed.
Print Assumptions C11_validators_total_oracles.

(* ... and for str, int, bool and None arguments of the port / ICMP validators *)
Theorem C11_int_validators_total : forall v,
  (exists b, gen_is_valid_port v = Ok b) /\ (exists b, gen_is_valid_icmp_type v = Ok b) /\
  (exists b, gen_is_valid_icmp_code v = Ok b).
Proof.
  intros v. rewrite is_valid_port_equiv, is_valid_icmp_type_equiv, is_valid_icmp_code_equiv.
  unfold is_valid_port, is_valid_icmp_type, is_valid_icmp_code.
  repeat split; try apply is_int_in_range_total.
  destruct v; try apply is_int_in_range_total. exists true. reflexivity.
Qed.
Print Assumptions C11_int_validators_total.

(* ====================================================================================
   The library calls as modelled (Model/C11.v sections 4 and 5; tied by correspondence through the
   ops aton / na_aton / net / net6) — the validators without oracle arguments:
   valid_ipv4 strict s, valid_ip s, valid_cidr s, valid_ipv6_cidr s. *)

(* socket.inet_aton (glibc): 1..4 C integer literals (decimal / 0 octal / 0x hex) joined by '.',
   the last one filling the remaining bytes; whatever follows the first C white-space character
   is ignored; NUL or a lone surrogate anywhere -> ValueError *)
Theorem C11_inet_aton_iff : forall s,
  inet_aton s = AOk true <->
  cstr_ok s = true /\
  exists ps vs rest, Forall2 c_literal ps vs /\ aton_values vs /\
                     s = dots ps ++ rest /\ (rest = [] \/ exists w t, rest = w :: t /\ c_space w).
Proof. exact inet_aton_iff. Qed.
Print Assumptions C11_inet_aton_iff.

(* is_valid_ipv4(s, strict=False) and is_valid_ip(s), unconditionally *)
Theorem C11_ipv4_nonstrict_iff : forall s,
  valid_ipv4 false s = AOk true <-> s <> [] /\ ~ In 58 s /\ cstr_ok s = true /\ aton_text s.
Proof. intros s. unfold valid_ipv4. rewrite ipv4_nonstrict_logic, netaddr_aton_iff. reflexivity. Qed.
Print Assumptions C11_ipv4_nonstrict_iff.

Theorem C11_ip_iff : forall s,
  valid_ip s = AOk true <->
  s <> [] /\ ((~ In 58 s /\ cstr_ok s = true /\ aton_text s) \/ ipv6_scoped_text s).
Proof.
  intros s. unfold valid_ip. rewrite (is_valid_ip_logic _ s (netaddr_aton_contract s)), netaddr_aton_iff. reflexivity.
Qed.
Print Assumptions C11_ip_iff.

(* netaddr's netmask / hostmask bit tests <-> 2^w - 2^j or 2^j - 1 *)
Theorem C11_mask_iff : forall v6 m, m < 2 ^ ip_width v6 ->
  (is_netmask v6 m || is_hostmask m = true <-> exists j, j <= ip_width v6 /\ (m = 2 ^ ip_width v6 - 2 ^ j \/ m = 2 ^ j - 1)).
Proof. exact mask_iff. Qed.
Print Assumptions C11_mask_iff.

(* the integer value of an IPv6 text (used for IPv6 netmasks / hostmasks): model function <-> the
   declarative reading (groups as hexadecimal 16-bit units, dotted quad as two units, "::" as zeros) *)
Theorem C11_ipv6_value_iff : forall s m, pton6_value s = Some m <-> exists us, ipv6_units s us /\ m = units_to_N us.
Proof. exact pton6_value_iff. Qed.
Print Assumptions C11_ipv6_value_iff.

Theorem C11_ipv4_value_iff : forall s m, pton4_value s = Some m <-> quad_value s m.
Proof. exact pton4_value_iff. Qed.
Print Assumptions C11_ipv4_value_iff.

(* netaddr.IPNetwork(text): an address of one family, optionally '/' and a prefix text *)
Theorem C11_ipnetwork_iff : forall s, ipnetwork s = AOk true <-> network_text false s \/ network_text true s.
Proof. exact ipnetwork_iff. Qed.
Print Assumptions C11_ipnetwork_iff.

(* is_valid_cidr, for ALL strings: address '/' prefix, the prefix being an int() literal in
   0..32 / 0..128 or (when int() refuses it) a netmask / hostmask of the same family *)
Theorem C11_cidr_iff : forall s,
  valid_cidr s = AOk true <->
  exists a p, s = a ++ 47 :: p /\
              ((dotted_quad a /\ prefix_text false p) \/ (ipv6_text a /\ prefix_text true p)).
Proof. exact valid_cidr_iff. Qed.
Print Assumptions C11_cidr_iff.

Theorem C11_ipv6_cidr_iff : forall s,
  valid_ipv6_cidr s = AOk true <->
  exists a, ipv6_text a /\ (s = a \/ exists p, s = a ++ 47 :: p /\ prefix_text true p).
Proof.
  intros s. change (valid_ipv6_cidr s = AOk true <-> network_text true s).
  unfold valid_ipv6_cidr, ipnetwork6. rewrite is_valid_ipv6_cidr_logic, <- parse_ip_network_iff. split.
  - intros [b H]. destruct (parse_ip_network_outcomes true s) as [E|[E|E]]; rewrite E in H; [exact E|discriminate|discriminate].
  - intros H. exists true. exact H.
Qed.
Print Assumptions C11_ipv6_cidr_iff.

(* the family the property names: address '/' decimal digits — in range or not *)
Theorem C11_cidr_decimal_prefix : forall a n, (dotted_quad a \/ ipv6_text a) ->
  (valid_cidr (a ++ 47 :: dec_of_N n) = AOk true <-> n <= (if in_dec N.eq_dec 58 a then 128 else 32)).
Proof. exact cidr_decimal_prefix. Qed.
Print Assumptions C11_cidr_decimal_prefix.

(* every address validator answers, with no premise *)
Theorem C11_validators_total_closed : forall s,
  (exists b, valid_ipv4 false s = AOk b) /\ (exists b, valid_ip s = AOk b) /\
  (exists b, valid_cidr s = AOk b) /\ (exists b, valid_ipv6_cidr s = AOk b).
Proof.
  intros s. apply validators_total_oracles; [apply netaddr_aton_contract|apply ipnetwork_contract|apply ipnetwork6_contract].
Qed.
Print Assumptions C11_validators_total_closed.
