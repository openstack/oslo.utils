(* Properties/C14.v — property theorems only, each followed by Print Assumptions; each is proved by
   [exact] of a lemma of Proofs/ or in a few lines from such lemmas.
   C14: scalar parsers and validators classify every input exactly.
   [lim] = sys.get_int_max_str_digits() (0 = unlimited; CPython's default is 4300).

   Vocabulary of the statements, defined in Proofs/:
   C14_Bool: [all_words] the generated true and false words, [cs_words] their characters; [word_match s ws]:
     s is a word of ws in some ASCII casing between whitespace ([case_pad_variant]); [recognised r]: r is Ok.
   C14_Str: [all_space s]: s is made of the characters str.strip() strips; C14_Words: [doc_true], [doc_false]
     the documented words, [sigma_variant] two texts that differ only by final-sigma substitutions.
   C14_Int: [sign_text], [signed] a sign as text / applied to a value; [digit_groups] non-empty ASCII digit
     groups; C14_IntGrammar: [int_literal lim s z] the literal grammar of int() with value z, [ugroups], [uval]
     groups / value of Unicode decimal digits.
   C14_Num: [within_limit lim z]: str(z) has at most lim digits; [in_range z lo hi]: z is within the bounds given
     (None = no bound); [int_of_text] = int(str(v)); [float_like_int]: int(v) is a value, OverflowError or ValueError.
   C14_Uuid: [hexdigits32] 32 hex digits of any case, [is_hex32l] 32 lower-case hex digits. *)
From Coq Require Import String.
Require Import OV.Base.Bytes OV.Base.Py OV.Base.PyInt OV.Base.Str.
Require Import OV.Model.C14_Py OV.Gen.C14 OV.Model.C14.
Require Import OV.Proofs.C14 OV.Proofs.C14_Str OV.Proofs.C14_Int OV.Proofs.C14_Bool OV.Proofs.C14_Num OV.Proofs.C14_Uuid OV.Proofs.C14_Words OV.Proofs.C14_Examples OV.Proofs.C14_IntGrammar OV.Proofs.C14_Final.
Open Scope Z_scope.

(* ---------------- the tie to the source ---------------- *)
(* the statement-by-statement translations of the nine functions (regenerated from /repo on
   every run, Gen/C14.v) compute exactly what the model used in the theorems below computes *)
Theorem C14_translated_source_is_the_model :
  (forall lim v strict d, gen_bool_from_string lim v strict d = bool_from_string lim v strict d) /\
  (forall lim v, gen_int_from_bool_as_string lim v = int_from_bool_as_string lim v) /\
  (forall lim v, gen_is_valid_boolstr lim v = is_valid_boolstr lim v) /\
  (forall lim v, gen_is_int_like lim v = is_int_like lim v) /\
  (forall lim v mn mx, gen_check_string_length lim v mn mx = check_string_length v mn mx) /\
  (forall lim v lo hi, gen_validate_integer lim v lo hi = validate_integer lim v lo hi) /\
  (forall lim s, gen_format_uuid_string lim s = format_uuid_string s) /\
  (forall lim v, gen_is_uuid_like lim v = is_uuid_like lim v) /\
  (forall lim u4 dashed, gen_generate_uuid lim u4 dashed = generate_uuid u4 dashed).
Proof.
  exact (conj bool_from_string_equiv (conj int_from_bool_as_string_equiv (conj is_valid_boolstr_equiv
        (conj is_int_like_equiv (conj check_string_length_equiv (conj validate_integer_equiv
        (conj format_uuid_string_equiv (conj is_uuid_like_equiv generate_uuid_equiv)))))))).
Qed.
Print Assumptions C14_translated_source_is_the_model.

(* ---------------- bool_from_string ---------------- *)

(* the generated word tuples are exactly the documented words *)
Theorem C14_words_are_the_documented_ones :
  (forall w, In w TRUE_STRINGS <-> In w doc_true) /\ (forall w, In w FALSE_STRINGS <-> In w doc_false).
Proof. split; apply same_words_spec; vm_compute; reflexivity. Qed.
Print Assumptions C14_words_are_the_documented_ones.

(* no code point outside ASCII lowers into a character of a word: ASCII case folding is the
   whole story (checked on the regenerated Unicode tables and words) *)
Theorem C14_no_nonascii_letter_folds_into_a_word :
  forall c x, (128 <= c)%N -> In x (py_lower1 c) -> In x cs_words -> False.
Proof. exact (py_lower1_avoid cs_words no_nonascii_letter_folds_into_a_word). Qed.
Print Assumptions C14_no_nonascii_letter_folds_into_a_word.

(* subject.strip().lower() is a word  <->  the subject is that word in some ASCII casing,
   surrounded by any amount of (Unicode) whitespace *)
Theorem C14_normalised_is_word_iff : forall s w, In w all_words ->
  (norm_bool s = w <-> exists pre x post, s = pre ++ x ++ post /\ all_space pre = true /\ all_space post = true /\ lower_ascii x = w).
Proof. exact norm_bool_word. Qed.
Print Assumptions C14_normalised_is_word_iff.

(* strings: True / False for exactly the case-and-padding variants of the true / false words;
   everything else gives the default, or ValueError when strict *)
Theorem C14_bool_from_string_str : forall lim s strict default,
  (word_match s TRUE_STRINGS -> bool_from_string lim (PStr s) strict default = Ok (PBool true)) /\
  (word_match s FALSE_STRINGS -> bool_from_string lim (PStr s) strict default = Ok (PBool false)) /\
  (~ word_match s TRUE_STRINGS -> ~ word_match s FALSE_STRINGS ->
   bool_from_string lim (PStr s) strict default = if strict then Exn ValueError else Ok default).
Proof.
  intros lim s strict default. unfold bool_from_string. cbn [py_str bind]. unfold classify_bool.
  (* the two lookups decide word_match, and cannot both succeed *)
  pose proof (mem_norm_iff s _ incl_true) as HT. pose proof (mem_norm_iff s _ incl_false) as HF.
  pose proof (true_false_exclusive s) as X.
  destruct (mem_str (norm_bool s) TRUE_STRINGS), (mem_str (norm_bool s) FALSE_STRINGS); intuition congruence.
Qed.
Print Assumptions C14_bool_from_string_str.

(* booleans pass through *)
Theorem C14_bool_from_string_bool : forall lim b strict default,
  bool_from_string lim (PBool b) strict default = Ok (PBool b).
Proof. reflexivity. Qed.
Print Assumptions C14_bool_from_string_bool.

(* every other value is classified through str(value) *)
Theorem C14_bool_from_string_via_str : forall lim v strict default, is_bool v = false ->
  bool_from_string lim v strict default =
  match py_str lim v with Ok s => bool_from_string lim (PStr s) strict default | Exn e => Exn e end.
Proof. exact bool_from_string_via_str. Qed.
Print Assumptions C14_bool_from_string_via_str.

(* CPython's final-sigma rule (not in the model of str.lower()) cannot change a word lookup *)
Theorem C14_final_sigma_irrelevant : forall lowered real ws, incl ws all_words ->
  sigma_variant lowered real -> mem_str real ws = mem_str lowered ws.
Proof.
  intros lowered real ws Hi Hv. pose proof words_no_sigma as W. rewrite forallb_forall in W.
  destruct (mem_str real ws) eqn:E1; destruct (mem_str lowered ws) eqn:E2; try reflexivity.
  - apply mem_str_In in E1. rewrite (sigma_variant_word _ _ Hv (or_intror (W _ (Hi _ E1)))) in E2.
    apply mem_str_In in E1. congruence.
  - apply mem_str_In in E2. rewrite <- (sigma_variant_word _ _ Hv (or_introl (W _ (Hi _ E2)))) in E1.
    apply mem_str_In in E2. congruence.
Qed.
Print Assumptions C14_final_sigma_irrelevant.

(* int_from_bool_as_string = int(bool_from_string(subject)) *)
Theorem C14_int_from_bool_as_string : forall lim v,
  int_from_bool_as_string lim v =
  match bool_from_string lim v false (PBool false) with
  | Ok (PBool true) => Ok 1 | Ok (PBool false) => Ok 0 | Ok other => py_int_of lim other | Exn e => Exn e
  end.
Proof.
  intros lim v. unfold int_from_bool_as_string, bind.
  destruct (bool_from_string lim v false (PBool false)) as [[| |[|]| |]|e]; reflexivity.
Qed.
Print Assumptions C14_int_from_bool_as_string.

(* ---------------- is_valid_boolstr ---------------- *)
(* on unpadded input it agrees with bool_from_string (strict): recognised <-> valid *)
Theorem C14_is_valid_boolstr_agrees_unpadded : forall lim v s default,
  is_bool v = false -> py_str lim v = Ok s -> strip s = s ->
  is_valid_boolstr lim v = Ok (recognised (bool_from_string lim v true default)).
Proof.
  intros lim v s default Hb Hv Hs. rewrite (bool_from_string_via_str lim v true default Hb), Hv.
  rewrite <- (is_valid_boolstr_agrees_unpadded lim s default Hs).
  unfold is_valid_boolstr, bind. rewrite Hv. reflexivity.
Qed.
Print Assumptions C14_is_valid_boolstr_agrees_unpadded.

Theorem C14_is_valid_boolstr_bool : forall lim b, is_valid_boolstr lim (PBool b) = Ok true.
Proof. intros lim [|]; reflexivity. Qed.
Print Assumptions C14_is_valid_boolstr_bool.

(* for ALL strings: valid exactly when str.lower() of the text is in the generated tuples (also on the translated source) *)
Theorem C14_is_valid_boolstr_all : forall lim s,
  (is_valid_boolstr lim (PStr s) = Ok true <-> In (py_lower s) (TRUE_STRINGS ++ FALSE_STRINGS)) /\
  (is_valid_boolstr lim (PStr s) = Ok false <-> ~ In (py_lower s) (TRUE_STRINGS ++ FALSE_STRINGS)) /\
  (gen_is_valid_boolstr lim (PStr s) = is_valid_boolstr lim (PStr s)).
Proof. intros lim s. split; [|split]; [apply is_valid_boolstr_in|apply is_valid_boolstr_in|apply is_valid_boolstr_equiv]. Qed.
Print Assumptions C14_is_valid_boolstr_all.

(* ... which, lower() adding nothing to ASCII on word characters, means: an ASCII-case variant of a word, no padding *)
Theorem C14_is_valid_boolstr_iff_case_variant : forall lim s,
  is_valid_boolstr lim (PStr s) = Ok true <-> exists w, In w all_words /\ lower_ascii s = w.
Proof.
  intros lim s. rewrite is_valid_boolstr_spec.
  assert (L : forall w, In w all_words -> (py_lower s = w <-> lower_ascii s = w)).
  { intros w Hw. apply (py_lower_eq_word cs_words w no_nonascii_letter_folds_into_a_word (fun a => word_chars w a Hw)). }
  split.
  - intros H. assert (Hm : In (py_lower s) all_words) by (apply mem_str_In; congruence).
    exists (py_lower s). split; [exact Hm|]. apply (L _ Hm). reflexivity.
  - intros (w & Hw & Hl). apply (L w Hw) in Hl. rewrite Hl. f_equal. apply mem_str_In, Hw.
Qed.
Print Assumptions C14_is_valid_boolstr_iff_case_variant.

(* ---------------- the integer literal grammar of int() ---------------- *)
(* int(s) = z  <->  s = whitespace* [+-]? digits (_ digits)* whitespace*  (int()'s whitespace, Unicode decimal
   digits, at most lim digits) with value z — both directions, every string *)
Theorem C14_int_parse_iff_literal : forall lim s z,
  int_parse lim 10 s = Some z <->
  exists pre sg ds post,
    s = pre ++ sign_text sg ++ join [95%N] ds ++ post /\
    forallb int_space pre = true /\ forallb int_space post = true /\
    ugroups ds = true /\ over_limit lim (blen (concat ds)) = false /\
    z = signed sg (uval (concat ds) 0).
Proof. exact int_parse_iff_literal. Qed.
Print Assumptions C14_int_parse_iff_literal.

Theorem C14_int_parse_rejects : forall lim s, int_parse lim 10 s = None <-> forall z, ~ int_literal lim s z.
Proof.
  intros lim s. split.
  - intros H z Hz. apply int_parse_iff_literal in Hz. congruence.
  - intros H. destruct (int_parse lim 10 s) as [z|] eqn:E; [|reflexivity].
    exfalso. apply (H z). apply int_parse_iff_literal. exact E.
Qed.
Print Assumptions C14_int_parse_rejects.

(* ---------------- is_int_like ---------------- *)
(* a string is int-like exactly when it is the canonical decimal rendering of an integer *)
Theorem C14_is_int_like_str : forall lim s,
  is_int_like lim (PStr s) = Ok true <-> exists z, s = dec_of_Z z /\ within_limit lim z = true.
Proof. exact is_int_like_str. Qed.
Print Assumptions C14_is_int_like_str.

(* with the digit limit switched off this is the plain statement *)
Theorem C14_is_int_like_str_unlimited : forall s,
  is_int_like 0 (PStr s) = Ok true <-> exists z, s = dec_of_Z z.
Proof.
  intros s. rewrite is_int_like_str. split; [intros (z & H & _); eauto|intros (z & H); exists z; split; [exact H|reflexivity]].
Qed.
Print Assumptions C14_is_int_like_str_unlimited.

(* any value: str(v) is the canonical rendering of int(v) *)
Theorem C14_is_int_like_iff : forall lim v,
  is_int_like lim v = Ok true <->
  exists z, py_int_of lim v = Ok z /\ within_limit lim z = true /\ py_str lim v = Ok (dec_of_Z z).
Proof. exact is_int_like_iff. Qed.
Print Assumptions C14_is_int_like_iff.

Theorem C14_is_int_like_other_types : forall lim,
  (forall s, is_int_like lim (PStr s) = Ok true \/ is_int_like lim (PStr s) = Ok false) /\
  (forall z, is_int_like lim (PInt z) = Ok (within_limit lim z)) /\
  (forall b, is_int_like lim (PBool b) = Ok false) /\
  is_int_like lim PNone = Ok false /\
  (* floats: int(v) is an integer or raises OverflowError (inf) / ValueError (nan): never an exception *)
  (forall sv iv, float_like_int iv = true ->
     is_int_like lim (POther sv iv) = Ok true \/ is_int_like lim (POther sv iv) = Ok false) /\
  (forall sv e, is_int_like lim (POther sv (Exn e)) = if catches [TypeError; ValueError; OverflowError] e then Ok false else Exn e).
Proof.
  intros lim. exact (conj (is_int_like_str_total lim) (conj (is_int_like_int lim) (conj (is_int_like_bool lim)
    (conj (is_int_like_none lim) (conj (is_int_like_float lim) (is_int_like_other_exn lim)))))).
Qed.
Print Assumptions C14_is_int_like_other_types.

(* ---------------- validate_integer ---------------- *)
(* returns z exactly when int(str(value)) = z and min <= z <= max (absent bounds impose nothing) *)
Theorem C14_validate_integer_ok : forall lim v lo hi z,
  validate_integer lim v lo hi = Ok z <->
  int_of_text lim v = Some z /\ (forall m, lo = Some m -> m <= z) /\ (forall m, hi = Some m -> z <= m).
Proof. exact validate_integer_ok. Qed.
Print Assumptions C14_validate_integer_ok.

(* in terms of the declarative grammar, on the TRANSLATED source *)
Theorem C14_validate_integer_literal : forall lim v lo hi z,
  gen_validate_integer lim v lo hi = Ok z <->
  (exists s, py_str lim v = Ok s /\ int_literal lim s z) /\
  (forall m, lo = Some m -> m <= z) /\ (forall m, hi = Some m -> z <= m).
Proof. intros lim v lo hi z. rewrite validate_integer_equiv. apply validate_integer_literal. Qed.
Print Assumptions C14_validate_integer_literal.

Theorem C14_validate_integer_rejects : forall lim v lo hi,
  validate_integer lim v lo hi = Exn ValueError <->
  ~ exists z, (exists s, py_str lim v = Ok s /\ int_literal lim s z) /\
              (forall m, lo = Some m -> m <= z) /\ (forall m, hi = Some m -> z <= m).
Proof.
  intros lim v lo hi. split.
  - intros H (z & Hz). apply validate_integer_literal in Hz. congruence.
  - intros H. destruct (validate_integer_total lim v lo hi) as [(z & Hz)|Hz]; [|exact Hz].
    exfalso. apply H. exists z. apply validate_integer_literal. exact Hz.
Qed.
Print Assumptions C14_validate_integer_rejects.

(* None / 0 bounds on the translated source: None imposes nothing, 0 is a bound like any other *)
Theorem C14_validate_integer_corners : forall lim v z, int_of_text lim v = Some z ->
  gen_validate_integer lim v None None = Ok z /\
  gen_validate_integer lim v (Some 0) None = (if z <? 0 then Exn ValueError else Ok z) /\
  gen_validate_integer lim v None (Some 0) = (if z >? 0 then Exn ValueError else Ok z) /\
  gen_validate_integer lim v (Some 0) (Some 0) = (if z =? 0 then Ok z else Exn ValueError).
Proof.
  intros lim v z H. rewrite !validate_integer_equiv, !validate_integer_spec, H. unfold in_range, below, above.
  repeat split; try reflexivity.
  - destruct (z <? 0); reflexivity.
  - destruct (z >? 0); reflexivity.
  - destruct (z <? 0) eqn:E1; destruct (z >? 0) eqn:E2; destruct (z =? 0) eqn:E3; try reflexivity; lia.
Qed.
Print Assumptions C14_validate_integer_corners.

(* and ValueError in every other case *)
Theorem C14_validate_integer_otherwise : forall lim v lo hi,
  (exists z, validate_integer lim v lo hi = Ok z) \/ validate_integer lim v lo hi = Exn ValueError.
Proof. exact validate_integer_total. Qed.
Print Assumptions C14_validate_integer_otherwise.

(* integers and their canonical renderings are integer literals denoting themselves *)
Theorem C14_validate_integer_int : forall lim z lo hi, within_limit lim z = true ->
  validate_integer lim (PInt z) lo hi = (if in_range z lo hi then Ok z else Exn ValueError) /\
  validate_integer lim (PStr (dec_of_Z z)) lo hi = (if in_range z lo hi then Ok z else Exn ValueError).
Proof.
  intros lim z lo hi H. rewrite !validate_integer_spec, (int_of_text_int lim z H), (int_of_text_dec lim z H). split; reflexivity.
Qed.
Print Assumptions C14_validate_integer_int.

(* int() also accepts padding, a sign and single underscores: the literal grammar on ASCII *)
Theorem C14_int_literal_ascii : forall lim pre neg ds post,
  forallb c_isspace pre = true -> forallb c_isspace post = true -> digit_groups ds = true ->
  over_limit lim (blen (concat ds)) = false ->
  int_parse lim 10 (pre ++ sign_text neg ++ join [95%N] ds ++ post) = Some (signed neg (dval (concat ds) 0)).
Proof. exact int_literal_ascii. Qed.
Print Assumptions C14_int_literal_ascii.

(* ---------------- check_string_length ---------------- *)
Theorem C14_check_string_length : forall v mn mx,
  (check_string_length v mn mx = Ok tt <->
     exists s, v = PStr s /\ mn <= zlen s /\ (forall m, mx = Some m -> m = 0 \/ zlen s <= m)) /\
  (check_string_length v mn mx = Exn TypeError <-> is_str v = false) /\
  (check_string_length v mn mx = Exn ValueError <->
     exists s, v = PStr s /\ (zlen s < mn \/ exists m, mx = Some m /\ m <> 0 /\ m < zlen s)) /\
  (check_string_length v mn mx = Ok tt \/ check_string_length v mn mx = Exn TypeError \/
   check_string_length v mn mx = Exn ValueError).
Proof. exact check_string_length_spec. Qed.
Print Assumptions C14_check_string_length.

(* the same three-way characterisation on the TRANSLATED source, and the max_length None / 0 corners *)
Theorem C14_check_string_length_translated : forall lim v mn mx,
  (gen_check_string_length lim v mn mx = Ok tt <->
     exists s, v = PStr s /\ mn <= zlen s /\ (forall m, mx = Some m -> m = 0 \/ zlen s <= m)) /\
  (gen_check_string_length lim v mn mx = Exn TypeError <-> is_str v = false) /\
  (gen_check_string_length lim v mn mx = Exn ValueError <->
     exists s, v = PStr s /\ (zlen s < mn \/ exists m, mx = Some m /\ m <> 0 /\ m < zlen s)) /\
  (gen_check_string_length lim v mn mx = Ok tt \/ gen_check_string_length lim v mn mx = Exn TypeError \/
   gen_check_string_length lim v mn mx = Exn ValueError).
Proof. intros lim v mn mx. rewrite check_string_length_equiv. apply check_string_length_spec. Qed.
Print Assumptions C14_check_string_length_translated.

Theorem C14_check_string_length_corners : forall lim s mn, mn <= zlen s ->
  gen_check_string_length lim (PStr s) mn None = Ok tt /\
  gen_check_string_length lim (PStr s) mn (Some 0) = Ok tt /\
  gen_check_string_length lim (PStr s) mn (Some (zlen s)) = Ok tt /\
  (0 < zlen s -> gen_check_string_length lim (PStr s) mn (Some (zlen s - 1)) = if zlen s =? 1 then Ok tt else Exn ValueError).
Proof.
  intros lim s mn H. rewrite !check_string_length_equiv. unfold check_string_length.
  replace (zlen s <? mn) with false by lia. repeat split; try reflexivity.
  - destruct (zlen s =? 0) eqn:E; cbn [negb andb]; [reflexivity|]. replace (zlen s >? zlen s) with false by lia. reflexivity.
  - intros Hp. destruct (zlen s =? 1) eqn:E.
    + replace (zlen s - 1 =? 0) with true by lia. reflexivity.
    + replace (zlen s - 1 =? 0) with false by lia. replace (zlen s >? zlen s - 1) with true by lia. reflexivity.
Qed.
Print Assumptions C14_check_string_length_corners.

(* ---------------- is_uuid_like / generate_uuid ---------------- *)
(* accepted exactly when, decoration removed as the code removes it, 32 hex digits remain *)
Theorem C14_is_uuid_like_iff : forall lim s,
  is_uuid_like lim (PStr s) = Ok true <-> is_hex32l (format_uuid_string s) = true.
Proof. exact is_uuid_like_iff. Qed.
Print Assumptions C14_is_uuid_like_iff.

(* equivalently: uuid.UUID's own removal — every 'urn:' and 'uuid:' wherever it stands, braces at both ends, every
   hyphen — leaves 32 hex digits of any case; so every order, nesting and repetition of the decorations is accepted *)
Theorem C14_is_uuid_like_iff_strip : forall lim s,
  is_uuid_like lim (PStr s) = Ok true <-> hexdigits32 (uuid_strip s) = true.
Proof. exact is_uuid_like_iff_strip. Qed.
Print Assumptions C14_is_uuid_like_iff_strip.

(* never raises; non-strings are rejected *)
Theorem C14_is_uuid_like_total : forall lim v,
  (is_uuid_like lim v = Ok true \/ is_uuid_like lim v = Ok false) /\
  (is_str v = false -> is_uuid_like lim v = Ok false).
Proof. exact (fun lim v => conj (is_uuid_like_total lim v) (is_uuid_like_nonstr lim v)). Qed.
Print Assumptions C14_is_uuid_like_total.

(* every UUID (32 hex digits in any case) in plain, hyphenated, braced or urn:uuid: spelling *)
Theorem C14_is_uuid_like_spellings : forall lim x, hexdigits32 x = true ->
  is_uuid_like lim (PStr x) = Ok true /\
  is_uuid_like lim (PStr (hyphenate x)) = Ok true /\
  is_uuid_like lim (PStr ([123%N] ++ x ++ [125%N])) = Ok true /\
  is_uuid_like lim (PStr ([123%N] ++ hyphenate x ++ [125%N])) = Ok true /\
  is_uuid_like lim (PStr (lit "urn:uuid:" ++ hyphenate x)) = Ok true /\
  is_uuid_like lim (PStr (lit "urn:uuid:" ++ x)) = Ok true.
Proof. exact is_uuid_like_spellings. Qed.
Print Assumptions C14_is_uuid_like_spellings.

(* everything generate_uuid produces (dashed or not, whatever uuid4() drew) is accepted *)
Theorem C14_generate_uuid_accepted : forall lim u4 dashed,
  is_uuid_like lim (PStr (generate_uuid u4 dashed)) = Ok true.
Proof.
  intros lim u4 dashed. destruct (is_uuid_like_spellings lim (hex32 u4) (hex32_digits u4)) as (H1 & H2 & _).
  unfold generate_uuid, uuid_str, uuid_hex. destruct dashed; assumption.
Qed.
Print Assumptions C14_generate_uuid_accepted.

Theorem C14_generate_uuid_shape : forall u4,
  generate_uuid u4 false = hex32 u4 /\ generate_uuid u4 true = hyphenate (hex32 u4) /\ is_hex32l (hex32 u4) = true.
Proof.
  intros u4. split; [reflexivity|]. split; [reflexivity|]. destruct (hex32_lhex u4) as [H1 H2].
  unfold is_hex32l. rewrite H1, (blen_length _ _ H2). reflexivity.
Qed.
Print Assumptions C14_generate_uuid_shape.
