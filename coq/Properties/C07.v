(* Properties/C07.v — "virtual_size equals the disk size the image declares".
   Property theorems only, each followed by Print Assumptions.  The static formats are instances of
   C07_Static.vsize_static (virtual_size is [size_of f] of the consumed bytes, whatever the chunking) and of what a
   well-formed image makes of [size_of f] ([*_size_wf]); the VMDK and VHDX lemmas are in Proofs/C07_Vmdk.v, C07_Vhdx.v.

   Reading guide.  [cs] is the list of chunks handed to eat_chunk, in order; [concat cs] is the stream.
     quiet f cs      no eat_chunk raised
     vsize_end f cs  virtual_size after all chunks and finish()     ("once the whole stream has been presented")
     vsize_now f cs  virtual_size right after the last chunk of cs  (a prefix of a longer presentation)
   wf_<fmt> are boolean predicates on the bytes (Model/C07.v), written with the literal offsets of the formats. *)
Require Import OV.Base.Bytes OV.Base.Py OV.Gen.Insp_Consts OV.Model.Insp_All OV.Model.C07.
Require Import OV.Proofs.C07_Static OV.Proofs.C07_Vmdk OV.Proofs.C07_Vhdx.
(* the translator-equivalence lemmas (Gen/C07_Code.v vs the hand-written model) are checked with this file *)
Require OV.Proofs.C07_Equiv OV.Proofs.C07_Examples.
Open Scope N_scope.

(* ---------------- qcow2 ---------------- *)
Theorem vsize_qcow2_wellformed : forall size b cs,
  size < 2 ^ 64 -> wf_qcow2 size b = true -> concat cs = b ->
  quiet F_qcow2 cs /\ vsize_end F_qcow2 cs = Ok (Z.of_N size).
Proof.
  intros size b cs Hs Hwf <-. destruct (vsize_static F_qcow2 cs eq_refl) as (Hq & _ & He).
  split; [exact Hq|]. rewrite He. apply qcow_size_wf; assumption.
Qed.
Print Assumptions vsize_qcow2_wellformed.

(* any stream shorter than the 512-byte header region, any chunking: 0, before and after finish *)
Theorem vsize_zero_while_unknown_qcow2 : forall cs,
  blen (concat cs) < 512 ->
  quiet F_qcow2 cs /\ vsize_now F_qcow2 cs = Ok 0%Z /\ vsize_end F_qcow2 cs = Ok 0%Z.
Proof.
  intros cs H. destruct (vsize_static F_qcow2 cs eq_refl) as (Hq & Hn & He).
  rewrite Hn, He. cbn [size_of]. unfold qcow_size_of. replace (blen (concat cs) <? 512) with true by lia. auto.
Qed.
Print Assumptions vsize_zero_while_unknown_qcow2.

(* ---------------- VHD ---------------- *)
Theorem vsize_vhd_wellformed : forall size b cs,
  size < 2 ^ 64 -> wf_vhd size b = true -> concat cs = b ->
  quiet F_vhd cs /\ vsize_end F_vhd cs = Ok (Z.of_N size).
Proof.
  intros size b cs Hs Hwf <-. destruct (vsize_static F_vhd cs eq_refl) as (Hq & _ & He).
  split; [exact Hq|]. rewrite He. apply vhd_size_wf; assumption.
Qed.
Print Assumptions vsize_vhd_wellformed.

Theorem vsize_zero_while_unknown_vhd : forall cs,
  blen (concat cs) < 512 ->
  quiet F_vhd cs /\ vsize_now F_vhd cs = Ok 0%Z /\ vsize_end F_vhd cs = Ok 0%Z.
Proof.
  intros cs H. destruct (vsize_static F_vhd cs eq_refl) as (Hq & Hn & He).
  rewrite Hn, He. cbn [size_of]. unfold vhd_size_of. replace (blen (concat cs) <? 512) with true by lia. auto.
Qed.
Print Assumptions vsize_zero_while_unknown_vhd.

(* ---------------- VDI ---------------- *)
Theorem vsize_vdi_wellformed : forall size b cs,
  size < 2 ^ 64 -> wf_vdi size b = true -> concat cs = b ->
  quiet F_vdi cs /\ vsize_end F_vdi cs = Ok (Z.of_N size).
Proof.
  intros size b cs Hs Hwf <-. destruct (vsize_static F_vdi cs eq_refl) as (Hq & _ & He).
  split; [exact Hq|]. rewrite He. apply vdi_size_wf; assumption.
Qed.
Print Assumptions vsize_vdi_wellformed.

Theorem vsize_zero_while_unknown_vdi : forall cs,
  blen (concat cs) < 512 ->
  quiet F_vdi cs /\ vsize_now F_vdi cs = Ok 0%Z /\ vsize_end F_vdi cs = Ok 0%Z.
Proof.
  intros cs H. destruct (vsize_static F_vdi cs eq_refl) as (Hq & Hn & He).
  rewrite Hn, He. cbn [size_of]. unfold vdi_size_of. replace (blen (concat cs) <? 512) with true by lia. auto.
Qed.
Print Assumptions vsize_zero_while_unknown_vdi.

(* ---------------- ISO ---------------- *)
Theorem vsize_iso_wellformed : forall blocks bsize b cs,
  blocks < 2 ^ 32 -> bsize < 2 ^ 16 -> wf_iso blocks bsize b = true -> concat cs = b ->
  quiet F_iso cs /\ vsize_end F_iso cs = Ok (Z.of_N (blocks * bsize)).
Proof.
  intros blocks bsize b cs Hb Hs Hwf <-. destruct (vsize_static F_iso cs eq_refl) as (Hq & _ & He).
  split; [exact Hq|]. rewrite He. apply iso_size_wf; assumption.
Qed.
Print Assumptions vsize_iso_wellformed.

(* the carrying structure ends with the volume descriptor: 32 KiB + 2 KiB *)
Theorem vsize_zero_while_unknown_iso : forall cs,
  blen (concat cs) < 34816 ->
  quiet F_iso cs /\ vsize_now F_iso cs = Ok 0%Z /\ vsize_end F_iso cs = Ok 0%Z.
Proof.
  intros cs H. destruct (vsize_static F_iso cs eq_refl) as (Hq & Hn & He).
  rewrite Hn, He. cbn [size_of]. unfold iso_size_of. replace (blen (concat cs) <? 34816) with true by lia. auto.
Qed.
Print Assumptions vsize_zero_while_unknown_iso.

(* ---------------- LUKS: stream length minus payload offset (an integer; negative when the payload offset
   points beyond the stream) ---------------- *)
Theorem vsize_luks_wellformed : forall payload b cs,
  payload < 2 ^ 32 -> wf_luks payload b = true -> concat cs = b ->
  quiet F_luks cs /\ vsize_end F_luks cs = Ok (Z.of_N (blen b) - Z.of_N payload * 512)%Z.
Proof.
  intros payload b cs Hs Hwf <-. destruct (vsize_static F_luks cs eq_refl) as (Hq & _ & He).
  split; [exact Hq|]. rewrite He. apply luks_size_wf; assumption.
Qed.
Print Assumptions vsize_luks_wellformed.

(* ---------------- raw, GPT: the stream length, for every stream ---------------- *)
Theorem vsize_raw_wellformed : forall cs,
  quiet F_raw cs /\ vsize_now F_raw cs = Ok (Z.of_N (blen (concat cs))) /\ vsize_end F_raw cs = Ok (Z.of_N (blen (concat cs))).
Proof. intros cs. exact (vsize_static F_raw cs eq_refl). Qed.
Print Assumptions vsize_raw_wellformed.

Theorem vsize_gpt_wellformed : forall cs,
  quiet F_gpt cs /\ vsize_now F_gpt cs = Ok (Z.of_N (blen (concat cs))) /\ vsize_end F_gpt cs = Ok (Z.of_N (blen (concat cs))).
Proof. intros cs. exact (vsize_static F_gpt cs eq_refl). Qed.
Print Assumptions vsize_gpt_wellformed.

(* ---------------- VMDK (hosted sparse extent: monolithicSparse / streamOptimized) ----------------
   wf_vmdk sectors version desc_num b: 'KDMV', version in 1..3, capacity [sectors], descriptor at sector 1 of [desc_num] >= 1
   sectors (the inspector looks at min(desc_num*512, 2^20-1) bytes of it), the descriptor text (up to its first NUL) is
   ASCII and its first createType="..." names one of the two sparse subformats; the stream contains header and
   descriptor.  Any grain-directory offset, i.e. with or without the footer region. *)
Theorem vsize_vmdk_wellformed : forall sectors version desc_num b cs,
  sectors < 2 ^ 64 -> desc_num < 2 ^ 64 -> wf_vmdk sectors version desc_num b = true -> concat cs = b ->
  quiet F_vmdk cs /\ vsize_end F_vmdk cs = Ok (Z.of_N (sectors * 512)).
Proof. exact vsize_vmdk_wellformed_lemma. Qed.
Print Assumptions vsize_vmdk_wellformed.

(* every chunking of every prefix of a well-formed image that stops before the end of the descriptor: 0 *)
Theorem vsize_zero_while_unknown_vmdk : forall w sectors version desc_num cs,
  sectors < 2 ^ 64 -> desc_num < 2 ^ 64 -> wf_vmdk sectors version desc_num w = true ->
  is_prefix (concat cs) w = true -> blen (concat cs) < vmdk_known_at desc_num ->
  quiet F_vmdk cs /\ vsize_now F_vmdk cs = Ok 0%Z /\ vsize_end F_vmdk cs = Ok 0%Z.
Proof. exact vsize_zero_while_unknown_vmdk_lemma. Qed.
Print Assumptions vsize_zero_while_unknown_vmdk.

(* and the exact value at every prefix: 0 before header + descriptor have been presented, the declared size from then on *)
Theorem vsize_vmdk_at_every_prefix : forall w sectors version desc_num cs,
  sectors < 2 ^ 64 -> desc_num < 2 ^ 64 -> wf_vmdk sectors version desc_num w = true ->
  is_prefix (concat cs) w = true ->
  quiet F_vmdk cs /\
  vsize_now F_vmdk cs = (if blen (concat cs) <? vmdk_known_at desc_num then Ok 0%Z else Ok (Z.of_N (sectors * 512))) /\
  vsize_end F_vmdk cs = (if blen (concat cs) <? vmdk_known_at desc_num then Ok 0%Z else Ok (Z.of_N (sectors * 512))).
Proof. exact vsize_vmdk_prefix_lemma. Qed.
Print Assumptions vsize_vmdk_at_every_prefix.

(* ---------------- VHDX ----------------
   wf_vhdx size l b, with the layout l = (region-table count <= 2047, index of the metadata-region entry, metadata region
   offset >= 256 KiB, metadata-table count <= 2047, index of the virtual-disk-size entry, item offset >= 32 + 32*count):
   any number (0..2046) of other entries, in any order, in front of the wanted entry of either table, any entries behind
   it; 'regi' and 'metadata' signatures; item length 8; the stream reaches the end of the size item. *)
Theorem vsize_vhdx_wellformed : forall size l b cs,
  size < 2 ^ 64 -> wf_vhdx size l b = true -> concat cs = b ->
  quiet F_vhdx cs /\ vsize_end F_vhdx cs = Ok (Z.of_N size).
Proof. exact vsize_vhdx_wellformed_lemma. Qed.
Print Assumptions vsize_vhdx_wellformed.

(* every chunking of every prefix of a well-formed image that stops before the end of the size item: 0 *)
Theorem vsize_zero_while_unknown_vhdx : forall w size l cs,
  size < 2 ^ 64 -> wf_vhdx size l w = true ->
  is_prefix (concat cs) w = true -> blen (concat cs) < vhdx_known_at l ->
  quiet F_vhdx cs /\ vsize_now F_vhdx cs = Ok 0%Z /\ vsize_end F_vhdx cs = Ok 0%Z.
Proof. exact vsize_zero_while_unknown_vhdx_lemma. Qed.
Print Assumptions vsize_zero_while_unknown_vhdx.

Theorem vsize_vhdx_at_every_prefix : forall w size l cs,
  size < 2 ^ 64 -> wf_vhdx size l w = true -> is_prefix (concat cs) w = true ->
  quiet F_vhdx cs /\
  vsize_now F_vhdx cs = (if blen (concat cs) <? vhdx_known_at l then Ok 0%Z else Ok (Z.of_N size)) /\
  vsize_end F_vhdx cs = (if blen (concat cs) <? vhdx_known_at l then Ok 0%Z else Ok (Z.of_N size)).
Proof. exact vsize_vhdx_prefix_lemma. Qed.
Print Assumptions vsize_vhdx_at_every_prefix.
