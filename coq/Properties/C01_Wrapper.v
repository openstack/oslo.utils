(* Properties/C01_Wrapper.v — C01, wrapper level (DESIGN C01 item 7, wrapper_verdict_refines_spec):
   the per-inspector verdicts held by InspectWrapper after close(), and formats / format, are a function of
   the CONTENT alone, for every read-size sequence.  First for the eight static formats (raw, qcow2, qed, vhd,
   vdi, iso, gpt, luks), where the whole wrapper is spec_wrapper of the content; then for all ten formats,
   for contents outside the known-finding zones (F1-F4) of the allowed formats.  From the slots of the closed
   wrapper (every slot = its inspector fed the delivered chunks, Proofs/C03_Wrap.v) and the C01 refinements
   (static: run f cs = spec_state f (concat cs); vhdx / vmdk: C01_vhdx/vmdk_refines_spec).  Each theorem is
   proved by [exact] of a lemma of Proofs/C03_Props.v / C03_All.v or in a few lines from such lemmas.
     read_and_closed e a cs w : InspectWrapper(expected_format=e, allowed_formats=a) returned the chunks cs
                                (no call raised), then close(); w is the wrapper afterwards. *)
Require Import OV.Base.Bytes OV.Base.Py OV.Base.C06_WrapShape OV.Base.Insp_Struct.
Require Import OV.Gen.Insp_Consts OV.Gen.C06_Wrapper OV.Model.Insp_Engine OV.Model.Insp_All OV.Model.Wrap OV.Model.C03.
Require Import OV.Model.C01_Vhdx OV.Model.C01_Vmdk OV.Proofs.C01_Vhdx_Witness.
Require Import OV.Proofs.Insp_All OV.Proofs.C03_Wrap OV.Proofs.C03_Props OV.Proofs.C03_All OV.Proofs.C03_Examples.
Open Scope N_scope.

(* each static inspector of the collection ends in spec_state f (content): position |content|, every
   region = content[off:off+len], finished, never errored — whatever the read sizes and whatever the
   OTHER inspectors (vmdk, vhdx included) did *)
Theorem C01_wrapper_static_slots : forall expected allowed cs w f,
  read_and_closed expected allowed cs w -> is_static f = true -> allowed_key allowed (fmt_name f) = true ->
  In (spec_slot (concat cs) f) (w_slots w).
Proof. intros expected allowed cs w f. intros Hrc Hs Ha. rewrite (read_and_closed_is _ _ _ _ Hrc), <- (slot_closed_static cs f Hs). apply closed_slot_in. exact Ha. Qed.
Print Assumptions C01_wrapper_static_slots.

(* with only static formats allowed the WHOLE wrapper (hence formats and format) is spec_wrapper, built
   from the content alone *)
Theorem C01_wrapper_verdict : forall expected allowed cs w,
  read_and_closed expected allowed cs w -> forallb is_static (allowed_fmts allowed) = true ->
  w = spec_wrapper expected allowed (concat cs).
Proof. exact wrapper_verdict. Qed.
Print Assumptions C01_wrapper_verdict.

Theorem C01_wrapper_verdict_chunking : forall expected allowed cs1 cs2 w1 w2,
  read_and_closed expected allowed cs1 w1 -> read_and_closed expected allowed cs2 w2 ->
  forallb is_static (allowed_fmts allowed) = true -> concat cs1 = concat cs2 ->
  w1 = w2 /\ cw_format w1 = cw_format w2 /\ cw_formats w1 = cw_formats w2.
Proof. intros expected allowed cs1 cs2 w1 w2. intros H1 H2 Hall Hc. rewrite (wrapper_verdict _ _ _ _ H1 Hall), (wrapper_verdict _ _ _ _ H2 Hall), Hc. auto. Qed.
Print Assumptions C01_wrapper_verdict_chunking.

(* in any wrapper (all ten formats): the verdict of the static inspectors' format_match after close is the
   signature predicate of the content *)
Theorem C01_wrapper_static_match : forall f cs, is_static f = true -> cmatch (fst (run f cs)) = C03_Sig.sigb f (concat cs).
Proof. exact closed_static_match. Qed.
Print Assumptions C01_wrapper_static_match.

Example C01_wrapper_static_allowed :
  forallb is_static (allowed_fmts [fmt_name F_qcow2; fmt_name F_vhd; fmt_name F_iso; fmt_name F_raw]) = true.
Proof. exact ex_static_allowed. Qed.

(* ================================================================== all ten formats (outside the known zones) *)
(* in_zone f b: F2 or F4 for vhdx, F1 or F3 for vmdk, never for the eight static formats.  Under the wrapper an
   inspector that raised is FROZEN (not aborted): [run f cs] is exactly that state (feeding stops at the first
   exception, finish() still runs), and C01_vhdx_refines_spec / C01_vmdk_refines_spec are about it, so the frozen
   verdict is chunk-independent outside the zones; inside F4 it is not (C01_refuted_vhdx_metasig). *)
Theorem C01_run_verdict_all : forall f cs, in_zone f (concat cs) = false -> verdict_of (run f cs) = spec_verdict_all f (concat cs).
Proof. exact run_verdict_all. Qed.
Print Assumptions C01_run_verdict_all.

(* "... or the InspectWrapper running all of them": for every allowed_formats, after read-through and close, outside
   the zones of the allowed formats: the verdict (escaped exception, format_match, complete, virtual_size,
   safety_check) of EVERY inspector the wrapper holds, and format / formats, are functions of the content alone *)
Theorem C01_wrapper_verdict_all : forall expected allowed cs w,
  read_and_closed expected allowed cs w -> outside_zones allowed (concat cs) ->
  (forall f, In f (allowed_fmts allowed) ->
     In (slot_closed cs f) (w_slots w) /\ verdict_of (run f cs) = spec_verdict_all f (concat cs)) /\
  cw_format_name w = spec_format allowed (concat cs) /\
  option_map (map (@s_name istate)) (cw_formats w) = spec_formats allowed (concat cs).
Proof. exact wrapper_verdict_all. Qed.
Print Assumptions C01_wrapper_verdict_all.

Theorem C01_wrapper_verdict_all_chunking : forall expected allowed cs1 cs2 w1 w2,
  read_and_closed expected allowed cs1 w1 -> read_and_closed expected allowed cs2 w2 ->
  concat cs1 = concat cs2 -> outside_zones allowed (concat cs1) ->
  cw_format_name w1 = cw_format_name w2 /\
  option_map (map (@s_name istate)) (cw_formats w1) = option_map (map (@s_name istate)) (cw_formats w2) /\
  (forall f, In f (allowed_fmts allowed) -> verdict_of (run f cs1) = verdict_of (run f cs2)).
Proof.
  intros expected allowed cs1 cs2 w1 w2.
  intros H1 H2 Hc Hz.
  destruct (wrapper_verdict_all _ _ _ _ H1 Hz) as (A1 & B1 & C1).
  assert (Hz2 : outside_zones allowed (concat cs2)) by (rewrite <- Hc; exact Hz).
  destruct (wrapper_verdict_all _ _ _ _ H2 Hz2) as (A2 & B2 & C2).
  split; [rewrite B1, B2, Hc; reflexivity|]. split; [rewrite C1, C2, Hc; reflexivity|].
  intros f Hf. rewrite (proj2 (A1 f Hf)), (proj2 (A2 f Hf)), Hc. reflexivity.
Qed.
Print Assumptions C01_wrapper_verdict_all_chunking.

Example C01_wrapper_outside_zones : outside_zones [fmt_name F_vhdx; fmt_name F_qcow2; fmt_name F_raw] wf_image.
Proof. exact ex_outside_zones. Qed.
