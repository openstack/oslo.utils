(* Properties/C15.v — property theorems only; each is a lemma of Proofs/C15*.v or a few lines
   over them, and is followed by Print Assumptions.

   Reading of the inputs.  MAC and prefix TEXT is parsed by netaddr (oracle): the model
   receives netaddr.EUI(mac) as [LOk (EUI48 v)] (or the exception class) and
   netaddr.IPNetwork(prefix).first as [LOk first]; the three booleans are
   isinstance(prefix, str), is_valid_ipv4(prefix, False), is_valid_ipv4(prefix, True).
   [valid] in the host/port theorems is the verdict of is_valid_ipv6(host). *)
From Coq Require Import String.
Require Import OV.Base.Bytes OV.Base.Py OV.Base.PyInt OV.Base.Str.
Require Import OV.Base.C11_Lib OV.Model.C11 OV.Model.C11_Spec.
Require Import OV.Base.C15_PyVal OV.Gen.C15_Netutils OV.Model.C15 OV.Model.C15_Spec OV.Model.C15_Text.
Require Import OV.Proofs.C15_Str OV.Proofs.C15_Eui OV.Proofs.C15 OV.Proofs.C15_Net OV.Proofs.C15_Mac OV.Proofs.C15_Text.
Open Scope Z_scope.

(* ---------------------------------------------------------------- EUI-64 *)

(* for every 48-bit MAC and every network address whose low 64 bits are clear (all prefixes
   of length <= 64, with or without host bits — IPNetwork.first masks them — and longer ones
   with nothing there): the result is the IPv6 address  first + iid = first | iid,  where
   iid = (hi24*2^40 + 0xFFFE*2^24 + lo24) xor 2^57 is the modified EUI-64; the high half is the
   prefix's, the low half is the interface identifier *)
Theorem C15_eui64_value : forall first mac,
  0 <= mac < 2 ^ 48 -> 0 <= first < 2 ^ 128 -> first mod 2 ^ 64 = 0 ->
  get_ipv6_addr_by_EUI64 true false false (LOk (EUI48 mac)) (LOk first)
    = Ok (6, first + modified_eui64_arith mac) /\
  first + modified_eui64_arith mac = Z.lor first (modified_eui64_arith mac) /\
  (first + modified_eui64_arith mac) / 2 ^ 64 = first / 2 ^ 64 /\
  (first + modified_eui64_arith mac) mod 2 ^ 64 = modified_eui64_arith mac.
Proof. exact eui64_value. Qed.
Print Assumptions C15_eui64_value.

(* that number is the RFC 4291 identifier  b0^0x02 : b1 : b2 : ff : fe : b3 : b4 : b5
   (universal/local bit inverted, ff:fe inserted) *)
Theorem C15_modified_eui64_bytes : forall mac,
  0 <= mac < 2 ^ 48 -> modified_eui64_arith mac = modified_eui64 mac.
Proof. exact modified_eui64_bytes. Qed.
Print Assumptions C15_modified_eui64_bytes.

(* what the code computes for EVERY network address, low half occupied or not:
   (first + eui64) xor 2^57 with arithmetic +, then netaddr.IPAddress(int)'s range rule
   (below 2^32 an IPv4 address object; 2^128 and above: ValueError) *)
Theorem C15_eui64_general : forall first mac,
  0 <= mac < 2 ^ 48 -> 0 <= first ->
  let r := Z.lxor (first + eui64_arith mac) (2 ^ 57) in
  get_ipv6_addr_by_EUI64 true false false (LOk (EUI48 mac)) (LOk first) =
    if r <? 2 ^ 32 then Ok (4, r) else if r <? 2 ^ 128 then Ok (6, r) else Exn (handle LAddrFormatError).
Proof. exact eui64_general. Qed.
Print Assumptions C15_eui64_general.

(* get_mac_addr_by_ipv6 recovers the MAC from what get_ipv6_addr_by_EUI64 returned *)
Theorem C15_mac_roundtrip : forall first mac,
  0 <= mac < 2 ^ 48 -> 0 <= first < 2 ^ 128 -> first mod 2 ^ 64 = 0 ->
  exists r, get_ipv6_addr_by_EUI64 true false false (LOk (EUI48 mac)) (LOk first) = Ok (6, r) /\
            get_mac_addr_by_ipv6 6 r = LOk (EUI48 mac).
Proof. exact mac_roundtrip. Qed.
Print Assumptions C15_mac_roundtrip.

(* the inverse on its own: from ANY address whose low 64 bits are the modified EUI-64 of a MAC;
   and it never fails on an IPv6 address (the masks keep the value below 2^48) *)
Theorem C15_mac_of_interface_id : forall hi64 mac,
  0 <= mac < 2 ^ 48 -> 0 <= hi64 ->
  gen_mac_of_ipv6 (hi64 * 2 ^ 64 + modified_eui64_arith mac) = mac.
Proof. exact mac_of_interface_id. Qed.
Print Assumptions C15_mac_of_interface_id.

Theorem C15_mac_of_ipv6_range : forall v, 0 <= v -> 0 <= gen_mac_of_ipv6 v < 2 ^ 48.
Proof.
  intros v Hv. change (gen_mac_of_ipv6 v) with (mac_of_ipv6 v). rewrite mac_of_ipv6_arith by exact Hv.
  set (a := (v / 2 ^ 40) mod 2 ^ 24). set (b := v mod 2 ^ 24).
  assert (Ha : 0 <= a < 2 ^ 24) by (subst a; dm). assert (Hb : 0 <= b < 2 ^ 24) by (subst b; dm).
  clearbody a b. rewrite (lxor_flip17 a 24) by lia. pose proof (flip17_range a Ha). lia.
Qed.
Print Assumptions C15_mac_of_ipv6_range.

(* an IPv4 address given as prefix raises ValueError or TypeError ... *)
Theorem C15_ipv4_prefix_rejected : forall mac net,
  exists e, get_ipv6_addr_by_EUI64 true true true mac net = Exn e /\ is_VE_TE e.
Proof. exact ipv4_prefix_rejected. Qed.
Print Assumptions C15_ipv4_prefix_rejected.

(* ... so does a MAC or a prefix that netaddr refuses (ValueError, AddrFormatError or TypeError),
   a prefix that is not a str, and nothing else ever escapes *)
Theorem C15_bad_mac_rejected : forall is_str v4l v4s e net, lib_class e = true ->
  exists e', get_ipv6_addr_by_EUI64 is_str v4l v4s (LExn e) net = Exn e' /\ is_VE_TE e'.
Proof. exact bad_mac_rejected. Qed.
Print Assumptions C15_bad_mac_rejected.

Theorem C15_bad_prefix_rejected : forall is_str v4l v4s m e, lib_class e = true ->
  exists e', get_ipv6_addr_by_EUI64 is_str v4l v4s (LOk m) (LExn e) = Exn e' /\ is_VE_TE e'.
Proof. exact bad_prefix_rejected. Qed.
Print Assumptions C15_bad_prefix_rejected.

Theorem C15_nonstr_prefix_rejected : forall v4l v4s mac net,
  exists e, get_ipv6_addr_by_EUI64 false v4l v4s mac net = Exn e /\ is_VE_TE e.
Proof.
  intros v4l v4s mac net. unfold get_ipv6_addr_by_EUI64.
  destruct (run_guards false v4l v4s gen_eui64_prechecks) as [g|] eqn:G.
  - exists g. split; [reflexivity|]. eapply guards_classes; exact G.
  - exfalso. destruct v4l, v4s; vm_compute in G; discriminate.
Qed.
Print Assumptions C15_nonstr_prefix_rejected.

Theorem C15_eui64_only_VE_TE : forall is_str v4l v4s mac net e,
  (forall x, mac = LExn x -> lib_class x = true) -> (forall x, net = LExn x -> lib_class x = true) ->
  get_ipv6_addr_by_EUI64 is_str v4l v4s mac net = Exn e -> is_VE_TE e.
Proof. exact eui64_only_VE_TE. Qed.
Print Assumptions C15_eui64_only_VE_TE.

(* ---------------------------------------------------------------- host:port *)

(* parse_host_port(escape_ipv6(host) + ':' + str(port)) = (host, port) for EVERY integer port
   (nothing checks 0..65535) exactly for the hosts rt_host describes: every host escape_ipv6
   brackets (the bracketed text is split at its last ']'), or a host it does not bracket that is
   free of ':' and does not start with '[' *)
Theorem C15_host_port_roundtrip : forall valid host port,
  parse_host_port (escape_ipv6 valid host ++ [58%N] ++ dec_of_Z port) VNone = Ok (Some host, Some port)
  <-> rt_host valid host = true.
Proof. exact host_port_roundtrip_iff. Qed.
Print Assumptions C15_host_port_roundtrip.

(* a missing port yields the default (None or an int), exactly for rt_host_default *)
Theorem C15_host_default_roundtrip : forall valid host (d : option Z),
  parse_host_port (escape_ipv6 valid host) (pv_of d) = Ok (Some host, d)
  <-> rt_host_default valid host = true.
Proof. exact host_default_roundtrip_iff. Qed.
Print Assumptions C15_host_default_roundtrip.

(* the three families: names and IPv4 literals (no ':' and no leading '[') ... *)
Theorem C15_host_port_roundtrip_plain : forall valid host port,
  has_char 58%N host = false -> prefixb [91%N] host = false ->
  parse_host_port (escape_ipv6 valid host ++ [58%N] ++ dec_of_Z port) VNone = Ok (Some host, Some port).
Proof.
  intros valid host port H58 H91. apply host_port_roundtrip_iff. unfold rt_host.
  destruct valid; [reflexivity|]. rewrite H58, H91. reflexivity.
Qed.
Print Assumptions C15_host_port_roundtrip_plain.

(* ... and IPv6 literals with or without a scope id: EVERYTHING escape_ipv6 brackets, no side
   condition (a scope id may contain ']': the bracketed text is split at its last ']' — finding H1) *)
Theorem C15_host_port_roundtrip_ipv6 : forall host port,
  parse_host_port (escape_ipv6 true host ++ [58%N] ++ dec_of_Z port) VNone = Ok (Some host, Some port).
Proof. exact host_port_roundtrip_ipv6. Qed.
Print Assumptions C15_host_port_roundtrip_ipv6.

Theorem C15_host_default_plain : forall valid host d,
  host <> [] -> has_char 58%N host = false -> prefixb [91%N] host = false ->
  parse_host_port (escape_ipv6 valid host) (pv_of d) = Ok (Some host, d).
Proof.
  intros valid host d Hne H58 H91. apply host_default_roundtrip_iff. unfold rt_host_default.
  destruct valid; [reflexivity|].
  destruct host as [|c rest]; [congruence|]. rewrite H91.
  apply count_char_0 in H58. rewrite H58. reflexivity.
Qed.
Print Assumptions C15_host_default_plain.

Theorem C15_host_default_ipv6 : forall host d,
  parse_host_port (escape_ipv6 true host) (pv_of d) = Ok (Some host, d).
Proof. exact host_default_ipv6. Qed.
Print Assumptions C15_host_default_ipv6.

(* what stays excluded: for hosts escape_ipv6 does not bracket the side conditions are needed —
   e.g. 'a:b' (one ':', refused by is_valid_ipv6) is read back as host 'a:b:80' without a port *)
Definition C15_host_port_unescaped_full_statement : Prop :=
  forall host port, parse_host_port (escape_ipv6 false host ++ [58%N] ++ dec_of_Z port) VNone = Ok (Some host, Some port).
Theorem C15_host_port_unescaped_refuted : ~ C15_host_port_unescaped_full_statement.
Proof.
  intros H. specialize (H (lit "a:b") 80%Z).
  rewrite (proj2 ex_one_colon_fails) in H. discriminate.
Qed.
Print Assumptions C15_host_port_unescaped_refuted.

(* ---------------------------------------------------------------- urlsplit *)

(* under the post-condition of urllib.parse.urlsplit (tested on every generated URL): no '?' in
   the path, no '#' in it when fragments are allowed — oslo's urlsplit returns the stdlib's five
   components unchanged (the translated source text, not only the hand model) *)
Theorem C15_urlsplit_agrees : forall s n p q f a,
  has_char 63%N p = false -> (a = true -> has_char 35%N p = false) ->
  gen_urlsplit_post s n p q f a = Ok (s, n, p, q, f).
Proof. exact urlsplit_agrees. Qed.
Print Assumptions C15_urlsplit_agrees.

(* without the contract: scheme and netloc are kept, the path ends up free of '?' (and of '#'
   when fragments are allowed) and is a prefix of the stdlib's path; no exception *)
Theorem C15_urlsplit_post_clean : forall s n p q f a,
  match urlsplit_post s n p q f a with
  | (s', n', p', q', f') =>
      s' = s /\ n' = n /\ has_char 63%N p' = false /\ (a = true -> has_char 35%N p' = false) /\
      (exists tl, p = p' ++ tl)
  end.
Proof. exact urlsplit_post_clean. Qed.
Print Assumptions C15_urlsplit_post_clean.

(* ---------------------------------------------------------------- params() *)

(* over any list of (name, value) pairs parse_qsl may return: collapse=True maps every name to
   the LAST value given for it; collapse=False to ALL of them in order (one value stays bare) *)
Theorem C15_params_last_wins : forall pairs k,
  dict_get k (params_collapse pairs) = last_opt (values_of k pairs).
Proof. exact params_last_wins. Qed.
Print Assumptions C15_params_last_wins.

Theorem C15_params_all_values : forall pairs k,
  dict_get k (params_all pairs) = pval_of (values_of k pairs).
Proof. exact params_all_values. Qed.
Print Assumptions C15_params_all_values.

(* params() itself: `if self.query:` short-cuts an empty query to {} — the same thing under the
   parse_qsl contract that an empty query has no pairs *)
Theorem C15_params_method : forall query pairs k,
  (bempty query = true -> pairs = []) ->
  dict_get k (params_c query pairs) = last_opt (values_of k pairs) /\
  dict_get k (params_a query pairs) = pval_of (values_of k pairs).
Proof.
  intros query pairs k C. unfold params_c, params_a. destruct (bempty query).
  - rewrite (C eq_refl). split; reflexivity.
  - split; [apply params_last_wins|apply params_all_values].
Qed.
Print Assumptions C15_params_method.

Theorem C15_params_keys_nodup : forall pairs,
  NoDup (map fst (params_collapse pairs)) /\ NoDup (map fst (params_all pairs)).
Proof.
  intros pairs. split; induction pairs as [|kv l IH] using rev_ind; try (cbn; constructor).
  - rewrite params_collapse_snoc. apply dict_set_nodup. exact IH.
  - rewrite params_all_snoc. unfold params_step.
    destruct (dict_get (fst kv) (params_all l)) as [[x|xs]|]; apply dict_set_nodup; exact IH.
Qed.
Print Assumptions C15_params_keys_nodup.

(* ==================================================================================
   END TO END ON TEXT (Model/C15_Text.v): no parsing oracle.  [ipnetwork_v p] is
   netaddr.IPNetwork(p) (C11's parser, proved to accept exactly C11's network texts, extended with
   the value and prefix length), [valid_ipv4] / [is_valid_ipv6] are C11's models,
   [eui_of_text m] is netaddr.EUI(m) for the textual MAC / EUI-64 forms, [eui48_print] is
   str(EUI) in the dialect get_mac_addr_by_ipv6 uses.  Text = list of code points. *)

(* netaddr.IPNetwork(text) succeeds exactly on C11's network texts (C11_ipnetwork_iff) ... *)
Theorem C15_ipnetwork_accepts : forall s,
  (exists v6 value plen, ipnetwork_v s = Net v6 value plen) <-> network_text false s \/ network_text true s.
Proof.
  intros s. rewrite <- C11_Net.ipnetwork_iff, <- ipnetwork_v_outcome.
  destruct (ipnetwork_v s) as [v6 v k|e]; cbn [netres_outcome]; split; intros H; try reflexivity; try discriminate.
  - eexists _, _, _. reflexivity.
  - destruct H as (? & ? & ? & H). discriminate.
Qed.
Print Assumptions C15_ipnetwork_accepts.

(* ... with these values for the spellings the property names: an RFC 4291 address text of value
   [value] alone (/128) or followed by '/' and a decimal prefix length *)
Theorem C15_ipnetwork_decimal : forall a value n, ipv6_value a value -> (n <= 128)%N ->
  ipnetwork_v (a ++ 47%N :: dec_of_N n) = Net true value n /\ ipnetwork_v a = Net true value 128.
Proof.
  intros a value n V Hn. split; [apply ipnetwork_v_decimal; assumption|apply ipnetwork_v_plain; exact V].
Qed.
Print Assumptions C15_ipnetwork_decimal.

(* IPNetwork.first clears the host bits *)
Theorem C15_net_first : forall value plen, (value < 2 ^ 128)%N -> (plen <= 128)%N ->
  Z.of_N (net_first true value plen) = network_of value plen.
Proof. exact net_first_Z. Qed.
Print Assumptions C15_net_first.

(* every MAC text netaddr.EUI reads as an EUI-48 denotes a value below 2^48; the six-group forms
   (':' or '-', 1..2 hex digits per group, either case) denote the value of their groups *)
Theorem C15_mac_text_range : forall m v, eui_of_text m = Some (EUI48 v) -> 0 <= v < 2 ^ 48.
Proof. exact eui_of_text_48_range. Qed.
Print Assumptions C15_mac_text_range.

Theorem C15_mac_text_six_groups : forall sep ws, sep = 58%N \/ sep = 45%N ->
  length ws = 6%nat -> forallb (hexword 1 2) ws = true ->
  eui_of_text (join [sep] ws) = Some (EUI48 (Z.of_N (words_val 8 ws))).
Proof. exact eui_of_text_six_groups. Qed.
Print Assumptions C15_mac_text_six_groups.

(* HEADLINE, forward: for every MAC text m denoting the 48-bit value v and every IPv6 network text p
   with prefix length <= 64 (host bits or not): the result is network(p) + iid(v) = network(p) | iid(v) *)
Theorem C15_eui64_text_value : forall p m v value plen,
  eui_of_text m = Some (EUI48 v) -> ipnetwork_v p = Net true value plen -> (plen <= 64)%N ->
  get_ipv6_addr_by_EUI64_text p m = Ok (6, network_of value plen + modified_eui64_arith v) /\
  network_of value plen + modified_eui64_arith v = Z.lor (network_of value plen) (modified_eui64_arith v).
Proof. exact eui64_text_value. Qed.
Print Assumptions C15_eui64_text_value.

(* the same for any prefix length as long as the low half of the network address is clear *)
Theorem C15_eui64_text_value_gen : forall p m v value plen,
  eui_of_text m = Some (EUI48 v) -> ipnetwork_v p = Net true value plen ->
  network_of value plen mod 2 ^ 64 = 0 ->
  get_ipv6_addr_by_EUI64_text p m = Ok (6, network_of value plen + modified_eui64_arith v) /\
  network_of value plen + modified_eui64_arith v = Z.lor (network_of value plen) (modified_eui64_arith v).
Proof. exact eui64_text_value_gen. Qed.
Print Assumptions C15_eui64_text_value_gen.

(* fully declarative on the prefix side: "<RFC 4291 text of value>/<n>", n <= 64 *)
Theorem C15_eui64_text_value_decimal : forall a value n m v,
  ipv6_value a value -> (n <= 64)%N -> eui_of_text m = Some (EUI48 v) ->
  get_ipv6_addr_by_EUI64_text (a ++ 47%N :: dec_of_N n) m = Ok (6, network_of value n + modified_eui64_arith v).
Proof.
  intros a value n m v Ha Hn Hm. apply (eui64_text_value _ m v value n); try assumption.
  apply ipnetwork_v_decimal; [exact Ha|lia].
Qed.
Print Assumptions C15_eui64_text_value_decimal.

(* HEADLINE, round trip through the text get_mac_addr_by_ipv6 prints *)
Theorem C15_eui64_text_roundtrip : forall p m v value plen,
  eui_of_text m = Some (EUI48 v) -> ipnetwork_v p = Net true value plen -> (plen <= 64)%N ->
  exists r, get_ipv6_addr_by_EUI64_text p m = Ok (6, r) /\
            get_mac_text r = Some (eui48_print (Z.to_N v)) /\
            eui_of_text (eui48_print (Z.to_N v)) = Some (EUI48 v).
Proof. exact eui64_text_roundtrip. Qed.
Print Assumptions C15_eui64_text_roundtrip.

Theorem C15_eui64_text_roundtrip_literal : forall p v value plen,
  (v < 2 ^ 48)%N -> ipnetwork_v p = Net true value plen -> (plen <= 64)%N ->
  exists r, get_ipv6_addr_by_EUI64_text p (eui48_print v) = Ok (6, r) /\ get_mac_text r = Some (eui48_print v).
Proof.
  intros p v value plen Hv Hp Hk. pose proof (eui_print_parse v Hv) as Hm.
  destruct (eui64_text_roundtrip p _ _ value plen Hm Hp Hk) as (r & E1 & E2 & _).
  exists r. rewrite N2Z.id in E2. split; assumption.
Qed.
Print Assumptions C15_eui64_text_roundtrip_literal.

Theorem C15_mac_print_parse : forall v, (v < 2 ^ 48)%N -> eui_of_text (eui48_print v) = Some (EUI48 (Z.of_N v)).
Proof. exact eui_print_parse. Qed.
Print Assumptions C15_mac_print_parse.

(* HEADLINE, exceptions: an IPv4 address text as prefix (C11_ipv4_nonstrict_iff says which texts),
   a MAC text or a prefix text the library models refuse: ValueError or TypeError; nothing else
   ever escapes; a result is returned only when none of these holds *)
Theorem C15_eui64_text_ipv4_rejected : forall p mac,
  valid_ipv4 false p = AOk true -> exists e, get_ipv6_addr_by_EUI64_gen p mac = Exn e /\ is_VE_TE e.
Proof. exact eui64_text_ipv4_rejected. Qed.
Print Assumptions C15_eui64_text_ipv4_rejected.

Theorem C15_eui64_text_bad_mac : forall p m,
  eui_of_text m = None -> exists e, get_ipv6_addr_by_EUI64_text p m = Exn e /\ is_VE_TE e.
Proof.
  intros p m H. unfold get_ipv6_addr_by_EUI64_text, get_ipv6_addr_by_EUI64_gen, mac_lres. rewrite H.
  apply bad_mac_rejected. reflexivity.
Qed.
Print Assumptions C15_eui64_text_bad_mac.

Theorem C15_eui64_text_bad_prefix : forall p m e x,
  eui_of_text m = Some x -> ipnetwork_v p = NetRaise e ->
  exists e', get_ipv6_addr_by_EUI64_text p m = Exn e' /\ is_VE_TE e'.
Proof.
  intros p m e x Hm Hp. unfold get_ipv6_addr_by_EUI64_text, get_ipv6_addr_by_EUI64_gen, mac_lres, net_lres.
  rewrite Hm, Hp. apply bad_prefix_rejected.
  destruct (ipnetwork_v_raises p e Hp) as [-> | ->]; reflexivity.
Qed.
Print Assumptions C15_eui64_text_bad_prefix.

Theorem C15_eui64_text_total : forall p m,
  (exists r, get_ipv6_addr_by_EUI64_text p m = Ok r) \/
  (exists e, get_ipv6_addr_by_EUI64_text p m = Exn e /\ is_VE_TE e).
Proof.
  intros p m. destruct (get_ipv6_addr_by_EUI64_text p m) as [r|e] eqn:E; [left; eexists; reflexivity|right].
  exists e. split; [reflexivity|].
  unfold get_ipv6_addr_by_EUI64_text, get_ipv6_addr_by_EUI64_gen in E.
  eapply eui64_only_VE_TE; [| |exact E].
  - unfold mac_lres. intros x Hx. destruct (eui_of_text m); inversion Hx. reflexivity.
  - unfold net_lres. intros x Hx. destruct (ipnetwork_v p) as [v6 v k|e0] eqn:N; inversion Hx.
    destruct (ipnetwork_v_raises p e0 N) as [-> | ->]; reflexivity.
Qed.
Print Assumptions C15_eui64_text_total.

Theorem C15_eui64_text_ok_inv : forall p m r,
  get_ipv6_addr_by_EUI64_text p m = Ok r ->
  valid_ipv4 false p <> AOk true /\
  (exists x, eui_of_text m = Some x) /\ (exists v6 value plen, ipnetwork_v p = Net v6 value plen).
Proof.
  intros p m r E. split.
  - intros V. destruct (eui64_text_ipv4_rejected p (mac_lres m) V) as (e & H & _).
    unfold get_ipv6_addr_by_EUI64_text in E. congruence.
  - unfold get_ipv6_addr_by_EUI64_text, get_ipv6_addr_by_EUI64_gen, get_ipv6_addr_by_EUI64, mac_lres, net_lres in E.
    destruct (run_guards _ _ _ _); [discriminate|].
    destruct (eui_of_text m) as [x|]; [|discriminate].
    destruct (ipnetwork_v p) as [v6 v k|e]; [|discriminate].
    split; [eexists; reflexivity|eexists _, _, _; reflexivity].
Qed.
Print Assumptions C15_eui64_text_ok_inv.

(* escape_ipv6 with C11's is_valid_ipv6: every h that is RFC 4291 text optionally followed by '%'
   and a scope id of 1..15 characters without '%' or '/' — no parameter left *)
Theorem C15_host_port_roundtrip_ipv6_text : forall h port, ipv6_scoped_text h ->
  parse_host_port (escape_ipv6_text h ++ [58%N] ++ dec_of_Z port) VNone = Ok (Some h, Some port).
Proof.
  intros h port H. apply flag_ipv6_iff in H. unfold escape_ipv6_text. rewrite H. apply host_port_roundtrip_ipv6.
Qed.
Print Assumptions C15_host_port_roundtrip_ipv6_text.

Theorem C15_host_default_ipv6_text : forall h d, ipv6_scoped_text h ->
  parse_host_port (escape_ipv6_text h) (pv_of d) = Ok (Some h, d).
Proof.
  intros h d H. apply flag_ipv6_iff in H. unfold escape_ipv6_text. rewrite H. apply host_default_ipv6.
Qed.
Print Assumptions C15_host_default_ipv6_text.

Theorem C15_host_port_roundtrip_ipv4_text : forall h port, dotted_quad h ->
  parse_host_port (escape_ipv6_text h ++ [58%N] ++ dec_of_Z port) VNone = Ok (Some h, Some port).
Proof.
  intros h port Q. apply host_port_roundtrip_text_iff. right. split.
  - destruct (has_char 58%N h) eqn:E; [|reflexivity]. apply memN_In in E. exfalso. exact (C11_V6.quad_nocolon h Q E).
  - destruct Q as (a & b & c & d & _ & _ & _ & _ & ->). unfold dots.
    pose proof (dec_of_N_digits a) as D. pose proof (dec_of_N_nonnil a) as NN.
    destruct (dec_of_N a) as [|x t] eqn:E; [congruence|].
    cbn [join app prefixb]. cbn [all_ascii_digits forallb] in D. apply andb_true_iff in D. destruct D as [D _].
    unfold ascii_digit in D. replace (91 =? x)%N with false by lia. reflexivity.
Qed.
Print Assumptions C15_host_port_roundtrip_ipv4_text.

(* exactly which texts round-trip *)
Theorem C15_host_port_roundtrip_text_iff : forall h port,
  parse_host_port (escape_ipv6_text h ++ [58%N] ++ dec_of_Z port) VNone = Ok (Some h, Some port)
  <-> ipv6_scoped_text h \/ (has_char 58%N h = false /\ prefixb [91%N] h = false).
Proof. exact host_port_roundtrip_text_iff. Qed.
Print Assumptions C15_host_port_roundtrip_text_iff.
