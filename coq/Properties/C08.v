(* Properties/C08.v — the property theorems, each proved by [exact] of a lemma of Proofs/C08.v or Proofs/C08_Heap.v
   or in a few lines from such lemmas, and followed by Print Assumptions.

   C08: for any nested mapping, mask_dict_password returns a new dict with the same keys at
   every level in which every non-mapping value stored under a string key that contains a
   sanitize key (case-insensitively) is replaced by the mask, every other string value has been
   passed through mask_password, nested mappings are processed the same way and all other
   values are returned as they are; the argument is left unmodified (second half of this file: a
   model with object identity, Model/C08_Heap.v). A non-mapping argument raises TypeError.

   mdp is the model (Model/C08.v); its loop body is the term regenerated from the source
   (Gen/C08_Shape.gen_body), its key list the regenerated Gen/C08_Keys.gen_keys.
   mask_password is any function (mp).  wf d: no mapping in d has two equal keys (true of
   every Python Mapping).  Non-vacuity instances: Proofs/C08.v section 7 (ex_d ...). *)
Require Import OV.Base.Bytes OV.Base.Py OV.Base.Str.
Require Import OV.Model.C08_Syntax OV.Gen.C08_Keys OV.Gen.C08_Shape OV.Gen.C08_Frame OV.Model.C08 OV.Proofs.C08.
Require Import OV.Model.C08_Heap OV.Proofs.C08_Heap.

(* the result of a mapping argument exists (no exception) and is related to the argument by
   the four rules of Masked, at every depth — no bound on depth or width *)
Theorem C08_mdp_sound : forall (mp : str -> str -> str) (secret : str) (d : value),
  wf d = true -> is_mapping d = true ->
  exists r, mdp mp secret d = Ok r /\ Masked mp secret d r.
Proof. exact mdp_sound. Qed.
Print Assumptions C08_mdp_sound.

(* the four rules determine the result: Masked is functional ... *)
Theorem C08_mdp_unique : forall (mp : str -> str -> str) (secret : str) (d r1 r2 : value),
  Masked mp secret d r1 -> Masked mp secret d r2 -> r1 = r2.
Proof. exact mdp_unique. Qed.
Print Assumptions C08_mdp_unique.

(* ... so anything the rules allow is what the function returns *)
Theorem C08_mdp_complete : forall (mp : str -> str -> str) (secret : str) (d r : value),
  wf d = true -> Masked mp secret d r -> mdp mp secret d = Ok r.
Proof. exact mdp_complete. Qed.
Print Assumptions C08_mdp_complete.

(* the same, read off the function: under each key of the argument the result holds
   - for a mapping value: what the function returns for that mapping (whatever the key);
   - for a non-mapping value under a secret str key: the mask;
   - for any other str value: mask_password of it;  - for anything else: the value itself *)
Theorem C08_entry_rules : forall (mp : str -> str -> str) (secret : str) kd items k v,
  wf (VMap kd items) = true -> In (k, v) items ->
  exists out v',
    mdp mp secret (VMap kd items) = Ok (VMap dict_kind out) /\ In (k, v') out /\
    (is_mapping v = true -> mdp mp secret v = Ok v') /\
    (is_mapping v = false -> secret_key k = true -> v' = VStr secret) /\
    (secret_key k = false -> forall s, v = VStr s -> v' = VStr (mp s secret)) /\
    (secret_key k = false -> forall t, v = VOther t -> v' = VOther t).
Proof.
  intros mp secret kd items k v Hw Hin.
  destruct (mdp_entry mp secret kd items k v Hw Hin) as [out [v' [Hr [Hin' [E Hwv]]]]].
  exists out, v'. split; [exact Hr|]. split; [exact Hin'|].
  inversion E as [? ? ? Hm HMv|? ? Hnm Hsk|? s0 Hsk|? t0 Hsk]; subst.
  - split; [intros _; apply mdp_complete; assumption|].
    split; [intros H; congruence|]. split; intros _ ? ->; discriminate.
  - split; [intros H; congruence|]. split; [reflexivity|]. split; intros H; congruence.
  - split; [discriminate|]. split; [intros _ H; congruence|].
    split; [intros _ s1 H; inversion H; reflexivity|intros _ t1 H; discriminate].
  - split; [discriminate|]. split; [intros _ H; congruence|].
    split; [intros _ s1 H; discriminate|intros _ t1 H; inversion H; reflexivity].
Qed.
Print Assumptions C08_entry_rules.

(* same keys, in the same order, at every level; every container of the result is a dict *)
Theorem C08_keys_preserved_at_every_level : forall (mp : str -> str -> str) (secret : str) (d r : value),
  wf d = true -> mdp mp secret d = Ok r -> skel r = skel d /\ all_dict r = true.
Proof. exact keys_preserved_at_every_level. Qed.
Print Assumptions C08_keys_preserved_at_every_level.

(* a mapping stored under a secret key is not replaced by the mask: the result holds, under
   the same key, what the function returns for that mapping *)
Theorem C08_mapping_under_secret_key_is_recursed :
  forall (mp : str -> str -> str) (secret : str) kd items k kd' sub,
  wf (VMap kd items) = true -> In (k, VMap kd' sub) items -> secret_key k = true ->
  exists out sub',
    mdp mp secret (VMap kd items) = Ok (VMap dict_kind out) /\
    mdp mp secret (VMap kd' sub) = Ok (VMap dict_kind sub') /\
    In (k, VMap dict_kind sub') out /\ Masked mp secret (VMap kd' sub) (VMap dict_kind sub').
Proof. exact mapping_under_secret_key_is_recursed. Qed.
Print Assumptions C08_mapping_under_secret_key_is_recursed.

(* a non-mapping argument raises TypeError *)
Theorem C08_non_mapping_argument_TypeError : forall (mp : str -> str -> str) (secret : str) (d : value),
  is_mapping d = false -> mdp mp secret d = Exn TypeError.
Proof. exact mdp_non_mapping. Qed.
Print Assumptions C08_non_mapping_argument_TypeError.

(* the 35 documented sanitize keys are all in the list the source defines *)
Theorem C08_uses_all_spec_keys : incl spec_keys_35 gen_keys /\ length spec_keys_35 = 35%nat.
Proof. exact (conj uses_all_spec_keys eq_refl). Qed.
Print Assumptions C08_uses_all_spec_keys.

(* "contains a sanitize key (case-insensitively)" is: a key of the source's list is a
   substring of k.lower(); keys that are not str never qualify *)
Theorem C08_secret_key_is_substring_of_lower : forall s : str,
  secret_key (KStr s) = true <-> exists sk p q, In sk gen_keys /\ py_lower s = p ++ sk ++ q.
Proof. exact secret_key_iff_substring_of_lower. Qed.
Print Assumptions C08_secret_key_is_substring_of_lower.

(* every documented key, in any mix of cases, at any position of a str key *)
Theorem C08_secret_key_case_insensitive : forall sk pre u post : str,
  In sk spec_keys_35 -> lower_ascii u = sk -> secret_key (KStr (pre ++ u ++ post)) = true.
Proof.
  intros sk pre u post Hin Hu. apply secret_key_iff_substring_of_lower.
  exists sk, (py_lower pre), (py_lower post). split; [apply uses_all_spec_keys; exact Hin|].
  rewrite !py_lower_app. f_equal. f_equal. rewrite py_lower_ascii; [exact Hu|].
  apply lower_ascii_is_ascii. rewrite Hu. apply spec_keys_ascii. exact Hin.
Qed.
Print Assumptions C08_secret_key_case_insensitive.

(* the one place where py_lower is not CPython's lower() (final sigma) cannot change the test *)
Theorem C08_final_sigma_irrelevant : forall (keys : list str) (t s : str),
  sigma_free keys = true -> map sig_norm t = map sig_norm s -> contains_any keys t = contains_any keys s.
Proof. exact final_sigma_irrelevant. Qed.
Print Assumptions C08_final_sigma_irrelevant.

(* ====================================================================================== *)
(* Object identity (Model/C08_Heap.v): a heap of objects, values are references, the       *)
(* function evaluated in store-passing style; where it writes and what it returns are      *)
(* regenerated from the source (Gen/C08_Frame.v).  mp_h is mask_password on the heap, an    *)
(* arbitrary function meeting its contract (it only allocates; the reference it returns     *)
(* holds mask_password(message, secret)).  Instances: Proofs/C08_Heap.v section 4.          *)
(* ====================================================================================== *)

(* "the argument and everything reachable from it is left unmodified": EVERY location that
   existed before the call — reachable from the argument or not — holds the same object
   afterwards.  No hypothesis on the heap: any sharing, cycles included; any fuel. *)
Theorem C08_argument_unmodified :
  forall (mp_h : heap -> loc -> loc -> heap * loc),
  (forall h m s, exists e, fst (mp_h h m s) = h ++ e) ->
  forall fuel h secret d h' r,
  mdp_h mp_h fuel h secret d = Ok (h', r) ->
  (length h <= length h')%nat /\ forall l, (l < length h)%nat -> hget h' l = hget h l.
Proof. exact mdp_h_frame. Qed.
Print Assumptions C08_argument_unmodified.

(* For an argument d that is the root of a finite structure unfolding to the tree t
   (Den 0 h d t: acyclic, arbitrarily shared — decidable through [denote], C08_denote_sound),
   with enough fuel for its height:
   - the call succeeds and returns a location r allocated by the call (r = length h);
   - C08_heap_agrees_with_tree: r reads back as exactly the tree the functional model mdp
     returns for t (so every theorem above transfers to the heap model);
   - C08_result_fresh: in that reading every DICT location — r and every dict reachable from it
     through dict edges — is >= length h, i.e. was allocated by the call: no mapping of the
     argument is aliased by the result.  (Non-mapping values are NOT copied: see C08_result_sharing.) *)
Theorem C08_heap_agrees_with_tree_and_result_fresh :
  forall (mp : str -> str -> str) (mp_h : heap -> loc -> loc -> heap * loc),
  (forall h m s, exists e, fst (mp_h h m s) = h ++ e) ->
  (forall h m s ms ss, hget h m = Some (PStr ms) -> hget h s = Some (PStr ss) ->
     hget (fst (mp_h h m s)) (snd (mp_h h m s)) = Some (PStr (mp ms ss))) ->
  forall fuel h d secret ss t,
  Den 0 h d t -> is_mapping t = true -> hget h secret = Some (PStr ss) -> (height t < fuel)%nat ->
  exists h' r t',
    mdp_h mp_h fuel h secret d = Ok (h', r) /\ mdp mp ss t = Ok t' /\
    Den (length h) h' r t' /\ r = length h.
Proof.
  intros mp mp_h Hext Hres fuel h d secret ss t HD Hm Hs Hf.
  destruct (mdp_h_sound_all mp mp_h Hext Hres t fuel h d secret ss Hf HD Hm Hs) as [h' [r [t' [E1 [E2 D]]]]].
  exists h', r, t'. split; [exact E1|]. split; [exact E2|]. split; [exact D|].
  exact (mdp_h_result_loc mp_h fuel h secret d h' r E1).
Qed.
Print Assumptions C08_heap_agrees_with_tree_and_result_fresh.

(* the hypothesis Den 0 h d t is decidable: read d back with fuel (S (length h) suffices for
   every acyclic structure) *)
Theorem C08_denote_sound : forall n h l v, denote n h l = Some v -> Den 0 h l v.
Proof. exact denote_sound. Qed.
Print Assumptions C08_denote_sound.

(* what the code does on a structure that contains itself (excluded above by Den): it
   recurses until the interpreter's limit — RecursionError (a RuntimeError), for any fuel *)
Theorem C08_cycle_RecursionError :
  forall (mp_h : heap -> loc -> loc -> heap * loc) k kd rest d fuel h secret,
  hget h d = Some (PDict kd ((k, d) :: rest)) -> mdp_h mp_h fuel h secret d = Exn RuntimeError.
Proof. exact cycle_RecursionError. Qed.
Print Assumptions C08_cycle_RecursionError.

(* C08_result_sharing — which result slots are which objects, at every depth (Shr, Model/C08_Heap.v):
   under each key, a mapping value is replaced by a dict allocated by the call (and so on inside it);
   a non-mapping value under a secret key IS the secret reference; any other non-string value
   (list, bytes, number, None, ...) IS the argument's own reference — the result aliases the
   lists etc. of the argument, that is what "returned as they are" means; for other strings the
   reference is whatever mask_password returned.  Hypothesis wf t: no mapping has two equal keys. *)
Theorem C08_result_sharing :
  forall (mp_h : heap -> loc -> loc -> heap * loc),
  (forall h m s, exists e, fst (mp_h h m s) = h ++ e) ->
  forall fuel h d secret ss t h' r,
  Den 0 h d t -> wf t = true -> is_mapping t = true -> hget h secret = Some (PStr ss) ->
  mdp_h mp_h fuel h secret d = Ok (h', r) -> Shr (length h) secret h h' d r t.
Proof. exact result_sharing. Qed.
Print Assumptions C08_result_sharing.
