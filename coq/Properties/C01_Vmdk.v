(* Properties/C01_Vmdk.v — C01 for VMDKInspector: outside the two known-finding zones the verdict is the
   whole-buffer function vmdk_spec of the bytes, whatever the chunking.  The property theorems, each proved
   by [exact] of a lemma of Proofs/C01_Vmdk_{Base,Step,Run,Witness}.v, in a few lines from such lemmas, or by
   evaluating a concrete stream; vmdk_spec and the zones are in Model/C01_Vmdk.v.
   The concrete streams are defined in Proofs/C01_Vmdk_Witness.v: w_sparse, w_stream (well-formed
   monolithicSparse / streamOptimized-with-footer images declaring 1 MiB), w_text (a 29+1 byte text descriptor ending in a
   non-ASCII byte), w_short (a 1598-byte stream whose header announces a footer). *)
Require Import OV.Base.Bytes OV.Base.Py OV.Base.Insp_Struct OV.Gen.Insp_Consts OV.Model.Insp_Engine OV.Model.Insp_All.
Require Import OV.Model.C01_Vmdk OV.Proofs.Insp_All OV.Proofs.C01_Vmdk_Run OV.Proofs.C01_Vmdk_Witness.
Open Scope N_scope.

(* vmdk_refines_spec: for ALL byte strings b outside the zones F1 (text-descriptor mode) and F3 (footer flag on a
   stream shorter than 63+1536 bytes) and ALL chunk lists cs with concat cs = b (empty chunks allowed), the
   verdict after init; eat_chunk ...; finish — the exception that stopped the feeding, format_match, complete,
   virtual_size, safety_check — equals vmdk_spec b, a function that reads b[0:64], b[512:512+size] and b[-1536:]
   and knows nothing about chunks or capture regions. *)
Theorem C01_vmdk_refines_spec : forall b cs,
  concat cs = b -> zone_vmdk_text b = false /\ zone_vmdk_shortfoot b = false ->
  verdict_of (run F_vmdk cs) = vmdk_spec b.
Proof. exact vmdk_refines_spec. Qed.
Print Assumptions C01_vmdk_refines_spec.

(* the verdict does not change with how the stream was cut into chunks ... *)
Theorem C01_vmdk_chunking_independent : forall cs1 cs2,
  concat cs1 = concat cs2 ->
  zone_vmdk_text (concat cs1) = false /\ zone_vmdk_shortfoot (concat cs1) = false ->
  verdict_of (run F_vmdk cs1) = verdict_of (run F_vmdk cs2).
Proof.
  intros cs1 cs2 Hc Hz. rewrite (vmdk_refines_spec (concat cs1) cs1 eq_refl Hz).
  rewrite (vmdk_refines_spec (concat cs1) cs2 (eq_sym Hc) Hz). reflexivity.
Qed.
Print Assumptions C01_vmdk_chunking_independent.

(* ... nor with empty chunks *)
Theorem C01_vmdk_empty_chunks_irrelevant : forall cs,
  zone_vmdk_text (concat cs) = false /\ zone_vmdk_shortfoot (concat cs) = false ->
  verdict_of (run F_vmdk (filter nonempty cs)) = verdict_of (run F_vmdk cs).
Proof.
  intros cs Hz. apply C01_vmdk_chunking_independent; [apply concat_filter_nonempty|].
  rewrite concat_filter_nonempty. exact Hz.
Qed.
Print Assumptions C01_vmdk_empty_chunks_irrelevant.

(* non-vacuity: a well-formed monolithicSparse image and a well-formed streamOptimized image (with footer) lie
   outside both zones, and the spec accepts them *)
Example C01_vmdk_sparse_outside : zone_vmdk_text w_sparse = false /\ zone_vmdk_shortfoot w_sparse = false.
Proof. exact w_sparse_outside. Qed.
Example C01_vmdk_stream_outside : zone_vmdk_text w_stream = false /\ zone_vmdk_shortfoot w_stream = false.
Proof. split; vm_compute; reflexivity. Qed.
Example C01_vmdk_sparse_spec : vmdk_spec w_sparse = mkVerdict None (Ok true) true (Ok 1048576%Z) Pass.
Proof. vm_compute. reflexivity. Qed.
Example C01_vmdk_stream_spec : vmdk_spec w_stream = mkVerdict None (Ok true) true (Ok 1048576%Z) Pass.
Proof. vm_compute. reflexivity. Qed.

(* the zones are needed: inside each, two chunkings of the same bytes give different verdicts (findings F1, F3) *)
Theorem C01_refuted_vmdk_text :
  zone_vmdk_text w_text = true /\
  concat [btake 29 w_text; bskip 29 w_text] = concat [w_text] /\
  verdict_of (run F_vmdk [btake 29 w_text; bskip 29 w_text]) <> verdict_of (run F_vmdk [w_text]).
Proof. split; [vm_compute; reflexivity|]. split; [vm_compute; reflexivity|]. vm_compute. discriminate. Qed.
Print Assumptions C01_refuted_vmdk_text.

Theorem C01_refuted_vmdk_shortfoot :
  (zone_vmdk_shortfoot w_short = true /\ zone_vmdk_text w_short = false) /\
  concat [btake 63 w_short; bskip 63 w_short] = concat [w_short] /\
  v_complete (verdict_of (run F_vmdk [btake 63 w_short; bskip 63 w_short])) = false /\
  v_complete (verdict_of (run F_vmdk [w_short])) = true.
Proof. split; [split; vm_compute; reflexivity|]. split; [vm_compute; reflexivity|]. split; vm_compute; reflexivity. Qed.
Print Assumptions C01_refuted_vmdk_shortfoot.

(* hence the statement without zones is false for the model, as it is for the code *)
Theorem C01_vmdk_full_statement_refuted : ~ C01_vmdk_full_statement.
Proof.
  intros H. destruct C01_refuted_vmdk_text as (_ & Hc & Hd). apply Hd.
  rewrite (H (concat [w_text]) [btake 29 w_text; bskip 29 w_text] Hc). rewrite (H (concat [w_text]) [w_text] eq_refl). reflexivity.
Qed.
Print Assumptions C01_vmdk_full_statement_refuted.
