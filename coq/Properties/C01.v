(* Properties/C01.v — C01: the inspection verdict depends on the bytes only, never on the chunking.
   The property theorems; what they rest on is in Proofs/Insp_*.v. *)
Require Import OV.Base.Bytes OV.Base.Py OV.Base.Insp_Struct OV.Gen.Insp_Consts OV.Model.Insp_Engine OV.Model.Insp_All.
Require Import OV.Proofs.Insp_Engine OV.Proofs.Insp_FmtOk OV.Proofs.Insp_All.
(* the translator-equivalence lemmas (gen_capture_equiv, gen_complete_equiv, gen_end_capture_equiv) are obligations too *)
Require Import OV.Proofs.Insp_Equiv OV.Proofs.Insp_EngineEquiv OV.Proofs.Insp_FormatEquiv OV.Proofs.Insp_FormatMatchEquiv OV.Proofs.Insp_HookEquiv.
Open Scope N_scope.

(* "Whatever an inspector retains for a region of the file is exactly the stream's bytes at that
   region's offsets": in every state any of the ten inspectors can be driven into by ANY sequence of
   chunks (empty ones, chunks after an exception or after finish included) with finish() at any time,
   each region's data is the slice of the stream presented so far at the region's current offset, and
   is never longer than the region's length. *)
Theorem C01_retained_is_stream_slice : forall st i n r,
  ireach st i -> In (n, r) (regions_of i) ->
  r_data r = bslice (r_off r) (blen (r_data r)) st /\ blen (r_data r) <= r_len r /\ position i = blen st.
Proof.
  intros st i n r H Hin. apply ireach_reach in H. destruct i as [f s|s|s]; cbn [ireach_spec regions_of position] in *.
  - destruct H as (H1 & H2 & H3). exact (retained_is_stream_slice _ _ st s n r (ufmt_ok f H1 H2) H3 Hin).
  - exact (retained_is_stream_slice _ _ st s n r qcow_fmt_ok H Hin).
  - exact (retained_is_stream_slice _ _ st s n r vmdk_fmt_ok H Hin).
Qed.
Print Assumptions C01_retained_is_stream_slice.

(* static_inspector_refines_spec: for the eight inspectors whose regions all come from _initialize
   (raw, qcow2, qed, vhd, vdi, iso, gpt, luks) the whole outcome of a run — final state, hence
   format_match, complete, virtual_size, safety result, and "no exception" — is a function spec_f of the
   concatenated bytes alone, for ALL byte strings and ALL chunk lists. *)
Theorem C01_static_inspector_refines_spec : forall f cs,
  is_static f = true -> verdict_of (run f cs) = spec_verdict f (concat cs).
Proof. exact static_inspector_refines_spec. Qed.
Print Assumptions C01_static_inspector_refines_spec.

Theorem C01_static_final_state : forall f cs,
  is_static f = true -> run f cs = (spec_state f (concat cs), None).
Proof. exact static_inspector_refines_spec_state. Qed.
Print Assumptions C01_static_final_state.

Example C01_static_nonvacuous : map is_static all_formats = [true; true; true; false; false; true; true; true; true; true].
Proof. reflexivity. Qed.

(* the verdict does not change with how the stream was cut into chunks ... *)
Theorem C01_chunking_independent : forall f cs1 cs2,
  is_static f = true -> concat cs1 = concat cs2 -> run f cs1 = run f cs2.
Proof. intros f cs1 cs2 H Hc. rewrite !C01_static_final_state by exact H. rewrite Hc. reflexivity. Qed.
Print Assumptions C01_chunking_independent.

(* ... nor with empty chunks *)
Theorem C01_empty_chunks_irrelevant : forall f cs,
  is_static f = true -> run f (filter nonempty cs) = run f cs.
Proof. intros f cs H. apply C01_chunking_independent; [exact H | apply concat_filter_nonempty]. Qed.
Print Assumptions C01_empty_chunks_irrelevant.

(* capture_slice: a fixed region (no min_length) that is still empty when the stream position is
   p <= offset holds after ANY chunk list — empty chunks included — exactly stream[off : off+len].
   [feed] is what FileInspector._capture does to one region over successive chunks. *)
Theorem C01_capture_slice : forall r st cs,
  r_end r = false -> r_min r = None -> r_data r = [] -> blen st <= r_off r ->
  r_data (feed r (blen st) cs) = bslice (r_off r) (r_len r) (st ++ concat cs).
Proof. exact capture_slice. Qed.
Print Assumptions C01_capture_slice.

Example C01_capture_slice_ex :
  r_data (feed (mkRegion 0 false 3 4 None [] false) (blen [1;2]) [[3;4]; []; [5;6;7;8;9]]) = [4;5;6;7].
Proof. reflexivity. Qed.

(* end_capture_tail: an EndCaptureRegion(n) present (empty) from stream position p0 holds, after any
   chunk list and finish, the last min(n, total - p0) bytes, and is complete iff that is n. *)
Theorem C01_end_capture_tail : forall r p0 cs,
  r_end r = true -> r_min r = None -> 0 < r_len r -> r_data r = [] ->
  let r' := set_fin (feed r p0 cs) true in
  r_data r' = btail (r_len r) (concat cs) /\
  blen (r_data r') = N.min (r_len r) (blen (concat cs)) /\
  (rcomplete r' = true <-> r_len r <= blen (concat cs)).
Proof. exact end_capture_tail. Qed.
Print Assumptions C01_end_capture_tail.

Example C01_end_capture_tail_ex :
  r_data (set_fin (feed (mkRegion 0 true 3 3 None [] false) 10 [[1;2]; []; [3;4;5]]) true) = [3;4;5].
Proof. reflexivity. Qed.

Example C01_ireach_ex : ireach ([] ++ [75; 68; 77; 86]) (fst (eat (init F_vmdk) [75; 68; 77; 86])).
Proof. eapply ireach_eat with (e := snd (eat (init F_vmdk) [75; 68; 77; 86])); [apply ireach_init | apply surjective_pairing]. Qed.

(* The tie between the model's engine and the source: FileInspector.eat_chunk translated statement by statement
   (Gen/Insp_EngineCode.v: sets of region objects, the `while new_regions` loop, the `only` filter, the callbacks)
   equals the model's [eat] in every reachable state of every one of the ten inspectors. *)
Theorem C01_source_eat_chunk_is_model : forall st i c, ireach st i -> gen_eat i c = eat i c.
Proof. exact gen_eat_reachable_equiv. Qed.
Print Assumptions C01_source_eat_chunk_is_model.
