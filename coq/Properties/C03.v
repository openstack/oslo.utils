(* Properties/C03.v — C03: format detection is exclusive, conservative about raw, and total.
   Each theorem is proved by [exact] of a lemma of Proofs/C03_*.v or in a few lines from such lemmas.
   The model (Model/C03.v) is the generic
   InspectWrapper model (Model/Wrap.v, C06) instantiated with the ten concrete inspectors of the
   shared model (Model/Insp_All.v).  Vocabulary:
     cs : list bytes             the chunks the reads returned (ANY chunk list = any content x any read sizes)
     read_so_far e a cs w        a fresh InspectWrapper(expected_format=e, allowed_formats=a) returned the chunks
                                 cs, no call raised; w = the wrapper now        (cw_run_stop, Model/Wrap.v)
     read_and_closed e a cs w    ... and close() was called; w = the wrapper after close()
     wreach e a w                w = the wrapper after ANY sequence of read/next/close calls (reader going on after
                                 exceptions included)
     cw_format / cw_formats      InspectWrapper.format / .formats over the boolean view of format_match
     format_r / formats_r        the same with the queries as they are (format_match may raise)
     sigb f b                    the declarative signature predicate of format f on the bytes b (Proofs/C03_Sig.v)
     ireach st i                 inspector object i is reachable by feeding the stream st in any chunks, also
                                 after an exception / after finish (Proofs/Insp_All.v)
     allowed_fmts a              the formats InspectWrapper(allowed_formats=a) instantiates, in ALL_FORMATS order;
     slot_after cs f / slot_closed cs f   the slot of format f after the reads cs / and after close();
     closed_wrapper e a cs       the wrapper made of the slot_closed of the allowed formats (Proofs/C03_Wrap.v)
     name_format cpl mt fin fs, show_name   format as a function of "complete" and "matches" per format name;
     ipos i p                    inspector i with its position set to p (Proofs/C03_Stable.v)
     in_zone f b, outside_zones a b   b lies in a known-finding zone (F1-F4) of f / of no allowed format (Proofs/C03_All.v)
     taken_chunks cs unused      the chunks a stopping reader's calls took from the source (Proofs/C03_Reach.v)
   allowed_formats = [] means "all formats", like None (the code tests `not allowed_formats`). *)
Require Import OV.Base.Bytes OV.Base.Py OV.Base.C06_WrapShape OV.Base.Insp_Struct.
Require Import OV.Gen.Insp_Consts OV.Gen.C06_Wrapper OV.Model.Insp_Engine OV.Model.Insp_All OV.Model.Insp_Vhdx OV.Model.Insp_Vmdk.
Require Import OV.Model.Wrap OV.Model.C03.
Require Import OV.Proofs.Insp_Engine OV.Proofs.Insp_All OV.Proofs.Wrap OV.Proofs.C06.
Require Import OV.Proofs.C03_Total OV.Proofs.C03_Sig OV.Proofs.C03_Wrap OV.Proofs.C03_Stable OV.Proofs.C03_Props.
Require Import OV.Model.C01_Vhdx OV.Model.C01_Vmdk OV.Proofs.C01_Vhdx_Witness OV.Proofs.C01_Vmdk_Witness.
Require Import OV.Proofs.C03_All OV.Proofs.C03_Reach OV.Proofs.C03_Abort OV.Proofs.C03_Examples.
Open Scope N_scope.

(* ================================================================== queries_total *)
(* In EVERY reachable state of EVERY concrete inspector (any chunks, empty chunks, states frozen after
   an exception, after finish, chunks after finish) format_match returns; complete is a total boolean.
   This is the statement finding D2 broke (VMDKInspector.vmdktype uninitialised: AttributeError). *)
Theorem C03_queries_total : forall st i, ireach st i -> exists b, format_match i = Ok b.
Proof. exact format_match_total. Qed.
Print Assumptions C03_queries_total.

(* the same, inspector by inspector, on the engine objects *)
Theorem C03_queries_total_each :
  total Insp_Raw.raw_fmt /\ total Insp_Qcow2.qcow_fmt /\ total Insp_Vhd.vhd_fmt /\ total vhdx_fmt /\ total vmdk_fmt /\
  total Insp_Vdi.vdi_fmt /\ total Insp_Qed.qed_fmt /\ total Insp_Iso.iso_fmt /\ total Insp_Gpt.gpt_fmt /\ total Insp_Luks.luks_fmt.
Proof. exact (conj raw_total (conj qcow_total (conj vhd_total (conj vhdx_total (conj vmdk_total
               (conj vdi_total (conj qed_total (conj iso_total (conj gpt_total luks_total))))))))). Qed.
Print Assumptions C03_queries_total_each.

(* hence, on every wrapper a reader can produce, the properties with raising queries are the boolean ones *)
Theorem C03_format_r_is_format : forall expected allowed w, wreach expected allowed w ->
  format_r w = cw_format w /\ formats_r w = Ok (cw_formats w) /\
  ((exists r, format_r w = Ok r) \/ format_r w = Exn ImageFormatError).
Proof. exact format_total_r. Qed.
Print Assumptions C03_format_r_is_format.

(* ================================================================== C03_detection_total *)
(* format and formats never produce anything but a result or ImageFormatError — for every wrapper
   reachable by any call sequence, whatever the content, read sizes, expected_format, allowed_formats
   (formats itself never raises at all) *)
Theorem C03_detection_total : forall expected allowed w, wreach expected allowed w ->
  (exists fs, formats_r w = Ok fs) /\ ((exists r, format_r w = Ok r) \/ format_r w = Exn ImageFormatError).
Proof.
  intros expected allowed w H. destruct (format_total_r expected allowed w H) as (_ & H2 & H3). split; [eauto | exact H3].
Qed.
Print Assumptions C03_detection_total.

(* detect_file_format (4096-byte reads, early return, close() in finally), with the raising queries:
   for every file content it returns the NAME of an inspector or raises ImageFormatError; never None,
   never another exception; the file is closed and every inspector finished *)
Theorem C03_detect_file_format_total : forall data,
  let '(w, s, tr, r) := detect_r data in
  ((exists nm, r = Ok (Some nm)) \/ r = Exn ImageFormatError) /\ f_closed s = true /\ w_finished w = true /\ f_data s = data.
Proof.
  intros data.
  rewrite detect_r_spec. unfold cw_detect.
  exact (detect_file_format_total istate eat finish complete cmatch gen_shape gen_shape_ok raw_lit_nonraw raw_lit_raw
           detect_chunk_size factory data detect_chunk_size_pos).
Qed.
Print Assumptions C03_detect_file_format_total.

Theorem C03_detect_r_is_detect : forall data, detect_r data = cw_detect data.
Proof. exact detect_r_spec. Qed.
Print Assumptions C03_detect_r_is_detect.

(* ================================================================== C03_format_implies_signature *)
(* After the stream cs has been read through and closed: format names a specific format f only if f's
   signature predicate holds of the content — for ALL contents and ALL read-size sequences, all ten formats
   (vmdk: KDMV at 0, or the text zone F1: first 64 bytes printable ASCII) *)
Theorem C03_format_implies_signature : forall expected allowed cs w m f,
  read_and_closed expected allowed cs w -> cw_format w = Ok (Some m) -> s_name m = fmt_name f -> f <> F_raw ->
  sigb f (concat cs) = true.
Proof. exact format_implies_signature. Qed.
Print Assumptions C03_format_implies_signature.

(* ... and a decision reported BEFORE close (after the reads cs) already carries the signature of the bytes read so far *)
Theorem C03_early_format_implies_signature : forall expected allowed cs w m f,
  read_so_far expected allowed cs w -> cw_format w = Ok (Some m) -> s_name m = fmt_name f -> f <> F_raw ->
  sigb f (concat cs) = true.
Proof.
  intros expected allowed cs w m f.
  intros Hrs Hf Hn Hnr.
  destruct (decision_stable expected allowed cs w m Hrs Hf) as [_ Hclose].
  assert (Hrc : read_and_closed expected allowed (cs ++ []) (cw_close w)).
  { rewrite app_nil_r. destruct Hrs as (tr & un & H). exists w, tr, un. auto. }
  destruct (Hclose [] _ Hrc) as (m3 & Hf3 & Hn3).
  rewrite <- (app_nil_r cs). eapply format_implies_signature; [exact Hrc | exact Hf3 | congruence | exact Hnr].
Qed.
Print Assumptions C03_early_format_implies_signature.

(* static formats (C01 static refinement): format_match of the closed inspector IS the signature predicate *)
Theorem C03_static_match_is_signature : forall f cs, is_static f = true -> cmatch (fst (run f cs)) = sigb f (concat cs).
Proof. exact closed_static_match. Qed.
Print Assumptions C03_static_match_is_signature.

(* vhdx / vmdk: in every reachable state, format_match implies the signature of the stream seen so far *)
Theorem C03_format_implies_signature_vhdx : forall st s,
  reach vhdx_fmt st s -> f_match vhdx_fmt s = Ok true -> sigb F_vhdx st = true.
Proof. exact vhdx_match_signature. Qed.
Print Assumptions C03_format_implies_signature_vhdx.
Theorem C03_format_implies_signature_vmdk : forall st s,
  reach vmdk_fmt st s -> f_match vmdk_fmt s = Ok true -> sigb F_vmdk st = true.
Proof. exact vmdk_match_signature. Qed.
Print Assumptions C03_format_implies_signature_vmdk.

(* what the predicates say (constants regenerated from /repo).  The byte strings: QFI\xfb, QED\0, conectix, vhdxfile;
   vdi: 0xbeda107f at 0x40; iso: CD001 / NSR02 / NSR03; gpt: 55 AA at 510, not a FAT boot sector; luks: LUKS\xba\xbe;
   vmdk: KDMV, or text-descriptor mode (inside zone F1): 64 text bytes and the token createtype=<dquote> before the first NUL *)
Example C03_sig_qcow2 : forall b, sigb F_qcow2 b = (512 <=? blen b) && prefixb [81;70;73;251] b.
Proof. intros b. cbn [sigb]. unfold long_enough. cbn [init_regions forallb snd rs_off rs_len]. rewrite andb_true_r. reflexivity. Qed.
Example C03_sig_qed : forall b, sigb F_qed b = (512 <=? blen b) && prefixb [81;69;68;0] b.
Proof. intros b. cbn [sigb]. unfold long_enough. cbn [init_regions forallb snd rs_off rs_len]. rewrite andb_true_r. reflexivity. Qed.
Example C03_sig_vhd : forall b, sigb F_vhd b = prefixb [99;111;110;101;99;116;105;120] b.
Proof. intros b. reflexivity. Qed.
Example C03_sig_vhdx : forall b, sigb F_vhdx b = prefixb [118;104;100;120;102;105;108;101] b.
Proof. intros b. reflexivity. Qed.
Example C03_sig_vdi : forall b, sigb F_vdi b = (512 <=? blen b) && (le_val (bsub 64 68 b) =? 3201962111).
Proof. intros b. cbn [sigb]. unfold long_enough. cbn [init_regions forallb snd rs_off rs_len]. rewrite andb_true_r. reflexivity. Qed.
Example C03_sig_iso : forall b, sigb F_iso b =
  (32768 <=? blen b) && (34816 <=? blen b) && mem_str (bsub 32769 32774 b) [[67;68;48;48;49]; [78;83;82;48;50]; [78;83;82;48;51]].
Proof. intros b. cbn [sigb]. unfold long_enough. cbn [init_regions forallb snd rs_off rs_len]. rewrite andb_true_r. reflexivity. Qed.
Example C03_sig_gpt : forall b, sigb F_gpt b =
  (512 <=? blen b) && (le_val (bsub 510 512 b) =? 43605) && negb ((bnth 16 b =? 2) && (bnth 21 b =? 248)).
Proof. intros b. cbn [sigb]. unfold long_enough. cbn [init_regions forallb snd rs_off rs_len]. rewrite andb_true_r. reflexivity. Qed.
Example C03_sig_luks : forall b, sigb F_luks b = beq (btake 6 b) [76;85;75;83;186;190].
Proof. intros b. reflexivity. Qed.
Example C03_sig_vmdk : forall b, sigb F_vmdk b =
  prefixb [75;68;77;86] b ||
  ((64 <=? blen b) && forallb ascii_text (btake 64 b) &&
   occursb [99;114;101;97;116;101;116;121;112;101;61;34] (OV.Base.Str.lower_ascii (OV.Model.C01_Vmdk.upto_nul b))).
Proof. intros b. reflexivity. Qed.

(* ================================================================== C03_unique *)
(* format names m (not raw): no other non-raw inspector of the wrapper matches — any wrapper *)
Theorem C03_unique : forall (w : cwrapper) m m',
  cw_format w = Ok (Some m) -> cw_is_raw m = false ->
  In m' (w_slots w) -> cw_is_raw m' = false -> cmatch (s_insp m') = true -> m' = m.
Proof. exact unique_match. Qed.
Print Assumptions C03_unique.

(* on the content: the reported format carries its signature and no other allowed static format does *)
Theorem C03_unique_signature : forall expected allowed cs w m f,
  read_and_closed expected allowed cs w -> cw_format w = Ok (Some m) -> s_name m = fmt_name f -> f <> F_raw ->
  sigb f (concat cs) = true /\
  forall g, g <> F_raw -> g <> f -> is_static g = true -> allowed_key allowed (fmt_name g) = true -> sigb g (concat cs) = false.
Proof.
  intros expected allowed cs w m f.
  intros Hrc Hf Hn Hnr. split; [eapply format_implies_signature; eauto|].
  intros g Hg Hgf Hs Ha. destruct (sigb g (concat cs)) eqn:Hsig; [|reflexivity]. exfalso.
  rewrite (read_and_closed_is _ _ _ _ Hrc) in Hf.
  assert (Hm : cmatch (fst (run g cs)) = true) by (rewrite closed_static_match; assumption).
  assert (Hraw : forall k, k <> F_raw -> cw_is_raw (slot_closed cs k) = false).
  { intros k Hk. unfold cw_is_raw, is_raw. cbn [slot_closed s_name]. destruct (beq (fmt_name k) raw_lit_raw) eqn:Hb; [|reflexivity].
    exfalso. apply Hk. apply beq_eq in Hb. apply fmt_name_inj. exact Hb. }
  assert (Hmr : cw_is_raw m = false).
  { destruct (cw_is_raw m) eqn:Hb; [|reflexivity]. exfalso. apply Hnr. eapply is_raw_name; eauto. }
  pose proof (unique_match _ m (slot_closed cs g) Hf Hmr (closed_slot_in _ _ _ _ Ha) (Hraw g Hg) Hm) as He.
  apply Hgf. apply fmt_name_inj. rewrite <- Hn, <- He. reflexivity.
Qed.
Print Assumptions C03_unique_signature.

(* ================================================================== C03_multiple_raise *)
(* two distinct allowed non-raw inspectors match after close: format raises ImageFormatError *)
Theorem C03_multiple_raise : forall expected allowed cs w g1 g2,
  read_and_closed expected allowed cs w -> g1 <> g2 -> g1 <> F_raw -> g2 <> F_raw ->
  allowed_key allowed (fmt_name g1) = true -> allowed_key allowed (fmt_name g2) = true ->
  cmatch (fst (run g1 cs)) = true -> cmatch (fst (run g2 cs)) = true ->
  cw_format w = Exn ImageFormatError.
Proof. exact multiple_raise. Qed.
Print Assumptions C03_multiple_raise.

(* on the content (static formats): two signatures present => ImageFormatError, for every read-size sequence *)
Theorem C03_multiple_signatures_raise : forall expected allowed cs w g1 g2,
  read_and_closed expected allowed cs w -> g1 <> g2 -> g1 <> F_raw -> g2 <> F_raw ->
  is_static g1 = true -> is_static g2 = true ->
  allowed_key allowed (fmt_name g1) = true -> allowed_key allowed (fmt_name g2) = true ->
  sigb g1 (concat cs) = true -> sigb g2 (concat cs) = true ->
  cw_format w = Exn ImageFormatError.
Proof.
  intros expected allowed cs w g1 g2.
  intros Hrc Hne H1 H2 S1 S2 A1 A2 G1 G2.
  apply (multiple_raise expected allowed cs w g1 g2 Hrc Hne H1 H2 A1 A2); rewrite closed_static_match; assumption.
Qed.
Print Assumptions C03_multiple_signatures_raise.

(* at any time (not only after close), on any wrapper: decided and two matches => ImageFormatError *)
Theorem C03_two_matches_raise : forall (w : cwrapper),
  decided istate complete raw_lit_nonraw w = true -> (1 < length (cw_matches w))%nat -> cw_format w = Exn ImageFormatError.
Proof. exact (two_matches_raise istate complete cmatch raw_lit_nonraw raw_lit_raw). Qed.
Print Assumptions C03_two_matches_raise.

(* ================================================================== C03_raw_rules *)
(* raw is reported only when raw is allowed and nothing else matches (no allowed non-raw inspector
   matches; no allowed static format has its signature in the content) *)
Theorem C03_raw_rules : forall expected allowed cs w m,
  read_and_closed expected allowed cs w -> cw_format w = Ok (Some m) -> cw_is_raw m = true ->
  allowed_key allowed raw_lit_raw = true /\ cw_matches w = [] /\
  (forall g, g <> F_raw -> allowed_key allowed (fmt_name g) = true -> cmatch (fst (run g cs)) = false) /\
  (forall g, g <> F_raw -> is_static g = true -> allowed_key allowed (fmt_name g) = true -> sigb g (concat cs) = false).
Proof.
  intros expected allowed cs w m.
  intros Hrc Hf Hr.
  destruct (raw_only_when_nothing_matches_and_allowed istate complete cmatch raw_lit_nonraw raw_lit_raw raw_lits_agree _ _ Hf Hr)
    as (Hm & Hin & _).
  rewrite (read_and_closed_is _ _ _ _ Hrc) in Hin, Hm.
  assert (Hnone : forall g, g <> F_raw -> allowed_key allowed (fmt_name g) = true -> cmatch (fst (run g cs)) = false).
  { intros g Hg Ha. destruct (cmatch (fst (run g cs))) eqn:Hc; [|reflexivity]. exfalso.
    pose proof (closed_nonraw_match_in expected allowed cs g Ha Hg Hc) as Hi. unfold cw_matches in Hi. rewrite Hm in Hi. exact Hi. }
  split; [|split; [|split]].
  - cbn [closed_wrapper w_slots] in Hin. destruct (in_closed_slots _ _ _ Hin) as (f & -> & Ha).
    pose proof (is_raw_name (slot_closed cs f) f eq_refl Hr) as Hfr. subst f. exact Ha.
  - rewrite (read_and_closed_is _ _ _ _ Hrc). exact Hm.
  - exact Hnone.
  - intros g Hg Hs Ha. rewrite <- (closed_static_match g cs Hs). apply Hnone; assumption.
Qed.
Print Assumptions C03_raw_rules.

(* raw never together with another format in formats — any wrapper, any time *)
Theorem C03_raw_never_with_others : forall (w : cwrapper) ms,
  cw_formats w = Some ms -> (exists m, In m ms /\ cw_is_raw m = true) ->
  cw_matches w = [] /\ Forall (fun m => cw_is_raw m = true) ms.
Proof. exact (raw_never_with_others istate complete cmatch raw_lit_nonraw raw_lit_raw raw_lits_agree). Qed.
Print Assumptions C03_raw_never_with_others.

(* ================================================================== C03_allowed *)
(* a non-empty allowed_formats: only inspectors with those names exist (the others are never fed, never
   reported), in every reachable wrapper *)
Theorem C03_allowed : forall expected allowed w,
  wreach expected allowed w -> allowed <> [] ->
  (forall s, In s (w_slots w) -> In (s_name s) allowed) /\
  (forall m, cw_format w = Ok (Some m) -> In (s_name m) allowed) /\
  (forall ms m, cw_formats w = Some ms -> In m ms -> In (s_name m) allowed).
Proof.
  intros expected allowed w.
  intros (inps & recs & H) Hne. pose proof (w_run_names _ _ _ _ H) as Hn.
  assert (Hs : forall s, In s (w_slots w) -> In (s_name s) allowed).
  { intros s Hin. assert (Hi : In (s_name s) (map (@s_name istate) (w_slots w))) by (apply in_map; exact Hin).
    rewrite Hn in Hi. apply in_map_iff in Hi. destruct Hi as (s0 & <- & Hs0).
    exact (allowed_formats_respected istate factory expected allowed s0 Hs0 Hne). }
  split; [exact Hs|]. split.
  - intros m Hf. apply Hs. exact (format_in_slots istate complete cmatch raw_lit_nonraw raw_lit_raw raw_lits_agree _ _ Hf).
  - intros ms m Hf Hin. apply Hs. unfold cw_formats, formats in Hf.
    destruct (negb _ && negb _); [discriminate|].
    destruct (matches istate cmatch raw_lit_nonraw w) as [|a t] eqn:Hm; inversion Hf; subst.
    + apply filter_In in Hin. tauto.
    + assert (Hi : In m (matches istate cmatch raw_lit_nonraw w)) by (rewrite Hm; exact Hin).
      unfold matches, non_raw in Hi. apply filter_In in Hi. destruct Hi as [Hi _]. apply filter_In in Hi. tauto.
Qed.
Print Assumptions C03_allowed.

(* allowed_formats = [] (like None) means all formats of ALL_FORMATS *)
Theorem C03_allowed_empty_means_all : forall expected,
  map (@s_name istate) (w_slots (cw_new expected [])) = map fmt_name Insp_Consts.all_formats.
Proof. intros expected. reflexivity. Qed.
Print Assumptions C03_allowed_empty_means_all.

(* ================================================================== C03_decision_stable *)
(* a non-None format reported after the reads cs1 is not revised by ANY further reads cs2, nor by close() *)
Theorem C03_decision_stable : forall expected allowed cs1 w1 m1,
  read_so_far expected allowed cs1 w1 -> cw_format w1 = Ok (Some m1) ->
  (forall cs2 w2, read_so_far expected allowed (cs1 ++ cs2) w2 ->
     exists m2, cw_format w2 = Ok (Some m2) /\ s_name m2 = s_name m1) /\
  (forall cs2 w3, read_and_closed expected allowed (cs1 ++ cs2) w3 ->
     exists m3, cw_format w3 = Ok (Some m3) /\ s_name m3 = s_name m1).
Proof. exact decision_stable. Qed.
Print Assumptions C03_decision_stable.

(* per inspector: complete at a chunk boundary => every further chunk leaves regions and attributes as
   they are (only the position moves), for all ten inspectors and every continuation *)
Theorem C03_inspector_stable : forall f cs1 cs2,
  complete (fst (eat_list (init f) cs1)) = true ->
  exists p, fst (eat_list (init f) (cs1 ++ cs2)) = ipos (fst (eat_list (init f) cs1)) p.
Proof. exact after_more. Qed.
Print Assumptions C03_inspector_stable.

Theorem C03_inspector_stable_queries : forall i p, complete (ipos i p) = complete i /\ format_match (ipos i p) = format_match i.
Proof. exact (fun i p => conj (complete_ipos i p) (format_match_ipos i p)). Qed.
Print Assumptions C03_inspector_stable_queries.

(* ================================================================== the wrapper after read-through and close *)
(* every inspector of the collection holds the run of that inspector on the delivered chunks *)
Theorem C03_closed_wrapper : forall expected allowed cs w,
  read_and_closed expected allowed cs w -> w = closed_wrapper expected allowed cs.
Proof. exact read_and_closed_is. Qed.
Print Assumptions C03_closed_wrapper.

(* without expected_format every chunk list is read through: the hypotheses above are met by every content
   and every read-size sequence *)
Theorem C03_reads_through : forall allowed cs, exists w, read_so_far None allowed cs w.
Proof. exact no_expectation_reads_through. Qed.
Print Assumptions C03_reads_through.

(* read_so_far does NOT exclude inspectors that raise: an exception of a non-expected inspector never reaches the
   reader (C06); the wrapper freezes that inspector (errored set) in the state eat_chunk left behind.  The slots
   after the reads cs are exactly: the inspector fed up to its first exception, and the errored flag *)
Theorem C03_frozen_slots : forall expected allowed cs w,
  read_so_far expected allowed cs w ->
  w_slots w = map (slot_after cs) (allowed_fmts allowed) /\ w_finished w = false /\ w_expected w = expected.
Proof. exact read_so_far_slots. Qed.
Print Assumptions C03_frozen_slots.
Example C03_ex_frozen :
  exists w, read_and_closed None [] ex_frozen w /\ cw_format_name w = Ok (Some (fmt_name F_vmdk)) /\
            s_err (slot_closed ex_frozen F_vmdk) = true /\ In (slot_closed ex_frozen F_vmdk) (w_slots w).
Proof. exact ex_frozen_run. Qed.

(* file-like sources: for every file content and every sequence of read sizes, the reads (none raising) are a
   read-through of the chunk list delivered, whose concatenation is the part of the file that was read *)
Theorem C03_file_reads : forall expected allowed data sizes w' s' tr delivered,
  cw_run_reads (cw_new expected allowed) {| f_data := data; f_pos := 0; f_closed := false |} sizes = (w', s', tr, delivered, None) ->
  read_so_far expected allowed delivered w' /\ concat delivered = bsub 0 (f_pos s') data.
Proof.
  intros expected allowed data sizes w' s' tr delivered.
  intros H. unfold cw_run_reads in H.
  set (s0 := {| f_data := data; f_pos := 0; f_closed := false |}) in *.
  destruct (run_reads_stop istate eat finish complete cmatch gen_shape sizes (cw_new expected allowed) s0 eq_refl _ _ _ _ _ H) as (un & Hs).
  pose proof (w_run_stop_all _ _ _ _ _ _ Hs) as Hd.
  split.
  - exists tr, un. unfold cw_run_stop. rewrite Hd. rewrite Hd in Hs. exact Hs.
  - destruct (reads_are_identity_file istate eat finish complete cmatch gen_shape _ _ _ _ _ _ _ _ H) as (_ & _ & Hc).
    cbn [f_pos f_data s0] in Hc. rewrite app_nil_r in Hc. exact Hc.
Qed.
Print Assumptions C03_file_reads.

(* the two generators agree on ALL_FORMATS *)
Theorem C03_factory_is_all_formats : map fst factory = map fst C06_Wrapper.all_formats.
Proof. exact factory_names. Qed.
Print Assumptions C03_factory_is_all_formats.

(* ================================================================== all ten formats: match IS signature; runs with exceptions; the abort *)
(* in_zone f b: b lies in a known-finding zone of f (vhdx: F2 or F4; vmdk: F1 or F3; the eight static formats: never).
   Outside the zones format_match of the closed inspector IS the signature predicate for ALL ten formats: for vhdx
   and vmdk this adds the converse (signature present => the inspector matches, whatever the read sizes, also when it
   raised on the way and was frozen by the wrapper) — from C01_vhdx_refines_spec / C01_vmdk_refines_spec *)
Theorem C03_match_is_signature_all : forall f cs, in_zone f (concat cs) = false -> cmatch (fst (run f cs)) = sigb f (concat cs).
Proof. exact match_is_signature_all. Qed.
Print Assumptions C03_match_is_signature_all.

(* hence, after read-through and close, outside the zones of the allowed formats, format is read off the signature
   table of the content (completeness no longer counts once _finished is set) *)
Theorem C03_closed_format_by_signatures : forall expected allowed cs w,
  read_and_closed expected allowed cs w -> outside_zones allowed (concat cs) ->
  cw_format_name w = show_name (name_format (fun _ => true) (fun f => sigb f (concat cs)) true (allowed_fmts allowed)).
Proof.
  intros expected allowed cs w.
  intros Hrc Hz. rewrite (read_and_closed_is _ _ _ _ Hrc). unfold closed_wrapper.
  rewrite (format_by_names (slot_closed cs) _ _ _ (slot_closed_name cs)). f_equal.
  unfold name_format. cbv zeta. rewrite !andb_false_r.
  set (nr := filter (fun f => negb (is_rawf f)) (allowed_fmts allowed)).
  rewrite (filter_ext_in (fun f => cmatch (s_insp (slot_closed cs f))) (fun f => sigb f (concat cs)) nr); [reflexivity|].
  intros f Hf. subst nr. apply filter_In in Hf. cbn [slot_closed s_insp]. apply match_is_signature_all. apply Hz. tauto.
Qed.
Print Assumptions C03_closed_format_by_signatures.

(* reachable inspector states (any chunks, frozen after an exception, after finish): format_match implies the
   signature of the stream that inspector has seen — all ten inspectors, no zone hypothesis *)
Theorem C03_reach_match_signature : forall st i, ireach st i -> cmatch i = true -> sigb (name_of i) st = true.
Proof. exact reach_match_signature. Qed.
Print Assumptions C03_reach_match_signature.

(* the signature predicates survive extension of the stream *)
Theorem C03_signature_monotone : forall f st t, sigb f st = true -> sigb f (st ++ t) = true.
Proof. exact sigb_app. Qed.
Print Assumptions C03_signature_monotone.

(* EVERY run of a reader that stops at the first exception — inspectors of non-expected formats raising and being
   frozen, the inspector of the expected format aborting the stream (stop = Some ...), or nothing of the kind: a
   specific format reported right after the last call or after close() has its signature in the bytes taken from the
   source (taken_chunks: the chunks of the calls made, the one lost in the failing call included) *)
Theorem C03_stopped_format_signature : forall expected allowed cs w1 tr delivered stop unused,
  cw_run_stop (cw_new expected allowed) (map InChunk cs) = (w1, tr, delivered, stop, unused) ->
  forall w m f, (w = w1 \/ w = cw_close w1) -> cw_format w = Ok (Some m) -> s_name m = fmt_name f -> f <> F_raw ->
  sigb f (concat (taken_chunks cs unused)) = true.
Proof. exact stopped_format_signature. Qed.
Print Assumptions C03_stopped_format_signature.

(* the expected-format abort is FINAL: when f's inspector is complete without matching after chunk j (the wrapper
   raises ImageFormatError there), every continuation leaves it as it is, it does not match after close either, and
   outside f's zones no extension of the content carries f's signature *)
Theorem C03_expected_mismatch_is_final : forall f cs j more,
  first_abort istate eat complete cmatch (init f) cs = Some (j, AbMismatch) ->
  let seen := firstn (S j) cs in
  complete (fst (eat_list (init f) seen)) = true /\ cmatch (fst (eat_list (init f) seen)) = false /\
  (exists p, fst (eat_list (init f) (seen ++ more)) = ipos (fst (eat_list (init f) seen)) p) /\
  cmatch (fst (run f (seen ++ more))) = false /\
  (in_zone f (concat (seen ++ more)) = false -> sigb f (concat (seen ++ more)) = false).
Proof. exact mismatch_abort_final. Qed.
Print Assumptions C03_expected_mismatch_is_final.

(* the reader's side of the abort: the stream is cut at chunk j with ImageFormatError, chunks 0..j taken; whatever
   format reports then or after close() has its signature in those bytes and (outside f's zones) is never f *)
Theorem C03_expected_mismatch_abort : forall f allowed cs j,
  allowed_key allowed (fmt_name f) = true ->
  first_abort istate eat complete cmatch (init f) cs = Some (j, AbMismatch) ->
  exists w1 tr,
    cw_run_stop (cw_new (Some (fmt_name f)) allowed) (map InChunk cs) =
      (w1, tr, firstn j cs, Some (ImageFormatError, Some (nth j cs [])), map InChunk (skipn (S j) cs)) /\
    forall w m g, (w = w1 \/ w = cw_close w1) -> cw_format w = Ok (Some m) -> s_name m = fmt_name g -> g <> F_raw ->
      sigb g (concat (firstn (S j) cs)) = true /\ (in_zone f (concat (firstn (S j) cs)) = false -> g <> f).
Proof.
  intros f allowed cs j.
  intros Ha Hfa.
  destruct (expected_abort_exact_fresh istate eat finish complete cmatch gen_shape gen_shape_ok factory allowed (fmt_name f) (init f) cs
              factory_nodup (factory_has f) Ha) as (w1 & tr & Hrun).
  rewrite Hfa in Hrun. cbn [abort_exn] in Hrun. exists w1, tr. split; [exact Hrun|].
  intros w m g Hw Hf Hn Hg.
  destruct (first_abort_mismatch _ _ _ Hfa) as (_ & _ & _ & _ & Hj).
  pose proof (stopped_format_signature _ _ _ _ _ _ _ _ Hrun w m g Hw Hf Hn Hg) as Hsig.
  assert (Htk : taken_chunks cs (map InChunk (skipn (S j) cs)) = firstn (S j) cs).
  { unfold taken_chunks. rewrite map_length, skipn_length. f_equal. lia. }
  rewrite Htk in Hsig. split; [exact Hsig|].
  intros Hz ->. destruct (mismatch_abort_final f cs j [] Hfa) as (_ & _ & _ & _ & Hno).
  rewrite app_nil_r in Hno. rewrite (Hno Hz) in Hsig. discriminate.
Qed.
Print Assumptions C03_expected_mismatch_abort.

Example C03_ex_vhdx_outside_zones : in_zone F_vhdx wf_image = false.
Proof. exact ex_vhdx_outside. Qed.
Example C03_ex_vmdk_outside_zones : in_zone F_vmdk w_sparse = false.
Proof. exact ex_vmdk_outside. Qed.
Example C03_ex_abort : first_abort istate eat complete cmatch (init F_qcow2) [zeros 512; zeros 10] = Some (0%nat, AbMismatch).
Proof. exact ex_abort. Qed.

(* ================================================================== instances (non-vacuity) *)
Example C03_ex_detected : exists w, read_and_closed None [] ex_vhd w /\ cw_format_name w = Ok (Some (fmt_name F_vhd)).
Proof. exact ex_vhd_detected. Qed.
Example C03_ex_two_formats : exists w, read_and_closed None [] ex_two w /\ cw_format w = Exn ImageFormatError.
Proof. exact ex_two_formats_raise. Qed.
Example C03_ex_early_decision :
  exists w m, read_so_far None ex_allowed ex_vhd512 w /\ cw_format w = Ok (Some m) /\ s_name m = fmt_name F_vhd.
Proof. exact ex_early_decision. Qed.
