(* Properties/C12.v — property theorems only; each proved by [exact] of a lemma of Proofs/ or in a few lines from
   such lemmas (the theorems about translated code: on the model, after rewriting with the [_equiv] lemma), and
   followed by Print Assumptions.

   C12: "normalize_time maps every aware datetime to the naive UTC instant it denotes and
   leaves naive ones alone; parse_isotime inverts isoformat, and unmarshall_time inverts
   marshall_now for naive and UTC datetimes (a leap second is capped at 59).  With the clock
   overridden to a single instant, utcnow and utcnow_ts return that instant,
   advance_time_delta/seconds move it by exactly the given amount, and is_older_than(t, s),
   is_newer_than(t, s) and is_soon(t, w) hold exactly when now - t > s, t - now > s and
   t <= now + w, for naive, aware and ISO-string t."

   Vocabulary (Model/C12_Prim.v): a datetime is [wall] (microseconds since 0001-01-01T00:00 on
   its own clock face) and, when aware, [tz] = its UTC offset in microseconds (+ tzname(None));
   [instant d] = wall - offset; timedeltas are microseconds; a second count is a Python int or binary64 float
   ([pynum]) and [td_of_seconds s] is timedelta(seconds=s) as CPython computes it (exact / integer part + round-half-even of
   the binary64 product fraction * 1e6; OverflowError / ValueError for out-of-range, infinite, NaN); a world [w]
   holds the override slot [ov w], the OS clock, and the iso8601 / zoneinfo look-ups.
   M A = world -> res A * world.
   Defined next to the lemmas that use them: in Proofs/C12.v [adv] / [run_advs] (a sequence of advance calls, module or
   fixture), [prefixes_ok t l] (every amount of l converts and every intermediate instant from t on is representable),
   [sum_us l] (the total moved), [resolves w t d] (the time argument t is d, or a string the parser of w reads as d),
   [normalizable d] (d is naive or its UTC instant is representable), [is_utc_name], [with_second m s] (m with its second
   field replaced); in Proofs/C12_Equiv.v [gen_run_advs], [gen_utcnow_n n] (n successive utcnow() calls); in
   Proofs/C12_Float.v [signed s z] (z with the sign bit s); in Proofs/C12_Iso.v [iso_offset_ok d] (d is naive or its offset
   is a whole number of minutes within a day) and [iso_full_statement] (the round trip for every offset within a day).

   The functions the theorems speak about ([gen_is_older_than], [gen_utcnow], ...) are the
   statement-by-statement translations of timeutils.py regenerated from /repo on every run
   (Gen/C12_Timeutils.v); Proofs/C12_Equiv.v proves each equal to the hand-written model of
   Model/C12.v, on which the lemmas are proved. *)
From Coq Require Import String.
From Coq Require Import SpecFloat.
Require Import OV.Base.Bytes OV.Base.Py OV.Base.PyFloat.
Require Import OV.Model.C12_Calendar OV.Model.C12_Prim OV.Model.C12 OV.Model.C12_Iso.
Require Import OV.Gen.C12_Timeutils.
Require Import OV.Proofs.C12_Calendar OV.Proofs.C12 OV.Proofs.C12_Iso OV.Proofs.C12_Float OV.Proofs.C12_Equiv.
Open Scope Z_scope.

(* ---- the calendar the model computes with is a bijection (all years >= 1, unbounded) ---- *)
Theorem C12_calendar_roundtrip : forall y m d, valid_ymd y m d = true ->
  ymd_of_days (days_of_ymd y m d) = (y, m, d).
Proof. exact ymd_of_days_of_ymd. Qed.
Print Assumptions C12_calendar_roundtrip.

Theorem C12_calendar_roundtrip_days : forall n, 0 <= n ->
  let '(y, m, d) := ymd_of_days n in valid_ymd y m d = true /\ days_of_ymd y m d = n.
Proof. exact days_of_ymd_of_days. Qed.
Print Assumptions C12_calendar_roundtrip_days.

(* field records <-> microsecond counts, microseconds included, over datetime.min..max *)
Theorem C12_fields_roundtrip : forall f, valid_fields f = true -> fields_of_us (us_of_fields f) = f.
Proof.
  intros f V. apply valid_fields_spec in V. destruct V as (Vd & Vy & VH & VM & VS & Vu).
  destruct f as [y m d H Mi S u]. cbn [f_year f_month f_day f_hour f_minute f_second f_us] in *.
  unfold fields_of_us, us_of_fields. cbn [f_year f_month f_day f_hour f_minute f_second f_us].
  destruct (tod_split (days_of_ymd y m d) H Mi S u VH VM VS Vu) as (E1 & E2 & E3 & E4 & E5).
  cbv zeta in E1, E2, E3, E4, E5. rewrite E1, E2, E3, E4, E5.
  rewrite (ymd_of_days_of_ymd y m d Vd). reflexivity.
Qed.
Print Assumptions C12_fields_roundtrip.

Theorem C12_fields_roundtrip_us : forall u, in_range u = true ->
  valid_fields (fields_of_us u) = true /\ us_of_fields (fields_of_us u) = u.
Proof. exact us_of_fields_of_us. Qed.
Print Assumptions C12_fields_roundtrip_us.

(* ---- normalize_time ---- *)
Theorem C12_normalize_naive_id : forall d w, tz d = None -> gen_normalize_time d w = (Ok d, w).
Proof. intros d w H. rewrite normalize_time_equiv. unfold lift. rewrite (normalize_naive_id d H). reflexivity. Qed.
Print Assumptions C12_normalize_naive_id.

Theorem C12_normalize_preserves_instant : forall d z w, tz d = Some z ->
  gen_normalize_time d w = (if in_range (instant d) then Ok (naive (instant d)) else Exn OverflowError, w).
Proof. intros d z w H. rewrite normalize_time_equiv. unfold lift. rewrite (normalize_preserves_instant d z H). reflexivity. Qed.
Print Assumptions C12_normalize_preserves_instant.

(* ---- parse_isotime inverts isoformat (library pair, as modelled in Model/C12_Iso.v) ---- *)
(* for every representable datetime that is naive (read as UTC) or whose offset is a whole
   number of minutes within +-23:59 *)
Theorem C12_iso_roundtrip : forall d, in_range (wall d) = true -> iso_offset_ok d = true ->
  exists d', iso_parse (iso_format d) = Ok d' /\ wall d' = wall d /\ instant d' = instant d.
Proof. exact iso_roundtrip_instant. Qed.
Print Assumptions C12_iso_roundtrip.

(* hence parse_isotime, in a world whose iso8601 is the modelled one *)
Theorem C12_parse_isotime_inverts_isoformat : forall w d,
  lib_parse w = iso_parse -> in_range (wall d) = true -> iso_offset_ok d = true ->
  exists d', gen_parse_isotime (iso_format d) w = (Ok d', w) /\ wall d' = wall d /\ instant d' = instant d.
Proof.
  intros w d HL R Ho. destruct (iso_roundtrip_instant d R Ho) as (d' & E & W & I).
  exists d'. unfold gen_parse_isotime. rewrite HL, E. auto.
Qed.
Print Assumptions C12_parse_isotime_inverts_isoformat.

(* the clause for every offset strictly between -24h and +24h is false: isoformat() prints a
   seconds part the parser rejects (known finding iso-submin) *)
Definition C12_iso_full_statement : Prop := iso_full_statement.
Theorem C12_iso_submin_refuted : ~ C12_iso_full_statement.
Proof. exact iso_submin_refuted. Qed.
Print Assumptions C12_iso_submin_refuted.

(* ---- marshall_now / unmarshall_time ---- *)
Theorem C12_unmarshall_marshall_naive : forall w d, tz d = None -> in_range (wall d) = true ->
  bindM (gen_marshall_now (Some d)) gen_unmarshall_time w = (Ok d, w).
Proof.
  intros w d Ht R. rewrite marshall_unmarshall_equiv. unfold bindM, marshall_now, bindM, ret.
  unfold dt_has_tzinfo. rewrite Ht.
  unfold unmarshall_time, bindM. cbn [m_second m_year m_month m_day m_hour m_minute m_microsecond].
  rewrite (second_le_59 d R). unfold lift. rewrite (mk_datetime_fields d R).
  cbn [mrec_get_tzname m_tzname optstr_truthy]. unfold ret, naive. destruct d; cbn in *; subst; reflexivity.
Qed.
Print Assumptions C12_unmarshall_marshall_naive.

(* contract on zoneinfo: the database has a 'UTC' entry whose offset is 0 *)
Theorem C12_unmarshall_marshall_utc : forall w d n z,
  tz d = Some (mkTz 0 (Some n)) -> is_utc_name n = true -> in_range (wall d) = true ->
  lib_zone w utc_name = Ok z -> z_utcoffset z (wall d) = 0 ->
  exists d', bindM (gen_marshall_now (Some d)) gen_unmarshall_time w = (Ok d', w) /\
             wall d' = wall d /\ dt_utcoffset d' = Some 0 /\ instant d' = instant d.
Proof. intros. rewrite marshall_unmarshall_equiv. eapply unmarshall_marshall_utc; eassumption. Qed.
Print Assumptions C12_unmarshall_marshall_utc.

Theorem C12_unmarshall_leap_capped : forall m w, 59 <= m_second m ->
  gen_unmarshall_time m w = gen_unmarshall_time (with_second m 59) w.
Proof.
  intros m w H. rewrite !unmarshall_time_equiv. unfold unmarshall_time, with_second, MAX_DATETIME_SEC.
  cbn [m_day m_month m_year m_hour m_minute m_second m_microsecond m_tzname mrec_get_tzname].
  replace (Z.min (m_second m) 59) with 59 by lia. reflexivity.
Qed.
Print Assumptions C12_unmarshall_leap_capped.

(* the seven marshalled fields denote the wall reading exactly (microseconds included) *)
Theorem C12_marshall_fields : forall w d, in_range (wall d) = true ->
  exists m, gen_marshall_now (Some d) w = (Ok m, w) /\
    us_of_fields (mkF (m_year m) (m_month m) (m_day m) (m_hour m) (m_minute m) (m_second m) (m_microsecond m)) = wall d.
Proof.
  intros w d R. rewrite marshall_now_equiv. destruct (dt_fields_valid d R) as [V E].
  unfold marshall_now, bindM, ret.
  destruct (dt_has_tzinfo d); eexists; (split; [reflexivity|]);
    cbn [mrec_set_tzname m_year m_month m_day m_hour m_minute m_second m_microsecond];
    unfold dt_year, dt_month, dt_day, dt_hour, dt_minute, dt_second, dt_microsecond;
    rewrite fields_eta; exact E.
Qed.
Print Assumptions C12_marshall_fields.

(* marshall_now() without argument marshals the overridden clock *)
Theorem C12_marshall_now_override : forall w t, ov w = One t -> gen_marshall_now None w = gen_marshall_now (Some t) w.
Proof.
  intros w t H. rewrite !marshall_now_equiv. unfold marshall_now, bindM. rewrite (override_returns_instant w t false H). reflexivity.
Qed.
Print Assumptions C12_marshall_now_override.

(* ---- the overridden clock ---- *)
Theorem C12_override_returns_instant : forall w t b, ov w = One t -> gen_utcnow b w = (Ok t, w).
Proof. exact override_returns_instant. Qed.
Print Assumptions C12_override_returns_instant.

Theorem C12_set_then_utcnow : forall w t b,
  let w1 := snd (gen_set_time_override (One t) w) in
  ov w1 = One t /\ gen_utcnow b w1 = (Ok t, w1) /\ real w1 = real w.
Proof. cbn. repeat split. Qed.
Print Assumptions C12_set_then_utcnow.

Theorem C12_utcnow_ts_seconds : forall w t, ov w = One t ->
  gen_utcnow_ts false w = (Ok (FInt (wall t / US_PER_SEC - EPOCH_S)), w).
Proof.
  intros w t H. rewrite utcnow_ts_equiv. unfold utcnow_ts, bindM. rewrite H, (override_returns_instant w t false H). reflexivity.
Qed.
Print Assumptions C12_utcnow_ts_seconds.

Theorem C12_utcnow_ts_micro : forall w t, ov w = One t -> in_range (wall t) = true ->
  exists e n d, gen_utcnow_ts true w = (Ok e, w) /\ fval e = Some (n, d) /\ 0 < d /\
                n * US_PER_SEC = (wall t - EPOCH_S * US_PER_SEC) * d.
Proof.
  intros w t H R. rewrite utcnow_ts_equiv. unfold utcnow_ts, bindM. rewrite H, (override_returns_instant w t false H).
  unfold ret. eexists. eexists. eexists. split; [reflexivity|]. cbn [fval].
  cbn [Z.eqb]. split; [reflexivity|]. split; [lia|].
  unfold timegm_of, dt_microsecond, dt_fields, fields_of_us.
  destruct (ymd_of_days (wall t / US_PER_DAY)) as [[y m] d]. cbn [f_us].
  unfold US_PER_DAY, US_PER_SEC. change EPOCH_S with 62135596800.
  unfold in_range in R. apply andb_prop in R. destruct R as [R0 _]. apply Z.leb_le in R0.
  zdm. lia.
Qed.
Print Assumptions C12_utcnow_ts_micro.

(* any sequence of advance_time_delta / advance_time_seconds calls moves the instant by exactly
   the sum, as long as every intermediate instant is representable *)
Theorem C12_advance_exact : forall l w t, ov w = One t -> prefixes_ok (wall t) l = true ->
  gen_run_advs l w = (Ok tt, set_ov w (One (mkDt (wall t + sum_us l) (tz t)))).
Proof. intros l w t H P. rewrite run_advs_equiv. exact (advance_exact l w t H P). Qed.
Print Assumptions C12_advance_exact.

Theorem C12_advance_then_utcnow : forall l w t b, ov w = One t -> prefixes_ok (wall t) l = true ->
  bindM (gen_run_advs l) (fun _ => gen_utcnow b) w =
    (Ok (mkDt (wall t + sum_us l) (tz t)), set_ov w (One (mkDt (wall t + sum_us l) (tz t)))).
Proof. intros l w t b H P. unfold bindM. rewrite (C12_advance_exact l w t H P). reflexivity. Qed.
Print Assumptions C12_advance_then_utcnow.

(* ... and one leaving datetime's range raises OverflowError and moves nothing *)
Theorem C12_advance_overflow : forall w t x delta, ov w = One t -> td_of_days_seconds 0 x = Ok delta -> in_range (wall t + delta) = false ->
  gen_advance_time_delta delta w = (Exn OverflowError, w) /\ gen_advance_time_seconds x w = (Exn OverflowError, w).
Proof.
  intros w t x delta H Hx R. split.
  - exact (advance_overflow w t delta H R).
  - rewrite advance_time_seconds_equiv, (advance_seconds_is_delta x delta w Hx). exact (advance_overflow w t delta H R).
Qed.
Print Assumptions C12_advance_overflow.

(* oslo_utils.fixture.TimeFixture keeps no instant of its own: its methods are the module functions
   (C12_advance_exact covers any interleaving: constructors FxByDelta / FxBySeconds) *)
Theorem C12_fixture_is_module :
  (forall o w, gen_fixture_setUp o w = gen_set_time_override o w) /\
  (forall w, gen_fixture_cleanUp w = gen_clear_time_override w) /\
  (forall d w, gen_fixture_advance_time_delta d w = gen_advance_time_delta d w) /\
  (forall x w, gen_fixture_advance_time_seconds x w = gen_advance_time_seconds x w).
Proof. repeat split. Qed.
Print Assumptions C12_fixture_is_module.

(* ---- timedelta(seconds=x): the amount advance_time_seconds / the comparisons use ---- *)
Theorem C12_td_int_exact : forall z, TD_MIN_US <= z * US_PER_SEC <= TD_MAX_US -> td_of_seconds (PInt z) = Ok (z * US_PER_SEC).
Proof.
  intros z H. unfold td_of_seconds, secs_us_raw, td_check.
  destruct ((TD_MIN_US <=? z * US_PER_SEC) && (z * US_PER_SEC <=? TD_MAX_US)) eqn:E; [reflexivity|lia].
Qed.
Print Assumptions C12_td_int_exact.

Theorem C12_td_float_integral : forall s m e, f_is_integer (S754_finite s m e) = true ->
  float_us (S754_finite s m e) = Ok (signed s (fst (modf_abs m e)) * 1000000).
Proof.
  intros s m e. unfold f_is_integer, float_us, modf_abs. destruct (0 <=? e) eqn:E; intro H.
  - change (f_mul (f_normalize 0 e) f_1e6) with (S754_zero false). cbn [rhe_abs fst]. destruct s; unfold signed; f_equal; lia.
  - apply Z.eqb_eq in H. rewrite H.
    change (f_mul (f_normalize 0 e) f_1e6) with (S754_zero false). cbn [rhe_abs fst]. destruct s; unfold signed; f_equal; lia.
Qed.
Print Assumptions C12_td_float_integral.

Theorem C12_td_float_spec : forall s m e,
  let '(ip, fm) := modf_abs m e in
  float_us (S754_finite s m e) = Ok (signed s (ip * 1000000 + rhe_abs (f_mul (f_normalize fm e) f_1e6))) /\
  (0 <= e -> ip = Zpos m * f_pow2 e /\ fm = 0) /\
  (e < 0 -> ip * f_pow2 (- e) + fm = Zpos m /\ 0 <= fm < f_pow2 (- e)).
Proof.
  intros s m e. unfold float_us, modf_abs. destruct (0 <=? e) eqn:E.
  - split; [destruct s; reflexivity|]. split; [auto|lia].
  - split; [destruct s; reflexivity|]. split; [lia|]. intros _.
    pose proof (pow2_pos (- e) ltac:(lia)) as Hd.
    pose proof (Z.div_mod (Zpos m) (f_pow2 (- e)) ltac:(lia)). pose proof (Z.mod_pos_bound (Zpos m) (f_pow2 (- e)) Hd). lia.
Qed.
Print Assumptions C12_td_float_spec.

Theorem C12_round_half_even_nearest : forall m k, 0 <= m -> 0 < k ->
  let r := round_half_even m (- k) in
  2 * Z.abs (r * f_pow2 k - m) <= f_pow2 k /\ (2 * Z.abs (r * f_pow2 k - m) = f_pow2 k -> Z.even r = true).
Proof. exact round_half_even_nearest. Qed.
Print Assumptions C12_round_half_even_nearest.

(* ---- list overrides and aware overrides: what the code does ---- *)
Theorem C12_utcnow_pops_in_order : forall n l w, ov w = Many l -> (n <= length l)%nat ->
  gen_utcnow_n n w = (Ok (firstn n l), set_ov w (Many (skipn n l))).
Proof.
  induction n as [|k IH]; intros l w Hov Hn.
  - cbn. unfold ret. f_equal. destruct w; cbn in *; subst; reflexivity.
  - destruct l as [|d r]; [cbn in Hn; lia|].
    cbn [gen_utcnow_n]. unfold bindM at 1. unfold gen_utcnow at 1. rewrite Hov.
    unfold bindM. rewrite (IH r (set_ov w (Many r)) eq_refl ltac:(cbn in Hn; lia)).
    cbn [firstn skipn]. unfold ret, set_ov. reflexivity.
Qed.
Print Assumptions C12_utcnow_pops_in_order.

(* advance_time_* with a list override moves NO element (the loop rebinds a local); it raises OverflowError when some
   element + delta is not representable *)
Theorem C12_advance_list_noop : forall w l delta, ov w = Many l ->
  gen_advance_time_delta delta w = (if forallb (fun t => in_range (wall t + delta)) l then Ok tt else Exn OverflowError, w).
Proof.
  intros w l delta H. unfold gen_advance_time_delta. rewrite H.
  destruct (forallb (fun t => in_range (wall t + delta)) l); reflexivity.
Qed.
Print Assumptions C12_advance_list_noop.

(* an aware override is returned as is (C12_override_returns_instant); comparing against it raises TypeError *)
Theorem C12_aware_override_raises : forall w now z t d s,
  ov w = One now -> tz now = Some z -> resolves w t d -> normalizable d = true ->
  gen_is_older_than t s w = (Exn TypeError, w) /\ gen_is_newer_than t s w = (Exn TypeError, w).
Proof.
  intros w now z t d s Hov Hz Hres Hnorm. rewrite is_older_than_equiv, is_newer_than_equiv.
  destruct (normalize_result d Hnorm) as (n & En & Tn & Wn).
  split; unfold is_older_than, is_newer_than, bindM; rewrite (targ_to_dt_resolves w t d Hres);
    unfold lift at 1; rewrite En; rewrite (override_returns_instant w now false Hov);
    unfold lift, dt_sub; rewrite Hz, Tn; reflexivity.
Qed.
Print Assumptions C12_aware_override_raises.

(* ---- comparisons under a scalar (naive UTC) override; t is a naive or aware datetime or a
        string the ISO parser resolves to d; normalizable d = the instant is representable ---- *)
Theorem C12_older_iff : forall w now t d s su,
  ov w = One now -> tz now = None -> resolves w t d -> normalizable d = true -> td_of_seconds s = Ok su ->
  exists b, gen_is_older_than t s w = (Ok b, w) /\ (b = true <-> wall now - instant d > su).
Proof. intros. rewrite is_older_than_equiv. eapply older_iff; eassumption. Qed.
Print Assumptions C12_older_iff.

Theorem C12_newer_iff : forall w now t d s su,
  ov w = One now -> tz now = None -> resolves w t d -> normalizable d = true -> td_of_seconds s = Ok su ->
  exists b, gen_is_newer_than t s w = (Ok b, w) /\ (b = true <-> instant d - wall now > su).
Proof. intros. rewrite is_newer_than_equiv. eapply newer_iff; eassumption. Qed.
Print Assumptions C12_newer_iff.

Theorem C12_soon_iff : forall w now t d s su,
  ov w = One now -> tz now = None -> resolves w t d -> normalizable d = true -> td_of_seconds s = Ok su ->
  in_range (wall now + su) = true ->
  exists b, gen_is_soon t s w = (Ok b, w) /\ (b = true <-> instant d <= wall now + su).
Proof. intros. rewrite is_soon_equiv. eapply soon_iff; eassumption. Qed.
Print Assumptions C12_soon_iff.
