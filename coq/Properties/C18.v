(* Properties/C18.v — "The spec matcher implements its documented operator table".
   Property theorems only, each proved by [exact] of a lemma of Proofs/C18.v or in a few lines
   from such lemmas.

   Reading guide (Model/C18.v):
     parse_string spec   make_grammar().parseString(spec).asList(); None = ParseException
     parse spec          the same without parseString's tab expansion (equal: C18_tab_expansion)
     match_ lev v spec   match(v, spec) for str v, spec; [lev] is ast.literal_eval, ANY function
     all_ws w            w consists of the characters pyparsing skips (" \n\t\r")
     atom_ok a           a is a non-empty run of non-whitespace (\S) characters that does not
                         start with one of the 17 operator literals
     stops rest          rest is empty or starts with a whitespace (\s) character: the word ends
     clean_join op w a   w is non-empty, or gluing op and a does not spell a longer operator
     item_ok / oitem_ok  a further word / a further "<or> word", preceded by non-empty whitespace
     ends_atoms / ends_disj   what follows the last word does not continue the list
   and (Proofs/C18.v, since they are about the tables rather than part of the model):
     documented          the operator table of make_grammar's docstring (spelled out in C18_documented_list)
     is_unary_meth m     m takes exactly one argument besides the value (numeric, string, <in>)
     consuming p         whenever p succeeds it leaves a strictly shorter text
   All literals, orders, tables and indices are the regenerated Gen/C18_SpecsMatcher.v values. *)
From Coq Require Import String.
Require Import OV.Base.Bytes OV.Base.Py OV.Base.PyInt OV.Base.Str OV.Base.Regex OV.Base.PyFloat.
Require Import OV.Gen.Unicode OV.Gen.C18_SpecsMatcher OV.Model.C18 OV.Proofs.C18.
Open Scope N_scope.

(* ---------------------------------------------------------------- the table *)

(* op_methods and the grammar contain the documented table: each of the 17 documented
   operators is dispatched to its documented method; the 14 unary ones are unary-operator
   literals of the grammar, the other three are the n-ary literals *)
Theorem C18_operator_table :
  forall op mt,
    In (op, mt)
       [ (lit "=", MNum CGe); (lit "==", MNum CEq); (lit "!=", MNum CNe);
         (lit "<", MNum CLt); (lit "<=", MNum CLe); (lit ">", MNum CGt); (lit ">=", MNum CGe);
         (lit "s==", MStr CEq); (lit "s!=", MStr CNe); (lit "s<", MStr CLt); (lit "s<=", MStr CLe);
         (lit "s>", MStr CGt); (lit "s>=", MStr CGe);
         (lit "<in>", MIn); (lit "<all-in>", MAllIn); (lit "<or>", MOr); (lit "<range-in>", MRangeIn) ] ->
    lookup op op_methods = Some mt /\ (is_unary_meth mt = true -> In op unary_lits).
Proof. intros op mt H. split; [exact (lookup_doc op mt H)|exact (doc_unary op mt H)]. Qed.
Print Assumptions C18_operator_table.

(* [documented], used below, is that list *)
Theorem C18_documented_list :
  documented =
       [ (lit "=", MNum CGe); (lit "==", MNum CEq); (lit "!=", MNum CNe);
         (lit "<", MNum CLt); (lit "<=", MNum CLe); (lit ">", MNum CGt); (lit ">=", MNum CGe);
         (lit "s==", MStr CEq); (lit "s!=", MStr CNe); (lit "s<", MStr CLt); (lit "s<=", MStr CLe);
         (lit "s>", MStr CGt); (lit "s>=", MStr CGe);
         (lit "<in>", MIn); (lit "<all-in>", MAllIn); (lit "<or>", MOr); (lit "<range-in>", MRangeIn) ].
Proof. exact eq_refl. Qed.
Print Assumptions C18_documented_list.

Theorem C18_operator_spelling :
  all_in_lit = lit "<all-in>" /\ or_lit = lit "<or>" /\ range_in_lit = lit "<range-in>".
Proof. repeat split. Qed.
Print Assumptions C18_operator_spelling.

(* ---------------------------------------------------------------- the grammar *)

(* the character class of Regex(r"\S+") (generated from CPython's regex compiler) is, within the
   code point range, the complement of str.isspace() (generated from the interpreter's Unicode
   table): a "word" below is a run of non-whitespace characters in Python's sense, [stops] means
   "empty or starts with a whitespace character"; the four characters pyparsing skips are whitespace *)
Theorem C18_word_characters :
  (forall c, c <= 1114111 -> cmem c atom_cs = negb (is_space c)) /\
  (forall c, is_pp_ws c = true -> is_space c = true).
Proof.
  split; intros c H.
  - destruct gen_atom_cs_compl as [-> Hs]. apply compl_from_spec; [exact Hs|lia|exact H].
  - exact (forallb_In _ _ _ gen_white_space (proj1 (memN_In _ _) H)).
Qed.
Print Assumptions C18_word_characters.


(* operator + word, for every unary operator of the grammar (longer operators win:
   '==' over '=', '<=' '<in>' over '<', 's<=' over 's<', ...) *)
Theorem C18_parse_op_atom : forall op ws w a rest,
  In op unary_lits -> all_ws ws = true -> all_ws w = true -> atom_ok a = true ->
  stops rest = true -> clean_join op w a = true ->
  parse (ws ++ op ++ w ++ a ++ rest) = Some [op; a].
Proof. exact parse_op_atom. Qed.
Print Assumptions C18_parse_op_atom.

(* <or> a1 <or> a2 ... <or> an, any n >= 1 *)
Theorem C18_parse_or : forall ws w a items rest,
  all_ws ws = true -> all_ws w = true -> atom_ok a = true -> clean_join or_lit w a = true ->
  forallb oitem_ok items = true -> ends_disj rest = true ->
  parse (ws ++ or_lit ++ w ++ a ++ flat_map oseg items ++ rest) = Some (or_lit :: a :: map snd items).
Proof. exact parse_or. Qed.
Print Assumptions C18_parse_or.

(* <all-in> a1 a2 ... an, any n >= 1 *)
Theorem C18_parse_all_in : forall ws w a items rest,
  all_ws ws = true -> all_ws w = true -> atom_ok a = true -> clean_join all_in_lit w a = true ->
  forallb item_ok items = true -> ends_atoms rest = true ->
  parse (ws ++ all_in_lit ++ w ++ a ++ flat_map seg items ++ rest) = Some (all_in_lit :: a :: map snd items).
Proof. exact parse_all_in. Qed.
Print Assumptions C18_parse_all_in.

(* <range-in> a1 a2 a3 a4 *)
Theorem C18_parse_range_in : forall ws w1 a1 w2 a2 w3 a3 w4 a4 rest,
  all_ws ws = true -> all_ws w1 = true -> clean_join range_in_lit w1 a1 = true ->
  all_ws w2 = true -> w2 <> [] -> all_ws w3 = true -> w3 <> [] -> all_ws w4 = true -> w4 <> [] ->
  atom_ok a1 = true -> atom_ok a2 = true -> atom_ok a3 = true -> atom_ok a4 = true ->
  stops rest = true ->
  parse (ws ++ range_in_lit ++ w1 ++ a1 ++ w2 ++ a2 ++ w3 ++ a3 ++ w4 ++ a4 ++ rest)
  = Some [range_in_lit; a1; a2; a3; a4].
Proof. exact parse_range_in. Qed.
Print Assumptions C18_parse_range_in.

(* a word that is not an operator: one token, whatever follows *)
Theorem C18_parse_word : forall ws a rest,
  all_ws ws = true -> atom_ok a = true -> stops rest = true -> parse (ws ++ a ++ rest) = Some [a].
Proof. exact parse_word. Qed.
Print Assumptions C18_parse_word.

(* parseString expands tabs to spaces before parsing (str.expandtabs, modelled): the token
   list is the same as without the expansion, for every spec; so [parse] below IS parseString *)
Theorem C18_tab_expansion : forall spec, parse_string spec = parse spec.
Proof. exact parse_string_eq. Qed.
Print Assumptions C18_tab_expansion.

(* trailing whitespace, and whitespace followed by an operator, end a list of words;
   trailing whitespace, and whitespace followed by a non-operator word, end a disjunction *)
Theorem C18_list_ends :
  (forall w, all_ws w = true -> ends_atoms w = true /\ ends_disj w = true) /\
  (forall w op t, all_ws w = true -> w <> [] -> In op all_lits -> ends_atoms (w ++ op ++ t) = true) /\
  (forall w a rest, all_ws w = true -> w <> [] -> atom_ok a = true -> stops rest = true -> ends_disj (w ++ a ++ rest) = true).
Proof.
  exact (conj (fun w H => conj (ends_atoms_ws w H) (ends_disj_ws w H)) (conj ends_atoms_op ends_disj_word)).
Qed.
Print Assumptions C18_list_ends.

(* the repetition loops never run out of fuel: any two sufficient amounts agree *)
Theorem C18_fuel :
  consuming p_atom /\ consuming p_or_item /\
  forall p, consuming p -> forall f f' s, (length s <= f)%nat -> (length s <= f')%nat -> many f p s = many f' p s.
Proof. exact (conj p_atom_consuming (conj p_or_item_consuming many_fuel_enough)). Qed.
Print Assumptions C18_fuel.

(* every spec: one token (string comparison), or a unary operator with one argument and a
   two-parameter method, or an n-ary operator with a variadic method.  No KeyError, no
   IndexError, no TypeError from the argument count, for any spec whatsoever *)
Theorem C18_dispatch_total : forall spec,
  (exists a, tree_of spec = [a]) \/
  (exists op a mt, tree_of spec = [op; a] /\ lookup op op_methods = Some mt /\ is_unary_meth mt = true) \/
  (exists op a l mt, tree_of spec = op :: a :: l /\ lookup op op_methods = Some mt /\ is_unary_meth mt = false).
Proof.
  intros spec. unfold tree_of. rewrite parse_string_eq.
  destruct (parse spec) as [t|] eqn:E; [|left; eexists; reflexivity].
  apply parse_shape in E. destruct E as [a|op a Hop|op a l Hop].
  - left. eexists; reflexivity.
  - right. left. destruct (meths_ok_method _ _ op gen_unary_methods Hop) as (mt & ? & ?). exists op, a, mt. auto.
  - right. right. destruct (meths_ok_method _ _ op gen_nary_methods Hop) as (mt & ? & ?). exists op, a, l, mt. auto.
Qed.
Print Assumptions C18_dispatch_total.

(* _range_in reads its four arguments inside the list the grammar hands over *)
Theorem C18_range_indices :
  range_arity = range_nargs /\ (range_iy < range_nargs)%nat /\ (range_iz < range_nargs)%nat
  /\ (range_il < range_nargs)%nat /\ (range_iu < range_nargs)%nat.
Proof. exact gen_range_shape. Qed.
Print Assumptions C18_range_indices.

(* ---------------------------------------------------------------- match = documented meaning *)

(* = (meaning >=), ==, !=, <, <=, >, >= : float(value) OP float(word); ValueError when a side is not a number *)
Theorem C18_match_numeric : forall (lev : str -> levres) op c v ws w a rest,
  In (op, MNum c) documented ->
  all_ws ws = true -> all_ws w = true -> atom_ok a = true -> stops rest = true -> clean_join op w a = true ->
  match_ lev v (ws ++ op ++ w ++ a ++ rest) =
  match py_float_of_str v, py_float_of_str a with
  | Some x, Some y => Val (fcmp c x y)
  | _, _ => Raise E_Value
  end.
Proof.
  intros lev op c v ws w a rest Hd Hws Hw Ha Hr Hj.
  rewrite (match_unary lev op (MNum c)) by auto. cbn [apply_meth]. unfold num_op.
  destruct (py_float_of_str v), (py_float_of_str a); reflexivity.
Qed.
Print Assumptions C18_match_numeric.

(* s==, s!=, s<, s<=, s>, s>= : comparison of the value with the word as strings *)
Theorem C18_match_string : forall (lev : str -> levres) op c v ws w a rest,
  In (op, MStr c) documented ->
  all_ws ws = true -> all_ws w = true -> atom_ok a = true -> stops rest = true -> clean_join op w a = true ->
  match_ lev v (ws ++ op ++ w ++ a ++ rest) = Val (scmp c v a).
Proof. intros lev op c. intros. apply (match_unary lev op (MStr c)); auto. Qed.
Print Assumptions C18_match_string.

(* the six string operators are the relations of one total order, the lexicographic one on code points *)
Theorem C18_string_order : forall a b,
  (scmp CEq a b = beq a b /\ scmp CNe a b = negb (beq a b) /\
   scmp CLe a b = scmp CLt a b || beq a b /\ scmp CGe a b = scmp CGt a b || beq a b /\
   scmp CGt a b = scmp CLt b a /\ scmp CLt a b = negb (scmp CGe a b)) /\
  (scmp CLt a b = true <->
   (exists c t, b = a ++ c :: t) \/
   (exists p x y a' b', a = p ++ x :: a' /\ b = p ++ y :: b' /\ x < y)).
Proof. exact (fun a b => conj (string_ops_table a b) (string_lt_lexicographic a b)). Qed.
Print Assumptions C18_string_order.

(* <in> : the word occurs in the value *)
Theorem C18_match_in : forall (lev : str -> levres) v ws w a rest,
  all_ws ws = true -> all_ws w = true -> atom_ok a = true -> stops rest = true ->
  clean_join (lit "<in>") w a = true ->
  match_ lev v (ws ++ lit "<in>" ++ w ++ a ++ rest) = Val (occursb a v).
Proof. intros. apply (match_unary lev _ MIn); auto. apply doc_named. Qed.
Print Assumptions C18_match_in.
Theorem C18_in_is_substring : forall y x, occursb y x = true <-> exists p q, x = p ++ y ++ q.
Proof. exact occursb_spec. Qed.
Print Assumptions C18_in_is_substring.

(* <or> : the value equals one of the alternatives *)
Theorem C18_match_or : forall (lev : str -> levres) v ws w a items rest,
  all_ws ws = true -> all_ws w = true -> atom_ok a = true -> clean_join or_lit w a = true ->
  forallb oitem_ok items = true -> ends_disj rest = true ->
  match_ lev v (ws ++ or_lit ++ w ++ a ++ flat_map oseg items ++ rest)
  = Val (existsb (fun x => beq v x) (a :: map snd items))
  /\ (existsb (fun x => beq v x) (a :: map snd items) = true <-> In v (a :: map snd items)).
Proof.
  intros. split; [|exact (mem_str_In v (a :: map snd items))].
  apply (match_of_parse lev v _ or_lit a (map snd items) MOr); [apply parse_or; assumption|apply doc_named].
Qed.
Print Assumptions C18_match_or.

(* <all-in> : literal_eval(value) must be a list; all the words must be among its elements *)
Theorem C18_match_all_in : forall (lev : str -> levres) v ws w a items rest,
  all_ws ws = true -> all_ws w = true -> atom_ok a = true -> clean_join all_in_lit w a = true ->
  forallb item_ok items = true -> ends_atoms rest = true ->
  match_ lev v (ws ++ all_in_lit ++ w ++ a ++ flat_map seg items ++ rest) =
  match lev v with
  | LRaise e => Raise e
  | LVal (PList xs) => Val (forallb (fun a => existsb (pyval_is_str a) xs) (a :: map snd items))
  | LVal _ => Raise E_Type
  end.
Proof.
  intros. apply (match_of_parse lev v _ all_in_lit a (map snd items) MAllIn); [apply parse_all_in; assumption|apply doc_named].
Qed.
Print Assumptions C18_match_all_in.
Theorem C18_all_in_is_membership : forall xs atoms,
  forallb (fun a => existsb (pyval_is_str a) xs) atoms = true <-> (forall a, In a atoms -> In (PStr a) xs).
Proof. exact all_in_spec. Qed.
Print Assumptions C18_all_in_is_membership.

(* <range-in> : interval membership, each end closed ('[' ']') or open ('(' ')'); all four combinations *)
Theorem C18_match_range_in : forall (lev : str -> levres) v ws w1 lb w2 lo w3 hi w4 rb rest,
  In lb [lit "["; lit "("] -> In rb [lit "]"; lit ")"] ->
  all_ws ws = true -> all_ws w1 = true ->
  all_ws w2 = true -> w2 <> [] -> all_ws w3 = true -> w3 <> [] -> all_ws w4 = true -> w4 <> [] ->
  atom_ok lo = true -> atom_ok hi = true -> stops rest = true ->
  match_ lev v (ws ++ range_in_lit ++ w1 ++ lb ++ w2 ++ lo ++ w3 ++ hi ++ w4 ++ rb ++ rest) =
  match lev v with
  | LRaise e => Raise e
  | LVal pv =>
    match float_of_pyval pv with
    | inr e => Raise e
    | inl x =>
      match py_float_of_str lo with
      | None => Raise E_Value
      | Some y =>
        match py_float_of_str hi with
        | None => Raise E_Value
        | Some z =>
          if f_gtb y z then Raise E_Type
          else Val ((if beq lb (lit "[") then f_geb x y else f_gtb x y)
                    && (if beq rb (lit "]") then f_leb x z else f_ltb x z))
        end
      end
    end
  end.
Proof. exact match_range_in. Qed.
Print Assumptions C18_match_range_in.

(* no operator: plain string equality with the FIRST word (text after it is ignored, O5);
   a spec the grammar rejects is compared as a whole; and every one-token tree is a string comparison *)
Theorem C18_no_operator_is_equality : forall (lev : str -> levres) v,
  (forall ws a rest, all_ws ws = true -> atom_ok a = true -> stops rest = true ->
                     match_ lev v (ws ++ a ++ rest) = Val (beq a v)) /\
  (forall spec, parse spec = None -> match_ lev v spec = Val (beq spec v)) /\
  (forall spec a, tree_of spec = [a] -> match_ lev v spec = Val (beq a v)).
Proof.
  exact (fun lev v => conj (no_operator_is_equality lev v)
                           (conj (match_unparsed lev v) (single_token_equality lev v))).
Qed.
Print Assumptions C18_no_operator_is_equality.
