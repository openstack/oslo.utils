(* Properties/C01_Vhdx.v — C01 for VHDXInspector: the verdict depends on the bytes only, never on the
   chunking — outside the two known findings F2 (backward pointers) and F4 (bad 'metadata' signature),
   which are decidable predicates on the bytes.  The property theorems; what they rest on is in Proofs/C01_Vhdx*.v.

   verdict_of (run F_vhdx cs) = what an InspectWrapper-style caller sees after feeding the chunks cs to a
   fresh VHDXInspector (stopping at the first exception) and calling finish(): the escaped exception,
   format_match, complete, virtual_size, safety_check().
   vhdx_spec b (Model/C01_Vhdx.v) reads the whole byte string b, with no notion of chunks or positions.
   wf_image (a builder-style well-formed image) and vhdx_full_statement (the statement without zone hypotheses)
   are defined in Proofs/C01_Vhdx_Witness.v, with the three refutation streams back_meta_*, back_item_*, bad_sig_*. *)
Require Import OV.Base.Bytes OV.Base.Py OV.Base.Insp_Struct OV.Gen.Insp_Consts OV.Model.Insp_Engine.
Require Import OV.Model.Insp_Vhdx OV.Model.Insp_All OV.Model.C01_Vhdx.
Require Import OV.Proofs.Insp_All OV.Proofs.C01_Vhdx OV.Proofs.C01_Vhdx_Fuel OV.Proofs.C01_Vhdx_Witness.
Open Scope N_scope.

(* vhdx_refines_spec: for ALL byte strings b outside the two zones and ALL chunk lists cs that
   concatenate to b (empty chunks allowed), the verdict is vhdx_spec b. *)
Theorem C01_vhdx_refines_spec : forall b cs,
  zone_vhdx_backptr b = false -> zone_vhdx_metasig b = false -> concat cs = b ->
  verdict_of (run F_vhdx cs) = vhdx_spec b.
Proof. exact vhdx_refines_spec. Qed.
Print Assumptions C01_vhdx_refines_spec.

(* non-vacuity: a well-formed image (builder-style layout: foreign entries before the METAREGION and
   VIRTUAL_DISK_SIZE entries, metadata at 260 KiB, size item at +64 KiB) lies outside both zones, and the
   specification reads its declared size *)
Example C01_vhdx_wellformed_outside_zones :
  zone_vhdx_backptr wf_image = false /\ zone_vhdx_metasig wf_image = false.
Proof. exact wf_image_outside. Qed.
Example C01_vhdx_wellformed_spec :
  vhdx_spec wf_image = mkVerdict None (Ok true) true (Ok 4294967297%Z) Pass.
Proof.
  destruct wf_image_reads as (Hlen & Hid & Hrt & Hm & Hv). destruct wf_table as (Hmt & _ & _ & _).
  rewrite vhdx_spec_eq. rewrite (proj2 (N.ltb_ge _ _) Hlen).
  rewrite Hrt, Hm, Hmt. cbv zeta. rewrite Hv. unfold vx_verdict'. rewrite Hid. reflexivity.
Qed.

(* two chunkings of the same bytes give the same verdict ... *)
Theorem C01_vhdx_chunking_independent : forall cs1 cs2,
  zone_vhdx_backptr (concat cs1) = false -> zone_vhdx_metasig (concat cs1) = false ->
  concat cs1 = concat cs2 -> verdict_of (run F_vhdx cs1) = verdict_of (run F_vhdx cs2).
Proof.
  intros cs1 cs2 Hb Hs Hc. rewrite (vhdx_refines_spec (concat cs1) cs1 Hb Hs eq_refl).
  rewrite (vhdx_refines_spec (concat cs1) cs2 Hb Hs (eq_sym Hc)). reflexivity.
Qed.
Print Assumptions C01_vhdx_chunking_independent.

(* ... and empty chunks change nothing *)
Theorem C01_vhdx_empty_chunks_irrelevant : forall cs,
  zone_vhdx_backptr (concat cs) = false -> zone_vhdx_metasig (concat cs) = false ->
  verdict_of (run F_vhdx (filter nonempty cs)) = verdict_of (run F_vhdx cs).
Proof.
  intros cs Hb Hs. symmetry. apply C01_vhdx_chunking_independent; [exact Hb | exact Hs |].
  symmetry. apply concat_filter_nonempty.
Qed.
Print Assumptions C01_vhdx_empty_chunks_irrelevant.

(* the `while new_regions` loop of eat_chunk never runs out of the model's fuel: from EVERY inspector
   state (reachable or not, inside the zones or not) and for EVERY chunk, eat_chunk does not end in the
   model-only OtherError — post_process can create at most two region objects in a chunk *)
Theorem C01_vhdx_fuel_never_exhausted : forall (s : ist unit) c,
  snd (eat_chunk vhdx_fmt s c) <> Some OtherError.
Proof. exact vhdx_fuel_never_exhausted. Qed.
Print Assumptions C01_vhdx_fuel_never_exhausted.

(* the statement without the zone hypotheses is FALSE for the code that exists *)
Definition C01_vhdx_full_statement : Prop := vhdx_full_statement.
Theorem C01_vhdx_full_statement_refuted : ~ C01_vhdx_full_statement.
Proof.
  intros H. destruct bad_sig_witness as (Hc & _ & _ & H4 & H5).
  specialize (H _ _ Hc). rewrite H4, H5 in H. discriminate H.
Qed.
Print Assumptions C01_vhdx_full_statement_refuted.

(* F2 (metadata region before the region table: offset 100000 < 256 KiB; one chunk finds the size 77,
   [200000; rest] never captures the metadata region) *)
Theorem C01_refuted_vhdx_backptr :
  exists cs1 cs2, concat cs1 = concat cs2 /\
    zone_vhdx_backptr (concat cs1) = true /\ zone_vhdx_metasig (concat cs1) = false /\
    verdict_of (run F_vhdx cs1) <> verdict_of (run F_vhdx cs2).
Proof.
  exists back_meta_cs1, back_meta_cs2. destruct back_meta_witness as (H1 & H2 & H3 & H4 & H5).
  split; [exact H1|]. split; [exact H2|]. split; [exact H3|]. rewrite H4, H5. intros E. discriminate E.
Qed.
Print Assumptions C01_refuted_vhdx_backptr.

(* F2, second kind (size item at offset 40 inside the 64-byte entry table) *)
Theorem C01_refuted_vhdx_backptr_item :
  exists cs1 cs2, concat cs1 = concat cs2 /\
    zone_vhdx_backptr (concat cs1) = true /\ zone_vhdx_metasig (concat cs1) = false /\
    verdict_of (run F_vhdx cs1) <> verdict_of (run F_vhdx cs2).
Proof.
  exists back_item_cs1, back_item_cs2. destruct back_item_witness as (H1 & H2 & H3 & H4 & H5).
  split; [exact H1|]. split; [exact H2|]. split; [exact H3|]. intros E. rewrite E, H5 in H4. discriminate H4.
Qed.
Print Assumptions C01_refuted_vhdx_backptr_item.

(* F4 (64 KiB of metadata region whose signature is 'metadatb': one chunk leaves a complete inspector
   that passes safety_check, [270336; rest] an incomplete one that is refused) *)
Theorem C01_refuted_vhdx_metasig :
  exists cs1 cs2, concat cs1 = concat cs2 /\
    zone_vhdx_backptr (concat cs1) = false /\ zone_vhdx_metasig (concat cs1) = true /\
    verdict_of (run F_vhdx cs1) <> verdict_of (run F_vhdx cs2).
Proof.
  exists bad_sig_cs1, bad_sig_cs2. destruct bad_sig_witness as (H1 & H2 & H3 & H4 & H5).
  split; [exact H1|]. split; [exact H2|]. split; [exact H3|]. rewrite H4, H5. intros E. discriminate E.
Qed.
Print Assumptions C01_refuted_vhdx_metasig.
