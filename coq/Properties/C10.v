(* Properties/C10.v — "string_to_bytes computes the exact byte quantity or raises
   ValueError": the property theorems only.  Each is [exact] of a lemma from Proofs/ or a
   few lines from such lemmas, and is followed by Print Assumptions.

   Vocabulary (Proofs/C10_Form.v, Proofs/C10.v):
     numform num      num = [+|-] digits [.] digits+   (Unicode decimal digits)
     form P t         t = num ++ pre ++ unit, pre empty or in P, unit in {b, bit, B} (nothing after
                      the unit: the patterns end in \Z, which the translator turns into the flag of
                      rz_match, Model/C10_Regex.v)
     spec_systems     IEC -> K M G T P E Z Y R Q each with optional i;  SI -> k M G ... Q;
                      mixed -> k K M ... Q each with optional i
     spec_exp p       1 for k/K, 2 M, 3 G, 4 T, 5 P, 6 E, 7 Z, 8 Y, 9 R, 10 Q
     spec_base u p    1024 for IEC, 1000 for SI, mixed: 1024 when p ends in i, else 1000
     spec_eval        float(num) [/ 8 for b, bit] [* float(base ^ exp)], then ceil when return_int
                      (OverflowError of ceil(inf) turned into ValueError)
   unit_system_info, unit_prefix_exponent, the three regexes and size_re are REGENERATED from
   /repo (Gen/C10_Units.v); the theorems hold for whatever was generated. *)
From Coq Require Import String.
From Coq Require Import ZArith SpecFloat.
Require Import OV.Base.Bytes OV.Base.Py OV.Base.PyInt OV.Base.Str OV.Base.Regex OV.Base.PyFloat.
Require Import OV.Model.C10_Regex OV.Gen.C10_Units OV.Model.C10.
Require Import OV.Gen.C10_Code OV.Gen.C10_QemuCode.
Require Import OV.Proofs.C10_Form OV.Proofs.C10_Float OV.Proofs.C10 OV.Proofs.C10_Qemu OV.Proofs.C10_Equiv.
Open Scope Z_scope.

(* the unit systems are exactly IEC, SI and mixed *)
Theorem C10_system_known_iff : forall u : str,
  lookup u unit_system_info <> None <-> (u = lit "IEC" \/ u = lit "SI" \/ u = lit "mixed").
Proof.
  intros u. split.
  - destruct (lookup u unit_system_info) as [[base rx]|] eqn:L; [|congruence]. intros _.
    destruct (known_system u base rx L) as [prefixes HS].
    cbn in HS. destruct HS as [E|[E|[E|[]]]]; injection E as <- _; auto.
  - intros H. assert (HS : exists prefixes, In (u, prefixes) spec_systems)
      by (destruct H as [->|[->| ->]]; eexists; cbn; eauto).
    destruct HS as [prefixes HS]. destruct (system_facts u prefixes HS) as [b [r [L _]]]. rewrite L. discriminate.
Qed.
Print Assumptions C10_system_known_iff.

(* the regex of unit system u matches t  <->  t = [sign]number[prefix in P_u]unit *)
Theorem C10_admitted_iff_form : forall u prefixes base rx,
  In (u, prefixes) spec_systems -> lookup u unit_system_info = Some (base, rx) ->
  forall t, rz_matchb rx t = true <-> form prefixes t.
Proof. exact admitted_iff_form. Qed.
Print Assumptions C10_admitted_iff_form.

(* every prefix any of the three regexes can capture is a key of the exponent table, with the SI/IEC
   exponent, the base in effect is the specified one, and base^exponent converts to a finite float *)
Theorem C10_prefix_table_total : forall u base rx t e g p,
  lookup u unit_system_info = Some (base, rx) ->
  rz_match rx t = Some (e, g) -> group_text t g 2 = Some p -> p <> [] ->
  lookup p unit_prefix_exponent = Some (spec_exp p) /\
  effective_base u base (Some p) = Some (spec_base u p) /\
  exists x, float_of_Z (spec_base u p ^ spec_exp p) = Some x /\ f_is_finite x = true.
Proof. exact prefix_table_total. Qed.
Print Assumptions C10_prefix_table_total.

(* any text that is not of the form for the chosen system — malformed, foreign prefix,
   unknown unit system — raises ValueError *)
Theorem C10_not_admitted_raises_ValueError : forall t u ri,
  (forall prefixes, In (u, prefixes) spec_systems -> ~ form prefixes t) ->
  string_to_bytes t u ri = Exn ValueError.
Proof.
  intros t u ri NF. unfold string_to_bytes.
  destruct (lookup u unit_system_info) as [[base rx]|] eqn:L; [|reflexivity].
  destruct (known_system u base rx L) as [prefixes HS].
  pose proof (admitted_iff_form u prefixes base rx HS L t) as A.
  unfold rz_matchb in A. destruct (rz_match rx t) as [[e g]|]; [|reflexivity].
  exfalso. apply (NF prefixes HS). apply A. reflexivity.
Qed.
Print Assumptions C10_not_admitted_raises_ValueError.

(* no exception other than ValueError: for every text, every unit-system string and both return_int
   (non-str arguments are outside the statement).  A quantity beyond binary64 evaluates to inf without
   return_int — the IEEE evaluation, no exception — and to ValueError with it (Proofs/C10.v,
   overflow_witness_float / overflow_witness_int) *)
Theorem C10_only_ValueError : forall t u ri e,
  string_to_bytes t u ri = Exn e -> e = ValueError.
Proof. exact only_ValueError. Qed.
Print Assumptions C10_only_ValueError.

(* the value of an admitted text is the IEEE evaluation  float(number) [/ 8] [* float(base^exp)] *)
Theorem C10_value_is_ieee_evaluation : forall u prefixes, In (u, prefixes) spec_systems ->
  forall num pre un ri,
  numform num -> (pre = [] \/ In pre prefixes) -> In un units3 ->
  string_to_bytes (num ++ pre ++ un) u ri = spec_eval u num pre un ri.
Proof. exact string_to_bytes_eval. Qed.
Print Assumptions C10_value_is_ieee_evaluation.

(* ... and it is a float (never an exception) when return_int is off *)
Theorem C10_admitted_returns_float : forall u prefixes, In (u, prefixes) spec_systems ->
  forall num pre un,
  numform num -> (pre = [] \/ In pre prefixes) -> In un units3 ->
  exists r, string_to_bytes (num ++ pre ++ un) u false = Ok (NFloat r).
Proof. exact admitted_returns_float. Qed.
Print Assumptions C10_admitted_returns_float.

(* return_int yields the ceiling of the float result: same call, then math.ceil (ValueError when the
   float is infinite or NaN) ... *)
Theorem C10_ceil_spec : forall t u,
  string_to_bytes t u true =
  match string_to_bytes t u false with
  | Ok (NFloat r) => ceil_or_ValueError r
  | other => other
  end.
Proof. exact return_int_is_ceil. Qed.
Print Assumptions C10_ceil_spec.

(* ... where ceil_to_Z is the least integer not below (-1)^s * m * 2^e *)
Theorem C10_ceil_is_ceiling : forall s m e z, ceil_to_Z (S754_finite s m e) = Ok z ->
  let v := if s then Zneg m else Zpos m in
  if 0 <=? e then z = v * 2 ^ e
  else (z - 1) * 2 ^ (- e) < v <= z * 2 ^ (- e).
Proof.
  intros s m e z. cbn [ceil_to_Z]. intros H. injection H as <-. cbn zeta.
  set (v := if s then Z.neg m else Z.pos m).
  destruct (0 <=? e) eqn:E; [reflexivity|].
  unfold f_pow2. assert (0 < 2 ^ (- e)) by (apply Z.pow_pos_nonneg; lia).
  pose proof (Z.div_mod (- v) (2 ^ (- e)) ltac:(lia)) as D.
  pose proof (Z.mod_pos_bound (- v) (2 ^ (- e)) ltac:(lia)) as B.
  nia.
Qed.
Print Assumptions C10_ceil_is_ceiling.

(* integer magnitude n, factor F = base^exponent (1 without prefix) with at most 53 significant
   bits, n * F (/ 8 for bit units) an integer a below 2^53: the result is exactly the float of
   value a (with the sign), and return_int returns exactly a.
   exact_hyps (Proofs/C10.v) is the conjunction of: (u, prefixes) a known system; sg empty, + or -;
   ds non-empty Unicode decimal digits of value n > 0; pre empty or a prefix of the system; un in {b, bit, B};
   F = 1 or spec_base^spec_exp; repr53b F; n * F = a * (8 | 1); a < 2^53. *)
Theorem C10_exact_when_representable : forall u prefixes sg ds pre un n F a,
  exact_hyps u prefixes sg ds pre un n F a ->
  string_to_bytes (sg ++ ds ++ pre ++ un) u false = Ok (NFloat (float_of_small_int (beq sg [45%N]) a)) /\
  string_to_bytes (sg ++ ds ++ pre ++ un) u true = Ok (NInt (if beq sg [45%N] then Zneg a else Zpos a)).
Proof. exact exact_when_representable. Qed.
Print Assumptions C10_exact_when_representable.

(* float_of_small_int neg a is the float Python's float(int) gives for the integer: exact *)
Theorem C10_float_of_small_int_is_float_of_int : forall (neg : bool) a, Zpos a < 2 ^ 53 ->
  float_of_Z (if neg then Zneg a else Zpos a) = Some (float_of_small_int neg a).
Proof.
  intros neg a H. assert (D : dig a <= 53) by (apply dig_le_of_lt; lia).
  apply (float_of_Z_exact neg a a 0); [lia|change (2 ^ 0) with 1; lia|exact D|lia].
Qed.
Print Assumptions C10_float_of_small_int_is_float_of_int.

(* QemuImgInfo._extract_bytes: whenever SIZE_RE finds a "(N bytes)" figure (group 3), the result is
   int(N) — whatever the magnitude and the unit say *)
Theorem C10_bytes_figure_precedence : forall details a e g,
  re_search size_re details = Some (a, e, g) -> gget g 3%nat <> None ->
  exists ds, group_text details g 4 = Some ds /\ digits ds = true /\ ds <> [] /\
             extract_bytes details = py_int_lim ds.
Proof.
  intros details a e g HS H3. destruct (size_match_facts details a e g HS) as [w1 [G1 [FL [N|[w3 [w4 [G3 [N3 [G4 [D4 N4]]]]]]]]]]; [congruence|].
  exists w4. repeat split; try assumption.
  unfold extract_bytes. rewrite HS, G1, G3, G4.
  destruct w3 as [|c3 w3']; [congruence|]. cbn [truthy].
  destruct (has_e w1); [destruct (py_float_of_str w1); [reflexivity|congruence]|reflexivity].
Qed.
Print Assumptions C10_bytes_figure_precedence.

(* otherwise, with a unit: string_to_bytes(magnitude + unit, 'IEC', return_int=True), one-letter units completed with B *)
Theorem C10_qemu_same_arithmetic : forall details a e g g1 c r,
  re_search size_re details = Some (a, e, g) -> group_text details g 1 = Some g1 -> has_e g1 = false ->
  truthy (group_text details g 3) = false -> group_text details g 2 = Some (c :: r) ->
  extract_bytes details =
  match string_to_bytes (g1 ++ (if (zlen (c :: r) =? 1)%Z && negb (beq (c :: r) (lit "B")) then (c :: r) ++ lit "B" else c :: r))
                        (lit "IEC") true with
  | Ok (NInt z) => Ok z
  | Ok (NFloat _) => Exn OtherError
  | Exn ex => Exn ex
  end.
Proof.
  intros details a e g g1 c r HS G1 HE G3 G2. unfold extract_bytes. rewrite HS, G1, HE, G3, G2. reflexivity.
Qed.
Print Assumptions C10_qemu_same_arithmetic.

(* the model is the code: the statement-by-statement translation of the source of string_to_bytes
   (Gen/C10_Code.v, regenerated on every run) is extensionally the model the theorems are about *)
Theorem C10_translation_equiv : forall text unit_system return_int,
  gen_string_to_bytes text unit_system return_int = string_to_bytes text unit_system return_int.
Proof. exact gen_string_to_bytes_equiv. Qed.
Print Assumptions C10_translation_equiv.

(* ---- QemuImgInfo (human format): which fields are byte sizes and what is stored for them ---- *)

(* _extract_bytes raises nothing but ValueError, for every details text *)
Theorem C10_extract_bytes_only_ValueError : forall details e,
  extract_bytes details = Exn e -> e = ValueError.
Proof. exact extract_bytes_only_ValueError. Qed.
Print Assumptions C10_extract_bytes_only_ValueError.

(* the byte-size fields are exactly virtual_size, cluster_size and disk_size *)
Theorem C10_size_details_fields : forall root_cmd root_details,
  size_details root_cmd root_details <> None <->
  (root_cmd = lit "virtual_size" \/ root_cmd = lit "cluster_size" \/ root_cmd = lit "disk_size").
Proof.
  intros root_cmd root_details. unfold size_details. destruct (existsb (beq root_cmd) size_fields) eqn:E.
  - split; [intros _|discriminate]. apply existsb_exists in E. destruct E as [x [Hx Hb]]. apply beq_eq in Hb. subst x.
    cbn in Hx. intuition.
  - split; [congruence|]. intros H. exfalso.
    assert (existsb (beq root_cmd) size_fields = true); [|congruence].
    apply existsb_exists. exists root_cmd. split; [cbn; intuition|apply beq_refl].
Qed.
Print Assumptions C10_size_details_fields.

(* what is stored: 0 for 'None' / 'unavailable', otherwise what _extract_bytes returns or raises *)
Theorem C10_size_details_value : forall root_cmd root_details, In root_cmd size_fields ->
  size_details root_cmd root_details =
  Some (if existsb (beq root_details) zero_words then Ok 0%Z else extract_bytes root_details).
Proof.
  intros root_cmd root_details H. unfold size_details.
  replace (existsb (beq root_cmd) size_fields) with true; [reflexivity|].
  symmetry. apply existsb_exists. exists root_cmd. split; [exact H|apply beq_refl].
Qed.
Print Assumptions C10_size_details_value.

(* never a silent 0: a stored 0 comes from one of the two words or from a text whose byte count is 0;
   a stored exception is the ValueError of _extract_bytes, and every such ValueError is propagated *)
Theorem C10_size_details_no_silent_zero : forall root_cmd root_details v,
  size_details root_cmd root_details = Some v ->
  (v = Ok 0%Z -> In root_details zero_words \/ extract_bytes root_details = Ok 0%Z) /\
  (forall e, v = Exn e -> e = ValueError /\ extract_bytes root_details = Exn e) /\
  (forall e, extract_bytes root_details = Exn e -> ~ In root_details zero_words -> v = Exn e).
Proof.
  intros root_cmd root_details v. unfold size_details. destruct (existsb (beq root_cmd) size_fields); [|discriminate].
  intros H. destruct (existsb (beq root_details) zero_words) eqn:Z; injection H as <-.
  - apply existsb_exists in Z. destruct Z as [x [Hx Hb]]. apply beq_eq in Hb. subst x.
    split; [intros _; left; exact Hx|]. split; [intros e He; discriminate He|]. intros e _ N. contradiction.
  - split; [intros Hv; right; exact Hv|]. split; [|intros e He _; exact He].
    intros e He. split; [apply (extract_bytes_only_ValueError _ _ He)|exact He].
Qed.
Print Assumptions C10_size_details_no_silent_zero.

(* no figure, no unit: int(magnitude) *)
Theorem C10_qemu_no_unit_is_int : forall details a e g g1,
  re_search size_re details = Some (a, e, g) -> group_text details g 1 = Some g1 -> has_e g1 = false ->
  truthy (group_text details g 3) = false -> truthy (group_text details g 2) = false ->
  extract_bytes details = py_int_lim g1.
Proof.
  intros details a e g g1 HS G1 HE G3 G2. unfold extract_bytes. rewrite HS, G1, HE, G3. cbn [bind].
  destruct (group_text details g 2) as [[|c r]|]; try reflexivity. discriminate.
Qed.
Print Assumptions C10_qemu_no_unit_is_int.

(* the translated _canonicalize, _extract_bytes and size branch of _extract_details are the model *)
Theorem C10_qemu_translation_equiv :
  (forall field, gen_canonicalize field = canonicalize field) /\
  (forall details, gen_extract_bytes details = extract_bytes details) /\
  (forall root_cmd root_details, gen_size_details root_cmd root_details = size_details root_cmd root_details).
Proof. exact (conj gen_canonicalize_equiv (conj gen_extract_bytes_equiv gen_size_details_equiv)). Qed.
Print Assumptions C10_qemu_translation_equiv.

(* ... and for a zero magnitude (any sign, any number of zero digits, any decimal-digit script) *)
Theorem C10_exact_zero : forall u prefixes sg ds pre un,
  In (u, prefixes) spec_systems -> (sg = [] \/ sg = [43%N] \/ sg = [45%N]) ->
  digits ds = true -> ds <> [] -> dvalN (map asc ds) 0 = 0%N ->
  (pre = [] \/ In pre prefixes) -> In un units3 ->
  string_to_bytes (sg ++ ds ++ pre ++ un) u false = Ok (NFloat (S754_zero (beq sg [45%N]))) /\
  string_to_bytes (sg ++ ds ++ pre ++ un) u true = Ok (NInt 0).
Proof. exact exact_zero. Qed.
Print Assumptions C10_exact_zero.

(* oslo_utils.units: every constant whose name is a key of the exponent table is 1024^e (names ending
   in i) or 1000^e, and the 20 SI / IEC constants k M .. Q, Ki .. Qi are all there with those values —
   so "base 1024 for IEC, 1000 for SI" of string_to_bytes and the constants of units.py agree *)
Theorem C10_units_agree :
  (forall nm v e, In (nm, v) units_constants -> lookup nm unit_prefix_exponent = Some e ->
                  v = (if ends_with_i nm then 1024 else 1000) ^ e) /\
  (forall p, In p si_prefixes -> lookup p units_constants = Some (1000 ^ spec_exp p)) /\
  (forall p, In p iec_prefixes -> ends_with_i p = true -> lookup p units_constants = Some (1024 ^ spec_exp p)).
Proof.
  pose proof units_ok_true as U. rewrite !andb_true_iff in U. destruct U as [[U1 U2] U3].
  split; [|split].
  - intros nm v e HI HL. apply (forallb_In _ _ _ U1) in HI. unfold const_ok in HI. cbn [fst snd] in HI.
    rewrite HL in HI. apply Z.eqb_eq in HI. exact HI.
  - intros p HI. apply (forallb_In _ _ _ U2) in HI. unfold si_const_ok in HI.
    destruct (lookup p units_constants) as [v|]; [|discriminate].
    apply Z.eqb_eq in HI. subst v. reflexivity.
  - intros p HI HE. apply (forallb_In _ _ _ U3) in HI. unfold iec_const_ok in HI. rewrite HE in HI.
    destruct (lookup p units_constants) as [v|]; [|discriminate].
    apply Z.eqb_eq in HI. subst v. reflexivity.
Qed.
Print Assumptions C10_units_agree.
