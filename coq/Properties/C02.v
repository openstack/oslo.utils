(* Properties/C02.v — safety check is fail-closed: unsafe or unverifiable images are never accepted.
   ONLY the property theorems, each followed by Print Assumptions; the proofs are in Proofs/, what is
   proved here in place is the unfolding of a characterisation into the consequences the property names.

   Vocabulary: Insp_All.run f cs = the inspector of format f fed the chunk list cs (until the first exception, as
   InspectWrapper does) and finished; safety = safety_check(): Pass | Fail names | Refused | Crash e.
   The byte-level predicates (qcow2_safe, luks_safe, gpt_safe, mbr_table_ok, vhd_ok, ...) are in Model/C02.v,
   written from the formats' layouts with literal offsets. *)
Require Import OV.Base.Bytes OV.Base.Py OV.Base.Insp_Struct OV.Gen.Insp_Consts OV.Model.Insp_Engine.
Require Import OV.Base.C02_Py OV.Model.Insp_Qcow2 OV.Model.Insp_Gpt OV.Model.Insp_Luks OV.Model.Insp_Vhdx OV.Model.C01_Vhdx OV.Model.C01_Vmdk.
Require Import OV.Model.Insp_Vmdk OV.Model.Insp_All OV.Model.C02 OV.Model.C02_Cli OV.Gen.C02_Cli OV.Gen.C02_Checks.
Require Import OV.Proofs.C02_Engine OV.Proofs.C02_Static OV.Proofs.C02_Gpt OV.Proofs.C02_Qcow OV.Proofs.C02_Spec
               OV.Proofs.C02_Checks OV.Proofs.C02_Vmdk OV.Proofs.C02_VmdkRun OV.Proofs.C02_VmdkSpec OV.Proofs.C02_VmdkEx OV.Proofs.C02_Cli OV.Proofs.C02_F1 OV.Proofs.C02_Vhdx OV.Proofs.C02_VmdkC01 OV.Proofs.C02_Equiv.
Open Scope N_scope.

(* ---- 1. the gate: ANY inspector object of ANY format (hence every reachable state) ---- *)
Theorem C02_safety_pass_implies_gate : forall i : istate,
  safety i = Pass <->
  Insp_All.complete i = true /\ format_match i = Ok true /\
  forall c, In c (checks_of i) -> check_of i c = Ok tt.
Proof. exact safety_pass_implies_gate. Qed.
Print Assumptions C02_safety_pass_implies_gate.

(* an exception of any class inside a registered check is a failure of that check, never a pass *)
Theorem C02_check_exception_is_failure : forall (i : istate) (c : cname) (e : exn),
  In c (checks_of i) -> check_of i c = Exn e ->
  safety i <> Pass /\
  (Insp_All.complete i = true -> format_match i = Ok true -> exists names, safety i = Fail names /\ In c names).
Proof. exact (fun i c e Hin He => conj (check_exception_is_failure i c e Hin He)
                                      (fun Hc Hm => check_exception_named i c e Hc Hm Hin He)). Qed.
Print Assumptions C02_check_exception_is_failure.

(* every inspector class registers a check, keeps one in every reachable state, and the constructor's
   RuntimeError rule fires exactly for an empty list *)
Theorem C02_at_least_one_check :
  (forall f, init_checks f <> []) /\
  (forall f cs, checks_of (fst (Insp_All.run f cs)) <> []) /\
  (forall checks, construct_rule checks = Some RuntimeError <-> checks = []) /\
  (forall f, construct f = Ok (init f)).
Proof.
  assert (Hinit : forall f, init_checks f <> []) by (intros f; destruct f; discriminate).
  split; [exact Hinit|]. split; [|split].
  - intros f cs. eapply extends_nonempty; [apply checks_of_run|apply Hinit].
  - intros checks. destruct checks; cbn; split; congruence.
  - intros f. destruct f; reflexivity.
Qed.
Print Assumptions C02_at_least_one_check.

(* ---- 2. per format, on the bytes, for ALL chunkings ---- *)
Theorem C02_qcow2_pass_iff : forall cs : list bytes, all_bytes (concat cs) = true ->
  (safety (fst (Insp_All.run F_qcow2 cs)) = Pass <-> qcow2_safe (concat cs)).
Proof. exact qcow2_pass_iff. Qed.
Print Assumptions C02_qcow2_pass_iff.

(* the consequences the property names: backing file, external data file, EACH unknown bit of the big-endian
   word at 0x48 (version 3), every version other than 2 and 3; and what happens for version 2 *)
Theorem C02_qcow2_never_accepts : forall cs : list bytes, all_bytes (concat cs) = true ->
  let b := concat cs in
  (qcow2_backing_offset b <> 0 -> safety (fst (Insp_All.run F_qcow2 cs)) <> Pass) /\
  (N.testbit (qcow2_incompat b) qcow2_datafile_bit = true -> safety (fst (Insp_All.run F_qcow2 cs)) <> Pass) /\
  (forall i, qcow2_version b = 3 -> 4 <= i <= 63 -> N.testbit (qcow2_incompat b) i = true ->
             safety (fst (Insp_All.run F_qcow2 cs)) <> Pass) /\
  (qcow2_version b <> 2 -> qcow2_version b <> 3 -> safety (fst (Insp_All.run F_qcow2 cs)) <> Pass) /\
  (blen b < 512 -> safety (fst (Insp_All.run F_qcow2 cs)) = Refused).
Proof.
  intros cs Hb b.
  assert (Hp : safety (fst (Insp_All.run F_qcow2 cs)) = Pass -> qcow2_safe b) by apply (qcow2_pass_iff cs Hb).
  unfold qcow2_safe, no_unknown_bits in Hp. repeat apply conj.
  - intros H Hs. apply Hp in Hs. tauto.
  - intros H Hs. apply Hp in Hs. destruct Hs as (_ & _ & _ & _ & Hdf & _). congruence.
  - intros i Hv Hi Ht Hs. apply Hp in Hs. destruct Hs as (_ & _ & _ & _ & _ & Hu).
    rewrite (Hu Hv i) in Ht; [discriminate|].
    apply N.le_trans with 4; [vm_compute; discriminate|apply Hi].
  - intros H2 H3 Hs. apply Hp in Hs. tauto.
  - intros H. apply static_short_refused; [reflexivity|]. cbn [init_regions forallb snd rs_off rs_len]. fold b. lia.
Qed.
Print Assumptions C02_qcow2_never_accepts.

Theorem C02_qcow2_version2_feature_bytes : forall cs : list bytes, all_bytes (concat cs) = true ->
  let b := concat cs in
  512 <= blen b -> bslice 0 4 b = qcow2_magic -> qcow2_backing_offset b = 0 -> qcow2_version b = 2 ->
  N.testbit (qcow2_incompat b) qcow2_datafile_bit = false ->
  safety (fst (Insp_All.run F_qcow2 cs)) = Pass.
Proof.
  intros cs Hb b H1 H2 H3 H4 H5. apply (qcow2_pass_iff cs Hb).
  repeat split; try assumption; [left; exact H4|]. intros H. fold b in H. rewrite H4 in H. discriminate.
Qed.
Print Assumptions C02_qcow2_version2_feature_bytes.

Theorem C02_qed_never_passes : forall cs : list bytes, safety (fst (Insp_All.run F_qed cs)) <> Pass.
Proof. exact qed_never_passes. Qed.
Print Assumptions C02_qed_never_passes.

Theorem C02_luks_pass_iff : forall cs : list bytes,
  (safety (fst (Insp_All.run F_luks cs)) = Pass <-> luks_safe (concat cs)) /\
  (blen (concat cs) < 592 -> safety (fst (Insp_All.run F_luks cs)) = Refused).
Proof. exact (fun cs => conj (luks_pass_iff cs) (luks_short_refused cs)). Qed.
Print Assumptions C02_luks_pass_iff.

Theorem C02_gpt_pass_iff : forall cs : list bytes,
  safety (fst (Insp_All.run F_gpt cs)) = Pass <-> gpt_safe (concat cs).
Proof. exact gpt_pass_iff. Qed.
Print Assumptions C02_gpt_pass_iff.

Theorem C02_gpt_never_accepts : forall cs : list bytes,
  let b := concat cs in
  (forall i, i < 4 -> pte_boot (pte b i) <> 0 -> pte_boot (pte b i) <> 128 -> safety (fst (Insp_All.run F_gpt cs)) <> Pass) /\
  ((forall i, i < 4 -> pte_type (pte b i) = 0) -> safety (fst (Insp_All.run F_gpt cs)) <> Pass) /\
  (forall i, i < 4 -> i <> 0 -> pte_type (pte b i) = 238 -> safety (fst (Insp_All.run F_gpt cs)) <> Pass) /\
  (forall j, pte_type (pte b 0) = 238 -> j < 4 -> j <> 0 -> pte_type (pte b j) <> 0 -> safety (fst (Insp_All.run F_gpt cs)) <> Pass).
Proof.
  intros cs b.
  assert (Hp : safety (fst (Insp_All.run F_gpt cs)) = Pass -> mbr_table_ok b) by (intros Hs; apply gpt_pass_iff in Hs; apply Hs).
  unfold mbr_table_ok in Hp. repeat apply conj.
  - intros i Hi H0 H1 Hs. apply Hp in Hs. destruct Hs as (Hb & _). destruct (Hb i Hi); contradiction.
  - intros H Hs. apply Hp in Hs. destruct Hs as (_ & (i & Hi & Hn) & _). apply Hn, H, Hi.
  - intros i Hi Hn Ht Hs. apply Hp in Hs. destruct Hs as (_ & _ & H3). destruct (H3 i Hi Ht) as [H0 _]. contradiction.
  - intros j Ht Hj Hj0 Hn Hs. apply Hp in Hs. destruct Hs as (_ & _ & H3).
    destruct (H3 0 ltac:(lia) Ht) as (_ & _ & _ & H). apply Hn, H; assumption.
Qed.
Print Assumptions C02_gpt_never_accepts.

(* vhd, vhdx, vdi, iso, raw: Pass <-> complete /\ match, in every reachable state; on the bytes for the static ones *)
Theorem C02_null_check_formats_pass_iff : forall f cs, null_fmt f = true ->
  let i := fst (Insp_All.run f cs) in
  safety i = Pass <-> Insp_All.complete i = true /\ format_match i = Ok true.
Proof. exact null_check_formats_pass_iff. Qed.
Print Assumptions C02_null_check_formats_pass_iff.

Theorem C02_null_check_formats_bytes : forall cs : list bytes,
  (safety (fst (Insp_All.run F_vhd cs)) = Pass <-> vhd_ok (concat cs)) /\
  (safety (fst (Insp_All.run F_vdi cs)) = Pass <-> vdi_ok (concat cs)) /\
  (safety (fst (Insp_All.run F_iso cs)) = Pass <-> iso_ok (concat cs)) /\
  safety (fst (Insp_All.run F_raw cs)) = Pass.
Proof. exact (fun cs => conj (vhd_pass_iff cs) (conj (vdi_pass_iff cs) (conj (iso_pass_iff cs) (raw_pass cs)))). Qed.
Print Assumptions C02_null_check_formats_bytes.

(* the executable predicate the correspondence harness evaluates IS the declarative one *)
Theorem C02_static_verdict_is_predicate : forall f cs v,
  all_bytes (concat cs) = true -> static_safeb f (concat cs) = Some v ->
  (safety (fst (Insp_All.run f cs)) = Pass <-> v = true).
Proof. exact static_safeb_correct. Qed.
Print Assumptions C02_static_verdict_is_predicate.

(* VMDK: check_descriptor and check_footer say exactly this about the parsed descriptor / the captured regions,
   and every reachable VMDK inspector that passes has an acceptable descriptor *)
Theorem C02_vmdk_checks : forall s : ist vx,
  (vmdk_check_descriptor s = Ok tt <-> descriptor_ok (i_ext s)) /\
  (forall h f, rget R_header (i_regs s) = Some h -> rget R_footer (i_regs s) = Some f ->
     64 <= blen (r_data h) -> blen (r_data f) = 1536 ->
     (vmdk_check_footer s = Ok tt <-> footer_ok (r_data h) (r_data f))).
Proof. exact (fun s => conj (check_descriptor_iff s) (check_footer_iff s)). Qed.
Print Assumptions C02_vmdk_checks.

Theorem C02_vmdk_pass_implies : forall cs : list bytes,
  safety (fst (Insp_All.run F_vmdk cs)) = Pass -> descriptor_ok (vmdk_ext_of (fst (Insp_All.run F_vmdk cs))).
Proof. exact vmdk_pass_implies_descriptor. Qed.
Print Assumptions C02_vmdk_pass_implies.

Theorem C02_vmdk_pass_implies_state : forall s : ist vx,
  safety_check vmdk_fmt s = Pass ->
  Insp_Engine.complete s = true /\
  (In K_descriptor (i_checks s) -> descriptor_ok (i_ext s)) /\
  (forall h, rget R_header (i_regs s) = Some h ->
     prefixb VMDK_MAGIC (r_data h) = true /\
     (In K_footer (i_checks s) -> forall f, rget R_footer (i_regs s) = Some f ->
        64 <= blen (r_data h) -> blen (r_data f) = 1536 -> footer_ok (r_data h) (r_data f))).
Proof. exact vmdk_pass_implies_state. Qed.
Print Assumptions C02_vmdk_pass_implies_state.

(* VMDK on the BYTES, for all chunkings, in sparse mode outside the zone of finding F1 (signature KDMV, version 1..3):
   a Pass (even of an inspector frozen by an exception) means: the descriptor is at sector 1, completely captured
   (512 + min(desc_num*512, 2^20-1) bytes), ASCII up to its first NUL, of type monolithicSparse / streamOptimized
   (case-insensitively: the text is lower-cased), every line recognised, at least one extent, no extent containing '/',
   and with gdOffset = GD_AT_END the last 1536 bytes are a well-formed footer that agrees with the header in
   signature, version, descriptor location and size and does not itself announce a footer *)
Theorem C02_vmdk_sparse_pass_implies : forall cs : list bytes,
  let b := concat cs in
  64 <= blen b -> hdr_pre b ->
  safety (fst (Insp_All.run F_vmdk cs)) = Pass ->
  vmdk_desc_sec b * 512 = 512 /\
  512 + dsize b <= blen b /\
  is_ascii_text (bslice 512 (dsize b) b) = true /\
  descriptor_ok (mkVx (Some (text_of (bslice 512 (dsize b) b))) (vmdk_type_of (text_of (bslice 512 (dsize b) b)))) /\
  (vmdk_gd b = gd_at_end -> 1536 <= blen b /\ footer_ok b (bslice (blen b - 1536) 1536 b)).
Proof. exact vmdk_sparse_pass_implies. Qed.
Print Assumptions C02_vmdk_sparse_pass_implies.

Theorem C02_vmdk_short_refused : forall cs : list bytes,
  blen (concat cs) < 64 -> safety (fst (Insp_All.run F_vmdk cs)) = Refused.
Proof. exact vmdk_short_refused. Qed.
Print Assumptions C02_vmdk_short_refused.

(* ... and conversely a well-formed sparse VMDK is accepted under every chunking (footer case: streams of at least
   63+1536 bytes, the complement of zone F3) *)
Theorem C02_clean_vmdk_accepted : forall cs : list bytes,
  let b := concat cs in
  64 <= blen b -> hdr_pre b -> vmdk_desc_sec b * 512 = 512 ->
  512 + dsize b <= blen b ->
  is_ascii_text (bslice 512 (dsize b) b) = true ->
  descriptor_ok (mkVx (Some (text_of (bslice 512 (dsize b) b))) (vmdk_type_of (text_of (bslice 512 (dsize b) b)))) ->
  (vmdk_gd b = gd_at_end -> 1599 <= blen b /\ footer_ok b (bslice (blen b - 1536) 1536 b)) ->
  accepted (Insp_All.run F_vmdk cs) = true.
Proof. exact clean_vmdk_accepted. Qed.
Print Assumptions C02_clean_vmdk_accepted.

(* the executable form the correspondence harness evaluates on the implementation's inputs (`spec` op, vmdk) *)
Theorem C02_vmdk_sparse_verdict_is_predicate : forall cs v,
  vmdk_sparse_safeb (concat cs) = Some v -> (accepted (Insp_All.run F_vmdk cs) = true <-> v = true).
Proof. exact vmdk_sparse_safeb_correct. Qed.
Print Assumptions C02_vmdk_sparse_verdict_is_predicate.

(* VHDX on the BYTES (through C01's refinement theorem): outside the zones F2 / F4, for all chunkings,
   safety_check() passes exactly when the whole-buffer specification says complete and matching *)
Theorem C02_vhdx_pass_iff : forall b cs,
  zone_vhdx_backptr b = false -> zone_vhdx_metasig b = false -> concat cs = b ->
  (safety (fst (Insp_All.run F_vhdx cs)) = Pass <->
   v_complete (vhdx_spec b) = true /\ v_match (vhdx_spec b) = Ok true).
Proof. exact vhdx_pass_iff. Qed.
Print Assumptions C02_vhdx_pass_iff.

Theorem C02_vhdx_short_refused : forall b cs,
  concat cs = b -> flen b <? VX_HDR_END = true -> safety (fst (Insp_All.run F_vhdx cs)) = Refused.
Proof. exact vhdx_short_refused. Qed.
Print Assumptions C02_vhdx_short_refused.

(* finding F7 in those terms: identifier present, region table invalid => for EVERY chunking eat_chunk raises and
   the frozen inspector passes safety_check() all the same *)
Theorem C02_vhdx_frozen_inspector_passes : forall b cs e,
  concat cs = b -> flen b <? VX_HDR_END = false ->
  prefixb VHDX_MAGIC (nslice 0 VX_IDENT_LEN b) = true ->
  vx_region_table (nslice VX_HDR_OFF VX_HDR_LEN b) = Exn e ->
  snd (Insp_All.run F_vhdx cs) = Some e /\ safety (fst (Insp_All.run F_vhdx cs)) = Pass.
Proof. exact vhdx_frozen_inspector_passes. Qed.
Print Assumptions C02_vhdx_frozen_inspector_passes.

(* VMDK streams of at least 64 bytes WITHOUT a valid sparse header, outside the text zone F1 (C01's vmdk_refines_spec) *)
Theorem C02_vmdk_invalid_header_never_passes : forall b cs,
  concat cs = b -> zone_vmdk_text b = false -> VMDK_MIN_SPARSE_HEADER <= blen b ->
  negb (beq (vh_sig b) VMDK_MAGIC_PP) || negb (ver_ok (vh_ver b)) = true ->
  snd (Insp_All.run F_vmdk cs) = Some ImageFormatError /\ safety (fst (Insp_All.run F_vmdk cs)) <> Pass.
Proof. exact vmdk_invalid_header_never_passes. Qed.
Print Assumptions C02_vmdk_invalid_header_never_passes.

Theorem C02_vmdk_safety_is_spec : forall b cs,
  concat cs = b -> zone_vmdk_text b = false -> zone_vmdk_shortfoot b = false ->
  safety (fst (Insp_All.run F_vmdk cs)) = v_safety (vmdk_spec b).
Proof. exact vmdk_safety_is_spec. Qed.
Print Assumptions C02_vmdk_safety_is_spec.

(* ---- the hand-written check functions ARE the source: statement-level translations (Gen/C02_Checks.v,
   regenerated on every run) of every check_* function, SafetyCheck.__call__ and FileInspector.safety_check
   compute what the model computes ---- *)
Theorem C02_checks_are_the_source :
  (forall (s : ist qx) r, rget R_header (i_regs s) = Some r ->
     gen_qcow_check_backing_file (r_data r) = qcow_check_backing_file s /\
     gen_qcow_check_data_file (r_data r) = qcow_check_data_file s /\
     gen_qcow_check_unknown_features (r_data r) (option_map (fun h => Z.of_N (q_version h)) (i_ext s)) = qcow_check_unknown_features s) /\
  (forall (s : ist unit) r, rget R_mbr (i_regs s) = Some r -> gen_gpt_check_mbr_partitions (r_data r) = gpt_check_mbr_partitions s) /\
  (forall (s : ist unit) r, rget R_header (i_regs s) = Some r -> all_bytes (r_data r) = true ->
     gen_luks_check_version (r_data r) = luks_check_version s) /\
  (forall (s : ist vx) h f, rget R_header (i_regs s) = Some h -> rget R_footer (i_regs s) = Some f ->
     gen_vmdk_check_footer (r_data h) (r_data f) = vmdk_check_footer s) /\
  (forall s : ist vx, gen_vmdk_check_descriptor (v_desc_text (i_ext s)) (v_vmdktype (i_ext s)) = vmdk_check_descriptor s) /\
  (forall target, gen_check_call target = call_check target) /\
  (forall (X : Type) (F : fmt X) (s : ist X) fm, f_match F s = Ok fm ->
     gen_safety_check (Insp_Engine.complete s) fm (map (fun c => (cname_str c, f_check F c s)) (i_checks s)) = sc_of (safety_check F s)).
Proof.
  exact (conj (fun s r H => conj (qcow_check_backing_file_equiv s r H) (conj (qcow_check_data_file_equiv s r H) (qcow_check_unknown_features_equiv s r H)))
        (conj gpt_check_mbr_partitions_equiv (conj luks_check_version_equiv (conj vmdk_check_footer_equiv
        (conj vmdk_check_descriptor_equiv (conj check_call_equiv (@safety_check_equiv))))))).
Qed.
Print Assumptions C02_checks_are_the_source.

(* ---- 3. clean images are accepted (every format but QED) ---- *)
Theorem C02_clean_image_accepted : forall cs : list bytes,
  let b := concat cs in
  (all_bytes b = true -> qcow2_safe b -> safety (fst (Insp_All.run F_qcow2 cs)) = Pass) /\
  (luks_safe b -> safety (fst (Insp_All.run F_luks cs)) = Pass) /\
  (gpt_safe b -> safety (fst (Insp_All.run F_gpt cs)) = Pass) /\
  (vhd_ok b -> safety (fst (Insp_All.run F_vhd cs)) = Pass) /\
  (vdi_ok b -> safety (fst (Insp_All.run F_vdi cs)) = Pass) /\
  (iso_ok b -> safety (fst (Insp_All.run F_iso cs)) = Pass) /\
  safety (fst (Insp_All.run F_raw cs)) = Pass.
Proof.
  intros cs b. repeat apply conj.
  - intros Hb. apply (qcow2_pass_iff cs Hb).
  - apply luks_pass_iff.
  - apply gpt_pass_iff.
  - apply vhd_pass_iff.
  - apply vdi_pass_iff.
  - apply iso_pass_iff.
  - apply raw_pass.
Qed.
Print Assumptions C02_clean_image_accepted.

(* ---- 4. the command-line checker ---- *)
Theorem C02_cli_exit0_iff : forall env : cenv,
  cli_exec cli_main env = 0%Z <->
  e_path_ok env = true /\ e_detect env = Ok tt /\ e_safety env = Pass /\ e_vsize_ok env = true.
Proof. exact cli_exit0_iff_main. Qed.
Print Assumptions C02_cli_exit0_iff.

Theorem C02_cli_exit_status : forall env : cenv,
  (cli_exec cli_main env = 0%Z \/ cli_exec cli_main env = 1%Z) /\ (e_safety env <> Pass -> cli_exec cli_main env = 1%Z).
Proof. exact (fun env => conj (cli_exit_01 env) (cli_safety_failure_exit1 env)). Qed.
Print Assumptions C02_cli_exit_status.

(* ---- 5. finding F1: the statement for descriptor-only VMDK files is false ---- *)
Definition C02_full_statement : Prop := C02_vmdk_text_full_statement.
Theorem C02_refuted_vmdk_text : ~ C02_full_statement.
Proof. exact vmdk_text_refuted. Qed.
Print Assumptions C02_refuted_vmdk_text.
