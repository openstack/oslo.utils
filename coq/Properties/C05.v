(* Properties/C05.v — property C05: "Inspector memory is bounded by a constant, whatever the stream claims".
   Property theorems only, each followed by Print Assumptions; the lemmas are in Proofs/C05.v.

   Vocabulary (Model/Insp_All.v, Model/C05.v):
     init f                 cls() of format f                     eat i chunk       i.eat_chunk(chunk): (state left behind, exception or None)
     eat_list i cs          feed until the first exception        finish i          i.finish()
     context_info i         {name: len(region.data)}              total ci          sum(ci.values())
     reachable f i          i is what a fresh inspector of format f looks like after ANY sequence of eat_chunk calls
                            (raising or not — the caller may go on using the object) and finish calls
     envelope f             the static envelope: region names the format can own and the cap of each length, built from
                            the GENERATED constants (init_regions, VHDX_META_A*VHDX_META_B, VHDX_METADATA_TABLE_MAX_SIZE,
                            VMDK_DESC_MAX_SIZE, VMDK_FOOTER_LEN) *)
Require Import OV.Base.Bytes OV.Base.Py OV.Base.Insp_Struct OV.Gen.Insp_Consts OV.Gen.Insp_Code.
Require Import OV.Model.Insp_Engine OV.Model.Insp_All OV.Model.C05 OV.Proofs.C05.
Open Scope N_scope.

(* ---------------------------------------------------------------- capture_len_le *)
(* CaptureRegion.capture keeps len(data) <= length (any chunk, any position) *)
Theorem C05_capture_len_le_fixed : forall r chunk pos,
  flen (r_data r) <= r_len r ->
  flen (r_data (cap_fixed r chunk pos)) <= r_len (cap_fixed r chunk pos).
Proof. exact cap_fixed_len_le. Qed.
Print Assumptions C05_capture_len_le_fixed.

(* EndCaptureRegion.capture keeps len(data) <= length, whatever it held before, for every non-zero length
   (EndCaptureRegion(0) would keep the whole stream: Proofs/C05.v cap_end_len0_keeps_everything; the only tail
   region of the source is EndCaptureRegion(1536)) *)
Theorem C05_capture_len_le_end : forall r chunk pos,
  r_len r <> 0 ->
  flen (r_data (cap_end r chunk pos)) <= r_len (cap_end r chunk pos).
Proof. exact cap_end_len_le. Qed.
Print Assumptions C05_capture_len_le_end.

(* the same two facts on the statement-level translation of the SOURCE of the two capture methods *)
Theorem C05_capture_len_le_source : forall (off len : Z) data chunk (pos : Z),
  (0 <= len)%Z -> (zlen data <= len)%Z ->
  let '((off', len', data'), _) := gen_capture off len data chunk pos in
  off' = off /\ len' = len /\ (zlen data' <= len')%Z.
Proof. exact gen_capture_len_le. Qed.
Print Assumptions C05_capture_len_le_source.

Theorem C05_end_capture_len_le_source : forall (off len : Z) data chunk (pos : Z),
  (0 < len)%Z ->
  let '((_, len', data'), _) := gen_end_capture off len data chunk pos in
  len' = len /\ (zlen data' <= len')%Z.
Proof. exact gen_end_capture_len_le. Qed.
Print Assumptions C05_end_capture_len_le_source.

(* ---------------------------------------------------------------- region_caps *)
(* every format, every reachable state: a name occurs once, is one of the envelope's, what is held fits the
   region's length and the length fits the envelope's cap (region creation, re-creation and VHDX's in-place
   `length = len(meta_buffer)` included) *)
Theorem C05_region_caps : forall f i,
  reachable f i ->
  NoDup (map fst (regions_of i)) /\
  forall n r, In (n, r) (regions_of i) ->
    In n (map fst (envelope f)) /\ flen (r_data r) <= r_len r /\ r_len r <= cap_of (envelope f) n.
Proof. exact region_caps_reachable. Qed.
Print Assumptions C05_region_caps.

(* VHDX: ident, header (their _initialize lengths), metadata <= 2048*32, vds <= VHDX_METADATA_TABLE_MAX_SIZE, nothing else *)
Theorem C05_region_caps_vhdx : forall i,
  reachable F_vhdx i ->
  NoDup (map fst (regions_of i)) /\
  forall n r, In (n, r) (regions_of i) ->
    flen (r_data r) <= r_len r /\
    match n with
    | R_ident => r_len r <= init_len F_vhdx R_ident
    | R_header => r_len r <= init_len F_vhdx R_header
    | R_metadata => r_len r <= VHDX_META_A * VHDX_META_B
    | R_vds => r_len r <= VHDX_VHDX_METADATA_TABLE_MAX_SIZE
    | _ => False
    end.
Proof. exact region_caps_vhdx_l. Qed.
Print Assumptions C05_region_caps_vhdx.

(* VMDK: header, descriptor <= DESC_MAX_SIZE (initial and re-created), footer <= 1536, nothing else *)
Theorem C05_region_caps_vmdk : forall i,
  reachable F_vmdk i ->
  NoDup (map fst (regions_of i)) /\
  forall n r, In (n, r) (regions_of i) ->
    flen (r_data r) <= r_len r /\
    match n with
    | R_header => r_len r <= init_len F_vmdk R_header
    | R_descriptor => r_len r <= N.max (init_len F_vmdk R_descriptor) VMDK_DESC_MAX_SIZE
    | R_footer => r_len r <= VMDK_FOOTER_LEN
    | _ => False
    end.
Proof. exact region_caps_vmdk_l. Qed.
Print Assumptions C05_region_caps_vmdk.

(* the eight other formats: only their _initialize regions, never longer than created *)
Theorem C05_region_caps_static : forall f i,
  static_fmt f = true -> reachable f i ->
  NoDup (map fst (regions_of i)) /\
  forall n r, In (n, r) (regions_of i) ->
    In n (map fst (init_regions f)) /\ flen (r_data r) <= r_len r /\ r_len r <= init_len f n.
Proof. exact region_caps_static_l. Qed.
Print Assumptions C05_region_caps_static.

(* the numeric step on the generated constants: every envelope fits the bound of the property text *)
Theorem C05_envelope_fits : forall f,
  cap_total (envelope f) <= match f with F_vmdk => 1572864 | _ => 524288 end.
Proof. exact envelope_fits. Qed.
Print Assumptions C05_envelope_fits.

(* ---------------------------------------------------------------- C05_memory_bound *)
(* For every format, every list of chunks (any bytes, any lengths, any number) — hence every stream, every
   chunking of it and every prefix of every chunking — the sum context_info reports after feeding the list
   (stopping at the first exception, with the state the raising call left behind) is within the bound. *)
Theorem C05_memory_bound : forall (f : fmt_id) (cs : list bytes),
  total (context_info (fst (eat_list (init f) cs))) <= match f with F_vmdk => 1572864 | _ => 524288 end.
Proof. exact memory_bound_list. Qed.
Print Assumptions C05_memory_bound.

(* spelled out for "at every point of the stream": after every prefix of the chunk list *)
Theorem C05_memory_bound_every_prefix : forall (f : fmt_id) (cs pre : list bytes),
  (exists rest, cs = pre ++ rest) ->
  total (context_info (fst (eat_list (init f) pre))) <= match f with F_vmdk => 1572864 | _ => 524288 end.
Proof. intros f cs pre _. apply memory_bound_list. Qed.
Print Assumptions C05_memory_bound_every_prefix.

(* ... and the state after the prefix is the state the whole run passes through *)
Theorem C05_prefix_state : forall i cs1 cs2,
  eat_list i (cs1 ++ cs2) =
  match eat_list i cs1 with
  | (i', Some x) => (i', Some x)
  | (i', None) => eat_list i' cs2
  end.
Proof.
  intros i cs1. revert i. induction cs1 as [|c t IH]; intros i cs2; cbn [app eat_list]; [reflexivity|].
  destruct (eat i c) as [i' [x|]]; [reflexivity|]. apply IH.
Qed.
Print Assumptions C05_prefix_state.

(* after finish() as well (init; eat_list; finish = Insp_All.run) *)
Theorem C05_memory_bound_finished : forall (f : fmt_id) (cs : list bytes),
  total (context_info (fst (run f cs))) <= match f with F_vmdk => 1572864 | _ => 524288 end.
Proof.
  intros f cs. unfold run. pose proof (memory_bound_reachable f _ (reach_finish f _ (state_after_reachable f cs))) as H.
  unfold state_after in H. destruct (eat_list (init f) cs) as [i x]. exact H.
Qed.
Print Assumptions C05_memory_bound_finished.

(* the strongest form: every reachable state, including an inspector that is fed again after eat_chunk raised
   or after finish() *)
Theorem C05_memory_bound_reachable : forall (f : fmt_id) (i : istate),
  reachable f i ->
  total (context_info i) <= match f with F_vmdk => 1572864 | _ => 524288 end.
Proof. exact memory_bound_reachable. Qed.
Print Assumptions C05_memory_bound_reachable.

(* ---------------------------------------------------------------- hostile instances / tightness *)
(* a VMDK header announcing 2^64-1 descriptor sectors (and a footer), 1.1 MB of data behind it, one chunk:
   more than 1 MiB is retained (the VMDK bound cannot be lowered to 1 MiB) and the bound holds *)
Example C05_hostile_vmdk :
  let s := hostile_vmdk 1100000 in
  let i := state_after F_vmdk [s] in
  sint sf_vmdk_sparse 6 (ntake VMDK_MIN_SPARSE_HEADER s) = 2 ^ 64 - 1 /\
  1048576 < total (context_info i) /\ total (context_info i) <= C05_bound F_vmdk.
Proof. exact hostile_vmdk_attains. Qed.
Print Assumptions C05_hostile_vmdk.

(* a VHDX metadata item announcing 2^32-1 bytes: the region is created with the clamped length *)
Example C05_hostile_vhdx :
  let i := state_after F_vhdx [hostile_vhdx] in
  (exists r, rget R_vds (regions_of i) = Some r /\ r_len r = VHDX_VHDX_METADATA_TABLE_MAX_SIZE) /\
  196608 < total (context_info i) /\ total (context_info i) <= C05_bound F_vhdx.
Proof. exact hostile_vhdx_attains. Qed.
Print Assumptions C05_hostile_vhdx.

(* ---------------------------------------------------------------- instances of the hypotheses used above *)
(* the footer region EndCaptureRegion(1536) of the source satisfies the hypothesis of C05_capture_len_le_end *)
Example C05_ex_footer_len : r_len footer_region <> 0.
Proof. vm_compute. discriminate. Qed.
(* a fresh CaptureRegion satisfies the hypothesis of C05_capture_len_le_fixed *)
Example C05_ex_fresh_region :
  flen (r_data (region_of_spec 0 (mkRspec false 0 512 None))) <= r_len (region_of_spec 0 (mkRspec false 0 512 None)).
Proof. vm_compute. discriminate. Qed.
(* the hypotheses of C05_capture_len_le_source / C05_end_capture_len_le_source for a fresh 512-byte region and the footer *)
Example C05_ex_source_hyps : (0 <= 512)%Z /\ (zlen [] <= 512)%Z /\ (0 < 1536)%Z.
Proof. vm_compute. repeat split; discriminate. Qed.
(* a static format and a reachable state of it (C05_region_caps_static, C05_memory_bound_reachable) *)
Example C05_ex_static : static_fmt F_qcow2 = true /\ reachable F_qcow2 (fst (eat (init F_qcow2) [81; 70; 73; 251])).
Proof. split; [reflexivity|]. constructor. constructor. Qed.
(* the states of the hostile examples are reachable *)
Example C05_ex_reachable : forall f cs, reachable f (state_after f cs).
Proof. exact state_after_reachable. Qed.
