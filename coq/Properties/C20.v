(* Properties/C20.v — C20: file helpers agree with whole-file semantics and are idempotent
   (oslo_utils/fileutils.py).  Property theorems only, each proved by [exact] of a lemma of
   Proofs/C20.v / Proofs/C20_FS.v or in a few lines from such lemmas, and followed by Print Assumptions.

   Reading guide.  [rt : runtime W H] is the operating system + hashlib as an interface
   (Model/C20_OS.v); the theorems hold for EVERY runtime, under the explicit contracts
   [hash_contract rt] / [fs_contract rt key look fd_key tmpdir] (Proofs/C20.v), each clause of
   which the harness tests on the real os / tempfile / hashlib.  [ores] = value | OSError instance
   (class name and errno) | other exception.  [file_chunks n data] (Proofs/C20.v) is the list of
   chunks the read loop takes from a file with that content; [tempfile_dir tmpdir path] is path, or
   tmpdir when path is None.  The model functions are proved equal to the statement-by-statement
   translation of the source (lemmas gen_*_equiv in Proofs/C20.v, part of the obligations). *)
Require Import OV.Base.Bytes OV.Base.Py OV.Gen.C20_Consts OV.Model.C20_OS OV.Model.C20 OV.Model.C20_FS.
Require Import OV.Proofs.C20 OV.Proofs.C20_FS.
Open Scope Z_scope.

(* ------------------------------------------------------------------ compute_file_checksum *)

(* For every content and every read chunk size n >= 1 (or -1, "read all"): the checksum of the
   file is the digest after ONE update with the whole content — for every algorithm hashlib
   accepts, given the streaming contract of the hash object. *)
Theorem C20_checksum_chunking_independent :
  forall (W H : Type) (rt : runtime W H), hash_contract rt ->
  forall (path : bytes) (n : Z) (alg : bytes) (w : W) (data : bytes) (h0 : H),
    (1 <= n \/ n = -1) ->
    rt_hash_new rt alg = OOk h0 ->
    rt_open_rb rt path w = OOk data ->
    compute_file_checksum rt path n alg w = Some (rt_hexdigest rt (rt_update rt h0 data)).
Proof. exact (@checksum_chunking_independent). Qed.
Print Assumptions C20_checksum_chunking_independent.

(* The chunks produced by `iter(lambda: f.read(n), b'')` on a file with this content:
   their concatenation is the content, none is empty, and for n >= 1 none is longer than n
   and all but the last have exactly n bytes. *)
Theorem C20_chunks :
  forall (n : Z) (data : bytes), (1 <= n \/ n = -1) ->
    concat (file_chunks n data) = data /\
    Forall (fun c => c <> []) (file_chunks n data) /\
    (1 <= n -> Forall (fun c => zlen c <= n) (file_chunks n data) /\
               Forall (fun c => zlen c = n) (removelast (file_chunks n data))).
Proof. exact file_chunks_spec. Qed.
Print Assumptions C20_chunks.

(* The loop as written terminates within its fuel (the result is never the fuel default) and
   has folded update over exactly those chunks — no contract needed. *)
Theorem C20_read_loop :
  forall (W H : Type) (rt : runtime W H) (n : Z) (data : bytes) (h : H), (1 <= n \/ n = -1) ->
    exists f', read_loop rt (loop_fuel (fopen data)) n (fopen data) h
               = Some (OOk (f', fold_left (rt_update rt) (file_chunks n data) h)).
Proof. exact (@read_loop_total). Qed.
Print Assumptions C20_read_loop.

(* The default chunk size of the source (regenerated constant) is covered. *)
Theorem C20_checksum_default_chunk :
  forall (W H : Type) (rt : runtime W H), hash_contract rt ->
  forall (path alg : bytes) (w : W) (data : bytes) (h0 : H),
    rt_hash_new rt alg = OOk h0 -> rt_open_rb rt path w = OOk data ->
    compute_file_checksum rt path default_read_chunksize alg w = Some (rt_hexdigest rt (rt_update rt h0 data)).
Proof.
  intros W H rt HC path alg w data h0. apply (checksum_chunking_independent rt HC).
  left. unfold default_read_chunksize. lia.
Qed.
Print Assumptions C20_checksum_default_chunk.

(* The default algorithm of the source (regenerated constant) is accepted by hashlib.new and
   has a fixed-length hexdigest (tables of the running interpreter). *)
Theorem C20_default_algorithm_usable :
  str_mem default_algorithm hash_algorithms = true /\ str_mem default_algorithm hash_xof = false.
Proof. split; vm_compute; reflexivity. Qed.
Print Assumptions C20_default_algorithm_usable.

(* Errors: unknown algorithm first, then the error of open(); never the fuel default. *)
Theorem C20_checksum_errors :
  forall (W H : Type) (rt : runtime W H) (path : bytes) (n : Z) (alg : bytes) (w : W),
  (forall e, rt_hash_new rt alg = OErr e -> compute_file_checksum rt path n alg w = Some (OErr e)) /\
  (forall x, rt_hash_new rt alg = OExn x -> compute_file_checksum rt path n alg w = Some (OExn x)) /\
  (forall h0 e, rt_hash_new rt alg = OOk h0 -> rt_open_rb rt path w = OErr e ->
                compute_file_checksum rt path n alg w = Some (OErr e)) /\
  (forall h0 x, rt_hash_new rt alg = OOk h0 -> rt_open_rb rt path w = OExn x ->
                compute_file_checksum rt path n alg w = Some (OExn x)).
Proof.
  intros W H rt path n alg w. unfold compute_file_checksum. split; [|split; [|split]].
  - intros e He. rewrite He. reflexivity.
  - intros x Hx. rewrite Hx. reflexivity.
  - intros h0 e Hnew Hopen. rewrite Hnew, Hopen. reflexivity.
  - intros h0 x Hnew Hopen. rewrite Hnew, Hopen. reflexivity.
Qed.
Print Assumptions C20_checksum_errors.

(* Outside the property's domain, stated so that no case of the model is hidden: a chunk
   size of 0 hashes nothing (digest of the empty input whatever the content), sizes below -1
   are read()'s ValueError. *)
Theorem C20_checksum_degenerate_chunk :
  forall (W H : Type) (rt : runtime W H) (path : bytes) (n : Z) (alg : bytes) (w : W) (data : bytes) (h0 : H),
  rt_hash_new rt alg = OOk h0 -> rt_open_rb rt path w = OOk data ->
  (n = 0 -> compute_file_checksum rt path n alg w = Some (rt_hexdigest rt h0)) /\
  (n < -1 -> compute_file_checksum rt path n alg w = Some (OExn ValueError)).
Proof.
  intros W H rt path n alg w data h0 Hnew Hopen.
  unfold compute_file_checksum, loop_fuel. rewrite Hnew, Hopen. cbn [read_loop]. split; intros Hn.
  - subst n. rewrite (fread_ok (fopen data) 0) by lia.
    unfold read_data. cbn [Z.eqb Z.to_N]. rewrite btake_0. reflexivity.
  - rewrite (fread_bad _ _ Hn). reflexivity.
Qed.
Print Assumptions C20_checksum_degenerate_chunk.

(* ------------------------------------------------------------------ last_bytes *)

(* For every content and every num with 0 <= num <= 2^63: the final k = min(num, size) bytes
   and the number size - k of bytes that precede them. *)
Theorem C20_last_bytes_spec :
  forall (W H : Type) (rt : runtime W H) (path : bytes) (num : Z) (w : W) (data : bytes),
    rt_open_rb rt path w = OOk data ->
    0 <= num <= 9223372036854775808 ->
    let k := Z.min num (zlen data) in
    last_bytes rt path num w = OOk (bskip (Z.to_N (zlen data - k)) data, zlen data - k).
Proof. exact (@last_bytes_spec). Qed.
Print Assumptions C20_last_bytes_spec.

Theorem C20_last_bytes_suffix :
  forall (W H : Type) (rt : runtime W H) (path : bytes) (num : Z) (w : W) (data : bytes),
    rt_open_rb rt path w = OOk data -> 0 <= num <= 9223372036854775808 ->
    exists pre suf, last_bytes rt path num w = OOk (suf, zlen pre) /\
                    data = pre ++ suf /\ zlen suf = Z.min num (zlen data).
Proof.
  intros W H rt path num w data Hopen Hnum. pose proof (zlen_nonneg data) as Hz.
  set (k := Z.min num (zlen data)).
  exists (btake (Z.to_N (zlen data - k)) data), (bskip (Z.to_N (zlen data - k)) data).
  split; [|split].
  - rewrite (last_bytes_spec rt path num w data Hopen Hnum). fold k. f_equal. f_equal.
    unfold zlen. rewrite blen_btake. unfold zlen in *. lia.
  - symmetry. apply btake_bskip_app.
  - unfold zlen. rewrite blen_bskip. unfold zlen in *. lia.
Qed.
Print Assumptions C20_last_bytes_suffix.

(* open() errors propagate; num beyond the off_t range is seek()'s ValueError. *)
Theorem C20_last_bytes_errors :
  forall (W H : Type) (rt : runtime W H) (path : bytes) (num : Z) (w : W),
  (forall e, rt_open_rb rt path w = OErr e -> last_bytes rt path num w = OErr e) /\
  (forall x, rt_open_rb rt path w = OExn x -> last_bytes rt path num w = OExn x) /\
  (forall data, rt_open_rb rt path w = OOk data -> 9223372036854775808 < num ->
                last_bytes rt path num w = OExn ValueError).
Proof.
  intros W H rt path num w. unfold last_bytes. split; [|split].
  - intros e He. rewrite He. reflexivity.
  - intros x Hx. rewrite Hx. reflexivity.
  - intros data Hopen Hnum. rewrite Hopen. unfold fseek.
    replace (fits_off (- num)) with false; [reflexivity|].
    symmetry. apply not_true_is_false. rewrite fits_off_iff. unfold off_min. lia.
Qed.
Print Assumptions C20_last_bytes_errors.

(* ------------------------------------------------------------------ errno filters *)

(* For every outcome of os.makedirs — every OSError instance e, whatever its class and errno:
   success iff makedirs succeeded, or e.errno = EEXIST and the path is a directory; every other
   error is re-raised unchanged (same class, same errno).  Only e.errno is looked at. *)
Theorem C20_ensure_tree_errno_filter :
  forall (W H : Type) (rt : runtime W H) (path : bytes) (mode : Z) (w w1 : W) (r : ores unit),
  rt_makedirs rt path mode w = (w1, r) ->
  (forall u, r = OOk u -> ensure_tree rt path mode w = (w1, OOk tt)) /\
  (forall e, r = OErr e -> os_errno e = errno_EEXIST -> rt_isdir rt path w1 = true ->
             ensure_tree rt path mode w = (w1, OOk tt)) /\
  (forall e, r = OErr e -> os_errno e = errno_EEXIST -> rt_isdir rt path w1 = false ->
             ensure_tree rt path mode w = (w1, OErr e)) /\
  (forall e, r = OErr e -> os_errno e <> errno_EEXIST -> ensure_tree rt path mode w = (w1, OErr e)) /\
  (forall x, r = OExn x -> ensure_tree rt path mode w = (w1, OExn x)).
Proof. exact (@ensure_tree_errno_filter). Qed.
Print Assumptions C20_ensure_tree_errno_filter.

(* For every outcome of the remove callable — every OSError instance e, whatever its class and
   errno: success iff remove succeeded or e.errno = ENOENT; every other error is re-raised
   unchanged.  Only e.errno is looked at (a user-defined OSError subclass with errno ENOENT is
   swallowed; a FileNotFoundError whose errno was set to something else is re-raised). *)
Theorem C20_delete_if_exists_errno_filter :
  forall (W : Type) (remove : bytes -> W -> W * ores unit) (path : bytes) (w w1 : W) (r : ores unit),
  remove path w = (w1, r) ->
  (forall u, r = OOk u -> delete_if_exists path remove w = (w1, OOk tt)) /\
  (forall e, r = OErr e -> os_errno e = errno_ENOENT -> delete_if_exists path remove w = (w1, OOk tt)) /\
  (forall e, r = OErr e -> os_errno e <> errno_ENOENT -> delete_if_exists path remove w = (w1, OErr e)) /\
  (forall x, r = OExn x -> delete_if_exists path remove w = (w1, OExn x)).
Proof. exact (@delete_if_exists_errno_filter). Qed.
Print Assumptions C20_delete_if_exists_errno_filter.

(* the class of the OSError instance is irrelevant: same errno, same verdict *)
Theorem C20_errno_filters_ignore_class :
  forall (W H : Type) (rt : runtime W H) (remove1 remove2 : bytes -> W -> W * ores unit)
         (path : bytes) (mode : Z) (w w1 : W) (c1 c2 : bytes) (n : Z),
  (rt_makedirs rt path mode w = (w1, OErr (mk_oserror c1 n)) ->
   ensure_tree rt path mode w = (w1, OOk tt) \/ ensure_tree rt path mode w = (w1, OErr (mk_oserror c1 n))) /\
  (remove1 path w = (w1, OErr (mk_oserror c1 n)) -> remove2 path w = (w1, OErr (mk_oserror c2 n)) ->
   (delete_if_exists path remove1 w = (w1, OOk tt) <-> delete_if_exists path remove2 w = (w1, OOk tt))).
Proof.
  intros W H rt remove1 remove2 path mode w w1 c1 c2 n. split.
  - intros Hmk. unfold ensure_tree. rewrite Hmk. cbn [os_errno].
    destruct ((n =? errno_EEXIST) && rt_isdir rt path w1); [left|right]; reflexivity.
  - intros H1 H2. unfold delete_if_exists. rewrite H1, H2. cbn [os_errno].
    destruct (n =? errno_ENOENT); split; intros Heq; try reflexivity; discriminate Heq.
Qed.
Print Assumptions C20_errno_filters_ignore_class.

(* ------------------------------------------------------------------ already done / idempotent *)

Theorem C20_ensure_tree_already_done :
  forall (W H K : Type) (rt : runtime W H) (key : bytes -> K) (look : K -> W -> option node)
         (fd_key : Z -> W -> option K) (tmpdir : bytes),
  fs_contract rt key look fd_key tmpdir ->
  forall path mode w, look (key path) w = Some NDir -> ensure_tree rt path mode w = (w, OOk tt).
Proof. exact (@ensure_tree_already_done). Qed.
Print Assumptions C20_ensure_tree_already_done.

(* a regular FILE at the path: EEXIST is re-raised *)
Theorem C20_ensure_tree_file_in_the_way :
  forall (W H K : Type) (rt : runtime W H) (key : bytes -> K) (look : K -> W -> option node)
         (fd_key : Z -> W -> option K) (tmpdir : bytes),
  fs_contract rt key look fd_key tmpdir ->
  forall path mode w c, look (key path) w = Some (NFile c) ->
    exists e, ensure_tree rt path mode w = (w, OErr e) /\ os_errno e = errno_EEXIST.
Proof.
  intros W H K rt key look fd_key tmpdir HC path mode w c Hf. unfold ensure_tree.
  destruct (makedirs_exists _ _ _ _ _ HC path mode w (NFile c) Hf) as [e [Hmk He]].
  exists e. split; [|exact He]. rewrite Hmk, He, Z.eqb_refl.
  destruct (rt_isdir rt path w) eqn:Ed; [|reflexivity].
  apply (isdir_look _ _ _ _ _ HC) in Ed. congruence.
Qed.
Print Assumptions C20_ensure_tree_file_in_the_way.

Theorem C20_ensure_tree_post_and_idempotent :
  forall (W H K : Type) (rt : runtime W H) (key : bytes -> K) (look : K -> W -> option node)
         (fd_key : Z -> W -> option K) (tmpdir : bytes),
  fs_contract rt key look fd_key tmpdir ->
  forall path mode w w', ensure_tree rt path mode w = (w', OOk tt) ->
    (look (key path) w' = Some NDir /\ (forall k n, look k w = Some n -> look k w' = Some n)) /\
    ensure_tree rt path mode w' = (w', OOk tt).
Proof.
  intros W H K rt key look fd_key tmpdir HC path mode w w' Hrun.
  split; [exact (ensure_tree_post rt key look fd_key tmpdir HC _ _ _ _ Hrun)|].
  exact (ensure_tree_idempotent rt key look fd_key tmpdir HC _ _ _ _ Hrun).
Qed.
Print Assumptions C20_ensure_tree_post_and_idempotent.

Theorem C20_delete_if_exists_post_and_idempotent :
  forall (W H K : Type) (rt : runtime W H) (key : bytes -> K) (look : K -> W -> option node)
         (fd_key : Z -> W -> option K) (tmpdir : bytes),
  fs_contract rt key look fd_key tmpdir ->
  forall path w w', delete_if_exists path (rt_unlink rt) w = (w', OOk tt) ->
    (look (key path) w' = None /\ (forall k, k <> key path -> look k w' = look k w)) /\
    delete_if_exists path (rt_unlink rt) w' = (w', OOk tt).
Proof.
  intros W H K rt key look fd_key tmpdir HC path w w' Hrun.
  split; [exact (delete_if_exists_post rt key look fd_key tmpdir HC _ _ _ Hrun)|].
  exact (delete_if_exists_idempotent rt key look fd_key tmpdir HC _ _ _ Hrun).
Qed.
Print Assumptions C20_delete_if_exists_post_and_idempotent.

(* ------------------------------------------------------------------ write_to_tempfile *)

(* Whenever a name is returned — for EVERY content, however short the individual writes of
   the runtime are (contract: a write of a non-empty buffer transfers at least one byte): the
   name did not exist before; it now holds exactly the content; it lies in the requested (or
   default) directory with the prefix and suffix passed through; a non-empty path is a
   directory afterwards and was made one by ensure_tree before mkstemp ran; everything that
   existed is unchanged.  (One os.write with its return value ignored does not satisfy this: defect C20-W1.) *)
Theorem C20_write_to_tempfile_spec :
  forall (W H K : Type) (rt : runtime W H) (key : bytes -> K) (look : K -> W -> option node)
         (fd_key : Z -> W -> option K) (tmpdir : bytes),
  fs_contract rt key look fd_key tmpdir ->
  forall content path suffix prefix w w' name,
  write_to_tempfile rt content path suffix prefix w = (w', OOk name) ->
  look (key name) w = None /\
  look (key name) w' = Some (NFile content) /\
  (exists tag, name = tempfile_dir tmpdir path ++ [47%N] ++ prefix ++ tag ++ suffix) /\
  (forall p, path = Some p -> nonempty p = true ->
     look (key p) w' = Some NDir /\
     exists w1 w2 fd, ensure_tree rt p default_mode w = (w1, OOk tt) /\
                      rt_mkstemp rt suffix path prefix w1 = (w2, OOk (fd, name))) /\
  (forall k n, look k w = Some n -> look k w' = Some n).
Proof. exact (@write_to_tempfile_spec). Qed.
Print Assumptions C20_write_to_tempfile_spec.

(* it returns a name whenever the directory phase and mkstemp succeed ... *)
Theorem C20_write_to_tempfile_succeeds :
  forall (W H K : Type) (rt : runtime W H) (key : bytes -> K) (look : K -> W -> option node)
         (fd_key : Z -> W -> option K) (tmpdir : bytes),
  fs_contract rt key look fd_key tmpdir ->
  forall content path suffix prefix w w1 w2 fd name,
  (match path with
   | Some p => if nonempty p then ensure_tree rt p default_mode w else (w, OOk tt)
   | None => (w, OOk tt) end) = (w1, OOk tt) ->
  rt_mkstemp rt suffix path prefix w1 = (w2, OOk (fd, name)) ->
  exists w', write_to_tempfile rt content path suffix prefix w = (w', OOk name).
Proof.
  intros W H K rt key look fd_key tmpdir HC content path suffix prefix w w1 w2 fd name Hpre Hmk.
  unfold write_to_tempfile. rewrite Hpre, Hmk.
  destruct (mkstemp_ok _ _ _ _ _ HC _ _ _ _ _ _ _ Hmk) as [_ [Hempty [Hfd _]]].
  destruct (write_and_close_ok rt key look fd_key tmpdir HC fd (key name) content w2 Hfd Hempty) as [w4 [Hwc _]].
  exists w4. rewrite Hwc. reflexivity.
Qed.
Print Assumptions C20_write_to_tempfile_succeeds.

(* the write loop as written never exhausts its fuel (the default of [write_all] is
   unreachable), given only the progress clause of the contract *)
Theorem C20_write_loop_total :
  forall (W H K : Type) (rt : runtime W H) (key : bytes -> K) (look : K -> W -> option node)
         (fd_key : Z -> W -> option K) (tmpdir : bytes),
  fs_contract rt key look fd_key tmpdir ->
  forall fd content w,
    exists r, write_loop rt (S (length content)) fd content w = Some r /\ write_all rt fd content w = r.
Proof.
  intros W H K rt key look fd_key tmpdir HC fd content w.
  destruct (write_loop_total rt (write_progress _ _ _ _ _ HC) (S (length content)) fd content w) as [r Hr]; [lia|].
  exists r. split; [exact Hr|]. unfold write_all. rewrite Hr. reflexivity.
Qed.
Print Assumptions C20_write_loop_total.

(* ... and an error of ensure_tree is re-raised before any file is created *)
Theorem C20_write_to_tempfile_ensure_error :
  forall (W H : Type) (rt : runtime W H) content p suffix prefix w w1,
  nonempty p = true ->
  (forall e, ensure_tree rt p default_mode w = (w1, OErr e) ->
             write_to_tempfile rt content (Some p) suffix prefix w = (w1, OErr e)) /\
  (forall x, ensure_tree rt p default_mode w = (w1, OExn x) ->
             write_to_tempfile rt content (Some p) suffix prefix w = (w1, OExn x)).
Proof.
  intros W H rt content p suffix prefix w w1 Hp. unfold write_to_tempfile. rewrite Hp.
  split; intros z Hz; rewrite Hz; reflexivity.
Qed.
Print Assumptions C20_write_to_tempfile_ensure_error.

(* ------------------------------------------------------------------ the contracts are satisfiable *)

(* The concrete runtime that the correspondence check validates against the real file system
   (Model/C20_FS.v) satisfies both contracts, for every world: the theorems above are not
   vacuous and apply to it.  Concrete evaluated instances: Examples ex_* in Proofs/C20_FS.v. *)
(* ... for ANY positive per-call limit of write(2) (Linux: 0x7ffff000) *)
Theorem C20_contracts_satisfiable_any_write_limit :
  forall limit : Z, 0 < limit -> fs_contract (fs_runtime_lim limit) fs_key fs_look fs_fd_key fs_tmpdir.
Proof. exact fs_lim_satisfies_contract. Qed.
Print Assumptions C20_contracts_satisfiable_any_write_limit.

Theorem C20_contracts_satisfiable :
  hash_contract fs_runtime /\ fs_contract fs_runtime fs_key fs_look fs_fd_key fs_tmpdir.
Proof. exact (conj cat_hash_contract fs_satisfies_contract). Qed.
Print Assumptions C20_contracts_satisfiable.
